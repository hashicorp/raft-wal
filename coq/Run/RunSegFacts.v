(* RunSegFacts.v -- the crash images built by RunSeg.crash_mix (the `C mask` op
   of the segcrash stream) are torn images in the sense of RecoverFacts.torn, so
   the L1 recovery law speaks about exactly the files that stream feeds to the
   implementation and to the model. *)
From RW Require Import Base.Bytes Base.BytesFacts Fmt.FrameFacts Seg.RecoverFacts Run.RunSeg.
From RW Require Import Base.LiaSetup.
Open Scope N_scope.

Lemma crash_mix_S old new mask f :
  new <> [] ->
  crash_mix old new mask (S f) =
  (if N.odd mask then firstn 8 new else firstn 8 old)
    ++ crash_mix (skipn 8 old) (skipn 8 new) (N.div2 mask) f.
Proof. intros H. cbn [crash_mix]. destruct old, new; try congruence; reflexivity. Qed.

Lemma crash_mix_cons c d old new mask f :
  length c = 8%nat -> length d = 8%nat ->
  crash_mix (d ++ old) (c ++ new) mask (S f) =
  (if N.odd mask then c else d) ++ crash_mix old new (N.div2 mask) f.
Proof.
  intros Hc Hd. rewrite crash_mix_S by (destruct c; discriminate).
  assert (H8 : forall x y : bytes, length x = 8%nat -> firstn 8 (x ++ y) = x /\ skipn 8 (x ++ y) = y)
    by (intros x y <-; split; [apply firstn_app_exact|apply skipn_app_exact]).
  destruct (H8 c new Hc) as [-> ->]. destruct (H8 d old Hd) as [-> ->]. reflexivity.
Qed.

(* chunks that do not change between the two versions come out unchanged *)
Lemma crash_mix_same k : forall a mask fuel,
  (length a <= 8 * fuel)%nat -> (length a <= 8 * k)%nat -> crash_mix a a mask fuel = a.
Proof.
  induction k as [|k IH]; intros a mask fuel Hf Hk.
  - destruct a; [|cbn in Hk; lia]. destruct fuel; reflexivity.
  - destruct a as [|x a']; [destruct fuel; reflexivity|].
    destruct fuel as [|fuel]; [cbn in Hf; lia|]. rewrite crash_mix_S by discriminate.
    replace (if N.odd mask then firstn 8 (x :: a') else firstn 8 (x :: a')) with (firstn 8 (x :: a'))
      by (destruct (N.odd mask); reflexivity).
    rewrite IH.
    + apply firstn_skipn.
    + rewrite skipn_length. lia.
    + rewrite skipn_length. lia.
Qed.

(* a write of [new] over zeros, with untouched zeros behind it: chunk by chunk the new bytes
   or the zeros *)
Lemma crash_mix_torn_tail z k : forall new mask fuel,
  length new = (8 * k)%nat -> (length new + z < 8 * fuel)%nat ->
  exists T, torn new T /\
    crash_mix (zeros (length new) ++ zeros z) (new ++ zeros z) mask fuel = T ++ zeros z.
Proof.
  intros new mask fuel Hl. revert mask fuel.
  apply (chunk_ind (fun a => forall mask fuel, (length a + z < 8 * fuel)%nat ->
           exists T, torn a T /\
             crash_mix (zeros (length a) ++ zeros z) (a ++ zeros z) mask fuel = T ++ zeros z)) with k;
    [| |exact Hl]; clear.
  - intros mask fuel Hf. exists []. split; [constructor|].
    cbn [length zeros repeat app] in *. apply (crash_mix_same (S z)); rewrite zeros_length; lia.
  - intros c a Hc IH mask [|fuel] Hf; [lia|]. rewrite app_length, Hc in Hf |- *.
    rewrite zeros_app, <- !app_assoc, crash_mix_cons by (exact Hc || apply zeros_length).
    destruct (IH (N.div2 mask) fuel ltac:(lia)) as (T & HT & ->).
    destruct (N.odd mask); [exists (c ++ T)|exists (zeros 8 ++ T)];
      (split; [|rewrite <- app_assoc; reflexivity]); [apply torn_keep|apply torn_zero]; assumption.
Qed.

(* a write of [new] over zeros *)
Lemma crash_mix_torn k : forall new mask fuel,
  length new = (8 * k)%nat -> (k < fuel)%nat ->
  torn new (crash_mix (zeros (8 * k)) new mask fuel).
Proof.
  intros new mask fuel Hl Hf.
  destruct (crash_mix_torn_tail 0 k new mask fuel Hl ltac:(lia)) as (T & HT & E).
  cbn [zeros repeat] in E. rewrite !app_nil_r, Hl in E. rewrite E. exact HT.
Qed.

Lemma crash_mix_prefix k : forall a o n mask fuel,
  length a = (8 * k)%nat -> (k <= fuel)%nat ->
  exists mask', crash_mix (a ++ o) (a ++ n) mask fuel = a ++ crash_mix o n mask' (fuel - k).
Proof.
  induction k as [|k IH]; intros a o n mask fuel Hl Hf.
  - destruct a; [|discriminate]. exists mask. rewrite Nat.sub_0_r. reflexivity.
  - destruct fuel as [|fuel]; [lia|]. rewrite <- (firstn_skipn 8 a), <- !app_assoc.
    rewrite crash_mix_cons by (rewrite firstn_length; lia).
    destruct (IH (skipn 8 a) o n (N.div2 mask) fuel) as [mask' ->]; [rewrite skipn_length; lia|lia|].
    exists mask'. rewrite <- app_assoc. destruct (N.odd mask); reflexivity.
Qed.

(* the whole-file form used by the `C mask` operation: the file before the
   write is a ++ zeros, the file after it a ++ new ++ zeros; whatever the mask,
   the crash image is a ++ T ++ zeros with T a torn image of new *)
Theorem crash_mix_file ka kn a new z mask fuel :
  length a = (8 * ka)%nat -> length new = (8 * kn)%nat -> (0 < kn)%nat ->
  (8 * ka + 8 * kn + z < 8 * fuel)%nat ->
  exists T, torn new T /\
    crash_mix (a ++ zeros (8 * kn) ++ zeros z) (a ++ new ++ zeros z) mask fuel = a ++ T ++ zeros z.
Proof.
  intros Ha Hn Hk Hf.
  destruct (crash_mix_prefix ka a (zeros (8 * kn) ++ zeros z) (new ++ zeros z) mask fuel Ha ltac:(lia)) as [m1 E1].
  rewrite E1.
  destruct (crash_mix_torn_tail z kn new m1 (fuel - ka)%nat Hn ltac:(lia)) as (T & HT & E2).
  exists T. split; [exact HT|]. rewrite Hn in E2. rewrite E2. reflexivity.
Qed.
