(* ReadInv.v -- structure of the sequence of state objects (versions) and of their file
   lists, as far as readers are concerned: handle ids grow with the versions, the tail has
   the largest base, a version that keeps the tail of its predecessor keeps a suffix of its
   file list and does not lower the first index.  The invariant and its two preservation
   lemmas: steps that publish nothing (inv3_ext), publishing a version (inv3_publish). *)
From Coq Require Import List Arith Bool Lia.
From RW Require Import Conc.Sys Conc.Close Conc.ListX Conc.CloseFacts Conc.CloseSafe Conc.CloseCount.
Import ListNotations.

(* the projections of the shared state the invariant talks about *)
Definition sg (g : shared) (x : nat) : list nat := s_segs (getst g x).
Definition mn (g : shared) (x : nat) : nat := s_min (getst g x).
Definition op_ (g : shared) (x : nat) : bool := s_open (getst g x).
Definition hb (g : shared) (h : nat) : nat := h_base (geth g h).
Definition hc (g : shared) (h : nat) : nat := h_cnt (geth g h).
Definition tl_of (g : shared) (x : nat) : nat := last (sg g x) 0.
Definition ns (g : shared) : nat := length (g_states g).
Definition nh_ (g : shared) : nat := length (g_hnds g).

(* ---- the lookups as functions of (length, first index, base, commit counter) ---------- *)
Definition fiF (len m c : nat) : nat := if (len =? 1) && (c =? 0) then 0 else m.
Definition liF (len B c : nat) : nat := if 0 <? c then B + c - 1 else if 2 <=? len then B - 1 else 0.

Lemma fi_eq g x : first_index g (getst g x) = fiF (length (sg g x)) (mn g x) (hc g (tl_of g x)).
Proof. reflexivity. Qed.
Lemma li_eq g x : last_index g (getst g x) = liF (length (sg g x)) (hb g (tl_of g x)) (hc g (tl_of g x)).
Proof. reflexivity. Qed.

Record Inv3 (g : shared) : Prop := {
  k_min : forall x, x < ns g -> op_ g x = true -> 1 <= mn g x;
  k_nonempty : forall x, x < ns g -> op_ g x = true -> sg g x <> [];
  k_hlt : forall x h, x < ns g -> In h (sg g x) -> h < nh_ g;
  k_open : forall x, x < g_cur g -> op_ g x = true;
  k_ord : forall x y h, x <= y -> y < ns g -> op_ g y = true -> In h (sg g x) -> h <= tl_of g y;
  k_base : forall x h, x < ns g -> In h (sg g x) -> hb g h <= hb g (tl_of g x);
  k_rel : forall x, S x < ns g -> op_ g (S x) = true -> tl_of g (S x) = tl_of g x ->
            (exists rm, sg g x = rm ++ sg g (S x)) /\ mn g x <= mn g (S x) /\
            (mn g (S x) = mn g x \/ 0 < hc g (tl_of g x) \/ 2 <= length (sg g x));
  k_m : op_ g (g_cur g) = true -> mn g (g_cur g) <= hb g (tl_of g (g_cur g)) + hc g (tl_of g (g_cur g))
}.

(* steps that publish no state and create no file: only the commit counters may grow *)
Lemma inv3_ext g g' :
  ns g' = ns g -> g_cur g' = g_cur g -> nh_ g' = nh_ g ->
  (forall x, sg g' x = sg g x) -> (forall x, mn g' x = mn g x) -> (forall x, op_ g' x = op_ g x) ->
  (forall h, hb g' h = hb g h) -> (forall h, hc g h <= hc g' h) ->
  Inv3 g -> Inv3 g'.
Proof.
  intros E1 E2 E3 Es Em Eo Eb Ec K.
  assert (Et : forall x, tl_of g' x = tl_of g x) by (intros x; unfold tl_of; now rewrite Es).
  constructor.
  - intros x L O. rewrite E1 in L. rewrite Eo in O. rewrite Em. now apply (k_min _ K).
  - intros x L O. rewrite E1 in L. rewrite Eo in O. rewrite Es. now apply (k_nonempty _ K).
  - intros x h L Hi. rewrite E1 in L. rewrite Es in Hi. rewrite E3. now apply (k_hlt _ K x).
  - intros x L. rewrite E2 in L. rewrite Eo. now apply (k_open _ K).
  - intros x y h L1 L2 O Hi. rewrite E1 in L2. rewrite Eo in O. rewrite Es in Hi. rewrite Et. now apply (k_ord _ K x).
  - intros x h L Hi. rewrite E1 in L. rewrite Es in Hi. rewrite !Eb, Et. now apply (k_base _ K).
  - intros x L O T. rewrite E1 in L. rewrite Eo in O. rewrite !Et in T. rewrite !Es, !Em, Et.
    destruct (k_rel _ K x L O T) as (R1 & R2 & R3). split; [exact R1|]. split; [exact R2|].
    destruct R3 as [R3|[R3|R3]]; auto. right; left. pose proof (Ec (tl_of g x)). lia.
  - intros O. rewrite E2 in *. rewrite Eo in O. rewrite Em, Et, Eb. pose proof (k_m _ K O). pose proof (Ec (tl_of g (g_cur g))). lia.
Qed.

(* shape A: the new version keeps the tail of the current one *)
Definition shapeA (g : shared) (segs' : list nat) (mn' : nat) : Prop :=
  let y := g_cur g in
  (exists rm, sg g y = rm ++ segs') /\ segs' <> [] /\ 1 <= mn' /\ mn g y <= mn' /\
  (mn' = mn g y \/ 0 < hc g (tl_of g y) \/ 2 <= length (sg g y)) /\
  mn' <= hb g (tl_of g y) + hc g (tl_of g y).
(* shape B: the new version gets a new tail file with base b *)
Definition shapeB (g : shared) (segs' : list nat) (mn' b : nat) : Prop :=
  let y := g_cur g in
  exists pre, segs' = pre ++ [nh_ g] /\ (forall h, In h pre -> In h (sg g y) /\ hb g h <= b) /\ 1 <= mn' /\ mn' <= b.

Lemma last_app_ne {A} (a b : list A) d : b <> [] -> last (a ++ b) d = last b d.
Proof.
  intros N. induction a as [|x a IH]; [reflexivity|]. cbn [app]. 
  destruct (a ++ b) eqn:Q; [destruct a; [cbn in Q; congruence | discriminate]|]. exact IH.
Qed.

Lemma last_In {A} (l : list A) d : l <> [] -> In (last l d) l.
Proof.
  induction l as [|x l IH]; [congruence|]. intros _. destruct l as [|z l]; [now left|].
  right. apply IH. discriminate.
Qed.

(* ---- publishing a version ------------------------------------------------------------------ *)
(* g' is g with one more version st0, now current, and further files nhl: the invariant needs
   its clauses for the new version only *)
Section Publish.
  Variables (g g' : shared) (nhl : list hnd) (st0 : st).
  Hypotheses (Gs : g_states g' = g_states g ++ [st0]) (Gc : g_cur g' = ns g) (Gh : g_hnds g' = g_hnds g ++ nhl).
  Hypotheses (La : S (g_cur g) = ns g) (Oc : op_ g (g_cur g) = true) (K : Inv3 g).
  Let y := g_cur g.
  Let t' := last (s_segs st0) 0.

  Lemma getst_pub x : getst g' x = if x <? ns g then getst g x else if x =? ns g then st0 else dst.
  Proof.
    unfold getst, ns. rewrite Gs. destruct (Nat.ltb_spec x (length (g_states g))).
    - now rewrite app_nth1.
    - rewrite app_nth2 by lia. destruct (Nat.eqb_spec x (length (g_states g))) as [->|N].
      + now rewrite Nat.sub_diag.
      + destruct (x - length (g_states g)) as [|[|k]] eqn:D; try lia; reflexivity.
  Qed.

  Lemma inv3_publish :
    (s_open st0 = true -> 1 <= s_min st0 /\ s_segs st0 <> []) ->
    (forall h, In h (s_segs st0) -> h < nh_ g') ->
    (s_open st0 = true -> tl_of g y <= t' /\ forall h, In h (s_segs st0) -> h <= t') ->
    (forall h, In h (s_segs st0) -> hb g' h <= hb g' t') ->
    (s_open st0 = true -> t' = tl_of g y ->
       (exists rm, sg g y = rm ++ s_segs st0) /\ mn g y <= s_min st0 /\
       (s_min st0 = mn g y \/ 0 < hc g (tl_of g y) \/ 2 <= length (sg g y))) ->
    (s_open st0 = true -> s_min st0 <= hb g' t' + hc g' t') ->
    Inv3 g'.
  Proof.
    intros N1 N2 N3 N4 N5 N6.
    assert (N' : ns g' = S (ns g)) by (unfold ns; rewrite Gs, app_length; cbn; lia).
    assert (Lo : forall x, x < ns g -> sg g' x = sg g x /\ mn g' x = mn g x /\ op_ g' x = op_ g x /\ tl_of g' x = tl_of g x).
    { intros x L. unfold tl_of, sg, mn, op_. rewrite getst_pub. apply Nat.ltb_lt in L. rewrite L. auto. }
    assert (Nw : sg g' (ns g) = s_segs st0 /\ mn g' (ns g) = s_min st0 /\ op_ g' (ns g) = s_open st0 /\ tl_of g' (ns g) = t').
    { unfold tl_of, sg, mn, op_. rewrite getst_pub, Nat.ltb_irrefl, Nat.eqb_refl. auto. }
    destruct Nw as (Ns & Nm & No & Nt).
    assert (Ly : y < ns g) by (unfold y; lia).
    assert (Op : forall x, x < ns g -> op_ g x = true).
    { intros x L. destruct (Nat.eq_dec x y) as [->|]; [exact Oc | apply (k_open _ K); unfold y in *; lia]. }
    (* the files of the old versions are old files, among them their tails *)
    assert (Old : forall x h, x < ns g -> In h (sg g x) -> hb g' h = hb g h /\ hc g' h = hc g h).
    { intros x h L Hi. unfold hb, hc, geth. rewrite Gh, app_nth1 by apply (k_hlt _ K x h L Hi). auto. }
    assert (Tl : forall x, x < ns g -> In (tl_of g x) (sg g x)).
    { intros x L. apply last_In, (k_nonempty _ K x L (Op x L)). }
    constructor.
    - intros x L O. rewrite N' in L. destruct (Nat.eq_dec x (ns g)) as [->|Nx].
      + rewrite No in O. rewrite Nm. apply (N1 O).
      + destruct (Lo x ltac:(lia)) as (_ & E2 & E3 & _). rewrite E3 in O. rewrite E2. apply (k_min _ K); [lia | exact O].
    - intros x L O. rewrite N' in L. destruct (Nat.eq_dec x (ns g)) as [->|Nx].
      + rewrite No in O. rewrite Ns. apply (N1 O).
      + destruct (Lo x ltac:(lia)) as (E1 & _ & E3 & _). rewrite E3 in O. rewrite E1. apply (k_nonempty _ K); [lia | exact O].
    - intros x h L Hi. rewrite N' in L. destruct (Nat.eq_dec x (ns g)) as [->|Nx].
      + rewrite Ns in Hi. apply (N2 h Hi).
      + destruct (Lo x ltac:(lia)) as (E1 & _). rewrite E1 in Hi. pose proof (k_hlt _ K x h ltac:(lia) Hi) as Lh.
        unfold nh_ in *. rewrite Gh, app_length. lia.
    - intros x L. rewrite Gc in L. destruct (Lo x L) as (_ & _ & E3 & _). rewrite E3. apply (Op x L).
    - intros x z h L1 L2 O Hi. rewrite N' in L2. destruct (Nat.eq_dec z (ns g)) as [->|Nz].
      + rewrite No in O. rewrite Nt. destruct (N3 O) as [T1 T2]. destruct (Nat.eq_dec x (ns g)) as [->|Nx].
        * rewrite Ns in Hi. apply (T2 h Hi).
        * destruct (Lo x ltac:(lia)) as (E1 & _). rewrite E1 in Hi.
          pose proof (k_ord _ K x y h ltac:(unfold y; lia) Ly Oc Hi). lia.
      + destruct (Lo z ltac:(lia)) as (_ & _ & E3 & E4). rewrite E3 in O. rewrite E4.
        destruct (Lo x ltac:(lia)) as (E1 & _). rewrite E1 in Hi. apply (k_ord _ K x z h L1 ltac:(lia) O Hi).
    - intros x h L Hi. rewrite N' in L. destruct (Nat.eq_dec x (ns g)) as [->|Nx].
      + rewrite Ns in Hi. rewrite Nt. apply (N4 h Hi).
      + assert (Lx : x < ns g) by lia. destruct (Lo x Lx) as (E1 & _ & _ & E4). rewrite E1 in Hi. rewrite E4.
        destruct (Old x h Lx Hi) as [-> _]. destruct (Old x _ Lx (Tl x Lx)) as [-> _]. apply (k_base _ K x h Lx Hi).
    - intros x L O T. rewrite N' in L. destruct (Nat.eq_dec (S x) (ns g)) as [Q|Nx].
      + assert (x = y) by (unfold y; lia). subst x. rewrite Q in *. destruct (Lo y Ly) as (E1 & E2 & _ & E4).
        rewrite No in O. rewrite Nt, E4 in T. rewrite E1, E2, E4, Ns, Nm. destruct (Old y _ Ly (Tl y Ly)) as [_ ->]. apply (N5 O T).
      + assert (Lx : x < ns g) by lia. destruct (Lo x Lx) as (E1 & E2 & E3 & E4). destruct (Lo (S x) ltac:(lia)) as (F1 & F2 & F3 & F4).
        rewrite F3 in O. rewrite F4, E4 in T. rewrite E1, E2, E4, F1, F2. destruct (Old x _ Lx (Tl x Lx)) as [_ ->].
        apply (k_rel _ K x ltac:(lia) O T).
    - rewrite Gc, No, Nm, Nt. exact N6.
  Qed.
End Publish.

Section Shapes.
  Variables (g : shared) (segs' : list nat) (mn' : nat).
  Hypothesis (La : S (g_cur g) = ns g) (Oc : op_ g (g_cur g) = true) (K : Inv3 g).
  Let y := g_cur g.

  Lemma inv3_pubA : shapeA g segs' mn' -> Inv3 (publish g (mk_state segs' mn')).
  Proof.
    intros ((rm & Qs) & Ne & M1 & M2 & M3 & M4). fold y in Qs, M2, M3, M4.
    assert (Ly : y < ns g) by (unfold y; lia).
    assert (Tt : last segs' 0 = tl_of g y) by (unfold tl_of; rewrite Qs; symmetry; now apply last_app_ne).
    assert (Sub : forall h, In h segs' -> In h (sg g y)) by (intros h Hi; rewrite Qs; apply in_or_app; now right).
    apply (inv3_publish g (publish g (mk_state segs' mn')) [] (mk_state segs' mn') eq_refl eq_refl (eq_sym (app_nil_r _)) La Oc K);
      cbn [s_open s_min s_segs mk_state]; fold y; rewrite ?Tt; auto.
    - intros h Hi. apply (k_hlt _ K y h Ly (Sub h Hi)).
    - intros _. split; [lia|]. intros h Hi. apply (k_ord _ K y y h (Nat.le_refl _) Ly Oc (Sub h Hi)).
    - intros h Hi. apply (k_base _ K y h Ly (Sub h Hi)).
    - intros _ _. eauto.
  Qed.

  Lemma inv3_pubB b : shapeB g segs' mn' b ->
    Inv3 (publish (set_hnds g (g_hnds g ++ [new_hnd b])) (mk_state segs' mn')).
  Proof.
    intros (pre & Qs & Pre & M1 & M2). fold y in Pre.
    set (g' := publish (set_hnds g (g_hnds g ++ [new_hnd b])) (mk_state segs' mn')).
    assert (Ly : y < ns g) by (unfold y; lia).
    assert (Tt : last segs' 0 = nh_ g) by (rewrite Qs; apply last_last).
    assert (Gn : geth g' (nh_ g) = new_hnd b).
    { unfold geth, g', nh_; cbn. rewrite app_nth2 by lia. now rewrite Nat.sub_diag. }
    assert (Inn : forall h, In h segs' -> (h < nh_ g /\ hb g' h <= b) \/ h = nh_ g).
    { intros h Hi. rewrite Qs in Hi. apply in_app_or in Hi. destruct Hi as [Hi|[<-|[]]]; [left | now right].
      destruct (Pre h Hi) as [Hy Bh]. pose proof (k_hlt _ K y h Ly Hy) as Lh. split; [exact Lh|].
      unfold hb, geth, g'; cbn. now rewrite app_nth1. }
    assert (Lt : tl_of g y < nh_ g) by (apply (k_hlt _ K y _ Ly), last_In, (k_nonempty _ K y Ly Oc)).
    apply (inv3_publish g g' [new_hnd b] (mk_state segs' mn') eq_refl eq_refl eq_refl La Oc K);
      cbn [s_open s_min s_segs mk_state]; fold y; rewrite ?Tt.
    - intros _. split; [exact M1 | rewrite Qs; destruct pre; discriminate].
    - intros h Hi. unfold nh_, g'; cbn. rewrite app_length; cbn. fold (nh_ g). destruct (Inn h Hi) as [[Lh _]| ->]; lia.
    - intros _. split; [lia|]. intros h Hi. destruct (Inn h Hi) as [[Lh _]| ->]; lia.
    - intros h Hi. unfold hb at 2. rewrite Gn. cbn. destruct (Inn h Hi) as [[_ Bh]| ->]; [exact Bh|]. unfold hb. rewrite Gn. cbn. lia.
    - intros _ T. lia.
    - intros _. unfold hb, hc. rewrite Gn. cbn. lia.
  Qed.

  (* Close publishes the empty version *)
  Lemma inv3_pubE : Inv3 (publish g empty_state).
  Proof.
    apply (inv3_publish g (publish g empty_state) [] empty_state eq_refl eq_refl (eq_sym (app_nil_r _)) La Oc K); cbn [s_open s_segs empty_state];
      first [discriminate | intros h []].
  Qed.
End Shapes.
