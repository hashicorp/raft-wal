(* CloseFrames.v -- frame lemmas: which shared control field a step may change, and how.
   A step from a program counter outside `special` has one of seven effects on the shared
   state (`plain_eff`), none of which touches a control field; each control field is changed
   only at a few of the eleven special program counters.  The preservation proofs of the
   protocol invariant use only these. *)
From Coq Require Import List Arith Bool Lia.
From RW Require Import Conc.Sys Conc.SysFacts Conc.Close Conc.ListX Conc.CloseInv Conc.CloseFacts Conc.CloseSafe.
Import ListNotations.

(* ---- steps from most program counters leave the control fields alone ------------------- *)
Definition special (p : pc) : bool :=
  match p with
  | PIdle | PSend _ | PRIdle | PC3 | PTrig _ | PRT3 | PCLocked | PRT5 _ | PC8 _ | PM3 _ _ | PC6 _ => true
  | _ => false
  end.

Record ctl_same (g g' : shared) : Prop := {
  cs_closed : g_closed g' = g_closed g;
  cs_trig : g_trig g' = g_trig g;
  cs_tc : g_trig_closed g' = g_trig_closed g;
  cs_await : g_await g' = g_await g;
  cs_chans : g_chans g' = g_chans g;
  cs_meta : g_meta_closes g' = g_meta_closes g;
  cs_cur : g_cur g' = g_cur g;
  cs_len : length (g_states g') = length (g_states g);
  cs_open : forall x, s_open (getst g' x) = s_open (getst g x)
}.

(* what a step from a program counter outside `special` does to the shared state *)
Inductive plain_eff (g : shared) : shared -> Prop :=
| pe_same : plain_eff g g
| pe_mu m : plain_eff g (set_mu g m)
| pe_stable n : plain_eff g (set_meta g (g_meta_closes g) n)
| pe_hnds l : plain_eff g (set_hnds g l)
| pe_ref x n : plain_eff g (upd_st g x (st_ref (getst g x) n))
| pe_fin x f : plain_eff g (upd_st g x (st_fin (getst g x) f))
| pe_retire x f : plain_eff g (upd_st g x (st_retire (getst g x) f)).

Lemma step_plain_eff g t th g' th' :
  step_thread g t th = Some (g', th') -> special (t_pc th) = false -> plain_eff g g'.
Proof.
  intros F S. unfold step_thread in F.
  destruct (t_pc th) eqn:P; try discriminate S; crack F; inversion F; subst g' th'; constructor.
Qed.

Lemma frame_plain g t th g' th' :
  step_thread g t th = Some (g', th') -> special (t_pc th) = false -> ctl_same g g'.
Proof.
  intros F S. destruct (step_plain_eff _ _ _ _ _ F S); split; try reflexivity; cbn; try (now rewrite upd_length).
  all: now apply (getst_upd_keeps s_open).
Qed.

(* ---- which step changes which control field, and how --------------------------------- *)
(* F : step_thread g t th = Some (g', th') at a pc in `special` (S): one goal per way the step can go *)
Ltac special_cases F S :=
  unfold step_thread in F; destruct (t_pc _) eqn:?P; try discriminate S; crack F;
  open_tx;
  inversion F; subst; clear F.

Lemma frame_closed g t th g' th' :
  step_thread g t th = Some (g', th') ->
  g_closed g' = g_closed g \/
  (t_pc th = PIdle /\ cur_op th = Some OClose /\ g_closed g = false /\ g_closed g' = true /\ th' = setpc th PCFlag).
Proof.
  intros F. destruct (special (t_pc th)) eqn:S; [|left; apply (cs_closed _ _ (frame_plain _ _ _ _ _ F S))].
  special_cases F S; cbn; auto. right. repeat split; auto.
Qed.

Lemma frame_trig g t th g' th' :
  step_thread g t th = Some (g', th') ->
  (g_trig g' = g_trig g /\ g_trig_closed g' = g_trig_closed g) \/
  (exists x, t_pc th = PSend x /\ g_trig g = false /\ g_trig g' = true /\
             g_trig_closed g = false /\ g_trig_closed g' = false) \/
  (t_pc th = PRIdle /\ g_trig g = true /\ g_trig g' = false /\ g_trig_closed g' = g_trig_closed g) \/
  (t_pc th = PC3 /\ g_trig g' = g_trig g /\ g_trig_closed g = false /\ g_trig_closed g' = true).
Proof.
  intros F. destruct (special (t_pc th)) eqn:S.
  2: { left. destruct (frame_plain _ _ _ _ _ F S). auto. }
  special_cases F S; cbn; auto.
  - right; left; eexists; repeat split; eauto.
  - right; right; right; repeat split; auto.
  - right; right; left; repeat split; auto.
Qed.

Lemma frame_await g t th g' th' :
  step_thread g t th = Some (g', th') ->
  (g_await g' = g_await g /\ g_chans g' = g_chans g) \/
  (exists x, t_pc th = PTrig x /\ g_closed g = false /\ g_await g' = Some (length (g_chans g)) /\
             g_chans g' = g_chans g ++ [false] /\ th' = setpc th (PSend x)) \/
  (t_pc th = PRT3 /\ g_await g' = None /\ g_chans g' = g_chans g /\ th' = setpc th (PRT4 (g_await g))) \/
  (t_pc th = PCLocked /\ g_await g' = None /\ th' = setpc th PC3 /\
   match g_await g with Some c => g_chans g' = upd (g_chans g) c true | None => g_chans g' = g_chans g end) \/
  (exists c, t_pc th = PRT5 (Some c) /\ g_await g' = g_await g /\ g_chans g' = upd (g_chans g) c true /\
             th' = setpc th PRIdle).
Proof.
  intros F. destruct (special (t_pc th)) eqn:S.
  2: { left. destruct (frame_plain _ _ _ _ _ F S). auto. }
  special_cases F S; cbn; auto.
  - right; left; eexists; repeat split; eauto.
  - right; right; right; left. repeat split; auto.
  - right; right; left; repeat split; auto.
  - right; right; right; right; eexists; repeat split; eauto.
Qed.

Lemma frame_meta g t th g' th' :
  step_thread g t th = Some (g', th') ->
  g_meta_closes g' = g_meta_closes g \/
  (exists x, t_pc th = PC8 x /\ g_meta_closes g' = S (g_meta_closes g)).
Proof.
  intros F. destruct (special (t_pc th)) eqn:S; [|left; apply (cs_meta _ _ (frame_plain _ _ _ _ _ F S))].
  special_cases F S; cbn; auto. right. eexists; eauto.
Qed.

Lemma frame_cur g t th g' th' :
  step_thread g t th = Some (g', th') ->
  (g_cur g' = g_cur g /\ length (g_states g') = length (g_states g) /\
   forall x, s_open (getst g' x) = s_open (getst g x)) \/
  (exists y k st0, t_pc th = PM3 y k /\ s_open st0 = true /\
                   g_cur g' = length (g_states g) /\ g_states g' = g_states g ++ [st0]) \/
  (exists x, t_pc th = PC6 x /\ g_cur g' = length (g_states g) /\
             g_states g' = g_states g ++ [empty_state] /\ th' = setpc th (PCSwapped x (length (g_states g)))).
Proof.
  intros F. destruct (special (t_pc th)) eqn:S.
  2: { left. destruct (frame_plain _ _ _ _ _ F S). auto. }
  special_cases F S; try (left; repeat split; reflexivity).
  - right; left; exists y, k, (mk_state segs mn); repeat split; eauto.
  - right; right; eexists; repeat split; eauto.
Qed.

Lemma closed_mono s t s' : step s t = Some s' -> g_closed (sh s) = true -> g_closed (sh s') = true.
Proof.
  intros H C. destruct (step_decomp _ _ _ H) as (th & g' & th' & _ & F & ->). cbn.
  destruct (frame_closed _ _ _ _ _ F) as [Q|(_ & _ & _ & Q & _)]; congruence.
Qed.

Lemma closed_run sch : forall s, g_closed (sh s) = true -> g_closed (sh (run step s sch)) = true.
Proof. apply (run_inv sys step (fun s => g_closed (sh s) = true)). intros s t s' C H. exact (closed_mono s t s' H C). Qed.
