(* ReadTx.v -- every transaction of mutateStateLocked publishes a version of shape A (same
   tail, suffix of the file list, first index not lowered) or shape B (new tail file);
   Close publishes the empty version.  Hence ReadInv.Inv3 is preserved by publishing. *)
From Coq Require Import List Arith Bool Lia.
From RW Require Import Conc.Sys Conc.Close Conc.ListX Conc.CloseFacts Conc.CloseSafe Conc.CloseCount Conc.ReadInv.
Import ListNotations.

Lemma split_head_keep g m li : forall segs rm keep,
  split_head g m li segs = (rm, keep) -> keep <> [] ->
  m <= li \/ exists h2, In h2 segs /\ m <= h_base (geth g h2) - 1.
Proof.
  induction segs as [|h r IH]; intros rm keep H Ne; cbn in H.
  - inversion H; subst. congruence.
  - destruct r as [|h2 r'].
    + destruct (Nat.leb_spec m li); [now left|]. inversion H; subst. congruence.
    + destruct (Nat.leb_spec m (h_base (geth g h2) - 1)).
      * right. exists h2. split; [right; now left | assumption].
      * destruct (split_head g m li (h2 :: r')) as [a b] eqn:Q. inversion H; subst.
        destruct (IH _ _ eq_refl Ne) as [L|(h3 & Hi & L)]; [now left|]. right. exists h3. split; [now right | exact L].
Qed.

Lemma split_tail_keep g m : forall segs keep rm,
  split_tail g m segs = (keep, rm) -> forall h, In h keep -> h_base (geth g h) <= m.
Proof.
  induction segs as [|h r IH]; intros keep rm H h0 Hi; cbn in H.
  - inversion H; subst. destruct Hi.
  - destruct (Nat.leb_spec (h_base (geth g h)) m).
    + destruct (split_tail g m r) as [a b] eqn:Q. inversion H; subst. destruct Hi as [<-|Hi]; [assumption|].
      eapply IH; eauto.
    + inversion H; subst. destruct Hi.
Qed.

Section Tx.
  Variable g : shared.
  Hypothesis (La : S (g_cur g) = ns g) (Oc : op_ g (g_cur g) = true) (K : Inv3 g).
  Let y := g_cur g.
  Let t := tl_of g y.

  Lemma li_bound : last_index g (getst g y) <= hb g t + hc g t.
  Proof. rewrite li_eq. fold t. unfold liF. destruct (0 <? hc g t); [lia|]. destruct (2 <=? _); lia. Qed.

  Lemma li_pos : 1 <= last_index g (getst g y) -> 0 < hc g t \/ 2 <= length (sg g y).
  Proof.
    rewrite li_eq. fold t. unfold liF.
    destruct (Nat.ltb_spec 0 (hc g t)); [now left|]. destruct (Nat.leb_spec 2 (length (sg g y))); [now right | lia].
  Qed.

  Lemma fi_min : 1 <= last_index g (getst g y) -> first_index g (getst g y) = mn g y.
  Proof.
    intros L. rewrite fi_eq. fold t. unfold fiF. destruct (li_pos L) as [C|C].
    - destruct (hc g t =? 0) eqn:Q; [apply Nat.eqb_eq in Q; lia|]. now rewrite andb_false_r.
    - destruct (length (sg g y) =? 1) eqn:Q; [apply Nat.eqb_eq in Q; lia|]. reflexivity.
  Qed.

  Definition tx_ok (r : shared * list nat) : Prop :=
    exists segs' mn',
      (fst r = publish g (mk_state segs' mn') /\ shapeA g segs' mn') \/
      (exists b, fst r = publish (set_hnds g (g_hnds g ++ [new_hnd b])) (mk_state segs' mn') /\ shapeB g segs' mn' b).

  Lemma ok_same l : tx_ok (publish g (mk_state (s_segs (getst g y)) (s_min (getst g y))), l).
  Proof.
    exists (sg g y), (mn g y). left. split; [reflexivity|]. unfold shapeA. fold y. 
    split; [exists []; reflexivity|]. split; [apply (k_nonempty _ K); [unfold y; lia | exact Oc]|].
    split; [apply (k_min _ K); [unfold y; lia | exact Oc]|]. split; [lia|]. split; [now left|]. apply (k_m _ K Oc).
  Qed.

  Lemma ok_rotate : tx_ok (do_rotate g y).
  Proof.
    unfold do_rotate. exists (sg g y ++ [nh_ g]), (mn g y). right. exists (hb g t + hc g t). split; [reflexivity|].
    exists (sg g y). split; [reflexivity|]. split.
    - intros h Hi. split; [exact Hi|]. pose proof (k_base _ K y h ltac:(unfold y; lia) Hi). fold t in H. lia.
    - split; [apply (k_min _ K); [unfold y; lia | exact Oc] | apply (k_m _ K Oc)].
  Qed.

  (* head truncation: the new first index m, as classified *)
  Lemma ok_head m : 1 <= m -> mn g y <= m -> 1 <= last_index g (getst g y) ->
    tx_ok (do_trunc_head g y m).
  Proof.
    intros M1 M2 Lp. unfold do_trunc_head.
    destruct (split_head g m (last_index g (getst g y)) (s_segs (getst g y))) as [rm keep] eqn:Q.
    pose proof (split_head_app _ _ _ _ _ _ Q) as App. destruct keep as [|k0 keep].
    - exists [nh_ g], (last_index g (getst g y) + 1). right. exists (last_index g (getst g y) + 1). split; [reflexivity|].
      exists []. split; [reflexivity|]. split; [intros h []|]. lia.
    - exists (k0 :: keep), m. left. split; [reflexivity|]. unfold shapeA. fold y. fold t.
      split; [exists rm; symmetry; exact App|]. split; [discriminate|]. split; [exact M1|]. split; [exact M2|].
      split; [right; apply (li_pos Lp)|].
      destruct (split_head_keep _ _ _ _ _ _ Q ltac:(discriminate)) as [L|(h2 & Hi & L)].
      + pose proof li_bound. lia.
      + pose proof (k_base _ K y h2 ltac:(unfold y; lia) Hi) as B. fold t in B. unfold hb in *. lia.
  Qed.

  Lemma ok_tail m : mn g y <= S m -> tx_ok (do_trunc_tail g y m).
  Proof.
    intros M2. unfold do_trunc_tail. destruct (split_tail g m (s_segs (getst g y))) as [keep rm] eqn:Q.
    pose proof (split_tail_app _ _ _ _ _ Q) as App.
    exists (keep ++ [nh_ g]), (mn g y). right. exists (m + 1). split; [reflexivity|].
    exists keep. split; [reflexivity|]. split.
    - fold y. intros h Hi. split; [unfold sg; rewrite <- App; apply in_or_app; now left|].
      pose proof (split_tail_keep _ _ _ _ _ Q h Hi). unfold hb. lia.
    - split; [apply (k_min _ K); [unfold y; lia | exact Oc] | lia].
  Qed.

  Lemma ok_pm3 o k : tx_ok (pm3_tx g o y k).
  Proof.
    unfold pm3_tx. destruct k; try apply ok_rotate;
      (destruct o as [o|]; [|apply ok_same]; unfold classify;
       destruct o; try apply ok_same).
    all: try (destruct ((n <? first_index g (getst g y)) || (last_index g (getst g y) <? 1)) eqn:B; [apply ok_same|];
              apply orb_false_iff in B; destruct B as [B1 B2]; apply Nat.ltb_ge in B1, B2;
              rewrite (fi_min B2) in B1; apply ok_head; lia).
    all: destruct (Nat.leb_spec (last_index g (getst g y)) n) as [L1|L1]; [apply ok_same|];
      destruct (Nat.ltb_spec n (first_index g (getst g y))) as [L2|L2];
      [ apply ok_head; try lia; pose proof (k_m _ K Oc) as M; fold y in M; fold t in M;
        destruct (li_pos (ltac:(lia) : 1 <= last_index g (getst g y))) as [C|C]
      | apply ok_tail; rewrite (fi_min ltac:(lia)) in L2; lia ].
    all: rewrite li_eq; fold t; unfold liF.
    all: try (destruct (Nat.ltb_spec 0 (hc g t)); [lia|]; destruct (Nat.leb_spec 2 (length (sg g y))); lia).
  Qed.
End Tx.
