(* CloseStep4.v -- the per-thread facts of CloseInv2 under steps of other threads *)
From Coq Require Import List Arith Bool Lia.
From RW Require Import Conc.Sys Conc.SysFacts Conc.Close Conc.ListX Conc.CloseInv Conc.CloseInv2 Conc.CloseFacts
     Conc.CloseK Conc.CloseSafe Conc.CloseSafeStep Conc.CloseStep1 Conc.CloseFrames Conc.CloseFrames2
     Conc.CloseStepInv Conc.CloseStepThr Conc.CloseStepOwn Conc.CloseReach Conc.CloseCount Conc.CloseStep2
     Conc.CloseStep3.
Import ListNotations.

(* what a step can do to the finalizer and retired bit of an existing state *)
Lemma frame_finret g t th g' th' x :
  step_thread g t th = Some (g', th') -> t_pc th' <> PPanic -> x < length (g_states g) ->
  (s_fin (getst g' x) = s_fin (getst g x) /\ s_ret (getst g' x) = s_ret (getst g x)) \/
  (exists res k, t_pc th = PLast x res k /\ s_fin (getst g' x) = FNil /\ s_ret (getst g' x) = s_ret (getst g x)) \/
  (holds_mu th = true /\ s_ret (getst g' x) = true /\
   ((exists f k, t_pc th = PM4 x f k /\ s_fin (getst g' x) = f) \/
    (exists e, t_pc th = PCSwapped x e /\ s_fin (getst g' x) = FSet (s_segs (getst g x)) e))).
Proof.
  intros F NP L.
  destruct (special2 (t_pc th)) eqn:Sp.
  2: { destruct (frame2_plain _ _ _ _ _ F NP Sp) as [Qs _ _ _ _ _ _]. left. unfold getst. rewrite Qs. auto. }
  destruct (t_pc th) eqn:P; try discriminate Sp;
    unfold step_thread in F; rewrite P in F; crack F;
    open_tx;
    inversion F; subst g' th'; clear F.
  all: try (exfalso; apply NP; reflexivity).
  all: try (left; rewrite getst_upd_st; destruct ((_ =? x) && _) eqn:B; [|auto];
            apply andb_true_iff in B; destruct B as [B _]; apply Nat.eqb_eq in B; subst; auto; fail).
  all: try (left; destruct (publish_shape g nh (mk_state segs mn)) as (_ & Hg & _); rewrite Hg by exact L; auto; fail).
  all: try (left; unfold getst, publish; cbn; rewrite app_nth1 by exact L; auto; fail).
  all: try (left; auto; fail).
  all: try (match goal with P : t_pc _ = PLast ?x0 _ _ |- _ =>
              destruct (Nat.eq_dec x0 x) as [->|N];
              [ right; left; do 2 eexists; rewrite getst_upd_same by exact L; cbn; auto
              | left; rewrite getst_upd_other by exact N; auto ] end).
  all: try (match goal with P : t_pc _ = PM4 ?y _ _ |- _ =>
              destruct (Nat.eq_dec y x) as [->|N];
              [ right; right; rewrite getst_upd_same by exact L; cbn;
                split; [unfold holds_mu; rewrite P; reflexivity|]; split; [reflexivity|]; left; eauto
              | left; rewrite getst_upd_other by exact N; auto ] end).
  all: try (match goal with P : t_pc _ = PCSwapped ?y _ |- _ =>
              destruct (Nat.eq_dec y x) as [->|N];
              [ right; right; rewrite getst_upd_same by exact L; cbn;
                split; [unfold holds_mu; rewrite P; reflexivity|]; split; [reflexivity|]; right; eauto
              | left; rewrite getst_upd_other by exact N; auto ] end).
Qed.

Lemma vhold_step g t th g' th' z :
  step_thread g t th = Some (g', th') -> vhold th' = Some z -> vhold th = Some z \/ z = g_cur g.
Proof.
  intros F V. unfold step_thread in F. crack F;
    try (destruct (pm3_tx _ _ _ _) eqn:?); inversion F; subst g' th'; clear F.
  all: try (cbn in V; discriminate V).
  all: try (match goal with H : context [continue _ _ ?k] |- _ => destruct k; cbn in V; discriminate V end).
  all: unfold vhold in *; cbn [t_pc setpc] in V;
    repeat match goal with H : t_pc _ = _ |- _ => rewrite H end; auto.
  (* PAcq -> PBody: the state was re-validated as current *)
  right. inversion V; subst. match goal with H : negb (_ =? _) = false |- _ => apply negb_false_iff, Nat.eqb_eq in H; auto end.
Qed.

Lemma pending_holds thv y hs : fin_pending thv y = Some hs -> holds_mu thv = true.
Proof. unfold fin_pending, holds_mu. destruct (t_pc thv); try discriminate; reflexivity. Qed.

Section P4.
  Variables (w r : tid) (orig : list (list op)).

  Lemma unrun_step s t th g' th' y hs :
    Full w r s -> Inv2 orig s -> nth_error (ths s) t = Some th -> step_thread (sh s) t th = Some (g', th') ->
    y < length (g_states (sh s)) -> unrun (sh s) (ths s) y hs ->
    (forall res k, t_pc th <> PLast y res k) -> unrun g' (upd (ths s) t th') y hs.
  Proof.
    intros [SA I] J E F Ly U NL.
    pose proof (no_panic w r _ _ _ _ _ SA I E F) as NP.
    destruct (core_step s t th g' th' SA E F NP) as (Fr & _).
    pose proof (j_thr _ _ J _ _ E) as TJ. unfold th_facts2 in TJ.
    assert (Lt : t < length (ths s)) by (eapply nth_error_Some_lt; eauto).
    destruct (frame_finret _ _ _ _ _ y F NP Ly) as [(Qf & _)|[(res & k & P & _)|(Hm & _ & St)]].
    - (* finalizer field of y untouched *)
      destruct U as [(sc & Q)|[(v & thv & Ev & Q)|(v & thv & e & Ev & Pv & Q)]].
      + left. exists sc. congruence.
      + destruct (Nat.eq_dec v t) as [->|N].
        * exfalso. assert (thv = th) by congruence. subst thv. unfold fin_pending in Q.
          destruct (t_pc th) eqn:P; try discriminate. destruct f; try discriminate.
          destruct (Nat.eqb_spec y0 y) as [->|]; [|discriminate].
          (* t is at PM4 y: its step stores the finalizer, which changes the field *)
          destruct TJ as (hs' & Qh & Nf & _). unfold step_thread in F. rewrite P in F. inversion F; subst.
          rewrite getst_upd_same in Qf by exact Ly. cbn in Qf. rewrite <- Qf in Nf. discriminate.
        * right; left. exists v, thv. split; [now rewrite nth_error_upd_neq by congruence | exact Q].
      + destruct (Nat.eq_dec v t) as [->|N].
        * exfalso. assert (thv = th) by congruence. subst thv.
          rewrite Pv in TJ. destruct TJ as (Nf & _). unfold step_thread in F. rewrite Pv in F.
          destruct (negb (s_open (getst (sh s) y))); [inversion F; subst; apply NP; reflexivity|].
          inversion F; subst. rewrite getst_upd_same in Qf by exact Ly. cbn in Qf. rewrite <- Qf in Nf. discriminate.
        * right; right. exists v, thv, e. split; [now rewrite nth_error_upd_neq by congruence|]. split; [exact Pv|].
          rewrite (f_segs _ _ Fr y Ly). exact Q.
    - exfalso. apply (NL res k P).
    - (* t, holding the mutex, stores a finalizer for y; whoever else carried one would hold the mutex too *)
      assert (Same : forall v thv, nth_error (ths s) v = Some thv -> holds_mu thv = true -> thv = th).
      { intros v thv Ev Hv. pose proof (two_holders s t v th thv SA E Ev Hm Hv) as ->. congruence. }
      left. destruct St as [(f & k & P & Qf)|(e & P & Qf)].
      + (* the one it carried *)
        rewrite P in TJ. destruct TJ as (hs' & Qh & Nf & _). subst f.
        assert (hs = hs').
        { destruct U as [(sc & Q)|[(v & thv & Ev & Q)|(v & thv & e & Ev & Pv & Q)]].
          - rewrite Q in Nf. discriminate.
          - rewrite (Same v thv Ev (pending_holds _ _ _ Q)) in Q. unfold fin_pending in Q. rewrite P, Nat.eqb_refl in Q. congruence.
          - rewrite (Same v thv Ev ltac:(holder_of Pv)) in Pv. congruence. }
        subst hs'. exists (S y). exact Qf.
      + (* Close retires y *)
        rewrite P in TJ. destruct TJ as (Nf & _).
        assert (hs = s_segs (getst (sh s) y)).
        { destruct U as [(sc & Q)|[(v & thv & Ev & Q)|(v & thv & e' & Ev & Pv & Q)]].
          - rewrite Q in Nf. discriminate.
          - rewrite (Same v thv Ev (pending_holds _ _ _ Q)) in Q. unfold fin_pending in Q. rewrite P in Q. discriminate.
          - exact Q. }
        subst hs. exists e. exact Qf.
  Qed.

  Definition prot (g : shared) (T : list thread) (x : nat) : Prop :=
    forall y, x <= y -> y < g_cur g -> exists hs, unrun g T y hs.

  (* the protection of a validated holder (thread u, state x) survives every step *)
  Lemma prot_step s t th g' th' u thu x :
    Full w r s -> Inv2 orig s -> nth_error (ths s) t = Some th -> step_thread (sh s) t th = Some (g', th') ->
    nth_error (ths s) u = Some thu -> vhold thu = Some x -> prot (sh s) (ths s) x ->
    prot g' (upd (ths s) t th') x.
  Proof.
    intros F0 J E F Eu Vu Pr y Lxy Lyc. destruct F0 as [SA I].
    pose proof (no_panic w r _ _ _ _ _ SA I E F) as NP.
    pose proof (a_last _ SA) as La.
    assert (Lt : t < length (ths s)) by (eapply nth_error_Some_lt; eauto).
    destruct (Nat.lt_ge_cases y (g_cur (sh s))) as [Lo|Lo].
    - destruct (Pr y Lxy Lo) as (hs & U). exists hs.
      apply (unrun_step s t th g' th' y hs (conj SA I) J E F ltac:(lia) U).
      intros res k P. pose proof (j_thr _ _ J _ _ E) as TJ. unfold th_facts2 in TJ. rewrite P in TJ.
      destruct TJ as (_ & _ & _ & W). specialize (W u thu x Eu Vu). lia.
    - (* the state pointer moved: y is the state that has just been replaced *)
      destruct (frame_cur _ _ _ _ _ F) as [(Qc & _)|[(y0 & k & st0 & P & _ & Qc & Qs)|(x0 & P & Qc & Qs & Qt)]]; [lia| |].
      + assert (y = g_cur (sh s)) by lia. subst y.
        pose proof (i_thr _ _ _ I _ _ E) as TF. unfold th_facts1 in TF. rewrite P in TF. destruct TF as (Yc & _). subst y0.
        unfold step_thread in F. rewrite P in F. destruct (pm3_tx (sh s) (cur_op th) (g_cur (sh s)) k) as [g1 hs1] eqn:Q.
        inversion F; subst. exists hs1. right; left. exists t, (setpc th (PM4 (g_cur (sh s)) (FSet hs1 (g_cur g')) k)).
        split; [now apply nth_error_upd_eq|]. unfold fin_pending. cbn. now rewrite Nat.eqb_refl.
      + assert (y = g_cur (sh s)) by lia. subst y.
        pose proof (i_thr _ _ _ I _ _ E) as TF. unfold th_facts1 in TF. rewrite P in TF. subst x0.
        exists (s_segs (getst g' (g_cur (sh s)))). right; right.
        exists t, th', (length (g_states (sh s))). split; [now apply nth_error_upd_eq|]. subst th'. split; reflexivity.
  Qed.

  Lemma thr2_other s t th g' th' u thu :
    Full w r s -> Inv2 orig s -> nth_error (ths s) t = Some th -> step_thread (sh s) t th = Some (g', th') ->
    nth_error (ths s) u = Some thu -> u <> t -> th_facts2 g' (upd (ths s) t th') thu.
  Proof.
    intros F0 J E F Eu N. pose proof F0 as [SA I].
    pose proof (no_panic w r _ _ _ _ _ SA I E F) as NP.
    pose proof (j_thr _ _ J _ _ Eu) as TJu. pose proof (i_thr _ _ _ I _ _ Eu) as TFu.
    destruct (core_step s t th g' th' SA E F NP) as (Fr & _).
    pose proof (states_len _ _ _ _ _ F) as SL. pose proof (a_last _ SA) as La.
    assert (G6 : g_closed (sh s) = true -> g_closed g' = true)
      by (intros C; destruct (frame_closed _ _ _ _ _ F) as [Q|(_ & _ & Q & _)]; congruence).
    (* finalizer field / retired bit of a state whose holder of the mutex is u *)
    assert (HF : forall x, x < length (g_states (sh s)) -> holds_mu thu = true ->
                 (is_fset (s_fin (getst (sh s) x)) = false -> is_fset (s_fin (getst g' x)) = false) /\
                 s_ret (getst g' x) = s_ret (getst (sh s) x)).
    { intros x Lx Hu.
      destruct (frame_finret _ _ _ _ _ x F NP Lx) as [(Qf & Qr)|[(res & k & P & Qf & Qr)|(Hm & _)]].
      - rewrite Qf, Qr. auto.
      - rewrite Qf, Qr. auto.
      - exfalso. apply N. pose proof (a_mu1 _ SA _ _ E Hm). pose proof (a_mu1 _ SA _ _ Eu Hu). congruence. }
    unfold th_facts2 in *. unfold th_facts1 in TFu.
    destruct (t_pc thu) eqn:Pu; try exact Logic.I.
    - (* PStErr *) auto.
    - (* PBody *) apply (prot_step s t th g' th' u thu x F0 J E F Eu); [unfold vhold; now rewrite Pu | exact TJu].
    - (* PGetRead *) destruct TJu as [Hi Pr]. split.
      + assert (Lx : x < length (g_states (sh s))).
        { pose proof (a_thr _ SA _ _ Eu) as FB. unfold factsB in FB. rewrite Pu in FB.
          apply (held_lt orig s u thu x J Eu). unfold href. rewrite Pu, Nat.eqb_refl. cbn. lia. }
        rewrite (f_segs _ _ Fr x Lx). exact Hi.
      + apply (prot_step s t th g' th' u thu x F0 J E F Eu); [unfold vhold; now rewrite Pu | exact Pr].
    - (* PM2 *) lia.
    - (* PM3 *) lia.
    - (* PM4 *)
      destruct TJu as (hs & Qf & Nf & Nr & Inc). destruct TFu as (Yc & _).
      assert (Hu : holds_mu thu = true) by (unfold holds_mu; now rewrite Pu).
      assert (Ly : y < length (g_states (sh s))) by lia.
      destruct (HF y Ly Hu) as [Hf Hr]. exists hs. split; [exact Qf|]. split; [auto|]. split; [congruence|].
      intros h Hi. rewrite (f_segs _ _ Fr y Ly) in Hi. rewrite (f_segs _ _ Fr (S y) ltac:(lia)). auto.
    - (* PRel *) destruct TJu as [Lx Ro]. split; [lia | exact Ro].
    - (* PLast *)
      destruct TJu as (Rt & Lx & Ro & W). split; [|split; [lia|split; [exact Ro|]]].
      + destruct (frame_finret _ _ _ _ _ x F NP Lx) as [(_ & Qr)|[(res & k0 & _ & _ & Qr)|(_ & Qr & _)]]; congruence.
      + intros v thv z Ev Vz. destruct (nth_error_upd_inv _ _ _ _ _ Ev) as [(-> & -> & _)|(Nv & Ev')].
        * destruct (vhold_step _ _ _ _ _ z F Vz) as [Vo| ->]; [apply (W t th z E Vo)|].
          apply (j_ret _ _ J x Lx Rt).
        * apply (W v thv z Ev' Vz).
    - (* PRun *) destruct TJu as [Ls Ro]. split; [lia | exact Ro].
    - (* PUnl *) exact TJu.
    - (* PC6 *) lia.
    - (* PCSwapped *)
      destruct TJu as (Nf & Nr & Se). destruct TFu as (Xc & Ec & _).
      assert (Hu : holds_mu thu = true) by (unfold holds_mu; now rewrite Pu).
      assert (Lx : x < length (g_states (sh s))) by lia.
      destruct (HF x Lx Hu) as [Hf Hr]. split; [auto|]. split; [congruence|].
      rewrite (f_segs _ _ Fr e ltac:(lia)). exact Se.
    - (* PC8 *) lia.
  Qed.
End P4.
