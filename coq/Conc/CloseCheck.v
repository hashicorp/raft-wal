(* CloseCheck.v -- executable mirror of the invariant clauses of CloseInv.v, for trying a
   candidate clause on pseudo-random schedules.  Inv1 implies the mirror clause by clause
   ([inv1_b_complete]) and [check_run] visits reachable states only, so the sample runs at the
   end are instances of [full_reach].  Not used by any theorem. *)
From Coq Require Import List Arith Bool Lia NArith.
From RW Require Import Conc.Sys Conc.SysFacts Conc.Close Conc.ListX Conc.CloseInv Conc.CloseReach.
Import ListNotations.

Definition opt_none {A} (o : option A) : bool := match o with None => true | _ => false end.
Definition opt_is (o : option nat) (c : nat) : bool := match o with Some c' => c' =? c | None => false end.
Definition chan_open_b (g : shared) (c : nat) : bool := (c <? length (g_chans g)) && negb (nth c (g_chans g) false).
Definition imp (a b : bool) : bool := negb a || b.

Definition krot_b (g : shared) (T : list thread) (k : kont) : bool :=
  match k with KRot => (K g T <=? 1) && negb (opt_none (g_await g)) | _ => true end.

Definition th_facts1_b (g : shared) (T : list thread) (rp : pc) (th : thread) : bool :=
  match t_pc th with
  | PLoad => imp (op_locking th) (opt_none (g_await g))
  | PLoaded x | PAcq x => imp (op_locking th) ((x =? g_cur g) && opt_none (g_await g))
  | PBody x => s_open (getst g x) && imp (op_locking th) ((x =? g_cur g) && opt_none (g_await g))
  | PApp1 x | PApp2 x | PApp3 x => (x =? g_cur g) && s_open (getst g x) && opt_none (g_await g)
  | PTrig x => (x =? g_cur g) && s_open (getst g x) && opt_none (g_await g)
  | PSend x => (x =? g_cur g) && s_open (getst g x) && negb (g_trig g) && negb (opt_none (g_await g)) && negb (rot_pend rp)
  | PWaiting c | PRecvAwait c => (c <? length (g_chans g)) && (opt_is (g_await g) c || opt_none (g_await g))
  | PRelock => opt_none (g_await g)
  | PM0 k => s_open (getst g (g_cur g)) && krot_b g T k
  | PM1 y k | PM2 y k | PM3 y k => (y =? g_cur g) && s_open (getst g y) && krot_b g T k
  | PM4 y f k => (S y =? g_cur g) && krot_b g T k
  | PRel _ _ k | PLast _ _ k | PRun _ _ _ k =>
      krot_b g T k && match k with KRetry => imp (op_locking th) (opt_none (g_await g)) | _ => true end
  | PC5 x | PC6 x => x =? g_cur g
  | PCSwapped x e => (S x =? g_cur g) && (e =? g_cur g) && s_open (getst g x)
  | PRT3 => (K g T <=? 1) && negb (opt_none (g_await g))
  | PRT4 d | PRT5 d => match d with Some c => chan_open_b g c && negb (opt_is (g_await g) c) | None => false end
  | PRExit | PRDone => g_closed g
  | PPanic => false
  | _ => true
  end.

Definition all_t (T : list thread) (f : tid -> thread -> bool) : bool :=
  forallb (fun t => match nth_error T t with Some th => f t th | None => true end) (seq 0 (length T)).

Definition h_chain_b (h : hnd) : bool := (h_cnt h <=? h_syn h) && (h_syn h <=? h_wr h) && (h_wr h <=? length (h_ents h)).

(* the numbers are the clause numbers check_run reports: 1-7 i_wf .. i_last, 13-18 i_nact .. i_aw3,
   19-23 i_ch1 .. i_trig, 24 i_thr; CloseCheck2.inv2_b continues with 31-37, SealInv.inv4_b with 41-43 *)
Definition inv1_b (w r : tid) (s : sys) : list nat :=
  let g := sh s in let T := ths s in let rp := rot_pc T r in let k := K g T in
  let chk (n : nat) (b : bool) := if b then [] else [n] in
  chk 1 (all_t T (fun _ th => pc_ok th)) ++
  chk 2 (match nth_error T r with Some th => t_rot th | None => false end) ++
  chk 3 (all_t T (fun t th => (t =? r) || negb (t_rot th))) ++
  chk 4 (all_t T (fun t th => (t =? w) || forallb (fun o => negb (is_locking o)) (t_prog th))) ++
  chk 5 (all_t T (fun t th => imp (holds_mu th) (opt_is (g_mu g) t))) ++
  chk 6 (match g_mu g with Some t => match nth_error T t with Some th => holds_mu th | None => false end | None => true end) ++
  chk 7 (S (g_cur g) =? length (g_states g)) ++
  chk 13 (nact T <=? 1) ++
  chk 14 (imp (negb (g_closed g)) (nact T =? 0)) ++
  chk 15 (Bool.eqb (g_trig_closed g) (4 <=? k)) ++
  chk 16 (g_meta_closes g =? b2n (9 <=? k)) ++
  chk 17 (Bool.eqb (s_open (getst g (g_cur g))) (k <? 7)) ++
  chk 18 (imp (3 <=? k) (opt_none (g_await g))) ++
  chk 19 (match g_await g with Some c => chan_open_b g c | None => true end) ++
  chk 20 (forallb (fun c => imp (chan_open_b g c) (opt_is (g_await g) c || rot_has rp c)) (seq 0 (length (g_chans g)))) ++
  chk 21 (imp ((k =? 0) && (g_trig g || rot_pend rp)) (negb (opt_none (g_await g)))) ++
  chk 22 (imp (negb (opt_none (g_await g)))
              (g_trig g || rot_pend rp || existsb at_send T || ((1 <=? k) && (k <=? 2)))) ++
  chk 23 (imp (rot_pend rp && (k <=? 1)) (negb (g_trig g))) ++
  chk 24 (all_t T (fun _ th => th_facts1_b g T rp th)).

(* check the invariant in every state along a schedule; returns the failing
   clause numbers together with the number of steps executed so far *)
Fixpoint check_run (inv : sys -> list nat) (s : sys) (sch : list tid) (n : nat) : list (nat * list nat) :=
  match inv s with
  | [] => match sch with
          | [] => []
          | t :: rest => check_run inv (exec step s t) rest (S n)
          end
  | bad => [(n, bad)]
  end.

Lemma check_run_reachable (inv : sys -> list nat) s0 :
  (forall s, reachable step s0 s -> inv s = []) ->
  forall sch s n, reachable step s0 s -> check_run inv s sch n = [].
Proof.
  intros Hinv. induction sch as [|t sch IH]; intros s n R; cbn; rewrite (Hinv s R); [reflexivity|].
  apply IH. exact (reachable_run _ _ s0 s [t] R).
Qed.

Lemma flat_map_nil {A B} (f : A -> list B) l : (forall a, f a = []) -> flat_map f l = [].
Proof. intros H. induction l as [|a l IH]; cbn; [|rewrite H, IH]; reflexivity. Qed.

Lemma all_t_true T f : (forall t th, nth_error T t = Some th -> f t th = true) -> all_t T f = true.
Proof.
  intros H. apply forallb_forall. intros t _. destruct (nth_error T t) eqn:E; [exact (H _ _ E) | reflexivity].
Qed.

Lemma opt_is_false o c : o <> Some c -> opt_is o c = false.
Proof. destruct o as [c'|]; [|reflexivity]. intros N. apply Nat.eqb_neq. congruence. Qed.

(* Rewrites the boolean goal with the facts of the context: conjunctions, disjunctions and guarded
   facts are split, equations rewritten, order facts and disequalities turned into their
   boolean forms. *)
Ltac to_bool :=
  repeat match goal with
  | H : False |- _ => destruct H
  | H : _ /\ _ |- _ => destruct H
  | H : _ \/ _ |- _ => destruct H
  | H : exists _, _ |- _ => destruct H
  | H : ?x = ?x -> _ |- _ => specialize (H eq_refl)
  | H : ?b = true -> _ |- _ => destruct b; [specialize (H eq_refl) | clear H]
  | H : _ <= _ |- _ => apply Nat.leb_le in H
  | H : _ < _ |- _ => apply Nat.ltb_lt in H
  | H : ?o <> None |- _ => destruct o; [clear H | congruence]
  | H : ?o <> Some ?c |- _ => apply opt_is_false in H
  | H : ?x = _ |- _ => is_var x; subst x
  | H : _ = _ |- _ => rewrite ?H; clear H; cbv beta iota; rewrite ?Nat.eqb_refl
  end; cbn; rewrite ?Nat.eqb_refl.

Lemma th_facts1_b_complete g T rp th : th_facts1 g T rp th -> th_facts1_b g T rp th = true.
Proof.
  unfold th_facts1, th_facts1_b, krot_f, krot_b, chan_open, chan_open_b, imp.
  destruct (t_pc th); try (destruct k); intros H; to_bool; reflexivity.
Qed.

Lemma chan_open_b_spec g c : chan_open_b g c = true <-> chan_open g c.
Proof.
  unfold chan_open_b, chan_open. rewrite andb_true_iff, Nat.ltb_lt, negb_true_iff. reflexivity.
Qed.

Lemma chk_app (n : nat) b l : b = true -> l = [] -> (if b then [] else [n]) ++ l = [].
Proof. intros -> ->. reflexivity. Qed.

Lemma inv1_b_complete w r s : Inv1 w r s -> inv1_b w r s = [].
Proof.
  intros I. unfold inv1_b, imp. cbv beta zeta. repeat apply chk_app.
  - apply all_t_true, (i_wf _ _ _ I).
  - destruct (i_rot _ _ _ I) as (thr & -> & R). exact R.
  - apply all_t_true. intros t th E. destruct (Nat.eqb_spec t r) as [|N]; [reflexivity|].
    now rewrite (i_nrot _ _ _ I t th E N).
  - apply all_t_true. intros t th E. destruct (Nat.eqb_spec t w) as [|N]; [reflexivity|].
    now rewrite (i_sw _ _ _ I t th E N).
  - apply all_t_true. intros t th E. pose proof (i_mu1 _ _ _ I t th E). to_bool; reflexivity.
  - destruct (g_mu (sh s)) as [t|] eqn:M; [|reflexivity].
    destruct (i_mu2 _ _ _ I t M) as (th & -> & H). exact H.
  - apply Nat.eqb_eq, (i_last _ _ _ I).
  - apply Nat.leb_le, (i_nact _ _ _ I).
  - pose proof (i_nact0 _ _ _ I) as H. destruct (g_closed (sh s)); [reflexivity|]. now rewrite H.
  - rewrite (i_tc _ _ _ I). apply eqb_reflx.
  - rewrite (i_meta _ _ _ I). apply Nat.eqb_refl.
  - rewrite (i_open _ _ _ I). apply eqb_reflx.
  - destruct (Nat.leb_spec 3 (K (sh s) (ths s))) as [L|]; [|reflexivity]. now rewrite (i_aw3 _ _ _ I L).
  - destruct (g_await (sh s)) as [c|] eqn:A; [|reflexivity]. apply chan_open_b_spec, (i_ch1 _ _ _ I c A).
  - apply forallb_forall. intros c _. destruct (chan_open_b (sh s) c) eqn:O; [|reflexivity].
    apply chan_open_b_spec in O. destruct (i_ch2 _ _ _ I c O) as [-> | ->]; cbn;
      rewrite ?Nat.eqb_refl, ?orb_true_r; reflexivity.
  - destruct (_ && _) eqn:E; [|reflexivity]. apply andb_true_iff in E as [E1 E2].
    apply Nat.eqb_eq in E1. apply orb_true_iff in E2. pose proof (i_pend _ _ _ I E1 E2).
    now destruct (g_await (sh s)).
  - destruct (g_await (sh s)) as [c|] eqn:A; [|reflexivity]. cbn [opt_none negb orb].
    destruct (i_aw _ _ _ I c A) as [H|[H|[(t & th & E & H)|[H1 H2]]]].
    + now rewrite H.
    + rewrite H. now rewrite orb_true_r.
    + assert (X : existsb at_send (ths s) = true)
        by (apply existsb_exists; exists th; split; [eapply nth_error_In; eauto | exact H]).
      rewrite X. now rewrite !orb_true_r.
    + apply Nat.leb_le in H1, H2. rewrite H1, H2. now rewrite !orb_true_r.
  - destruct (_ && _) eqn:E; [|reflexivity]. apply andb_true_iff in E as [E1 E2].
    apply Nat.leb_le in E2. now rewrite (i_trig _ _ _ I E1 E2).
  - rewrite all_t_true; [reflexivity|]. intros t th E. apply th_facts1_b_complete, (i_thr _ _ _ I t th E).
Qed.

(* a system whose thread 0 is the only one with locking calls *)
Lemma single_writer_0 p progs extra :
  Forall (fun q => forallb (fun o => negb (is_locking o)) q = true) (progs ++ [] :: extra) ->
  single_writer 0 (p :: progs) extra.
Proof.
  intros F [|t] q E N; [congruence|]. cbn in E.
  exact (proj1 (Forall_forall _ _) F q (nth_error_In _ _ E)).
Qed.

(* pseudo-random schedules *)
Fixpoint lcg_sched (n : nat) (seed : N) (k : N) : list tid :=
  match n with
  | O => []
  | S m => let seed' := ((seed * 1103515245 + 12345) mod 2147483648)%N in
           N.to_nat ((seed' / 65536) mod k)%N :: lcg_sched m seed' k
  end.

(* the mirror of Inv1 along 80 pseudo-random schedules of 400 steps (writer, two
   readers/stable callers, two closers) *)
Definition test_cfg : list (list op) :=
  [[OStore true 1 1; OStore false 2 2; ODelete 1; OStore true 3 1; OTrunc 2; OStore true 4 2];
   [OGet 1; OFirst; OGet 2]; [OClose]; [OLast; OClose; OSet]; [OSet; OGetS; OGet 1]].
Definition test_inv1 (seed : N) : list (nat * list nat) :=
  check_run (inv1_b 0 (length test_cfg)) (init test_cfg [])
            (lcg_sched 400 seed (N.of_nat (S (length test_cfg)))) 0.
Example inv1_holds_on_samples : flat_map test_inv1 (map N.of_nat (seq 1 80)) = [].
Proof.
  assert (SW : single_writer 0 test_cfg []) by (apply single_writer_0; repeat constructor).
  apply flat_map_nil. intros seed. apply check_run_reachable with (s0 := init test_cfg []).
  - intros s R. apply inv1_b_complete. exact (proj2 (full_reach 0 test_cfg [] s SW R)).
  - exists []. reflexivity.
Qed.
