(* CloseReach2.v -- part 2 of the invariant (reference counts, retired bit, finalizers,
   ownership of file handles, allowed outcomes) holds in every reachable state of a
   single-writer system *)
From Coq Require Import List Arith Bool Lia.
From RW Require Import Conc.Sys Conc.SysFacts Conc.Close Conc.ListX Conc.CloseInv Conc.CloseInv2 Conc.CloseFacts
     Conc.CloseK Conc.CloseSafe Conc.CloseSafeStep Conc.CloseStep1 Conc.CloseReach Conc.CloseStep2
     Conc.CloseStep3 Conc.CloseStep4 Conc.CloseStep5.
Import ListNotations.

Definition Full2 (w r : tid) (orig : list (list op)) (s : sys) : Prop := Full w r s /\ Inv2 orig s.

Lemma inv2_step w r orig s t s' : Full w r s -> Inv2 orig s -> step s t = Some s' -> Inv2 orig s'.
Proof.
  intros F0 J H.
  destruct (ref_step w r orig s t s' F0 J H) as [R1 R2].
  pose proof (own_step w r orig s t s' F0 J H) as OW.
  destruct (fin_step w r orig s t s' F0 J H) as (N1 & N2 & N3).
  destruct (step_decomp _ _ _ H) as (th & g' & th' & E & F & Q). subst s'. cbn [sh ths] in *.
  assert (Lt : t < length (ths s)) by (eapply nth_error_Some_lt; eauto).
  constructor; cbn [sh ths]; auto.
  - intros x hs sc Lx Qf. exact (N3 x Lx hs sc Qf).
  - (* history *)
    intros u thu Eu Ru. destruct (nth_error_upd_inv _ _ _ _ _ Eu) as [(-> & -> & _)|(Nu & Eu')].
    + assert (Rf : t_rot th = false) by (destruct (rot_prog_step _ _ _ _ _ F) as [Q _]; congruence).
      destruct (j_hist _ _ J _ _ E Rf) as (ops & Qo & Fa).
      destruct (hist_step w r orig s t th g' th' F0 J E F Rf) as [(Qp & Qu & _)|(o & res & Qp & Qu & _ & Al)].
      * exists ops. rewrite Qp, Qu. auto.
      * exists (ops ++ [o]). rewrite Qu, <- app_assoc. cbn. rewrite <- Qp. split; [exact Qo|].
        apply Forall2_app; [exact Fa | constructor; [exact Al | constructor]].
    + apply (j_hist _ _ J _ _ Eu' Ru).
  - (* per-thread facts *)
    intros u thu Eu. destruct (nth_error_upd_inv _ _ _ _ _ Eu) as [(-> & -> & _)|(Nu & Eu')].
    + apply (thr2_own w r orig s t th g' th' F0 J E F).
    + apply (thr2_other w r orig s t th g' th' u thu F0 J E F Eu' Nu).
Qed.

Lemma full2_step w r orig s t s' : Full2 w r orig s -> step s t = Some s' -> Full2 w r orig s'.
Proof. intros [F0 J] H. split; [eapply full_step; eauto | eapply inv2_step; eauto]. Qed.

Lemma inv2_init progs extra : Inv2 (progs ++ [] :: extra) (init progs extra).
Proof.
  assert (PC : forall t th, nth_error (ths (init progs extra)) t = Some th -> t_pc th = PIdle \/ t_pc th = PRIdle).
  { intros t th E. destruct (init_threads _ _ _ _ E) as [(p & _ & -> & _)|(_ & ->)]; cbn; auto. }
  assert (PCi : forall th, In th (ths (init progs extra)) -> t_pc th = PIdle \/ t_pc th = PRIdle).
  { intros th Hi. apply In_nth_error in Hi. destruct Hi as (t & E). eauto. }
  assert (Hr : forall x, sum (fun th => href th x) (ths (init progs extra)) = 0).
  { intros x. apply sum_zero. intros th Hi. unfold href. destruct (PCi th Hi) as [-> | ->]; reflexivity. }
  assert (Hp : forall h, sum (fun th => hpend (sh (init progs extra)) th h) (ths (init progs extra)) = 0).
  { intros h. apply sum_zero. intros th Hi. unfold hpend. destruct (PCi th Hi) as [-> | ->]; reflexivity. }
  constructor.
  - intros x Lx. rewrite Hr. cbn in Lx. assert (x = 0) by lia. subst x. reflexivity.
  - intros x Lx. split; [apply Hr|]. cbn. reflexivity.
  - intros h. unfold owners. rewrite Hp. cbn. unfold live, cnt. cbn.
    destruct h as [|h]; cbn; split; intros; lia.
  - intros x hs sc Lx Q. cbn in Lx. assert (x = 0) by lia. subst x. discriminate Q.
  - intros [|[|x]] Q; cbn in *; try discriminate; reflexivity.
  - intros x Lx Q. cbn in Lx. assert (x = 0) by lia. subst x. discriminate Q.
  - intros t th E Rf. exists []. split; [|].
    + destruct (init_threads _ _ _ _ E) as [(p & Ep & -> & _)|(_ & ->)]; [exact Ep | discriminate Rf].
    + destruct (init_threads _ _ _ _ E) as [(p & Ep & -> & _)|(_ & ->)]; constructor.
  - intros t th E. unfold th_facts2. destruct (PC t th E) as [-> | ->]; exact Logic.I.
Qed.

Theorem full2_reach w progs extra s :
  single_writer w progs extra -> reachable step (init progs extra) s ->
  Full2 w (length progs) (progs ++ [] :: extra) s.
Proof.
  intros SW R. split; [apply (full_reach w progs extra s SW R)|]. revert s R.
  apply (reachable_inv_rel sys step (Full w (length progs))).
  - intros s R. apply (full_reach w progs extra s SW R).
  - apply inv2_init.
  - intros s0 t s1. apply inv2_step.
Qed.
