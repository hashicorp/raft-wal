(* CloseStepInv.v -- every step preserves the global clauses of the protocol invariant CloseInv.Inv1
   (given CloseSafe.Safe): how the progress measure K of Close moves in a step (stage_step, K_move);
   the clauses about Close (close_facts, close_step); those about the await channels and the pending
   rotation (chan_facts, chan_step); and what a step of t leaves alone of the fields another thread u
   relies on (two_holders .. chans_len).  The per-thread clause i_thr is in CloseStepOwn / CloseStepThr;
   CloseReach.full_step puts the parts together. *)
From Coq Require Import List Arith Bool Lia.
From RW Require Import Conc.Sys Conc.SysFacts Conc.Close Conc.ListX Conc.CloseInv Conc.CloseFacts
     Conc.CloseK Conc.CloseSafe Conc.CloseSafeStep Conc.CloseStep1 Conc.CloseFrames.
Import ListNotations.

(* ---- the stage of Close of the stepping thread ------------------------------------------ *)
(* CloseInv.cstage of the thread after a step from t_pc th other than PIdle (stage_step) *)
Definition stage_after (th : thread) : nat :=
  match t_pc th with
  | PCFlag => 1 | PCLock => 2 | PCLocked => 3 | PC3 => 4 | PC4 => 5 | PC5 _ => 6 | PC6 _ => 7
  | PCSwapped _ _ => 8 | PC8 _ => 9
  | PRel _ _ _ | PLast _ _ _ | PRun _ _ _ _ => if op_close th then 9 else 0
  | _ => 0
  end.

Lemma stage_step g t th g' th' :
  pc_ok th = true -> step_thread g t th = Some (g', th') -> t_pc th' <> PPanic ->
  match t_pc th with
  | PIdle => cstage th = 0 /\ ((cstage th' = 0 /\ g_closed g' = g_closed g) \/
                              (cstage th' = 1 /\ cur_op th = Some OClose /\ g_closed g = false /\ g_closed g' = true))
  | _ => cstage th' = stage_after th
  end.
Proof.
  intros WF F NP. pose proof (close_pcs th WF) as CP.
  unfold stage_after, cstage at 1. unfold step_thread in F.
  destruct (t_pc th) eqn:P; crack F; inversion F; subst g' th'; clear F.
  all: try (exfalso; apply NP; reflexivity).
  all: rewrite ?cstage_continue; unfold cstage; cbn [t_pc setpc finish]; rewrite ?op_close_setpc.
  all: try match type of CP with _ = _ => rewrite CP end.
  all: try reflexivity.
  all: try (split; [reflexivity|]; auto; fail).
  (* a release: Close continues with its Unlock, every other call is at stage 0 *)
  all: destruct (op_close th); try reflexivity; try (rewrite (CP eq_refl); reflexivity).
  all: destruct k; reflexivity.
Qed.

(* the program counters at which a step moves the progress measure K of Close up by one *)
Definition stage_up (p : pc) (k : nat) : Prop :=
  match p with
  | PIdle => k = 0 | PCLock => k = 1 | PCLocked => k = 2 | PC3 => k = 3 | PC4 => k = 4 | PC5 _ => k = 5
  | PC6 _ => k = 6 | PCSwapped _ _ => k = 7 | PC8 _ => k = 8 | PUnl _ => k = 9
  | _ => False
  end.

(* ... and those at which a step of the closing thread never leaves it where it is *)
Definition stage_stays (p : pc) : Prop :=
  match p with
  | PCLock | PCLocked | PC3 | PC4 | PC5 _ | PC6 _ | PCSwapped _ _ | PC8 _ => False
  | _ => True
  end.

Lemma stage_next th :
  0 < cstage th ->
  (stage_after th = cstage th /\ stage_stays (t_pc th)) \/
  ((if stage_after th =? 0 then 10 else stage_after th) = S (cstage th) /\ stage_up (t_pc th) (cstage th)).
Proof.
  unfold cstage, stage_after, stage_up, stage_stays.
  destruct (t_pc th); try (intros L; exfalso; exact (Nat.lt_irrefl 0 L)); cbn; auto.
  all: destruct (op_close th); auto; intros L; exfalso; exact (Nat.lt_irrefl 0 L).
Qed.

Lemma stage0_stays th : cstage th = 0 -> stage_stays (t_pc th).
Proof. unfold cstage, stage_stays. destruct (t_pc th); auto; discriminate. Qed.

Lemma stage_after_0 th : cstage th = 0 -> stage_after th = 0.
Proof. unfold cstage, stage_after. destruct (t_pc th); try discriminate; auto. Qed.

Lemma stage_up_plain p k : special p = false -> stage_up p k -> k = 1 \/ k = 4 \/ k = 5 \/ k = 7 \/ k = 9.
Proof. destruct p; cbn; intros S U; try discriminate S; try (exfalso; exact U); subst k; auto 6. Qed.

(* ---- pc transitions of the rotation goroutine on plain steps ----------------------------- *)
Lemma rot_plain g t th g' th' :
  pc_ok th = true -> t_rot th = true -> step_thread g t th = Some (g', th') -> t_pc th' <> PPanic ->
  special (t_pc th) = false ->
  (forall c, rot_has (t_pc th') c = rot_has (t_pc th) c) /\
  (rot_pend (t_pc th') = true -> rot_pend (t_pc th) = true) /\
  (rot_pend (t_pc th) = true ->
   rot_pend (t_pc th') = true \/ (t_pc th = PRLocked /\ t_pc th' = PRExit /\ g_closed g = true)).
Proof.
  (* the rotation goroutine: PRIdle -> PRRecv -> PRLock -> PRLocked -> (closed: PRExit -> PRDone |
     PM0 KRot .. the transaction .. PRT3 -> PRT4 d -> PRT5 d -> PRIdle).  rot_pend holds from PRRecv to PRT3
     and ends on a plain step only at PRLocked -> PRExit; rot_has changes at PRT3 and PRT5, both special. *)
  intros WF R F NP S.
  destruct th as [rot prog outs p]. cbn in R. subst rot. unfold step_thread in F. cbn [t_pc] in F, S.
  unfold pc_ok in WF. cbn [t_rot t_prog t_pc] in WF. destruct prog; [|discriminate].
  destruct p; try discriminate S; try discriminate WF; cbn in F; crack F;
    try (destruct (pm3_tx _ _ _ _) eqn:?); inversion F; subst; clear F.
  all: try (exfalso; apply NP; reflexivity). all: clear NP.
  all: cbn [t_pc setpc finish continue rot_has rot_pend rot_cs] in *.
  all: try (repeat split; auto; fail).
  all: repeat match goal with k : kont |- _ => destruct k; try discriminate end.
  all: cbn [t_pc setpc finish continue rot_has rot_pend rot_cs] in *.
  all: try (repeat split; auto; fail).
  all: try (split; [reflexivity|]; split; [auto|]; intros _; right; auto; fail).
Qed.

Section Pres.
  Variables (w r : tid).

  (* the fields i_nact .. i_aw3 of Inv1 *)
  Definition close_facts (s : sys) : Prop :=
    nact (ths s) <= 1 /\ (g_closed (sh s) = false -> nact (ths s) = 0) /\
    g_trig_closed (sh s) = (4 <=? K (sh s) (ths s)) /\
    g_meta_closes (sh s) = b2n (9 <=? K (sh s) (ths s)) /\
    s_open (getst (sh s) (g_cur (sh s))) = (K (sh s) (ths s) <? 7) /\
    (3 <= K (sh s) (ths s) -> g_await (sh s) = None).

  Lemma getst_last g st0 : getst {| g_closed := g_closed g; g_mu := g_mu g; g_trig := g_trig g;
                                   g_trig_closed := g_trig_closed g; g_await := g_await g; g_chans := g_chans g;
                                   g_cur := length (g_states g); g_states := g_states g ++ [st0];
                                   g_hnds := g_hnds g; g_meta_closes := g_meta_closes g; g_stable := g_stable g |}
                               (length (g_states g)) = st0.
  Proof. unfold getst; cbn. rewrite app_nth2 by lia. now rewrite Nat.sub_diag. Qed.

  (* every step leaves K alone or moves it up by one, and keeps at most one Close active *)
  Definition K_moves (g g' : shared) (p : pc) (k k' : nat) : Prop :=
    (k' = k /\ g_closed g' = g_closed g /\ stage_stays p) \/ (k' = S k /\ g_closed g' = true /\ stage_up p k).

  (* at a pc where K never moves up *)
  Lemma K_stays g g' p k k' : K_moves g g' p k k' -> (forall k0, ~ stage_up p k0) -> k' = k /\ g_closed g' = g_closed g.
  Proof. intros [(Q & C & _)|(_ & _ & U)] N; [auto | destruct (N _ U)]. Qed.

  Lemma K_move s t th g' th' :
    Safe s -> Inv1 w r s -> nth_error (ths s) t = Some th -> step_thread (sh s) t th = Some (g', th') ->
    nact (upd (ths s) t th') <= 1 /\ (g_closed g' = false -> nact (upd (ths s) t th') = 0) /\
    K_moves (sh s) g' (t_pc th) (K (sh s) (ths s)) (K g' (upd (ths s) t th')).
  Proof.
    intros SA I E F. unfold K_moves.
    pose proof (no_panic w r _ _ _ _ _ SA I E F) as NP.
    pose proof (stage_step _ _ _ _ _ (i_wf _ _ _ I _ _ E) F NP) as ST.
    destruct (K_step (sh s) g' (ths s) t th th' (i_nact _ _ _ I) (i_nact0 _ _ _ I) E) as (K1 & K2 & K3).
    pose proof (nact_upd (ths s) t th th' E) as HN.
    pose proof (i_nact _ _ _ I) as N1. pose proof (i_nact0 _ _ _ I) as N0.
    assert (Hc : t_pc th <> PIdle -> g_closed g' = g_closed (sh s))
      by (intros NI; destruct (frame_closed _ _ _ _ _ F) as [Q|(Q & _)]; [exact Q | contradiction]).
    assert (M : cstage th' = stage_after th -> g_closed g' = g_closed (sh s) ->
                nact (upd (ths s) t th') <= 1 /\ (g_closed g' = false -> nact (upd (ths s) t th') = 0) /\
                ((K g' (upd (ths s) t th') = K (sh s) (ths s) /\ g_closed g' = g_closed (sh s) /\ stage_stays (t_pc th)) \/
                 (K g' (upd (ths s) t th') = S (K (sh s) (ths s)) /\ g_closed g' = true /\ stage_up (t_pc th) (K (sh s) (ths s))))).
    { intros Q C. destruct (Nat.eq_dec (cstage th) 0) as [Z|Z].
      - (* not the closing thread *)
        rewrite (stage_after_0 th Z) in Q. rewrite Z, Q in HN. pose proof (stage0_stays th Z).
        rewrite (K1 Z Q C). replace (nact (upd (ths s) t th')) with (nact (ths s)) by (cbn in HN; lia).
        rewrite C at 1. split; [exact N1|]. split; [exact N0|]. left. auto.
      - (* the closing thread: K is its stage *)
        destruct (K_active w r s t th I E ltac:(lia)) as [C0 _]. rewrite C0 in C.
        destruct (K3 ltac:(lia) C) as (_ & Kq & Kq'). rewrite Kq, Kq', C, Q.
        pose proof (sum_ge_nth (fun th => b2n (0 <? cstage th)) (ths s) t th E) as G. cbn beta in G. fold (nact (ths s)) in G.
        destruct (Nat.ltb_spec 0 (cstage th)) as [L|L]; [|lia]. cbn [b2n] in HN, G.
        split; [destruct (0 <? cstage th'); cbn [b2n] in HN; lia|]. split; [discriminate|].
        destruct (stage_next th L) as [[Q1 St]|[Q1 Up]]; [left; rewrite Q1|right; auto].
        destruct (Nat.eqb_spec (cstage th) 0); [contradiction | auto]. }
    destruct (t_pc th) eqn:P; try (apply M; [exact ST | apply Hc; discriminate]).
    (* PIdle: a call starts; Close sets the flag *)
    destruct ST as [A0 [(B0 & C)|(B1 & _ & Cf & Ct)]].
    - rewrite A0, B0 in HN. rewrite (K1 A0 B0 C).
      replace (nact (upd (ths s) t th')) with (nact (ths s)) by (cbn in HN; lia). rewrite C at 1.
      split; [exact N1|]. split; [exact N0|]. left. cbn. auto.
    - destruct (K2 A0 B1 Cf Ct) as [Kq Kq']. rewrite Kq, Kq', Ct. specialize (N0 Cf). rewrite A0, B1 in HN. cbn in HN.
      split; [lia|]. split; [discriminate|]. right. repeat split; reflexivity.
  Qed.

  (* how K moves on a plain step *)
  Lemma K_plain s t th g' th' :
    Safe s -> Inv1 w r s -> nth_error (ths s) t = Some th -> step_thread (sh s) t th = Some (g', th') ->
    special (t_pc th) = false ->
    (K g' (upd (ths s) t th') <= 1 -> K (sh s) (ths s) = K g' (upd (ths s) t th')) /\
    (1 <= K (sh s) (ths s) <= 2 -> 1 <= K g' (upd (ths s) t th') <= 2).
  Proof.
    intros SA I E F S. destruct (K_move s t th g' th' SA I E F) as (_ & _ & [(Q & _)|(Q & _ & U)]); [rewrite Q; auto|].
    pose proof (stage_up_plain _ _ S U). lia.
  Qed.

  (* the clauses look at K only through four tests, which the moves of a plain step do not change *)
  Lemma close_step_plain s t th g' th' :
    Safe s -> Inv1 w r s -> nth_error (ths s) t = Some th -> step_thread (sh s) t th = Some (g', th') ->
    special (t_pc th) = false -> close_facts {| sh := g'; ths := upd (ths s) t th' |}.
  Proof.
    intros SA I E F S. destruct (K_move s t th g' th' SA I E F) as (N1 & N0 & KM).
    destruct (frame_plain _ _ _ _ _ F S) as [_ _ Tc _ _ Me Cu _ Op].
    assert (T : (4 <=? K g' (upd (ths s) t th')) = (4 <=? K (sh s) (ths s)) /\
                (9 <=? K g' (upd (ths s) t th')) = (9 <=? K (sh s) (ths s)) /\
                (K g' (upd (ths s) t th') <? 7) = (K (sh s) (ths s) <? 7) /\
                (3 <= K g' (upd (ths s) t th') -> 3 <= K (sh s) (ths s))).
    { destruct KM as [(Q & _)|(Q & _ & U)]; [rewrite Q; auto|]. rewrite Q.
      destruct (stage_up_plain _ _ S U) as [Z|[Z|[Z|[Z|Z]]]]; rewrite Z; cbn; repeat split; lia. }
    destruct T as (T4 & T9 & T7 & T3).
    unfold close_facts. cbn [sh ths]. rewrite Tc, Me, Cu, Op, T4, T9, T7.
    split; [exact N1|]. split; [exact N0|]. split; [apply (i_tc _ _ _ I)|]. split; [apply (i_meta _ _ _ I)|].
    split; [apply (i_open _ _ _ I)|]. intros L.
    destruct (frame_plain _ _ _ _ _ F S) as [_ _ _ Aw _ _ _ _ _]. rewrite Aw. apply (i_aw3 _ _ _ I (T3 L)).
  Qed.

  Lemma close_step_special s t th g' th' :
    Safe s -> Inv1 w r s -> nth_error (ths s) t = Some th -> step_thread (sh s) t th = Some (g', th') ->
    special (t_pc th) = true -> close_facts {| sh := g'; ths := upd (ths s) t th' |}.
  Proof.
    intros SA I E F S.
    destruct (K_move s t th g' th' SA I E F) as (N1 & N0 & KM).
    pose proof (no_panic w r _ _ _ _ _ SA I E F) as NP.
    pose proof (i_thr _ _ _ I _ _ E) as TF. unfold th_facts1 in TF.
    pose proof (i_tc _ _ _ I) as Itc. pose proof (i_meta _ _ _ I) as Imeta.
    pose proof (i_open _ _ _ I) as Iopen. pose proof (i_aw3 _ _ _ I) as Iaw3.
    unfold close_facts. cbn [sh ths]. split; [exact N1|]. split; [exact N0|]. clear N1 N0.
    unfold K_moves in KM.
    destruct (t_pc th) eqn:P; try discriminate S; cbn [stage_up stage_stays] in KM;
      destruct KM as [(Kq & Cq & St)|(Kq & Cq & Up)]; try contradiction; rewrite Kq; clear Kq;
      unfold step_thread in F; rewrite P in F; crack F; open_tx; inversion F; subst g' th'; clear F.
    all: try (exfalso; apply NP; reflexivity).
    all: try rewrite Up in *.
    all: unfold getst in *;
      cbn [g_closed g_mu g_trig g_trig_closed g_await g_chans g_cur g_states g_hnds g_meta_closes g_stable
           set_trig set_closed set_await set_meta set_mu set_hnds set_states set_cur publish] in *.
    all: try (rewrite app_nth2 by lia; rewrite Nat.sub_diag; cbn [nth s_open mk_state empty_state]).
    all: repeat split; try assumption; try reflexivity; try congruence; try (intros; lia); try (intros _; apply Iaw3; lia).
    - (* triggerRotateLocked queues a rotation: Close has not been called *)
      intros L. unfold K in L. rewrite Heqb in L. lia.
    - (* the transaction publishes an open state: Close has not emptied the old one *)
      destruct TF as (Yc & Oy & _). rewrite <- Iopen, <- Yc. symmetry. exact Oy.
    - (* metaDB.Close *) rewrite Imeta. reflexivity.
  Qed.

  Lemma close_step s t s' : Safe s -> Inv1 w r s -> step s t = Some s' -> close_facts s'.
  Proof.
    intros SA I H. destruct (step_decomp _ _ _ H) as (th & g' & th' & E & F & ->).
    destruct (special (t_pc th)) eqn:S;
      [eapply close_step_special | eapply close_step_plain]; eauto.
  Qed.

  (* the fields i_ch1 .. i_trig of Inv1 *)
  Definition chan_facts (s : sys) : Prop :=
    (forall c, g_await (sh s) = Some c -> chan_open (sh s) c) /\
    (forall c, chan_open (sh s) c -> g_await (sh s) = Some c \/ rot_has (rot_pc (ths s) r) c = true) /\
    (K (sh s) (ths s) = 0 -> g_trig (sh s) = true \/ rot_pend (rot_pc (ths s) r) = true ->
     g_await (sh s) <> None) /\
    (forall c, g_await (sh s) = Some c ->
               g_trig (sh s) = true \/ rot_pend (rot_pc (ths s) r) = true \/
               (exists t th, nth_error (ths s) t = Some th /\ at_send th = true) \/
               (1 <= K (sh s) (ths s) <= 2)) /\
    (rot_pend (rot_pc (ths s) r) = true -> K (sh s) (ths s) <= 1 -> g_trig (sh s) = false).

  Lemma at_send_keep T t th th' :
    nth_error T t = Some th -> at_send th = false ->
    (exists u thu, nth_error T u = Some thu /\ at_send thu = true) ->
    exists u thu, nth_error (upd T t th') u = Some thu /\ at_send thu = true.
  Proof.
    intros E A (u & thu & Eu & Au). exists u, thu. split; [|exact Au].
    rewrite nth_error_upd_neq; [exact Eu|]. intros ->. congruence.
  Qed.

  Lemma rot_is s thr : Inv1 w r s -> nth_error (ths s) r = Some thr -> t_rot thr = true.
  Proof. intros I E. destruct (i_rot _ _ _ I) as (x & Ex & Rx). congruence. Qed.

  Lemma K_pos s : Inv1 w r s -> g_closed (sh s) = true -> 1 <= K (sh s) (ths s).
  Proof. intros I C. destruct (K_closed w r s I C); lia. Qed.

  Lemma chan_step_plain s t th g' th' :
    Safe s -> Inv1 w r s -> nth_error (ths s) t = Some th -> step_thread (sh s) t th = Some (g', th') ->
    special (t_pc th) = false -> chan_facts {| sh := g'; ths := upd (ths s) t th' |}.
  Proof.
    intros SA I E F S.
    pose proof (no_panic w r _ _ _ _ _ SA I E F) as NP. pose proof (i_wf _ _ _ I _ _ E) as WF.
    pose proof (frame_plain _ _ _ _ _ F S) as CS.
    destruct (K_plain s t th g' th' SA I E F S) as (KP1 & KP2).
    assert (AS : at_send th = false) by (unfold at_send; destruct (t_pc th); try reflexivity; discriminate S).
    (* the rotator's pc before and after *)
    assert (RP : (forall c, rot_has (rot_pc (upd (ths s) t th') r) c = rot_has (rot_pc (ths s) r) c) /\
                 (rot_pend (rot_pc (upd (ths s) t th') r) = true -> rot_pend (rot_pc (ths s) r) = true) /\
                 (rot_pend (rot_pc (ths s) r) = true ->
                  rot_pend (rot_pc (upd (ths s) t th') r) = true \/
                  (r = t /\ t_pc th = PRLocked /\ g_closed (sh s) = true))).
    { rewrite (rot_pc_upd (ths s) t th th' r E). destruct (Nat.eqb_spec r t) as [Qr|N]; [|auto].
      assert (Er : nth_error (ths s) r = Some th) by (rewrite Qr; exact E).
      assert (Rq : rot_pc (ths s) r = t_pc th) by (unfold rot_pc; now rewrite Er). rewrite Rq.
      destruct (rot_plain _ _ _ _ _ WF (rot_is s th I Er) F NP S) as (R1 & R2 & R3).
      split; [exact R1|]. split; [exact R2|]. intros Pe. destruct (R3 Pe) as [Q|(Q1 & Q2 & Q3)]; auto. }
    destruct RP as (RH & RP1 & RP2).
    unfold chan_facts. cbn [sh ths]. unfold chan_open.
    rewrite (cs_await _ _ CS), (cs_chans _ _ CS), (cs_trig _ _ CS).
    split; [|split; [|split; [|split]]].
    - apply (i_ch1 _ _ _ I).
    - intros c Co. rewrite RH. apply (i_ch2 _ _ _ I c Co).
    - intros K0 Hd. rewrite <- (KP1 ltac:(lia)) in K0. apply (i_pend _ _ _ I K0).
      destruct Hd as [Hd|Hd]; auto.
    - intros c Aw. destruct (i_aw _ _ _ I c Aw) as [Tr|[Pe|[Se|HK]]]; auto.
      + destruct (RP2 Pe) as [Q|(Qr & Pl & Cl)]; auto.
        (* the rotator saw the closed flag: Close waits for the mutex it holds *)
        right; right; right. apply KP2.
        assert (Hm : holds_mu th = true) by (unfold holds_mu; now rewrite Pl).
        assert (C0 : cstage th = 0) by (unfold cstage; now rewrite Pl).
        pose proof (K_pos s I Cl) as Kp.
        destruct (Nat.le_gt_cases (K (sh s) (ths s)) 2) as [L|L]; [lia|].
        pose proof (i_aw3 _ _ _ I ltac:(lia)). congruence.
      + right; right; left. eapply at_send_keep; eauto.
    - intros Pe K1. rewrite <- (KP1 K1) in K1. apply (i_trig _ _ _ I (RP1 Pe) K1).
  Qed.

  Lemma chan_step_special s t th g' th' :
    Safe s -> Inv1 w r s -> nth_error (ths s) t = Some th -> step_thread (sh s) t th = Some (g', th') ->
    special (t_pc th) = true -> chan_facts {| sh := g'; ths := upd (ths s) t th' |}.
  Proof.
    intros SA I E F S.
    pose proof (no_panic w r _ _ _ _ _ SA I E F) as NP. pose proof (i_wf _ _ _ I _ _ E) as WF.
    pose proof (i_thr _ _ _ I _ _ E) as TF. unfold th_facts1 in TF.
    pose proof (i_ch1 _ _ _ I) as C1. pose proof (i_ch2 _ _ _ I) as C2. pose proof (i_pend _ _ _ I) as C3.
    pose proof (i_aw _ _ _ I) as C4. pose proof (i_trig _ _ _ I) as C5. pose proof (i_aw3 _ _ _ I) as Iaw3.
    destruct (K_move s t th g' th' SA I E F) as (_ & _ & KM). unfold K_moves in KM.
    assert (RPO : r = t -> rot_pc (ths s) r = t_pc th) by (intros Q; unfold rot_pc; rewrite Q, E; reflexivity).
    assert (NR : t_rot th = false -> r <> t)
      by (intros Rf Q; destruct (i_rot _ _ _ I) as (x & Ex & Rx); rewrite Q in Ex; congruence).
    assert (ASK : at_send th = false -> forall th1,
                  (exists u thu, nth_error (ths s) u = Some thu /\ at_send thu = true) ->
                  exists u thu, nth_error (upd (ths s) t th1) u = Some thu /\ at_send thu = true)
      by (intros; eapply at_send_keep; eauto).
    assert (ASN : forall th1, at_send th1 = true ->
                  exists u thu, nth_error (upd (ths s) t th1) u = Some thu /\ at_send thu = true)
      by (intros th1 Q; exists t, th1; split; [apply nth_error_upd_eq; eapply nth_error_Some_lt; eauto | exact Q]).
    assert (RT : (t_rot th = true /\ (r =? t) = true /\ rot_pc (ths s) r = t_pc th) \/
                 (t_rot th = false /\ (r =? t) = false)).
    { destruct (t_rot th) eqn:Rt.
      - left. assert (Q : r = t) by (destruct (Nat.eq_dec t r) as [Q|Q]; [auto|];
          pose proof (i_nrot _ _ _ I _ _ E Q); congruence).
        split; [reflexivity|]. split; [now apply Nat.eqb_eq | now apply RPO].
      - right. split; [reflexivity|]. apply Nat.eqb_neq. now apply NR. }
    clear RPO NR.
    destruct (t_pc th) eqn:P; try discriminate S; cbn [stage_up stage_stays] in KM;
      (destruct KM as [(Kq & Cq & St)|(Kq & Cq & Up)]; try contradiction);
      (destruct RT as [(Rt & Rq & Rp)|(Rt & Rq)]; try rewrite Rp in *;
       try (exfalso; clear -WF P Rt; unfold pc_ok in WF; rewrite Rt, P in WF;
            destruct (t_prog th); try discriminate; repeat match goal with k : kont |- _ => destruct k end; discriminate));
      unfold step_thread in F; rewrite P in F; crack F;
      open_tx;
      inversion F; subst g' th'; clear F.
    all: try (exfalso; apply NP; reflexivity).
    all: unfold chan_facts, chan_open in *; cbn [sh ths]; rewrite (rot_pc_upd _ _ _ _ _ E), Rq, Kq; clear Kq;
      try rewrite Up in *.
    all: cbn [g_closed g_mu g_trig g_trig_closed g_await g_chans g_cur g_states g_hnds g_meta_closes g_stable
              set_trig set_closed set_await set_meta set_mu set_hnds set_states set_cur publish
              t_pc setpc finish at_send rot_has rot_pend rot_cs] in *.
    all: try (unfold at_send in ASK; rewrite P in ASK; specialize (ASK eq_refl)).
    (* a call that starts after Close was called does not move K *)
    all: try (exfalso; match goal with H : g_closed _ = true |- _ => pose proof (K_pos _ I H) end; lia).
    all: try (exfalso; congruence).
    (* leaves that change nothing the clauses look at *)
    all: try (split; [exact C1|]; split; [exact C2|]; split; [exact C3|]; split; [|exact C5];
              intros c Aw; destruct (C4 c Aw) as [?|[?|[Se|?]]]; auto; fail).
    (* Close is past stage 3: nothing is awaited *)
    all: try (assert (AwN : g_await (sh s) = None) by (apply Iaw3; lia); rewrite ?AwN in *;
              split; [intros c Q; discriminate Q|]; split; [exact C2|]; split; [intros; lia|];
              split; [intros c Q; discriminate Q | intros; lia]; fail).
    - (* Close sets the flag *)
      split; [exact C1|]. split; [exact C2|]. split; [intros; lia|]. split; [intros; right; right; right; lia|].
      intros Pe _. apply C5; [exact Pe | lia].
    - (* triggerRotateLocked: make(chan) *)
      destruct TF as (_ & _ & AwN).
      split; [|split; [|split; [|split]]].
      + intros c Q. inversion Q; subst. rewrite app_length. cbn. split; [lia|].
        rewrite app_nth2 by lia. now rewrite Nat.sub_diag.
      + intros c [Lc Oc]. rewrite app_length in Lc. cbn in Lc.
        destruct (Nat.eq_dec c (length (g_chans (sh s)))) as [->|Nc]; [now left|].
        rewrite app_nth1 in Oc by lia. destruct (C2 c) as [Q|Q]; [split; [lia | exact Oc] | congruence | now right].
      + intros _ _. discriminate.
      + intros c _. right; right; left. apply ASN. reflexivity.
      + exact C5.
    - (* send on triggerRotate *)
      destruct TF as (_ & _ & Tr & AwS & Pe).
      split; [exact C1|]. split; [exact C2|]. split; [intros; exact AwS|]. split; [intros; now left|].
      intros Q. congruence.
    - (* Close closes the awaited channel *)
      split; [intros c Q; discriminate Q|]. split; [|split; [intros; lia | split; [intros c Q; discriminate Q | intros; lia]]].
      intros c [Lc Oc]. rewrite upd_length in Lc.
      destruct (Nat.eq_dec n c) as [->|Nc]; [rewrite nth_upd_eq in Oc by exact Lc; discriminate|].
      rewrite nth_upd_neq in Oc by exact Nc. destruct (C2 c (conj Lc Oc)) as [Q|Q]; [congruence | now right].
    - (* Close, nothing awaited *)
      rewrite Heqo in *.
      split; [intros c Q; discriminate Q|]. split; [exact C2|]. split; [intros; lia|].
      split; [intros c Q; discriminate Q | intros; lia].
    - (* the rotation goroutine receives the trigger *)
      split; [exact C1|]. split; [exact C2|]. split; [intros K0 _; apply C3; auto|].
      split; [intros; right; now left | reflexivity].
    - (* it receives from the closed channel *)
      pose proof (i_tc _ _ _ I) as Itc.
      split; [exact C1|]. split; [exact C2|]. split; [|split; [intros; right; now left | intros; assumption]].
      intros K0. rewrite K0 in Itc. cbn in Itc. congruence.
    - (* the rotation goroutine clears awaitRotate *)
      destruct TF as (Kle & AwS).
      split; [intros c Q; discriminate Q|]. split; [|split; [|split; [intros c Q; discriminate Q | intros Q; discriminate Q]]].
      + intros c Co. destruct (C2 c Co) as [Q|Q]; [|discriminate Q]. right. rewrite Q. apply Nat.eqb_refl.
      + intros K0 [Tr|Q]; [|discriminate Q]. rewrite (C5 eq_refl ltac:(lia)) in Tr. discriminate.
    - (* it closes the channel it took *)
      destruct TF as (c0 & Qd & [Lc0 Oc0] & Na). inversion Qd; subst c0.
      split; [|split; [|split; [exact C3|split]]].
      + intros c Aw. destruct (C1 c Aw) as [Lc Oc]. rewrite upd_length. split; [exact Lc|].
        rewrite nth_upd_neq; [exact Oc | congruence].
      + intros c [Lc Oc]. rewrite upd_length in Lc.
        destruct (Nat.eq_dec n c) as [->|Nc]; [rewrite nth_upd_eq in Oc by exact Lc; discriminate|].
        rewrite nth_upd_neq in Oc by exact Nc. destruct (C2 c (conj Lc Oc)) as [Q|Q]; [now left|].
        apply Nat.eqb_eq in Q. congruence.
      + intros c Aw. destruct (C4 c Aw) as [Q|[Q|[Se|Q]]]; auto.
      + intros Q; discriminate Q.
  Qed.

  Lemma chan_step s t s' : Safe s -> Inv1 w r s -> step s t = Some s' -> chan_facts s'.
  Proof.
    intros SA I H. destruct (step_decomp _ _ _ H) as (th & g' & th' & E & F & ->).
    destruct (special (t_pc th)) eqn:S;
      [eapply chan_step_special | eapply chan_step_plain]; eauto.
  Qed.


  (* ---- what a step of t can do to the fields another thread u relies on ------------------ *)
  Lemma two_holders s t u th thu :
    Safe s -> nth_error (ths s) t = Some th -> nth_error (ths s) u = Some thu ->
    holds_mu th = true -> holds_mu thu = true -> t = u.
  Proof. intros SA E Eu H1 H2. pose proof (a_mu1 _ SA _ _ E H1). pose proof (a_mu1 _ SA _ _ Eu H2). congruence. Qed.

  Lemma cur_stable s t u th thu g' th' :
    Safe s -> nth_error (ths s) t = Some th -> nth_error (ths s) u = Some thu -> u <> t ->
    step_thread (sh s) t th = Some (g', th') -> holds_mu thu = true -> g_cur g' = g_cur (sh s).
  Proof.
    intros SA E Eu N F Hu. destruct (frame_cur _ _ _ _ _ F) as [(Q & _)|[(y & k & st0 & P & _)|(x & P & _)]]; [exact Q| |];
      exfalso; apply N; symmetry; apply (two_holders s t u th thu SA E Eu); auto; holder_of P.
  Qed.

  Lemma states_len g t th g' th' :
    step_thread g t th = Some (g', th') -> length (g_states g) <= length (g_states g').
  Proof.
    intros F. destruct (frame_cur _ _ _ _ _ F) as [(_ & Q & _)|[(y0 & k & st0 & _ & _ & _ & Q)|(x0 & _ & _ & Q & _)]];
      rewrite ?Q, ?app_length; cbn; lia.
  Qed.

  Lemma open_stable g t th g' th' x :
    step_thread g t th = Some (g', th') -> x < length (g_states g) -> s_open (getst g' x) = s_open (getst g x).
  Proof.
    intros F L. destruct (frame_cur _ _ _ _ _ F) as [(_ & _ & Q)|[(y & k & st0 & P & _ & _ & Q)|(y & P & _ & Q & _)]].
    - apply Q.
    - unfold getst. rewrite Q. now rewrite app_nth1 by exact L.
    - unfold getst. rewrite Q. now rewrite app_nth1 by exact L.
  Qed.

  Lemma await_stable_h s t u th thu g' th' :
    Safe s -> nth_error (ths s) t = Some th -> nth_error (ths s) u = Some thu -> u <> t ->
    step_thread (sh s) t th = Some (g', th') -> holds_mu thu = true -> g_await g' = g_await (sh s).
  Proof.
    intros SA E Eu N F Hu.
    destruct (frame_await _ _ _ _ _ F) as [(Q & _)|[(x & P & _)|[(P & _)|[(P & _)|(c & P & Q & _)]]]]; auto;
      exfalso; apply N; symmetry; apply (two_holders s t u th thu SA E Eu); auto; holder_of P.
  Qed.

  Lemma trig_stable s t u th thu g' th' :
    Safe s -> nth_error (ths s) t = Some th -> nth_error (ths s) u = Some thu -> u <> t ->
    step_thread (sh s) t th = Some (g', th') -> holds_mu thu = true ->
    g_trig (sh s) = false -> g_trig g' = false.
  Proof.
    intros SA E Eu N F Hu Tr.
    destruct (frame_trig _ _ _ _ _ F) as [(Q & _)|[(x & P & _)|[(P & _ & Q & _)|(P & Q & _)]]]; try congruence.
    exfalso; apply N; symmetry; apply (two_holders s t u th thu SA E Eu); auto; holder_of P.
  Qed.

  Lemma chans_len g t th g' th' :
    step_thread g t th = Some (g', th') -> length (g_chans g) <= length (g_chans g').
  Proof.
    intros F.
    destruct (frame_await _ _ _ _ _ F) as [(_ & Q)|[(x & _ & _ & _ & Q & _)|[(_ & _ & Q & _)|[(_ & _ & _ & Q)|(c & _ & _ & Q & _)]]]];
      try (rewrite Q; rewrite ?app_length, ?upd_length; cbn; lia).
    destruct (g_await g); rewrite Q; rewrite ?upd_length; lia.
  Qed.
End Pres.
