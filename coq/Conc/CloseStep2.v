(* CloseStep2.v -- every step preserves the reference-count equations (j_ref, j_oob: ref_step) and the
   ownership of file handles (j_own: own_step) of CloseInv2.Inv2, given part 1 of the invariant.  The other
   clauses are in CloseStep3-5; CloseReach2.inv2_step puts them together. *)
From Coq Require Import List Arith Bool Lia.
From RW Require Import Conc.Sys Conc.SysFacts Conc.Close Conc.ListX Conc.CloseInv Conc.CloseInv2 Conc.CloseFacts
     Conc.CloseK Conc.CloseSafe Conc.CloseSafeStep Conc.CloseStep1 Conc.CloseFrames Conc.CloseFrames2
     Conc.CloseStepInv Conc.CloseStepThr Conc.CloseStepOwn Conc.CloseReach Conc.CloseCount.
Import ListNotations.

Lemma publish_shape g nh st0 :
  let g' := publish (set_hnds g (g_hnds g ++ nh)) st0 in
  length (g_states g') = S (length (g_states g)) /\
  (forall x, x < length (g_states g) -> getst g' x = getst g x) /\
  getst g' (length (g_states g)) = st0 /\
  (forall x, sum (fun st1 => fsucc (s_fin st1) x) (g_states g') =
             sum (fun st1 => fsucc (s_fin st1) x) (g_states g) + fsucc (s_fin st0) x).
Proof.
  cbn zeta. split; [cbn; rewrite app_length; cbn; lia|]. split; [|split].
  - intros x L. unfold getst; cbn. now rewrite app_nth1 by exact L.
  - unfold getst; cbn. rewrite app_nth2 by lia. now rewrite Nat.sub_diag.
  - intros x. cbn. rewrite sum_app. cbn. lia.
Qed.

Lemma hpend_segs g g' thu h :
  (forall x, s_segs (getst g' x) = s_segs (getst g x)) -> hpend g' thu h = hpend g thu h.
Proof. intros Hs. unfold hpend. destruct (t_pc thu); try reflexivity. now rewrite Hs. Qed.

(* the step leaves states and state pointer alone and the thread has the same handles pending *)
Lemma owners_same g g' T t th th' :
  nth_error T t = Some th -> g_states g' = g_states g -> g_cur g' = g_cur g ->
  (forall h, hpend g th' h = hpend g th h) -> forall h, owners g' (upd T t th') h = owners g T h.
Proof.
  intros E Qs Qc Hp h. unfold owners, live, getst. rewrite Qs, Qc. f_equal.
  rewrite (sum_ext _ (fun thu => hpend g thu h)) by (intros; apply hpend_segs; intros; unfold getst; now rewrite Qs).
  apply sum_upd_same with (a := th); [exact E | apply Hp].
Qed.

(* state z is overwritten, keeping its handle list: what its finalizer field and the thread hold balances *)
Lemma owners_upd g T t th th' z st' :
  nth_error T t = Some th -> z < length (g_states g) ->
  s_open st' = s_open (getst g z) -> s_segs st' = s_segs (getst g z) ->
  (forall h, fin_cnt (s_fin (getst g z)) h + hpend g th h = fin_cnt (s_fin st') h + hpend g th' h) ->
  forall h, owners (upd_st g z st') (upd T t th') h = owners g T h.
Proof.
  intros E Lz Ho Hs Hb h.
  unfold owners, live. cbn [g_cur g_states upd_st set_states].
  rewrite (getst_upd_keeps s_open _ _ _ Ho), (getst_upd_keeps s_segs _ _ _ Hs).
  rewrite (sum_ext _ (fun thu => hpend g thu h)) by (intros; apply hpend_segs, (getst_upd_keeps s_segs _ _ _ Hs)).
  pose proof (sum_upd (fun thu => hpend g thu h) T t th th' E) as H1.
  pose proof (sum_upd (fun st0 => fin_cnt (s_fin st0) h) (g_states g) z _ st' (nth_error_getst g z Lz)) as H2.
  cbn beta in H1, H2. specialize (Hb h). lia.
Qed.

(* the reference-count equation of one state *)
Definition refeq (g : shared) (T : list thread) (x : nat) : Prop :=
  s_ref (getst g x) = sum (fun th => href th x) T + sum (fun st0 => fsucc (s_fin st0) x) (g_states g).

(* the clauses j_ref and j_oob of Inv2, of shared state g and thread list T *)
Definition refs_ok (g : shared) (T : list thread) : Prop :=
  (forall x, x < length (g_states g) -> refeq g T x) /\
  (forall x, length (g_states g) <= x ->
     sum (fun th => href th x) T = 0 /\ sum (fun st0 => fsucc (s_fin st0) x) (g_states g) = 0).

(* the step leaves the states alone and the thread holds what it held *)
Lemma refs_same g g' T t th th' :
  nth_error T t = Some th -> g_states g' = g_states g -> (forall x, href th' x = href th x) ->
  refs_ok g T -> refs_ok g' (upd T t th').
Proof.
  intros E Qs Qh [JR JO]. unfold refs_ok, refeq, getst in *. rewrite Qs.
  split; intros x L; pose proof (sum_upd (fun th => href th x) T t th th' E) as HS; cbn beta in HS; rewrite Qh in HS.
  - rewrite (JR x L). lia.
  - destruct (JO x L). split; lia.
Qed.

(* state z is overwritten: count, holdings of the thread and successor reference of z balance at every x
   (the thread's holding on z is counted in the old reference count of z) *)
Lemma refs_upd g T t th th' z st' :
  nth_error T t = Some th -> z < length (g_states g) ->
  (href th z <= s_ref (getst g z) ->
   forall x, (if z =? x then s_ref st' else s_ref (getst g x)) + href th x + fsucc (s_fin (getst g z)) x =
             s_ref (getst g x) + href th' x + fsucc (s_fin st') x) ->
  refs_ok g T -> refs_ok (upd_st g z st') (upd T t th').
Proof.
  intros E Lz Hb [JR JO].
  pose proof (fun x => sum_upd (fun th => href th x) T t th th' E) as HS.
  pose proof (fun x => sum_upd (fun st0 => fsucc (s_fin st0) x) (g_states g) z _ st' (nth_error_getst g z Lz)) as HF.
  pose proof (fun x => sum_ge_nth (fun th => href th x) T t th E) as G.
  pose proof (fun x => sum_ge_nth (fun st0 => fsucc (s_fin st0) x) (g_states g) z _ (nth_error_getst g z Lz)) as GF.
  cbn beta in HS, HF, G, GF.
  assert (Hb' := Hb ltac:(rewrite (JR z Lz); specialize (G z); lia)). clear Hb.
  split; intros x L; cbn [g_states upd_st set_states] in *; rewrite upd_length in L;
    specialize (HS x); specialize (HF x); specialize (Hb' x).
  - unfold refeq. rewrite getst_upd_st. cbn [g_states upd_st set_states]. pose proof (JR x L) as Q. unfold refeq in Q.
    destruct (Nat.eqb_spec z x) as [->|N]; cbn [andb].
    + rewrite (proj2 (Nat.ltb_lt _ _) Lz). lia.
    + lia.
  - destruct (JO x L). specialize (G x). specialize (GF x).
    destruct (Nat.eqb_spec z x) as [->|N]; [lia|]. split; lia.
Qed.

(* a new state with one reference (its predecessor's) is appended; the thread holds that reference *)
Lemma refs_publish g1 g st0 T t th th' :
  nth_error T t = Some th -> g_states g1 = g_states g -> s_ref st0 = 1 -> s_fin st0 = FUnset ->
  (forall x, href th' x = href th x + b2n (length (g_states g) =? x)) ->
  refs_ok g T -> refs_ok (publish g1 st0) (upd T t th').
Proof.
  intros E Qs R1 F0 Hh [JR JO].
  pose proof (fun x => sum_upd (fun th => href th x) T t th th' E) as HS. cbn beta in HS.
  split; intros x L; cbn [g_states publish set_cur] in L; rewrite Qs, app_length in L; cbn [length] in L;
    specialize (HS x); rewrite Hh in HS.
  - unfold refeq, getst. cbn [g_states publish set_cur]. rewrite Qs, sum_app. cbn [sum]. rewrite F0. cbn [fsucc].
    destruct (Nat.eqb_spec (length (g_states g)) x) as [Z|N]; cbn [b2n] in HS.
    + subst x. rewrite app_nth2, Nat.sub_diag by lia. cbn [nth]. destruct (JO _ (Nat.le_refl _)). lia.
    + rewrite app_nth1 by lia. pose proof (JR x ltac:(lia)) as Q. unfold refeq, getst in Q. lia.
  - cbn [g_states publish set_cur]. rewrite Qs, sum_app. cbn [sum]. rewrite F0. cbn [fsucc].
    destruct (JO x ltac:(lia)). destruct (Nat.eqb_spec (length (g_states g)) x); [lia|]. cbn [b2n] in HS. split; lia.
Qed.

(* the balance of refs_upd at x0, after the holdings of the old pc have been rewritten:
   compute those of the new pc, split on whether x0 is the state z that was overwritten *)
Ltac bal z x0 :=
  unfold href; cbn [t_pc setpc s_ref s_fin st_ref st_fin st_retire fsucc];
  destruct (Nat.eqb_spec z x0) as [Z|Z]; [subst x0|]; cbn [b2n] in *; lia.

Section P2.
  Variables (w r : tid) (orig : list (list op)).

  Lemma href_continue th res k x : href (continue th res k) x = kouter k x.
  Proof. destruct k; cbn; unfold href; cbn; try reflexivity; lia. Qed.

  Lemma ref_step s t s' :
    Full w r s -> Inv2 orig s -> step s t = Some s' -> refs_ok (sh s') (ths s').
  Proof.
    intros [SA I] J H. destruct (step_decomp _ _ _ H) as (th & g' & th' & E & F & ->). cbn [sh ths].
    destruct (step_facts w r s t th g' th' SA I E F) as (NP & _ & TF & FB & La). pose proof (j_thr _ _ J _ _ E) as TJ.
    assert (R0 : refs_ok (sh s) (ths s)) by (split; [apply (j_ref _ _ J) | apply (j_oob _ _ J)]).
    destruct (special2 (t_pc th)) eqn:Sp.
    2: { destruct (frame2_plain _ _ _ _ _ F NP Sp) as [Qs _ _ _ Qh _ _]. apply (refs_same (sh s) _ _ _ th); auto. }
    unfold th_facts1 in TF. unfold factsB in FB. unfold th_facts2 in TJ.
    (* the balance asked for by refs_upd / refs_publish, at the pc of the step *)
    assert (HR : forall x0, href th x0 = match t_pc th with
                                          | PRel x' _ k => b2n (x' =? x0) + kouter k x0
                                          | PM1 _ k | PLast _ _ k => kouter k x0
                                          | PM3 y k => b2n (y =? x0) + kouter k x0
                                          | PM4 y f k => b2n (y =? x0) + kouter k x0 + fsucc f x0
                                          | PRun _ sc _ k => b2n (sc =? x0) + kouter k x0
                                          | PC6 x' => b2n (x' =? x0)
                                          | PCSwapped x' e => b2n (x' =? x0) + b2n (e =? x0)
                                          | _ => 0 end).
    { intros x0. unfold href. destruct (t_pc th); try reflexivity; discriminate Sp. }
    destruct (t_pc th) eqn:P; try discriminate Sp;
      unfold step_thread in F; rewrite P in F; crack F;
      open_tx;
      inversion F; subst g' th'; clear F.
    all: try (exfalso; apply NP; reflexivity).
    all: try (destruct k; discriminate).
    all: pose proof (fun th' z st' => refs_upd (sh s) (ths s) t th th' z st' E) as RU.
    - (* acquire *)
      apply RU; auto. intros _ x0. rewrite HR. bal x x0.
    - (* mutateStateLocked acquire *)
      apply RU; auto; [destruct TF as (Yc & _); lia|]. intros _ x0. rewrite HR. bal y x0.
    - (* publish the new state *)
      apply (refs_publish _ (sh s) _ _ _ th); auto. intros x0. rewrite HR. reflexivity.
    - (* retire: store the finalizer it carried *)
      destruct TJ as (hs0 & -> & Nf & _).
      apply RU; auto; [destruct TF as (Yc & _); lia|]. intros _ x0. rewrite HR.
      destruct (s_fin (getst (sh s) y)); try discriminate Nf; bal y x0.
    - (* release, last reference of a retired state *)
      apply RU; auto; [exact (proj1 TJ)|]. intros B x0. rewrite HR in *. rewrite Nat.eqb_refl in B. bal x x0.
    - (* release *)
      apply RU; auto; [exact (proj1 TJ)|]. intros B x0. rewrite HR in *. rewrite Nat.eqb_refl in B. rewrite href_continue. bal x x0.
    - (* the last holder swaps the finalizer out: none stored *)
      apply RU; auto; [exact (proj1 (proj2 TJ))|]. intros _ x0. rewrite HR, href_continue, Heqf. bal x x0.
    - apply RU; auto; [exact (proj1 (proj2 TJ))|]. intros _ x0. rewrite HR, href_continue, Heqf. bal x x0.
    - (* it takes over the successor's reference with the finalizer *)
      apply RU; auto; [exact (proj1 (proj2 TJ))|]. intros _ x0. rewrite HR, Heqf. bal x x0.
    - (* run the finalizer: close the files, then release the successor *)
      apply (refs_same (sh s) _ _ _ th); auto. intros x0. rewrite HR. reflexivity.
    - (* Close acquires the current state *)
      apply RU; auto; [lia|]. intros _ x0. rewrite HR. bal x x0.
    - (* Close publishes the empty state *)
      apply (refs_publish _ (sh s) _ _ _ th); auto. intros x0. rewrite HR. reflexivity.
    - (* Close retires the old state *)
      destruct TJ as (Nf & _).
      apply RU; auto; [destruct TF as (Xc & _); lia|]. intros _ x0. rewrite HR.
      destruct (s_fin (getst (sh s) x)); try discriminate Nf; bal x x0.
  Qed.


  Lemma hpend_other g g' thu h :
    frame g g' ->
    (forall x e, t_pc thu = PCSwapped x e -> x < length (g_states g)) ->
    hpend g' thu h = hpend g thu h.
  Proof.
    intros Fr Hx. unfold hpend. destruct (t_pc thu) eqn:P; try reflexivity.
    rewrite (f_segs _ _ Fr x (Hx x e eq_refl)). reflexivity.
  Qed.

  Lemma hpend_continue g th res k h : hpend g (continue th res k) h = 0.
  Proof. destruct k; reflexivity. Qed.

  Lemma own_step s t s' :
    Full w r s -> Inv2 orig s -> step s t = Some s' ->
    forall h, (h < length (g_hnds (sh s')) -> owners (sh s') (ths s') h + h_closes (geth (sh s') h) = 1) /\
              (length (g_hnds (sh s')) <= h -> owners (sh s') (ths s') h = 0).
  Proof.
    intros [SA I] J H. destruct (step_decomp _ _ _ H) as (th & g' & th' & E & F & ->). cbn [sh ths].
    destruct (step_facts w r s t th g' th' SA I E F) as (NP & _ & TF & FB & La). pose proof (j_thr _ _ J _ _ E) as TJ.
    pose proof (j_own _ _ J) as JW.
    destruct (core_step s t th g' th' SA E F NP) as (Fr & _).
    assert (HP : forall h, sum (fun thu => hpend g' thu h) (upd (ths s) t th') + hpend g' th h =
                           sum (fun thu => hpend (sh s) thu h) (ths s) + hpend g' th' h).
    { intros h. rewrite (sum_upd (fun thu => hpend g' thu h) (ths s) t th th' E). f_equal.
      apply sum_ext. intros thu Hi. apply In_nth_error in Hi. destruct Hi as (u & Eu).
      apply hpend_other; [exact Fr|]. intros x e Pu.
      pose proof (i_thr _ _ _ I _ _ Eu) as TFu. unfold th_facts1 in TFu. rewrite Pu in TFu. destruct TFu as (Xc & _). lia. }
    destruct (special2 (t_pc th)) eqn:Sp.
    2: { destruct (frame2_plain _ _ _ _ _ F NP Sp) as [Qs Qc Ql Qcl _ _ Qh].
      intros h. rewrite (owners_same (sh s) g' _ _ th th' E Qs Qc), Ql, Qcl; [exact (JW h)|].
      intros h0. destruct (Qh h0) as [Q1 Q2]. rewrite <- (hpend_segs (sh s) g' th' h0) by (intros; unfold getst; now rewrite Qs). congruence. }
    (* an overwritten state: handles and close counts are untouched *)
    pose proof (fun th' z st' Lz Ho Hs Hb h => eq_ind_r (fun n => (h < length (g_hnds (sh s)) -> n + h_closes (geth (sh s) h) = 1) /\
                                                             (length (g_hnds (sh s)) <= h -> n = 0))
                                              (JW h) (owners_upd (sh s) (ths s) t th th' z st' E Lz Ho Hs Hb h)) as OU.
    unfold th_facts1 in TF. unfold factsB in FB. unfold th_facts2 in TJ.
    assert (HP0 : forall h, hpend (sh s) th h = match t_pc th with
                                                 | PM4 _ f _ => fin_cnt f h
                                                 | PRun hs _ _ _ => cnt h hs
                                                 | PCSwapped x _ => cnt h (s_segs (getst (sh s) x))
                                                 | _ => 0 end) by reflexivity.
    destruct (t_pc th) eqn:P; try discriminate Sp;
      unfold step_thread in F; rewrite P in F; crack F;
      open_tx;
      inversion F; subst g' th'; clear F.
    all: try (exfalso; apply NP; reflexivity).
    - (* acquire *) apply OU; [exact FB | reflexivity | reflexivity | intros h; rewrite HP0; reflexivity].
    - (* mutateStateLocked acquire *)
      apply OU; [destruct TF as (Yc & _); lia | reflexivity | reflexivity | intros h; rewrite HP0; reflexivity].
    - (* publish the new state *)
      unfold owners in *. destruct TF as (Yc & Oy & _). rename Q2 into Qc.
      change (g_cur (publish (set_hnds (sh s) (g_hnds (sh s) ++ nh)) (mk_state segs mn))) with (length (g_states (sh s))) in *.
      intros h. specialize (HP h). destruct (JW h) as [W1 W2].
      assert (P1 : hpend (publish (set_hnds (sh s) (g_hnds (sh s) ++ nh)) (mk_state segs mn)) th h = 0)
        by (unfold hpend; rewrite P; reflexivity).
      assert (P2 : hpend (publish (set_hnds (sh s) (g_hnds (sh s) ++ nh)) (mk_state segs mn))
                         (setpc th (PM4 y (FSet l (length (g_states (sh s)))) k)) h = cnt h l) by reflexivity.
      rewrite P1, P2 in HP.
      assert (Lv' : live (publish (set_hnds (sh s) (g_hnds (sh s) ++ nh)) (mk_state segs mn)) h = cnt h segs).
      { unfold live. rewrite getst_publish. reflexivity. }
      assert (Lv : live (sh s) h = cnt h (s_segs (getst (sh s) y))) by (unfold live; rewrite <- Yc, Oy; reflexivity).
      rewrite Lv'. rewrite Lv in W1, W2.
      cbn [g_states g_hnds publish set_cur set_hnds]. rewrite sum_app. cbn [sum fin_cnt s_fin mk_state].
      unfold geth. cbn [g_hnds publish set_cur set_hnds]. rewrite app_length.
      destruct Qc as [(-> & Qc)|(b & -> & Qc)]; specialize (Qc h); cbn [length].
      + rewrite app_nil_r in *. split; intros L; [specialize (W1 ltac:(lia)) | specialize (W2 ltac:(lia))]; unfold geth in *; lia.
      + destruct (Nat.eqb_spec (length (g_hnds (sh s))) h) as [Z|Z]; cbn [b2n] in Qc.
        * subst h. specialize (W2 (Nat.le_refl _)). split; intros L; [|lia].
          rewrite app_nth2 by lia. rewrite Nat.sub_diag. cbn. lia.
        * split; intros L.
          -- rewrite app_nth1 by lia. specialize (W1 ltac:(lia)). unfold geth in W1. lia.
          -- specialize (W2 ltac:(lia)). lia.
    - (* retire: the finalizer the thread carried is stored *)
      destruct TJ as (hz & -> & Nf & _).
      apply OU; [destruct TF as (Yc & _); lia | reflexivity | reflexivity | intros h; rewrite HP0].
      destruct (s_fin (getst (sh s) y)); try discriminate Nf; cbn; lia.
    - (* release, last reference *)
      apply OU; [exact (proj1 TJ) | reflexivity | reflexivity | intros h; rewrite HP0; reflexivity].
    - (* release *)
      apply OU; [exact (proj1 TJ) | reflexivity | reflexivity | intros h; rewrite HP0, hpend_continue; reflexivity].
    - (* the finalizer field is swapped: nothing was stored *)
      apply OU; [exact (proj1 (proj2 TJ)) | reflexivity | reflexivity | intros h; rewrite HP0, hpend_continue, Heqf; reflexivity].
    - apply OU; [exact (proj1 (proj2 TJ)) | reflexivity | reflexivity | intros h; rewrite HP0, hpend_continue, Heqf; reflexivity].
    - (* the stored finalizer goes to the thread *)
      apply OU; [exact (proj1 (proj2 TJ)) | reflexivity | reflexivity | intros h; rewrite HP0, Heqf; cbn; lia].
    - (* run the finalizer *)
      unfold owners in *. intros h. specialize (HP h). destruct (JW h) as [W1 W2].
      assert (P1 : hpend (set_hnds (sh s) (close_all (g_hnds (sh s)) hs)) th h = cnt h hs) by (unfold hpend; rewrite P; reflexivity).
      assert (P2 : hpend (set_hnds (sh s) (close_all (g_hnds (sh s)) hs)) (setpc th (PRel sc r0 k)) h = 0) by reflexivity.
      rewrite P1, P2 in HP.
      change (live (set_hnds (sh s) (close_all (g_hnds (sh s)) hs)) h) with (live (sh s) h).
      cbn [g_states g_hnds set_hnds]. rewrite close_all_length. unfold geth. cbn [g_hnds set_hnds].
      split; intros L.
      + rewrite close_all_closes by exact L. specialize (W1 L). unfold geth in W1. lia.
      + specialize (W2 L). lia.
    - (* Close acquires *) apply OU; [lia | reflexivity | reflexivity | intros h; rewrite HP0; reflexivity].
    - (* Close publishes the empty state *)
      assert (Lx : x < length (g_states (sh s))) by lia.
      assert (Ox : s_open (getst (sh s) x) = true).
      { assert (A6 : 0 < cstage th) by (unfold cstage; rewrite P; lia).
        destruct (K_active w r s t th I E A6) as [_ Kq]. unfold cstage in Kq. rewrite P in Kq.
        pose proof (i_open _ _ _ I) as Io. rewrite Kq in Io. subst x. exact Io. }
      unfold owners in *. intros h. specialize (HP h). destruct (JW h) as [W1 W2].
      assert (P1 : hpend (publish (sh s) empty_state) th h = 0) by (unfold hpend; rewrite P; reflexivity).
      assert (P2 : hpend (publish (sh s) empty_state) (setpc th (PCSwapped x (length (g_states (sh s))))) h =
                   cnt h (s_segs (getst (sh s) x))).
      { unfold hpend. cbn [t_pc setpc]. unfold getst, publish. cbn. now rewrite app_nth1 by exact Lx. }
      rewrite P1, P2 in HP.
      assert (Lv' : live (publish (sh s) empty_state) h = 0) by (unfold live; rewrite getst_publish; reflexivity).
      assert (Lv : live (sh s) h = cnt h (s_segs (getst (sh s) x))) by (unfold live; subst x; rewrite Ox; reflexivity).
      rewrite Lv'. rewrite Lv in W1, W2.
      cbn [g_states g_hnds publish set_cur]. rewrite sum_app. cbn [sum fin_cnt s_fin empty_state].
      change (geth (publish (sh s) empty_state) h) with (geth (sh s) h).
      split; intros L; [specialize (W1 L) | specialize (W2 L)]; lia.
    - (* Close retires the old state: its handle list becomes the finalizer *)
      destruct TJ as (Nf & _).
      apply OU; [destruct TF as (Xc & _); lia | reflexivity | reflexivity | intros h; rewrite HP0].
      destruct (s_fin (getst (sh s) x)); try discriminate Nf; cbn; lia.
  Qed.
End P2.
