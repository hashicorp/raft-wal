(* CloseStep1.v -- consequences of part 1 of the invariant (CloseInv.Inv1) for a single step: while
   Close is active its thread is the one whose stage is K (K_active, closer_of, K_closed, stage_holds,
   lock_K); no thread can take a panicking step (no_panic); step_facts collects what the preservation
   proofs ask of the stepping thread. *)
From Coq Require Import List Arith Bool Lia.
From RW Require Import Conc.Sys Conc.SysFacts Conc.Close Conc.ListX Conc.CloseInv Conc.CloseFacts Conc.CloseK Conc.CloseSafe.
Import ListNotations.

Lemma cur_op_setpc th p : cur_op (setpc th p) = cur_op th. Proof. reflexivity. Qed.
Lemma op_locking_setpc th p : op_locking (setpc th p) = op_locking th. Proof. reflexivity. Qed.
Lemma op_close_setpc th p : op_close (setpc th p) = op_close th. Proof. reflexivity. Qed.

Section Step.
  Variables (w r : tid).

  (* ---- the active Close call, and what holding the mutex implies ---------------- *)
  Lemma K_active s t th :
    Inv1 w r s -> nth_error (ths s) t = Some th -> 0 < cstage th ->
    g_closed (sh s) = true /\ K (sh s) (ths s) = cstage th.
  Proof.
    intros I E A.
    destruct (K_step (sh s) (set_closed (sh s)) (ths s) t th th (i_nact _ _ _ I) (i_nact0 _ _ _ I) E)
      as (_ & _ & H3). destruct (H3 A eq_refl) as (C & Kq & _). auto.
  Qed.

  Lemma closer_of s :
    Inv1 w r s -> 1 <= K (sh s) (ths s) <= 9 ->
    exists u thu, nth_error (ths s) u = Some thu /\ cstage thu = K (sh s) (ths s).
  Proof.
    intros I HK. unfold K in HK. destruct (g_closed (sh s)) eqn:C; [|lia].
    destruct (Nat.eqb_spec (nact (ths s)) 0) as [Z|Z]; [lia|].
    destruct (sum_pos_ex (fun th => b2n (0 <? cstage th)) (ths s)) as (u & thu & Eu & P).
    { fold (nact (ths s)). lia. }
    exists u, thu. split; [exact Eu|].
    destruct (Nat.ltb_spec 0 (cstage thu)) as [L|L]; cbn in P; [|lia].
    symmetry. apply (K_active s u thu I Eu L).
  Qed.

  (* once the flag is set, Close is under way (stages 1..9) or has returned *)
  Lemma K_closed s :
    Inv1 w r s -> g_closed (sh s) = true -> 1 <= K (sh s) (ths s) <= 9 \/ K (sh s) (ths s) = 10.
  Proof.
    intros I C. unfold K. rewrite C. destruct (Nat.eqb_spec (nact (ths s)) 0) as [Z|Z]; [now right|left].
    destruct (sum_pos_ex (fun th => b2n (0 <? cstage th)) (ths s)) as (u & thu & Eu & Pu).
    { fold (nact (ths s)). lia. }
    destruct (Nat.ltb_spec 0 (cstage thu)) as [L|L]; cbn in Pu; [|lia].
    destruct (K_active s u thu I Eu L) as [_ Kq]. unfold K in Kq. rewrite C in Kq.
    destruct (Nat.eqb_spec (nact (ths s)) 0); [contradiction|]. rewrite Kq.
    unfold cstage in *. destruct (t_pc thu); try lia; destruct (op_close thu); lia.
  Qed.

  Lemma stage_holds th : pc_ok th = true -> 2 <= cstage th -> holds_mu th = true.
  Proof.
    destruct th as [rot prog outs p]. unfold pc_ok, cstage, holds_mu, op_close, op_locking, cur_op. cbn.
    destruct p; cbn; intros WF L; try lia; try reflexivity.
    all: destruct rot; cbn in *;
      destruct prog as [|[] ?]; cbn in *; try lia; try discriminate; try reflexivity.
    all: destruct k; cbn in *; try lia; try discriminate; try reflexivity.
  Qed.

  (* a thread that is not the closing one holds the mutex while the current state is open:
     Close has not got past waiting for the mutex *)
  Lemma lock_K s t th :
    Inv1 w r s -> nth_error (ths s) t = Some th -> holds_mu th = true -> cstage th = 0 ->
    s_open (getst (sh s) (g_cur (sh s))) = true -> K (sh s) (ths s) <= 1.
  Proof.
    intros I E Hm C0 O.
    destruct (Nat.le_gt_cases (K (sh s) (ths s)) 1) as [L|L]; [exact L|].
    rewrite (i_open _ _ _ I) in O. apply Nat.ltb_lt in O.
    destruct (closer_of s I) as (u & thu & Eu & Cu); [lia|].
    assert (Hu : holds_mu thu = true) by (apply stage_holds; [eapply i_wf; eauto | lia]).
    pose proof (i_mu1 _ _ _ I _ _ E Hm) as M1. pose proof (i_mu1 _ _ _ I _ _ Eu Hu) as M2.
    assert (u = t) by congruence. subst u. assert (thu = th) by congruence. subst. lia.
  Qed.

  (* ---- no step panics ------------------------------------------------------------- *)
  Lemma no_panic s t th g' th' :
    Safe s -> Inv1 w r s -> nth_error (ths s) t = Some th -> step_thread (sh s) t th = Some (g', th') ->
    t_pc th' <> PPanic.
  Proof.
    intros SA I E F. pose proof (a_thr _ SA _ _ E) as FB. pose proof (a_chain _ SA) as CH.
    pose proof (i_thr _ _ _ I _ _ E) as TF. pose proof (i_wf _ _ _ I _ _ E) as WF.
    unfold step_thread in F. crack F; open_tx; inversion F; subst; clear F; cbn; try discriminate.
    all: try (match goal with |- t_pc (continue _ _ ?k) <> _ => destruct k; cbn; discriminate end).
    all: unfold th_facts1 in TF;
      repeat match goal with H : t_pc _ = _ |- _ => rewrite H in TF end;
      repeat match goal with H : cur_op _ = _ |- _ => rewrite H in TF end.
    - (* PBody: nil state *) destruct TF as [O _]. rewrite O in *. discriminate.
    - (* PGetRead: offsets index *)
      unfold factsB in FB. rewrite Heqp, Heqo in FB. destruct FB as [B L]. destruct (CH h) as (_ & C2 & C3).
      unfold read_log in *.
      match goal with H : (if length ?l <=? ?p then _ else _) = Panic |- _ =>
        destruct (Nat.leb_spec (length l) p); [lia|] end.
      match goal with H : (if ?b then _ else _) = Panic |- _ => destruct b; discriminate end.
    - (* PSend on closed channel *)
      destruct TF as (Xc & O & _).
      assert (Hm : holds_mu th = true) by (unfold holds_mu; now rewrite Heqp).
      assert (C0 : cstage th = 0) by (unfold cstage; now rewrite Heqp).
      subst. pose proof (lock_K s t th I E Hm C0 O) as L.
      rewrite (i_tc _ _ _ I) in *.
      match goal with H : (4 <=? _) = true |- _ => apply Nat.leb_le in H; lia end.
    - (* PM1: clone of the empty state *) destruct TF as (_ & O & _). rewrite O in *. discriminate.
    - (* PCLocked: close of a closed channel *)
      match goal with H : g_await _ = Some ?c |- _ => destruct (i_ch1 _ _ _ I c H) as [_ Q]; congruence end.
    - (* PC3: close(triggerRotate) twice *)
      assert (A : 0 < cstage th) by (unfold cstage; rewrite Heqp; lia).
      destruct (K_active s t th I E A) as [_ Kq]. unfold cstage in Kq. rewrite Heqp in Kq.
      rewrite (i_tc _ _ _ I), Kq in *. discriminate.
    - (* PCSwapped: old state empty *) destruct TF as (_ & _ & O). rewrite O in *. discriminate.
    - (* PRT5 closed *) destruct TF as (c & Q & [_ O] & _). inversion Q; subst. congruence.
    - (* PRT5 nil *) destruct TF as (c & Q & _). discriminate.
  Qed.

  (* what the invariants say about the thread that takes a step, in one piece *)
  Lemma step_facts s t th g' th' :
    Safe s -> Inv1 w r s -> nth_error (ths s) t = Some th -> step_thread (sh s) t th = Some (g', th') ->
    t_pc th' <> PPanic /\ pc_ok th = true /\ th_facts1 (sh s) (ths s) (rot_pc (ths s) r) th /\ factsB (sh s) th /\
    S (g_cur (sh s)) = length (g_states (sh s)).
  Proof.
    intros SA I E F. split; [exact (no_panic s t th g' th' SA I E F)|]. split; [exact (i_wf _ _ _ I _ _ E)|].
    split; [exact (i_thr _ _ _ I _ _ E)|]. split; [exact (a_thr _ SA _ _ E) | exact (a_last _ SA)].
  Qed.

End Step.
