(* SysFacts.v -- facts about the generic schedule framework *)
From Coq Require Import List Arith Bool Lia.
From RW Require Import Conc.Sys.
Import ListNotations.

Section Facts.
  Variable sys : Type.
  Variable step : sys -> tid -> option sys.

  Lemma run_app : forall a b s, run step s (a ++ b) = run step (run step s a) b.
  Proof. induction a as [|t a IH]; intros b s; cbn; [reflexivity | apply IH]. Qed.

  Theorem run_inv (P : sys -> Prop) :
    (forall s t s', P s -> step s t = Some s' -> P s') ->
    forall sch s, P s -> P (run step s sch).
  Proof.
    intros Hstep. induction sch as [|t r IH]; intros s Hs; cbn; [exact Hs|].
    apply IH. unfold exec. destruct (step s t) eqn:E; [eapply Hstep; eauto | exact Hs].
  Qed.

  Theorem reachable_inv (P : sys -> Prop) s0 :
    P s0 -> (forall s t s', P s -> step s t = Some s' -> P s') ->
    forall s, reachable step s0 s -> P s.
  Proof. intros H0 Hs s [sch ->]. apply run_inv; assumption. Qed.

  Lemma reachable_step s0 s t s' : reachable step s0 s -> step s t = Some s' -> reachable step s0 s'.
  Proof.
    intros [sch ->] E. exists (sch ++ [t]). rewrite run_app. cbn. unfold exec. rewrite E. reflexivity.
  Qed.

  (* a second invariant may lean on one already known of every reachable state *)
  Theorem reachable_inv_rel (P Q : sys -> Prop) s0 :
    (forall s, reachable step s0 s -> P s) -> Q s0 ->
    (forall s t s', P s -> Q s -> step s t = Some s' -> Q s') ->
    forall s, reachable step s0 s -> Q s.
  Proof.
    intros HP H0 Hs s R.
    apply (reachable_inv (fun s => reachable step s0 s /\ Q s) s0); [| |exact R].
    - split; [exists []; reflexivity | exact H0].
    - intros s1 t s2 [R1 Q1] E. split; [eapply reachable_step; eauto | eapply Hs; eauto].
  Qed.

  Lemma reachable_run s0 s sch : reachable step s0 s -> reachable step s0 (run step s sch).
  Proof. intros [a ->]. exists (a ++ sch). now rewrite run_app. Qed.

  (* ---- the macro runner only ever produces `run` of some micro schedule ---- *)
  Variable parked : sys -> tid -> bool.
  Variable skip : sys -> tid -> bool.
  Variable nthreads : sys -> nat.

  Definition traces (s : sys) (tr : list tid) (r : sys * list tid) : Prop :=
    exists d, snd r = d ++ tr /\ fst r = run step s (rev d).

  Lemma traces_refl s tr : traces s tr (s, tr).
  Proof. exists []. split; reflexivity. Qed.

  Lemma traces_trans s tr s1 tr1 r :
    traces s tr (s1, tr1) -> traces s1 tr1 r -> traces s tr r.
  Proof.
    intros [d [E1 E2]] [d' [E3 E4]]. cbn in *. subst.
    exists (d' ++ d). split; [now rewrite E3, app_assoc|].
    rewrite E4, rev_app_distr, run_app. reflexivity.
  Qed.

  Lemma go_traces : forall fuel s t tr, traces s tr (go step parked fuel s t tr).
  Proof.
    induction fuel as [|f IH]; intros s t tr; cbn; [apply traces_refl|].
    destruct (step s t) as [s'|] eqn:E; [|apply traces_refl].
    assert (T1 : traces s tr (s', t :: tr)).
    { exists [t]. split; [reflexivity|]. cbn. unfold exec. now rewrite E. }
    destruct (parked s' t); [exact T1|].
    eapply traces_trans; [exact T1 | apply IH].
  Qed.

  Lemma settle_traces : forall fuel s tr, traces s tr (settle step parked nthreads fuel s tr).
  Proof.
    induction fuel as [|f IH]; intros s tr; [apply traces_refl|].
    cbn [settle].
    destruct (find (autonomous step parked s) (seq 0 (nthreads s))) as [t|]; [|apply traces_refl].
    pose proof (go_traces (S f) s t tr) as G.
    destruct (go step parked (S f) s t tr) as [s' tr'].
    eapply traces_trans; [exact G | apply IH].
  Qed.

  Lemma macro1_traces fuel s t tr : traces s tr (macro1 step parked skip nthreads fuel s t tr).
  Proof.
    unfold macro1. destruct (parked s t && enabled step s t && negb (skip s t)); [|apply traces_refl].
    pose proof (go_traces fuel s t tr) as G.
    destruct (go step parked fuel s t tr) as [s' tr'].
    eapply traces_trans; [exact G | apply settle_traces].
  Qed.

  Lemma macro_traces fuel : forall sch s tr, traces s tr (macro step parked skip nthreads fuel s sch tr).
  Proof.
    induction sch as [|t r IH]; intros s tr; cbn; [apply traces_refl|].
    pose proof (macro1_traces fuel s t tr) as G.
    destruct (macro1 step parked skip nthreads fuel s t tr) as [s' tr'].
    eapply traces_trans; [exact G | apply IH].
  Qed.
End Facts.
