(* ReadStable.v -- view stability for every step of a reachable single-writer system: the
   view through a version x either stays as it was or becomes the view through the
   current version *)
From Coq Require Import List Arith Bool Lia.
From RW Require Import Conc.Sys Conc.SysFacts Conc.Close Conc.ListX Conc.CloseInv Conc.CloseFacts Conc.CloseSafe
     Conc.CloseSafeStep Conc.CloseStep1 Conc.CloseReach Conc.CloseCount Conc.ReadInv Conc.ReadFrame Conc.ReadTx
     Conc.Readers Conc.ReadView.
Import ListNotations.

Lemma view_upd_st g z s' x o :
  s_segs s' = s_segs (getst g z) -> s_min s' = s_min (getst g z) -> sg g x <> [] ->
  view (upd_st g z s') x o = view g x o.
Proof.
  intros H1 H2 Ne.
  apply view_ext; [now apply (getst_upd_keeps s_segs) | now apply (getst_upd_keeps s_min) | exact Ne |]. intros h _. auto.
Qed.

Lemma view_upd_h g t v x o :
  h_base v = h_base (geth g t) -> h_cnt v = h_cnt (geth g t) ->
  (forall pos, pos < h_cnt (geth g t) -> nth pos (h_ents v) 0 = nth pos (h_ents (geth g t)) 0) -> sg g x <> [] ->
  view (upd_h g t v) x o = view g x o.
Proof.
  intros B C Ev Ne. apply view_ext; [reflexivity | reflexivity | exact Ne |]. intros h _.
  split; [now apply (geth_upd_keeps h_base)|]. split; [now apply (geth_upd_keeps h_cnt)|].
  unfold hc. rewrite geth_upd_h. destruct (Nat.eqb_spec t h) as [->|]; [|reflexivity]. destruct (_ <? _); [exact Ev | reflexivity].
Qed.

Lemma view_close g hs x o : sg g x <> [] -> view (set_hnds g (close_all (g_hnds g) hs)) x o = view g x o.
Proof.
  intros Ne. apply view_ext; [reflexivity | reflexivity | exact Ne |].
  intros h _. pose proof (geth_close g hs h) as Q. unfold io in Q. inversion Q. unfold hb, hc.
  split; [congruence|]. split; [congruence|]. intros pos _. congruence.
Qed.

Lemma view_publish g st0 x o : x < ns g -> sg g x <> [] -> view (publish g st0) x o = view g x o.
Proof.
  intros L Ne. assert (G : getst (publish g st0) x = getst g x) by (unfold getst, publish; cbn; now rewrite app_nth1).
  apply view_ext; [unfold sg; now rewrite G | unfold mn; now rewrite G | exact Ne |]. intros h _. auto.
Qed.

Lemma view_grow g nhl x o :
  (forall h, In h (sg g x) -> h < nh_ g) -> sg g x <> [] -> view (set_hnds g (g_hnds g ++ nhl)) x o = view g x o.
Proof.
  intros Hh Ne. apply view_ext; [reflexivity | reflexivity | exact Ne |].
  intros h Hi. assert (Gh : geth (set_hnds g (g_hnds g ++ nhl)) h = geth g h).
  { unfold geth; cbn. apply app_nth1, (Hh h Hi). }
  unfold hb, hc. rewrite Gh. auto.
Qed.

Lemma view_ctl g g' x o :
  g_states g' = g_states g -> g_hnds g' = g_hnds g -> sg g x <> [] -> view g' x o = view g x o.
Proof.
  intros E1 E2 Ne. apply view_ext; unfold sg, mn, hb, hc, getst, geth; rewrite ?E1, ?E2; auto.
Qed.

Lemma commit_upd g x o :
  Inv3 g -> S (g_cur g) = ns g -> op_ g (g_cur g) = true -> x <= g_cur g -> op_ g x = true -> is_read_op o = true ->
  let ht := tail_of (getst g (g_cur g)) in let h := geth g ht in
  h_chain h ->
  let g' := upd_h g ht (with_io h (h_wr h) (h_syn h) (length (h_ents h))) in
  view g' x o = view g x o \/ view g' x o = view g' (g_cur g) o.
Proof.
  intros K La Oc Lx Ox Ro ht h C g'.
  apply (commit_view g g' x ht K La Oc Lx Ox eq_refl); try (intros; reflexivity); [| | | | exact Ro].
  - intros h0. now apply (geth_upd_keeps h_base).
  - intros h0. now apply (geth_upd_keeps h_ents).
  - intros h0 N. unfold hc, g'. rewrite geth_upd_h. destruct (Nat.eqb_spec ht h0); [congruence | reflexivity].
  - unfold hc, g'. rewrite geth_upd_h, Nat.eqb_refl. destruct (_ <? _); [|apply Nat.le_refl]. cbn.
    unfold h_chain in C. fold h. lia.
Qed.

Section VS.
  Variables (w r : tid).

  Lemma view_step s t s' x o :
    Full w r s -> Inv3 (sh s) -> step s t = Some s' ->
    x <= g_cur (sh s) -> op_ (sh s) x = true -> is_read_op o = true ->
    view (sh s') x o = view (sh s) x o \/
    (g_cur (sh s') = g_cur (sh s) /\ op_ (sh s') (g_cur (sh s')) = true /\ view (sh s') x o = view (sh s') (g_cur (sh s')) o).
  Proof.
    intros [SA I] K H Lx Ox Ro. destruct (step_decomp _ _ _ H) as (th & g' & th' & E & F & ->). cbn [sh].
    pose proof (i_thr _ _ _ I _ _ E) as TF. unfold th_facts1 in TF. pose proof (a_last _ SA) as La.
    assert (Lxn : x < ns (sh s)) by (unfold ns; lia).
    assert (Ne : sg (sh s) x <> []) by (apply (k_nonempty _ K x Lxn Ox)).
    destruct (step_effect _ _ _ _ _ F) as [g1 E1 _ E3 | z s1 S1 S2 _ | t0 v B C (e & Ev) | z P | hs | y k g1 hs P Q | z P].
    - left. now apply view_ctl.
    - left. now apply view_upd_st.
    - (* offsets are published beyond the committed prefix *)
      left. apply view_upd_h; [exact B | exact C | | exact Ne]. intros pos Lp. rewrite Ev. apply app_nth1.
      destruct (a_chain _ SA t0) as (C1 & C2 & C3). lia.
    - rewrite P in TF. destruct TF as (-> & Oc & _).
      destruct (commit_upd (sh s) x o K La Oc Lx Ox Ro (a_chain _ SA _)) as [Q|Q]; [left; exact Q | right].
      split; [reflexivity|]. split; [exact Oc | exact Q].
    - left. now apply view_close.
    - left. destruct (pm3_count (sh s) (cur_op th) y k) as (segs & mn0 & nhl & Q1 & _). rewrite Q in Q1. cbn [fst] in Q1. subst g1.
      rewrite view_publish by assumption. apply view_grow; [|exact Ne]. intros h Hi. apply (k_hlt _ K x h Lxn Hi).
    - left. now apply view_publish.
  Qed.
End VS.
