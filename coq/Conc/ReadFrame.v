(* ReadFrame.v -- what one step does to the versions and the files, as far as readers are
   concerned (`effect`): seven kinds of change, found by one case analysis of the thread-level
   step function.  The step lemmas of Inv3, of the views and of the file contents each treat
   these seven.  File contents are append-only and bases never change. *)
From Coq Require Import List Arith Bool Lia.
From RW Require Import Conc.Sys Conc.Close Conc.ListX Conc.CloseInv Conc.CloseFacts Conc.CloseSafe Conc.ReadInv.
Import ListNotations.

Lemma geth_close g hs h : io (geth (set_hnds g (close_all (g_hnds g) hs)) h) = io (geth g h).
Proof. apply close_all_io. Qed.

Inductive effect (g : shared) (th : thread) : shared -> Prop :=
| e_ctl g' : g_states g' = g_states g -> g_cur g' = g_cur g -> g_hnds g' = g_hnds g -> effect g th g'
  (* reference counts, finalizers, the retired bit *)
| e_st x s' : s_segs s' = s_segs (getst g x) -> s_min s' = s_min (getst g x) -> s_open s' = s_open (getst g x) ->
              effect g th (upd_st g x s')
  (* offsets published beyond the committed prefix; write, fsync, force-seal *)
| e_file t v : h_base v = h_base (geth g t) -> h_cnt v = h_cnt (geth g t) -> (exists e, h_ents v = h_ents (geth g t) ++ e) ->
               effect g th (upd_h g t v)
  (* the commitIdx store *)
| e_commit x : t_pc th = PApp3 x ->
               effect g th (upd_h g (tail_of (getst g x)) (with_io (tailh g x) (h_wr (tailh g x)) (h_syn (tailh g x)) (length (h_ents (tailh g x)))))
| e_close hs : effect g th (set_hnds g (close_all (g_hnds g) hs))
| e_tx y k g' hs : t_pc th = PM3 y k -> pm3_tx g (cur_op th) y k = (g', hs) -> effect g th g'
| e_empty x : t_pc th = PC6 x -> effect g th (publish g empty_state).

Lemma step_effect g t th g' th' : step_thread g t th = Some (g', th') -> effect g th g'.
Proof.
  intros F. unfold step_thread in F; crack F; inversion F; subst g' th'; clear F.
  all: try (apply e_ctl; reflexivity).
  all: try (apply e_st; reflexivity).
  all: try (apply e_file; [reflexivity | reflexivity | first [eexists; reflexivity | exists []; symmetry; apply app_nil_r]]).
  all: try (eapply e_commit; eassumption).
  - eapply e_tx; eassumption.
  - apply e_close.
  - eapply e_empty; eassumption.
Qed.

Lemma ents_step g t th g' th' h :
  step_thread g t th = Some (g', th') -> t_pc th' <> PPanic -> h < nh_ g ->
  hb g' h = hb g h /\ exists e, h_ents (geth g' h) = h_ents (geth g h) ++ e.
Proof.
  intros F _ L.
  assert (R : forall g0, geth g0 h = geth g h -> hb g0 h = hb g h /\ exists e, h_ents (geth g0 h) = h_ents (geth g h) ++ e).
  { intros g0 Q. unfold hb. rewrite Q. split; [reflexivity|]. exists []. now rewrite app_nil_r. }
  assert (U : forall t0 v, h_base v = h_base (geth g t0) -> (exists e, h_ents v = h_ents (geth g t0) ++ e) ->
                hb (upd_h g t0 v) h = hb g h /\ exists e, h_ents (geth (upd_h g t0 v) h) = h_ents (geth g h) ++ e).
  { intros t0 v B Ev. split; [now apply geth_upd_keeps|]. rewrite geth_upd_h. destruct (Nat.eqb_spec t0 h) as [->|]; [|now apply R].
    destruct (_ <? _); [exact Ev | now apply R]. }
  destruct (step_effect _ _ _ _ _ F) as [g' _ _ Eh | x s' _ _ _ | t0 v B _ Ev | x _ | hs | y k g' hs _ Q | x _].
  - apply R. unfold geth. now rewrite Eh.
  - now apply R.
  - now apply U.
  - apply U; [reflexivity | exists []; symmetry; apply app_nil_r].
  - pose proof (geth_close g hs h) as Q. unfold io in Q. inversion Q. unfold hb. split; [congruence|]. exists []. rewrite app_nil_r. congruence.
  - destruct (pm3_count g (cur_op th) y k) as (segs & mn0 & nhl & Q1 & _). rewrite Q in Q1. cbn [fst] in Q1. subst g'.
    apply R. unfold geth, publish; cbn. now apply app_nth1.
  - now apply R.
Qed.
