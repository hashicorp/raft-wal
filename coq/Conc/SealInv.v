(* SealInv.v -- StoreLogs never finds the tail sealed: invariant about a sealed tail of the
   current open version; definitions, executable mirror, the proof that it is inductive
   alongside Full = Safe /\ Inv1 ([inv4_reach]), and the mirror run on pseudo-random schedules
   as instances of that theorem.

   If the tail of the current open version is sealed then
     A  awaitRotate is set (a rotation was triggered and has not finished), or
     B  Close is past the point where it closed the await channel (stage >= 3: it holds
        writeMu until the state is swapped), or
     C  the closed flag is set and no locking call is past its closed check (the writer saw
        the flag in triggerRotateLocked and will see it again at the start of every call), or
     W  the thread that sealed it is still between the seal and the trigger (PApp1..PTrig),
        or between the force-seal of a tail truncation and the commit (PM3, classified DTail);
   and while the rotation goroutine is between publishing the new version and resetting
   awaitRotate the tail is not sealed. *)
From Coq Require Import List Arith Bool Lia NArith.
From RW Require Import Conc.Sys Conc.SysFacts Conc.Close Conc.ListX Conc.CloseInv Conc.CloseFacts Conc.CloseK
     Conc.CloseSafe Conc.CloseSafeStep Conc.CloseStep1 Conc.CloseFrames Conc.CloseStepInv Conc.CloseStepThr Conc.CloseReach
     Conc.CloseStep5 Conc.CloseCount Conc.ReadInv Conc.ReadFrame Conc.CloseCheck.
Import ListNotations.

Definition sealed_cur (g : shared) : bool :=
  let s := getst g (g_cur g) in s_open s && h_sealed (geth g (tail_of s)).

(* clause W: between the seal of an append and its trigger (inW1), or at the commit of a tail
   truncation that force-sealed (inW2) *)
Definition inW1 (th : thread) : bool :=
  match t_pc th with PApp1 _ | PApp2 _ | PApp3 _ | PTrig _ => true | _ => false end.
Definition inW2 (g : shared) (th : thread) : bool :=
  match t_pc th, cur_op th with
  | PM3 y (KOuter _), Some (OTrunc n) =>
      match classify g (getst g y) (OTrunc n) with DTail _ => true | _ => false end
  | _, _ => false
  end.
(* the rotation goroutine between publishing the new version and resetting awaitRotate *)
Definition inR (th : thread) : bool :=
  match t_pc th with
  | PM4 _ _ KRot | PRel _ _ KRot | PLast _ _ KRot | PRun _ _ _ KRot | PRT3 => true
  | _ => false
  end.
(* clause C: not a locking call past its closed check *)
Definition quiet (th : thread) : bool :=
  negb (op_locking th) ||
  match t_pc th with
  | PIdle | PRel _ _ KUnlock | PLast _ _ KUnlock | PRun _ _ _ KUnlock | PUnl _ => true
  | _ => false
  end.

Definition res_ns (r : outcome) : bool := match r with ErrSealed => false | _ => true end.
(* neither the result the thread carries nor a recorded outcome is ErrSealed *)
Definition nosealed (th : thread) : bool :=
  match t_pc th with
  | PRel _ r _ | PLast _ r _ | PRun _ _ r _ | PUnl r => res_ns r
  | _ => true
  end && forallb res_ns (t_outs th).

Record Inv4 (s : sys) : Prop := {
  q_seal : sealed_cur (sh s) = true ->
           g_await (sh s) <> None \/ 3 <= K (sh s) (ths s) \/
           (g_closed (sh s) = true /\ forall t th, nth_error (ths s) t = Some th -> quiet th = true) \/
           (exists t th, nth_error (ths s) t = Some th /\ (inW1 th = true \/ inW2 (sh s) th = true));
  q_rot : forall t th, nth_error (ths s) t = Some th -> inR th = true -> sealed_cur (sh s) = false;
  q_res : forall t th, nth_error (ths s) t = Some th -> nosealed th = true
}.

(* executable mirror; q_seal (A \/ B \/ C \/ W), q_rot, q_res are clauses 41, 42, 43 of check_run's report *)
Definition inv4_b (s : sys) : list nat :=
  let g := sh s in let T := ths s in
  let chk (n : nat) (b : bool) := if b then [] else [n] in
  chk 41 (negb (sealed_cur g) ||
          negb (match g_await g with None => true | _ => false end) || (3 <=? K g T) ||
          (g_closed g && forallb quiet T) || existsb (fun th => inW1 th || inW2 g th) T) ++
  chk 42 (negb (existsb inR T) || negb (sealed_cur g)) ++
  chk 43 (forallb nosealed T).

(* ---- what "the tail of the current open version is sealed" depends on --------------------- *)
Lemma close_all_sealed : forall hs l h, h_sealed (nth h (close_all l hs) dh) = h_sealed (nth h l dh).
Proof.
  induction hs as [|a hs IH]; intros l h; cbn [close_all]; [reflexivity|].
  rewrite IH. destruct (Nat.eq_dec a h) as [->|N].
  - destruct (Nat.lt_ge_cases h (length l)).
    + rewrite nth_upd_eq by assumption. reflexivity.
    + rewrite upd_oob by assumption. reflexivity.
  - now rewrite nth_upd_neq.
Qed.

Lemma sealed_ext g g' :
  g_cur g' = g_cur g ->
  s_open (getst g' (g_cur g)) = s_open (getst g (g_cur g)) -> s_segs (getst g' (g_cur g)) = s_segs (getst g (g_cur g)) ->
  (forall h, h_sealed (geth g' h) = h_sealed (geth g h)) -> sealed_cur g' = sealed_cur g.
Proof. intros E1 E2 E3 E4. unfold sealed_cur, tail_of. now rewrite E1, E2, E3, E4. Qed.

Lemma sealed_upd_st g x s' :
  s_segs s' = s_segs (getst g x) -> s_open s' = s_open (getst g x) -> sealed_cur (upd_st g x s') = sealed_cur g.
Proof. intros H1 H2. apply sealed_ext; try reflexivity; now apply getst_upd_keeps. Qed.

Lemma sealed_upd_h g t v : h_sealed v = h_sealed (geth g t) -> sealed_cur (upd_h g t v) = sealed_cur g.
Proof. intros Q. apply sealed_ext; try reflexivity. intros h. now apply geth_upd_keeps. Qed.

Lemma sealed_close g hs : sealed_cur (set_hnds g (close_all (g_hnds g) hs)) = sealed_cur g.
Proof. apply sealed_ext; try reflexivity. intros h. unfold geth; cbn. apply close_all_sealed. Qed.

Lemma sealed_ctl g g' : g_states g' = g_states g -> g_cur g' = g_cur g -> g_hnds g' = g_hnds g -> sealed_cur g' = sealed_cur g.
Proof. intros E1 E2 E3. unfold sealed_cur, getst, geth. now rewrite E1, E2, E3. Qed.

(* publishing a version whose tail is a new file: not sealed *)
Lemma sealed_fresh g b pre mn0 :
  sealed_cur (publish (set_hnds g (g_hnds g ++ [new_hnd b])) (mk_state (pre ++ [length (g_hnds g)]) mn0)) = false.
Proof.
  unfold sealed_cur, publish, getst, geth, tail_of; cbn.
  rewrite app_nth2 by lia. rewrite Nat.sub_diag. cbn. rewrite last_last.
  rewrite app_nth2 by lia. rewrite Nat.sub_diag. reflexivity.
Qed.

(* publishing a version that keeps the tail *)
Lemma sealed_sametail g segs' mn0 :
  S (g_cur g) = length (g_states g) -> s_open (getst g (g_cur g)) = true ->
  last segs' 0 = last (s_segs (getst g (g_cur g))) 0 ->
  sealed_cur (publish g (mk_state segs' mn0)) = sealed_cur g.
Proof.
  intros La O T. unfold sealed_cur at 1. unfold publish, getst at 1 2, geth, tail_of; cbn.
  rewrite app_nth2 by lia. rewrite Nat.sub_diag. cbn. rewrite T.
  unfold sealed_cur. rewrite O. reflexivity.
Qed.

Lemma sealed_pubE g : sealed_cur (publish g empty_state) = false.
Proof. unfold sealed_cur, publish, getst; cbn. rewrite app_nth2 by lia. rewrite Nat.sub_diag. reflexivity. Qed.

Lemma classify_ext g g' y o :
  s_segs (getst g' y) = s_segs (getst g y) -> s_min (getst g' y) = s_min (getst g y) ->
  (forall h, io (geth g' h) = io (geth g h)) -> classify g' (getst g' y) o = classify g (getst g y) o.
Proof.
  intros E1 E2 E3.
  assert (Ef : first_index g' (getst g' y) = first_index g (getst g y)).
  { unfold first_index, tail_of. rewrite E1, E2. pose proof (E3 (last (s_segs (getst g y)) 0)) as Q. unfold io in Q. injection Q as Qb Qe Qw Qs Qc. now rewrite Qc. }
  assert (El : last_index g' (getst g' y) = last_index g (getst g y)).
  { unfold last_index, tail_of. rewrite E1. pose proof (E3 (last (s_segs (getst g y)) 0)) as Q. unfold io in Q. injection Q as Qb Qe Qw Qs Qc. now rewrite Qb, Qc. }
  unfold classify. now rewrite Ef, El.
Qed.

(* the version a transaction publishes ends in a new file, or in the old tail; the rotation
   and the tail truncation always create the file *)
Lemma tx_sealed g o k gx hs :
  pm3_tx g o (g_cur g) k = (gx, hs) -> S (g_cur g) = length (g_states g) -> s_open (getst g (g_cur g)) = true ->
  sealed_cur gx = true -> sealed_cur g = true /\ k <> KRot.
Proof.
  intros Tx La O Sc.
  assert (Fresh : forall b pre mn0 l,
             (publish (set_hnds g (g_hnds g ++ [new_hnd b])) (mk_state (pre ++ [length (g_hnds g)]) mn0), l) = (gx, hs) -> False).
  { intros b pre mn0 l Q. inversion Q; subst gx. rewrite sealed_fresh in Sc. discriminate Sc. }
  assert (Same : forall segs' mn0 l, (publish g (mk_state segs' mn0), l) = (gx, hs) ->
                   last segs' 0 = last (s_segs (getst g (g_cur g))) 0 -> sealed_cur g = true).
  { intros segs' mn0 l Q Tl. inversion Q; subst gx. now rewrite sealed_sametail in Sc. }
  (* which continuation, other than the rotation's, makes no difference *)
  assert (Tr : pm3_tx g o (g_cur g) KRet = (gx, hs) -> sealed_cur g = true).
  { unfold pm3_tx. destruct o as [o|]; [destruct (classify g (getst g (g_cur g)) o)|]; intros T.
    - exact (Same _ _ _ T eq_refl).
    - unfold do_trunc_head in T.
      destruct (split_head g newMin (last_index g (getst g (g_cur g))) (s_segs (getst g (g_cur g)))) as [rm keep] eqn:Sh.
      pose proof (split_head_app _ _ _ _ _ _ Sh) as App. destruct keep as [|k0 keep].
      + exfalso. exact (Fresh _ [] _ _ T).
      + apply (Same _ _ _ T). rewrite <- App. symmetry. apply last_app_ne. discriminate.
    - exfalso. unfold do_trunc_tail in T. destruct (split_tail g newMax (s_segs (getst g (g_cur g)))) as [keep rm]. exact (Fresh _ _ _ _ T).
    - exact (Same _ _ _ T eq_refl). }
  destruct k; try (split; [exact (Tr Tx) | discriminate]).
  exfalso. exact (Fresh _ _ _ _ Tx).
Qed.

Lemma tail_tx_unsealed g th y k gx hs :
  t_pc th = PM3 y k -> inW2 g th = true -> pm3_tx g (cur_op th) y k = (gx, hs) -> sealed_cur gx = false.
Proof.
  unfold inW2, pm3_tx. intros ->. destruct k; try discriminate. destruct (cur_op th) as [[]|]; try discriminate.
  destruct (classify g (getst g y) (OTrunc n)); try discriminate. intros _ T.
  unfold do_trunc_tail in T. destruct (split_tail g newMax (s_segs (getst g y))) as [keep rm]. inversion T. apply sealed_fresh.
Qed.

(* ---- what one step does to what the invariant speaks of ----------------------------------- *)
Inductive seal_eff (g : shared) (th : thread) (g' : shared) (th' : thread) : Prop :=
| se_keep : sealed_cur g' = sealed_cur g -> g_await g' = g_await g ->
            (inW1 th = true \/ inW2 g th = true -> inW1 th' = true \/ inW2 g' th' = true) ->
            (inR th' = true -> inR th = true) -> seal_eff g th g' th'
  (* the append of StoreLogs (it seals when the batch fills the segment); the force-seal of a tail truncation *)
| se_seal : holds_mu th = true -> g_await g' = g_await g -> inW1 th' = true \/ inW2 g' th' = true -> inR th' = false ->
            seal_eff g th g' th'
  (* CommitState on a closed metaDB *)
| se_meta y k : t_pc th = PM2 y k -> (0 <? g_meta_closes g) = true -> seal_eff g th g' th'
  (* the commitIdx store on an unsealed tail: no trigger follows *)
| se_commit x : t_pc th = PApp3 x -> h_sealed (tailh g x) = false -> sealed_cur g' = sealed_cur g -> inR th' = false ->
                seal_eff g th g' th'
  (* triggerRotateLocked: sets awaitRotate, or sees the closed flag *)
| se_trig x : t_pc th = PTrig x -> sealed_cur g' = sealed_cur g -> inR th' = false ->
              g_await g' <> None \/ (g_closed g' = true /\ quiet th' = true) -> seal_eff g th g' th'
| se_tx y k hs : t_pc th = PM3 y k -> pm3_tx g (cur_op th) y k = (g', hs) -> th' = setpc th (PM4 y (FSet hs (g_cur g')) k) ->
                 seal_eff g th g' th'
  (* Close closes the await channel *)
| se_chan : t_pc th = PCLocked -> th' = setpc th PC3 -> seal_eff g th g' th'
| se_empty x : t_pc th = PC6 x -> g' = publish g empty_state -> seal_eff g th g' th'
  (* the rotation goroutine resets awaitRotate *)
| se_reset : t_pc th = PRT3 -> sealed_cur g' = sealed_cur g -> th' = setpc th (PRT4 (g_await g)) -> seal_eff g th g' th'.

Lemma seal_cases g t th g' th' :
  step_thread g t th = Some (g', th') -> t_pc th' <> PPanic ->
  seal_eff g th g' th' /\
  (g_closed g = true -> quiet th = true -> quiet th' = true) /\
  (nosealed th = true ->
   nosealed th' = true \/ exists x, t_pc th = PBody x /\ op_locking th = true /\ h_sealed (tailh g x) = true).
Proof.
  (* with the thread a record, its classes before and after the step compute *)
  intros F NP. destruct th as [rot prog outs p]. unfold step_thread in F; cbn [t_pc] in F; crack F; inversion F; subst g' th'; clear F.
  all: try (exfalso; apply NP; reflexivity). all: clear NP.
  all: try match goal with |- context [continue _ _ ?k0] => destruct k0; cbn [continue] end.
  all: split;
    [ (* the steps that have a case of their own and need no argument, then those that keep everything *)
      try (first [ eapply se_meta; [reflexivity | eassumption] | eapply se_chan; reflexivity
                 | eapply se_empty; reflexivity | eapply se_tx; [reflexivity | eassumption | reflexivity]
                 | apply se_keep;
                   [ first [ reflexivity | apply sealed_upd_h; reflexivity | apply sealed_upd_st; reflexivity
                           | apply sealed_close | apply sealed_ctl; reflexivity ]
                   | reflexivity
                   | first [ intros [W|W]; discriminate W | intros _; left; reflexivity ]
                   | first [ intros W; discriminate W | exact (fun W => W) ] ] ])
    | split;
      [ (* a call that is not locking stays so until it returns; PIdle sees the flag, the release leads to the Unlock *)
        intros C Q; try (first [ apply orb_true_r | exact Q | discriminate C ])
      | (* results are carried along, or are not ErrSealed *)
        try (intros R; left; unfold nosealed in *; cbn [t_pc setpc finish t_outs] in *; apply andb_true_iff in R; destruct R as [R1 R2];
             rewrite ?forallb_app, R2; cbn [forallb]; rewrite ?R1; reflexivity) ] ].
  - (* StoreLogs finds the tail sealed *)
    intros _. right. exists x. unfold op_locking. rewrite Heqo. auto.
  - apply se_seal; [unfold holds_mu, op_locking; cbn [t_pc]; now rewrite Heqo | reflexivity | now left | reflexivity].
  - (* readFrame never returns ErrSealed *)
    exfalso. destruct (read_log_cases g h i) as [Q|[[Q _]|[v Q]]]; rewrite Q in Heqo1; discriminate Heqo1.
  - eapply se_commit; [reflexivity | assumption | apply sealed_upd_h; reflexivity | reflexivity].
  - eapply se_trig; [reflexivity | reflexivity | reflexivity | right; split; [assumption | apply orb_true_r]].
  - eapply se_trig; [reflexivity | apply sealed_ctl; reflexivity | reflexivity | left; discriminate].
  - (* the force-seal does not change how the truncation is classified *)
    apply se_seal; [reflexivity | reflexivity | right | reflexivity].
    unfold inW2. cbn [t_pc setpc]. rewrite cur_op_setpc, Heqo. rewrite (classify_ext g); [now rewrite Heqd | reflexivity | reflexivity|].
    intros h. now apply (geth_upd_keeps io).
  - (* PM4: the call is not locking *)
    unfold quiet in *. cbn [t_pc] in Q. rewrite orb_false_r in Q. change (op_locking (setpc ?a ?b)) with (op_locking a). now rewrite Q.
  - apply se_reset; [reflexivity | apply sealed_ctl; reflexivity | reflexivity].
Qed.

(* a thread that is quiet stays quiet once the closed flag is set *)
Lemma quiet_step g t th g' th' :
  step_thread g t th = Some (g', th') -> t_pc th' <> PPanic -> g_closed g = true -> quiet th = true -> quiet th' = true.
Proof. intros F NP. apply (seal_cases _ _ _ _ _ F NP). Qed.

Lemma min_step g t th g' th' x :
  step_thread g t th = Some (g', th') -> x < length (g_states g) -> s_min (getst g' x) = s_min (getst g x).
Proof.
  intros F L.
  assert (Pub : forall g0 s0, g_states g0 = g_states g -> s_min (getst (publish g0 s0) x) = s_min (getst g x)).
  { intros g0 s0 Q. unfold getst, publish; cbn. rewrite Q. now rewrite app_nth1. }
  destruct (step_effect _ _ _ _ _ F) as [g' Es _ _ | z s' _ M _ | | | | y k g' hs _ Q | ]; try reflexivity.
  - unfold getst. now rewrite Es.
  - now apply getst_upd_keeps.
  - destruct (pm3_count g (cur_op th) y k) as (segs & mn0 & nhl & Q1 & _). rewrite Q in Q1. cbn [fst] in Q1. subst g'. now apply Pub.
  - now apply Pub.
Qed.

Lemma inW_holds g th : inW1 th = true \/ inW2 g th = true -> holds_mu th = true.
Proof.
  unfold inW1, inW2, holds_mu. intros [Q|Q]; destruct (t_pc th); try discriminate Q; reflexivity.
Qed.

Lemma inR_holds th : inR th = true -> holds_mu th = true.
Proof. unfold inR, holds_mu. destruct (t_pc th); try discriminate; try reflexivity; destruct k; try discriminate; reflexivity. Qed.

(* another thread's step does not disturb a tail truncation between force-seal and commit *)
Lemma inW2_other w r s t th g' th' u thu :
  Safe s -> Inv1 w r s -> nth_error (ths s) t = Some th -> step_thread (sh s) t th = Some (g', th') -> t_pc th' <> PPanic ->
  nth_error (ths s) u = Some thu -> u <> t -> inW2 (sh s) thu = true -> inW2 g' thu = true.
Proof.
  intros SA I E F NP Eu N W2. pose proof (inW_holds _ _ (or_intror W2)) as Hu. unfold inW2 in *.
  destruct (t_pc thu) eqn:Pu; try discriminate W2. destruct k; try discriminate W2.
  destruct (cur_op thu) as [[]|]; try discriminate W2.
  destruct (core_step s t th g' th' SA E F NP) as (Fr & _ & _ & _ & [Hm|Io] & _).
  { exfalso. pose proof (a_mu1 _ SA _ _ E Hm). pose proof (a_mu1 _ SA _ _ Eu Hu). congruence. }
  assert (Ly : y < length (g_states (sh s))).
  { pose proof (i_thr _ _ _ I _ _ Eu) as TF. unfold th_facts1 in TF. rewrite Pu in TF. pose proof (a_last _ SA). lia. }
  rewrite (classify_ext (sh s) g' y (OTrunc n)); [exact W2 | apply (f_segs _ _ Fr y Ly) | apply (min_step _ _ _ _ _ y F Ly) | exact Io].
Qed.

(* ---- Inv4 is inductive (together with Full) ------------------------------------------------ *)
Section SS.
  Variables (w r : tid).

  (* the stage of Close never goes back below 3 *)
  Lemma K3_step s t s' : Full w r s -> step s t = Some s' -> 3 <= K (sh s) (ths s) -> 3 <= K (sh s') (ths s').
  Proof.
    intros [SA I] H L. destruct (step_decomp _ _ _ H) as (th & g' & th' & E & F & ->). cbn [sh ths].
    destruct (K_move w r s t th g' th' SA I E F) as (_ & _ & [(Q & _)|(Q & _)]); lia.
  Qed.

  (* the writer about to append never finds the tail sealed *)
  Lemma append_tail_unsealed s t th x :
    Full w r s -> Inv4 s -> nth_error (ths s) t = Some th -> t_pc th = PBody x -> op_locking th = true ->
    h_sealed (geth (sh s) (tail_of (getst (sh s) x))) = true -> False.
  Proof.
    intros [SA I] Q E P L Sl.
    pose proof (i_thr _ _ _ I _ _ E) as TF. unfold th_facts1 in TF. rewrite P in TF. destruct TF as (Ox & TF).
    destruct (TF L) as (Xc & Aw). subst x.
    assert (Hm : holds_mu th = true) by (unfold holds_mu; rewrite P; exact L).
    assert (Sc : sealed_cur (sh s) = true) by (unfold sealed_cur; now rewrite Ox, Sl).
    destruct (q_seal _ Q Sc) as [A|[B|[(C & Qu)|(u & thu & Eu & W)]]].
    - congruence.
    - pose proof (lock_K w r s t th I E Hm ltac:(unfold cstage; now rewrite P) Ox). lia.
    - pose proof (Qu t th E) as Qt. unfold quiet in Qt. rewrite L, P in Qt. discriminate Qt.
    - pose proof (inW_holds _ _ W) as Hu.
      pose proof (a_mu1 _ SA _ _ E Hm). pose proof (a_mu1 _ SA _ _ Eu Hu).
      assert (u = t) by congruence. subst u. assert (thu = th) by congruence. subst thu.
      unfold inW1, inW2 in W. rewrite P in W. destruct W; discriminate.
  Qed.

  Lemma res_step s t th g' th' :
    Full w r s -> Inv4 s -> nth_error (ths s) t = Some th -> step_thread (sh s) t th = Some (g', th') ->
    nosealed th' = true.
  Proof.
    intros F0 Q E F. pose proof F0 as [SA I].
    destruct (seal_cases _ _ _ _ _ F (no_panic w r _ _ _ _ _ SA I E F)) as (_ & _ & R).
    destruct (R (q_res _ Q _ _ E)) as [N|(x & P & L & Sl)]; [exact N|].
    exfalso. exact (append_tail_unsealed s t th x F0 Q E P L Sl).
  Qed.

  (* CommitState of an open version finds the metaDB open: Close closes it at stage 9 only *)
  Lemma commit_state_ok s t th y k :
    Inv1 w r s -> nth_error (ths s) t = Some th -> t_pc th = PM2 y k -> (0 <? g_meta_closes (sh s)) = false.
  Proof.
    intros I E P. pose proof (i_thr _ _ _ I _ _ E) as TF. unfold th_facts1 in TF. rewrite P in TF. destruct TF as (-> & Oy & _).
    rewrite (i_open _ _ _ I) in Oy. apply Nat.ltb_lt in Oy.
    rewrite (i_meta _ _ _ I). destruct (Nat.leb_spec 9 (K (sh s) (ths s))); [lia | reflexivity].
  Qed.

  (* q_seal survives a step that seals no tail, leaves awaitRotate set and takes no thread out of W *)
  Lemma seal_keep s t th g' th' :
    Full w r s -> Inv4 s -> nth_error (ths s) t = Some th -> step_thread (sh s) t th = Some (g', th') ->
    (sealed_cur g' = true -> sealed_cur (sh s) = true) ->
    (g_await (sh s) <> None -> g_await g' <> None) ->
    (inW1 th = true \/ inW2 (sh s) th = true -> inW1 th' = true \/ inW2 g' th' = true) ->
    sealed_cur g' = true ->
    g_await g' <> None \/ 3 <= K g' (upd (ths s) t th') \/
    (g_closed g' = true /\ forall u thu, nth_error (upd (ths s) t th') u = Some thu -> quiet thu = true) \/
    (exists u thu, nth_error (upd (ths s) t th') u = Some thu /\ (inW1 thu = true \/ inW2 g' thu = true)).
  Proof.
    intros F0 Q E F Hs Ha Hw Sc. pose proof F0 as [SA I].
    pose proof (no_panic w r _ _ _ _ _ SA I E F) as NP.
    assert (St : step s t = Some {| sh := g'; ths := upd (ths s) t th' |}) by (unfold step; now rewrite E, F).
    assert (Lt : t < length (ths s)) by (eapply nth_error_Some_lt; eauto).
    destruct (q_seal _ Q (Hs Sc)) as [A|[B|[(C & Qu)|(u & thu & Eu & W)]]].
    - left. auto.
    - right; left. apply (K3_step s t _ F0 St B).
    - right; right; left. split; [apply (closed_mono s t _ St C)|].
      intros u thu Eu. destruct (nth_error_upd_inv _ _ _ _ _ Eu) as [(-> & -> & _)|(Nu & Eu')]; [|eauto].
      apply (quiet_step _ _ _ _ _ F NP C (Qu t th E)).
    - right; right; right. destruct (Nat.eq_dec u t) as [->|Nu].
      + assert (thu = th) by congruence. subst thu. exists t, th'. split; [now apply nth_error_upd_eq | auto].
      + exists u, thu. split; [now rewrite nth_error_upd_neq by congruence|].
        destruct W as [W|W]; [now left | right]. apply (inW2_other w r s t th g' th' u thu SA I E F NP Eu Nu W).
  Qed.

  Lemma seal_step s t th g' th' :
    Full w r s -> Inv4 s -> nth_error (ths s) t = Some th -> step_thread (sh s) t th = Some (g', th') ->
    sealed_cur g' = true ->
    g_await g' <> None \/ 3 <= K g' (upd (ths s) t th') \/
    (g_closed g' = true /\ forall u thu, nth_error (upd (ths s) t th') u = Some thu -> quiet thu = true) \/
    (exists u thu, nth_error (upd (ths s) t th') u = Some thu /\ (inW1 thu = true \/ inW2 g' thu = true)).
  Proof.
    intros F0 Q E F Sc. pose proof F0 as [SA I].
    pose proof (no_panic w r _ _ _ _ _ SA I E F) as NP.
    pose proof (i_thr _ _ _ I _ _ E) as TF. unfold th_facts1 in TF.
    assert (Lt : t < length (ths s)) by (eapply nth_error_Some_lt; eauto).
    assert (E' : nth_error (upd (ths s) t th') t = Some th') by (now apply nth_error_upd_eq).
    destruct (proj1 (seal_cases _ _ _ _ _ F NP))
      as [Hs Ha Hw _ | _ _ W _ | y k P M | x P Ns Hs _ | x P Hs _ [A|[C Qt]] | y k hs P Tx -> | P -> | x P -> | P Hs ->];
      try rewrite P in TF.
    - apply (seal_keep s t th g' th' F0 Q E F); [now rewrite Hs | now rewrite Ha | exact Hw | exact Sc].
    - (* the thread that sealed is the witness *)
      right; right; right. exists t, th'. auto.
    - exfalso. rewrite (commit_state_ok s t th y k I E P) in M. discriminate M.
    - exfalso. destruct TF as (-> & Ox & _). rewrite Hs in Sc. unfold sealed_cur in Sc. unfold tailh in Ns.
      rewrite Ox, Ns in Sc. discriminate Sc.
    - now left.
    - (* the writer saw the flag; no other thread has a locking call *)
      right; right; left. split; [exact C|]. intros u thu Eu.
      destruct (nth_error_upd_inv _ _ _ _ _ Eu) as [(-> & -> & _)|(Nu & Eu')]; [exact Qt|].
      unfold quiet. destruct (op_locking thu) eqn:L; [|reflexivity]. exfalso.
      pose proof (locking_of_pc th (i_wf _ _ _ I _ _ E)) as Lw. rewrite P in Lw.
      pose proof (locking_is_w w r s u thu I Eu' L). pose proof (locking_is_w w r s t th I E Lw). congruence.
    - (* the new version is sealed only if it keeps a tail that was: the transaction was not a tail truncation *)
      destruct TF as (-> & Oy & _). destruct (tx_sealed _ _ _ _ _ Tx (a_last _ SA) Oy Sc) as [S0 _].
      apply (seal_keep s t th g' _ F0 Q E F); [auto | | | exact Sc].
      + destruct (pm3_count (sh s) (cur_op th) (g_cur (sh s)) k) as (segs & mn0 & nhl & Q1 & _). rewrite Tx in Q1. cbn [fst] in Q1. now subst g'.
      + intros [W|W]; [unfold inW1 in W; rewrite P in W; discriminate W|].
        rewrite (tail_tx_unsealed _ _ _ _ _ _ P W Tx) in Sc. discriminate Sc.
    - (* from here on Close holds writeMu *)
      right; left.
      assert (St : step s t = Some {| sh := g'; ths := upd (ths s) t (setpc th PC3) |}) by (unfold step; now rewrite E, F).
      destruct (full_step w r s t _ F0 St) as [_ I'].
      destruct (K_active w r _ t _ I' E' ltac:(cbn; lia)) as [_ Kq]. cbn [sh ths] in Kq. rewrite Kq. cbn. lia.
    - rewrite sealed_pubE in Sc. discriminate Sc.
    - (* the rotation left the new tail unsealed *)
      rewrite Hs, (q_rot _ Q t th E ltac:(unfold inR; now rewrite P)) in Sc. discriminate Sc.
  Qed.

  Lemma q_rot_step s t th g' th' :
    Full w r s -> Inv4 s -> nth_error (ths s) t = Some th -> step_thread (sh s) t th = Some (g', th') ->
    forall u thu, nth_error (upd (ths s) t th') u = Some thu -> inR thu = true -> sealed_cur g' = false.
  Proof.
    intros F0 Q E F u thu Eu Ru. pose proof F0 as [SA I].
    pose proof (no_panic w r _ _ _ _ _ SA I E F) as NP.
    pose proof (i_thr _ _ _ I _ _ E) as TF. unfold th_facts1 in TF.
    (* the thread inside the rotation is the stepping one, or holds writeMu throughout *)
    assert (Ex : (u = t /\ thu = th') \/ (holds_mu th = false /\ sealed_cur (sh s) = false)).
    { destruct (nth_error_upd_inv _ _ _ _ _ Eu) as [(-> & -> & _)|(Nu & Eu')]; [now left | right].
      split; [|exact (q_rot _ Q u thu Eu' Ru)]. destruct (holds_mu th) eqn:Hm; [exfalso | reflexivity].
      pose proof (a_mu1 _ SA _ _ E Hm). pose proof (a_mu1 _ SA _ _ Eu' (inR_holds _ Ru)). congruence. }
    assert (No : holds_mu th = true -> inR th' = false -> False).
    { intros Hm Nr. destruct Ex as [(_ & ->)|(Hf & _)]; congruence. }
    destruct (proj1 (seal_cases _ _ _ _ _ F NP))
      as [Hs _ _ Hr | Hm _ _ Nr | y k P M | x P _ _ Nr | x P _ Nr _ | y k hs P Tx -> | P -> | x P -> | P _ ->];
      try rewrite P in TF.
    - rewrite Hs. destruct Ex as [(-> & ->)|(_ & S0)]; [apply (q_rot _ Q t th E (Hr Ru)) | exact S0].
    - exfalso. exact (No Hm Nr).
    - exfalso. rewrite (commit_state_ok s t th y k I E P) in M. discriminate M.
    - exfalso. apply No; [holder_of P | exact Nr].
    - exfalso. apply No; [holder_of P | exact Nr].
    - (* a rotation: the tail is a new file *)
      destruct Ex as [(_ & ->)|(Hf & _)]; [|exfalso; unfold holds_mu in Hf; rewrite P in Hf; discriminate Hf].
      destruct TF as (-> & Oy & _). destruct (sealed_cur g') eqn:Sc; [exfalso | reflexivity].
      destruct (tx_sealed _ _ _ _ _ Tx (a_last _ SA) Oy Sc) as [_ Nk]. apply Nk.
      unfold inR in Ru. cbn in Ru. now destruct k.
    - exfalso. apply No; [holder_of P | reflexivity].
    - apply sealed_pubE.
    - exfalso. apply No; [holder_of P | reflexivity].
  Qed.

  Lemma inv4_step s t s' : Full w r s -> Inv4 s -> step s t = Some s' -> Inv4 s'.
  Proof.
    intros F0 Q H. destruct (step_decomp _ _ _ H) as (th & g' & th' & E & F & ->).
    assert (Lt : t < length (ths s)) by (eapply nth_error_Some_lt; eauto).
    constructor; cbn [sh ths].
    - apply (seal_step s t th g' th' F0 Q E F).
    - apply (q_rot_step s t th g' th' F0 Q E F).
    - intros u thu Eu. destruct (nth_error_upd_inv _ _ _ _ _ Eu) as [(-> & -> & _)|(Nu & Eu')].
      + apply (res_step s t th g' th' F0 Q E F).
      + apply (q_res _ Q u thu Eu').
  Qed.
End SS.

Lemma inv4_init progs extra : Inv4 (init progs extra).
Proof.
  assert (PC : forall t th, nth_error (ths (init progs extra)) t = Some th ->
                (t_pc th = PIdle \/ t_pc th = PRIdle) /\ t_outs th = []).
  { intros t th E. destruct (init_threads _ _ _ _ E) as [(p & _ & -> & _)|(_ & ->)]; cbn; auto. }
  constructor.
  - intros Sc. discriminate Sc.
  - intros t th E R. destruct (PC t th E) as [[P|P] _]; unfold inR in R; rewrite P in R; discriminate R.
  - intros t th E. destruct (PC t th E) as [[P|P] O]; unfold nosealed; rewrite P, O; reflexivity.
Qed.

Theorem inv4_reach w progs extra s :
  single_writer w progs extra -> reachable step (init progs extra) s -> Inv4 s.
Proof.
  intros SW. apply (reachable_inv_rel sys step (Full w (length progs)) Inv4).
  - intros s1. now apply full_reach.
  - apply inv4_init.
  - intros s0 t s1 F0 Q0 H. eapply inv4_step; eauto.
Qed.

(* ---- the mirror is implied by the invariant ------------------------------------------------- *)
Lemma inv4_b_complete s : Inv4 s -> inv4_b s = [].
Proof.
  intros Q. unfold inv4_b. cbv beta zeta.
  assert (All : forall f, (forall t th, nth_error (ths s) t = Some th -> f th = true) -> forallb f (ths s) = true).
  { intros f H. apply forallb_forall. intros th Hi. apply In_nth_error in Hi as (t & E). eauto. }
  repeat apply chk_app.
  - destruct (sealed_cur (sh s)) eqn:Sc; [|reflexivity]. cbn [negb orb].
    destruct (q_seal _ Q Sc) as [A|[B|[(C & Qu)|(u & thu & Eu & W)]]].
    + now destruct (g_await (sh s)).
    + apply Nat.leb_le in B. rewrite B. now rewrite orb_true_r.
    + rewrite C, (All _ Qu). now rewrite !orb_true_r.
    + apply orb_true_iff. right. apply existsb_exists. exists thu.
      split; [eapply nth_error_In; eauto | now apply orb_true_iff].
  - destruct (existsb inR (ths s)) eqn:X; [|reflexivity]. apply existsb_exists in X as (th & Hi & R).
    apply In_nth_error in Hi as (t & E). now rewrite (q_rot _ Q t th E R).
  - rewrite (All _ (q_res _ Q)). reflexivity.
Qed.

(* three single-writer configurations, run under pseudo-random schedules *)
Definition seal_cfg1 : list (list op) :=
  [[OStore true 1 1; OStore false 2 2; ODelete 1; OStore true 3 1; OTrunc 2; OStore true 4 2; OStore true 5 1];
   [OGet 1; OFirst; OGet 2]; [OClose]; [OLast; OClose; OSet]; [OSet; OGetS; OGet 1]].
Definition seal_cfg2 : list (list op) :=
  [[OStore true 1 1; OStore true 2 1; ODelete 2; OStore true 3 3; OTrunc 3; OTrunc 2; OStore true 4 1; ODelete 9; OStore true 5 1];
   [OGet 1; OGet 2; OGet 3; OGet 4]; [OFirst; OLast; OGet 4; OGet 2]; [OGet 3; OClose]].
Definition seal_cfg3 : list (list op) :=
  [[OStore true 1 2; OTrunc 1; OStore true 2 1; OTrunc 1; OStore true 3 1; OStore true 4 1]; [OClose]; [OFirst]].
Definition test_inv4 (cfg : list (list op)) (len : nat) (seed : N) : list (nat * list nat) :=
  check_run inv4_b (init cfg []) (lcg_sched len seed (N.of_nat (S (length cfg)))) 0.

Example inv4_holds_on_samples :
  flat_map (test_inv4 seal_cfg1 500) (map N.of_nat (seq 1 80)) ++
  flat_map (test_inv4 seal_cfg2 700) (map N.of_nat (seq 1 80)) ++
  flat_map (test_inv4 seal_cfg3 300) (map N.of_nat (seq 1 120)) = [].
Proof.
  assert (H : forall cfg len, single_writer 0 cfg [] -> forall seed, test_inv4 cfg len seed = []).
  { intros cfg len SW seed. apply check_run_reachable with (s0 := init cfg []); [|exists []; reflexivity].
    intros s R. exact (inv4_b_complete s (inv4_reach 0 cfg [] s SW R)). }
  rewrite !flat_map_nil; [reflexivity | | |]; apply H; apply single_writer_0; repeat constructor.
Qed.
