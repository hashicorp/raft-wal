(* AwaitInv.v -- no mutating call goes on while a rotation is queued: for ANY number of
   mutating threads (no single-writer hypothesis), every schedule.

   `past_await th`: thread th is inside StoreLogs / DeleteRange, past awaitRotationLocked and
   not yet at the point where the call itself queues a rotation (triggerRotateLocked stores
   awaitRotate).  The invariant AW says that in such a state w.awaitRotate is nil.  Since
   awaitRotate is non-nil from the moment a sealing append queues a rotation until the rotation
   goroutine has performed it (PTrig .. PRT3), no other StoreLogs / DeleteRange touches the
   state in between: the rotation always finds the tail it was queued for.

   In /repo this holds since commit `fae88cb`: awaitRotationLocked loops (model: the PRelock
   step re-checks g_await).  The code before that commit went on after one wait
   (`PRelock -> PLoad`), and then the invariant is false as soon as two threads mutate (see
   Props/C14Multi.v for the schedule, DESIGN.md section round4 for the run on the real code). *)
From Coq Require Import List Arith Bool Lia.
From RW Require Import Conc.Sys Conc.SysFacts Conc.Close Conc.ListX Conc.CloseInv Conc.CloseFacts
     Conc.CloseSafe Conc.CloseSafeStep Conc.CloseFrames.
Import ListNotations.

Definition kouter_b (k : kont) : bool := match k with KOuter _ => true | _ => false end.

Definition past_await (th : thread) : bool :=
  match t_pc th with
  | PLoad | PLoaded _ | PAcq _ | PBody _ => op_locking th
  | PApp1 _ | PApp2 _ | PApp3 _ | PTrig _ => true
  | PM0 k | PM1 _ k | PM2 _ k | PM3 _ k | PM4 _ _ k
  | PRel _ _ k | PLast _ _ k | PRun _ _ _ k =>
      match k with KOuter _ => true | KRetry => op_locking th | _ => false end
  | _ => false
  end.

Definition AW (s : sys) : Prop :=
  forall t th, nth_error (ths s) t = Some th -> past_await th = true -> g_await (sh s) = None.

Lemma past_await_holds th : past_await th = true -> holds_mu th = true.
Proof.
  unfold past_await, holds_mu. destruct (t_pc th); try discriminate; try (intros; reflexivity); try (intros H; exact H).
  all: destruct k; try discriminate; try (intros; reflexivity); try (intros H; exact H).
Qed.

(* what one step of any thread can do to awaitRotate: nothing, reset it, or (PTrig) set it *)
Lemma await_step g t th g' th' :
  step_thread g t th = Some (g', th') ->
  g_await g' = g_await g \/ g_await g' = None \/ exists x, t_pc th = PTrig x.
Proof.
  intros F. destruct (frame_await _ _ _ _ _ F) as [(Q & _)|[(x & P & _)|[(_ & Q & _)|[(_ & Q & _)|(c & _ & Q & _)]]]]; eauto.
Qed.

(* the stepping thread itself: if it is past the check afterwards, it was before (and
   awaitRotate is unchanged), or it has just passed the check and found awaitRotate nil *)
Lemma region_own g t th g' th' :
  step_thread g t th = Some (g', th') -> past_await th' = true ->
  (past_await th = true /\ g_await g' = g_await g) \/ g_await g' = None.
Proof.
  (* Into the region from outside: PLocked and PRelock, each only when it finds g_await = None
     (-> PLoad of a locking call).  Every other step that ends in the region starts in it (PIdle ->
     PLoad is a call that does not lock; `continue .. KRetry` -> PLoad comes from PRel / PLast / PRun
     of the same call) and does not write awaitRotate: the one step that sets it, PTrig, leaves. *)
  intros F R. unfold step_thread in F. crack F.
  all: open_tx.
  all: inversion F; subst g' th'; clear F.
  all: cbn [g_await set_mu set_closed set_trig set_await set_cur set_meta set_hnds set_states publish upd_st upd_h] in *.
  all: unfold past_await, op_locking, cur_op, continue, finish, panic, setpc in *; cbn [t_pc t_prog] in *.
  all: try discriminate R.
  all: repeat match goal with H : t_pc ?th = _ |- _ => rewrite H in * end.
  all: try (left; split; [first [reflexivity | exact R] | reflexivity]).
  all: try (right; assumption).
  all: try (match goal with H : hd_error (t_prog ?th) = Some ?o |- _ => rewrite H in *; cbn in * end).
  all: try discriminate R.
  all: try (left; split; [first [reflexivity | exact R] | reflexivity]).
  all: try (right; assumption).
  all: try (match goal with k : kont |- _ => destruct k; cbn in *; try discriminate R end).
  all: try (left; split; [first [reflexivity | exact R | assumption] | reflexivity]).
  all: try (match goal with H : true = false |- _ => discriminate H | H : false = true |- _ => discriminate H end).
  all: try (cbn in *; congruence).
Qed.

Lemma aw_step s t s' : Safe s -> AW s -> step s t = Some s' -> AW s'.
Proof.
  intros A W H. destruct (step_decomp _ _ _ H) as (th & g' & th' & E & F & ->).
  intros u thu Eu Ru. cbn [sh ths] in *.
  destruct (nth_error_upd_inv _ _ _ _ _ Eu) as [(-> & -> & _)|(N & Eu')].
  - destruct (region_own _ _ _ _ _ F Ru) as [[Rt Q]|Q]; [|exact Q].
    rewrite Q. exact (W t th E Rt).
  - destruct (await_step _ _ _ _ _ F) as [Q|[Q|(x & P)]].
    + rewrite Q. exact (W u thu Eu' Ru).
    + exact Q.
    + (* the other thread stores awaitRotate: it holds writeMu, and so does thu *)
      exfalso. apply N.
      assert (Ht : holds_mu th = true) by (unfold holds_mu; now rewrite P).
      pose proof (a_mu1 _ A _ _ E Ht) as M1.
      pose proof (a_mu1 _ A _ _ Eu' (past_await_holds _ Ru)) as M2. congruence.
Qed.

Lemma aw_init progs extra : AW (init progs extra).
Proof. intros t th E R. reflexivity. Qed.

Theorem await_inv progs extra sch :
  let s := run step (init progs extra) sch in crashed s = true \/ (Safe s /\ AW s).
Proof.
  cbn zeta. apply (run_inv sys step (fun s => crashed s = true \/ (Safe s /\ AW s))).
  - intros s t s' [C|[A W]] H; [left; eapply crashed_mono; eauto|].
    destruct (safe_step _ _ _ A H) as [C|A']; [left; exact C|].
    right. split; [exact A' | exact (aw_step _ _ _ A W H)].
  - right. split; [apply safe_init | apply aw_init].
Qed.

(* every reachable state, any number of mutating threads: a StoreLogs / DeleteRange that is
   past its awaitRotation check runs with no rotation queued *)
Theorem no_call_overtakes_queued_rotation : forall progs extra sch t th,
  let s := run step (init progs extra) sch in
  crashed s = false -> nth_error (ths s) t = Some th -> past_await th = true -> g_await (sh s) = None.
Proof.
  intros progs extra sch t th s C E R. destruct (await_inv progs extra sch) as [C'|[_ W]].
  - fold s in C'. congruence.
  - exact (W t th E R).
Qed.

(* contrapositive: while a rotation is queued (from the sealing append's store of awaitRotate
   until the rotation goroutine has reset it) nobody is inside the body of a mutating call, so
   the state the rotation finds is the one it was queued for *)
Corollary queued_rotation_undisturbed : forall progs extra sch c,
  let s := run step (init progs extra) sch in
  crashed s = false -> g_await (sh s) = Some c ->
  forall t th, nth_error (ths s) t = Some th -> past_await th = false.
Proof.
  intros progs extra sch c s C Q t th E. destruct (past_await th) eqn:R; [|reflexivity].
  pose proof (no_call_overtakes_queued_rotation progs extra sch t th C E R) as Z. fold s in Z. congruence.
Qed.
