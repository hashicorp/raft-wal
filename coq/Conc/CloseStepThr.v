(* CloseStepThr.v -- the per-thread facts of CloseInv.Inv1 survive the steps of other threads (thr_other).
   On the way: only thread w runs locking calls and only thread r is the rotation goroutine (locking_is_w,
   rot_thread); what another thread's step can do to awaitRotate, to the channel the rotation goroutine
   holds, to K <= 1 and to a pending rotation (await_weak, rot_chan_stable, K_le1, pend_stable). *)
From Coq Require Import List Arith Bool Lia.
From RW Require Import Conc.Sys Conc.SysFacts Conc.Close Conc.ListX Conc.CloseInv Conc.CloseFacts
     Conc.CloseK Conc.CloseSafe Conc.CloseSafeStep Conc.CloseStep1 Conc.CloseFrames Conc.CloseStepInv.
Import ListNotations.

Section Thr.
  Variables (w r : tid).

  (* only the single writer runs locking calls *)
  Lemma locking_is_w s u thu :
    Inv1 w r s -> nth_error (ths s) u = Some thu -> op_locking thu = true -> u = w.
  Proof.
    intros I Eu L. destruct (Nat.eq_dec u w) as [Q|Q]; [exact Q|]. exfalso.
    pose proof (i_sw _ _ _ I _ _ Eu Q) as NL. unfold op_locking, cur_op in L.
    destruct (t_prog thu) as [|o p]; cbn in *; [discriminate|].
    apply andb_true_iff in NL. destruct NL as [NL _]. rewrite L in NL. discriminate.
  Qed.

  Lemma rot_thread s t th :
    Inv1 w r s -> nth_error (ths s) t = Some th -> t_rot th = true -> t = r.
  Proof.
    intros I E R. destruct (Nat.eq_dec t r) as [Q|Q]; [exact Q|].
    pose proof (i_nrot _ _ _ I _ _ E Q). congruence.
  Qed.

  (* a thread waiting for a rotation: awaitRotate can only be cleared under it *)
  Lemma await_weak s t u th thu g' th' :
    Inv1 w r s -> nth_error (ths s) t = Some th -> nth_error (ths s) u = Some thu -> u <> t ->
    step_thread (sh s) t th = Some (g', th') -> op_locking thu = true ->
    g_await g' = g_await (sh s) \/ g_await g' = None.
  Proof.
    intros I E Eu N F Lu.
    destruct (frame_await _ _ _ _ _ F) as [(Q & _)|[(x & P & _)|[(P & Q & _)|[(P & Q & _)|(c & P & Q & _)]]]]; auto.
    exfalso. apply N. rewrite (locking_is_w s u thu I Eu Lu). symmetry. apply (locking_is_w s t th I E).
    pose proof (locking_of_pc th (i_wf _ _ _ I _ _ E)) as L. now rewrite P in L.
  Qed.

  (* the rotation goroutine between taking and closing the await channel *)
  Lemma rot_chan_stable s t th g' th' c :
    Inv1 w r s -> nth_error (ths s) t = Some th -> t <> r ->
    step_thread (sh s) t th = Some (g', th') ->
    chan_open (sh s) c -> g_await (sh s) <> Some c -> chan_open g' c /\ g_await g' <> Some c.
  Proof.
    intros I E N F [Lc Oc] Na. unfold chan_open.
    pose proof (i_wf _ _ _ I _ _ E) as WF.
    destruct (frame_await _ _ _ _ _ F) as [(Q1 & Q2)|[(x & P & _ & Q1 & Q2 & _)|[(P & Q1 & Q2 & _)|[(P & Q1 & _ & Q2)|(c0 & P & Q1 & Q2 & _)]]]].
    - rewrite Q1, Q2. auto.
    - rewrite Q1, Q2, app_length. cbn. split; [split; [lia | now rewrite app_nth1 by exact Lc]|].
      intros Q. inversion Q. lia.
    - exfalso. apply N. apply (rot_thread s t th I E). pose proof (rot_of_pc th WF) as R. now rewrite P in R.
    - rewrite Q1. split; [|discriminate]. destruct (g_await (sh s)) as [c0|] eqn:Aw; rewrite Q2; [|auto].
      rewrite upd_length. split; [exact Lc|]. rewrite nth_upd_neq; [exact Oc | congruence].
    - exfalso. apply N. apply (rot_thread s t th I E). pose proof (rot_of_pc th WF) as R. now rewrite P in R.
  Qed.

  Lemma pclock_free g t th g' th' :
    t_pc th = PCLock -> step_thread g t th = Some (g', th') -> g_mu g = None.
  Proof. intros P F. unfold step_thread in F. rewrite P in F. destruct (g_mu g); [discriminate | reflexivity]. Qed.

  (* while another thread holds the mutex, Close cannot get past waiting for it *)
  Lemma K_le1 s t th g' th' u :
    Safe s -> Inv1 w r s -> nth_error (ths s) t = Some th -> step_thread (sh s) t th = Some (g', th') ->
    g_mu (sh s) = Some u -> u <> t ->
    K (sh s) (ths s) <= 1 -> K g' (upd (ths s) t th') <= 1.
  Proof.
    intros SA I E F M N KL.
    destruct (K_move w r s t th g' th' SA I E F) as (_ & _ & [(Q & _)|(Q & _ & U)]); [rewrite Q; exact KL|].
    (* K moves up: from 0 to 1, or from 1 by taking the mutex, which is not free *)
    rewrite Q. destruct (t_pc th) eqn:P; cbn in U; try contradiction; try lia.
    exfalso. pose proof (pclock_free _ _ _ _ _ P F). congruence.
  Qed.

  (* while the writer is about to send the trigger the rotation goroutine stays idle *)
  Lemma pend_stable s t th g' th' u thu x :
    Safe s -> Inv1 w r s -> nth_error (ths s) t = Some th -> step_thread (sh s) t th = Some (g', th') ->
    nth_error (ths s) u = Some thu -> u <> t -> t_pc thu = PSend x ->
    rot_pend (rot_pc (upd (ths s) t th') r) = false.
  Proof.
    intros SA I E F Eu N Pu.
    pose proof (i_thr _ _ _ I _ _ Eu) as TFu. unfold th_facts1 in TFu. rewrite Pu in TFu.
    destruct TFu as (Xc & Ox & Tr & _ & Pe).
    rewrite (rot_pc_upd (ths s) t th th' r E). destruct (Nat.eqb_spec r t) as [Qr|Nr]; [|exact Pe].
    assert (Rq : rot_pc (ths s) r = t_pc th) by (unfold rot_pc; rewrite Qr, E; reflexivity).
    rewrite Rq in Pe.
    assert (Hu : holds_mu thu = true) by (unfold holds_mu; now rewrite Pu).
    assert (NH : holds_mu th = false).
    { destruct (holds_mu th) eqn:Hh; [|reflexivity]. exfalso. apply N. symmetry.
      pose proof (a_mu1 _ SA _ _ E Hh). pose proof (a_mu1 _ SA _ _ Eu Hu). congruence. }
    pose proof (i_wf _ _ _ I _ _ E) as WF.
    assert (Rt : t_rot th = true) by (destruct (i_rot _ _ _ I) as (y & Ey & Ry); rewrite Qr in Ey; congruence).
    unfold pc_ok in WF. rewrite Rt in WF. destruct (t_prog th); [|discriminate].
    unfold holds_mu in NH.
    destruct (t_pc th) eqn:P; try discriminate WF; try discriminate Pe; try discriminate NH;
      unfold step_thread in F; rewrite P in F; crack F; inversion F; subst g' th'; cbn; try reflexivity.
    - (* PRIdle with a trigger: impossible, the writer has not sent yet *) congruence.
    - (* PRIdle on the closed channel: impossible, Close cannot be that far *)
      exfalso. assert (C0 : cstage thu = 0) by (unfold cstage; now rewrite Pu).
      rewrite Xc in Ox. pose proof (lock_K w r s u thu I Eu Hu C0 Ox) as KL.
      pose proof (i_tc _ _ _ I) as Itc. rewrite Heqb0 in Itc. symmetry in Itc. apply Nat.leb_le in Itc. lia.
  Qed.

  Lemma thr_other s t th g' th' u thu :
    Safe s -> Inv1 w r s -> nth_error (ths s) t = Some th -> step_thread (sh s) t th = Some (g', th') ->
    nth_error (ths s) u = Some thu -> u <> t ->
    th_facts1 g' (upd (ths s) t th') (rot_pc (upd (ths s) t th') r) thu.
  Proof.
    intros SA I E F Eu N.
    pose proof (i_thr _ _ _ I _ _ Eu) as TFu. pose proof (a_thr _ SA _ _ Eu) as FBu.
    pose proof (i_wf _ _ _ I _ _ Eu) as WFu.
    assert (G1 : forall x, x < length (g_states (sh s)) -> s_open (getst g' x) = s_open (getst (sh s) x))
      by (intros x L; apply (open_stable _ _ _ _ _ x F L)).
    assert (G3 : holds_mu thu = true ->
                 g_cur g' = g_cur (sh s) /\ g_await g' = g_await (sh s) /\
                 (g_trig (sh s) = false -> g_trig g' = false) /\
                 (K (sh s) (ths s) <= 1 -> K g' (upd (ths s) t th') <= 1)).
    { intros Hu.
      assert (Q1 : g_cur g' = g_cur (sh s)) by (apply (cur_stable s t u th thu g' th' SA E Eu N F Hu)).
      assert (Q2 : g_await g' = g_await (sh s)) by (apply (await_stable_h s t u th thu g' th' SA E Eu N F Hu)).
      assert (Q3 : g_trig (sh s) = false -> g_trig g' = false)
        by (apply (trig_stable s t u th thu g' th' SA E Eu N F Hu)).
      assert (Q4 : K (sh s) (ths s) <= 1 -> K g' (upd (ths s) t th') <= 1)
        by (apply (K_le1 s t th g' th' u SA I E F (a_mu1 _ SA _ _ Eu Hu) N)).
      exact (conj Q1 (conj Q2 (conj Q3 Q4))). }
    assert (G4 : op_locking thu = true -> g_await g' = g_await (sh s) \/ g_await g' = None)
      by (intros L; apply (await_weak s t u th thu g' th' I E Eu N F L)).
    pose proof (chans_len _ _ _ _ _ F) as G5.
    assert (G6 : g_closed (sh s) = true -> g_closed g' = true)
      by (intros C; destruct (frame_closed _ _ _ _ _ F) as [Q|(_ & _ & Q & _)]; congruence).
    pose proof (a_last _ SA) as G7.
    pose proof (locking_of_pc thu WFu) as LK.
    (* what a holder of the mutex relies on is out of reach of the other threads *)
    assert (Hc : holds_mu thu = true -> forall x, x = g_cur (sh s) -> s_open (getst (sh s) x) = true ->
                 x = g_cur g' /\ s_open (getst g' x) = true).
    { intros Hu x -> O. destruct (G3 Hu) as (Cu & _). rewrite Cu, G1 by lia. auto. }
    assert (Hl : holds_mu thu = true -> forall x, x = g_cur (sh s) /\ g_await (sh s) = None ->
                 x = g_cur g' /\ g_await g' = None).
    { intros Hu x [-> An]. destruct (G3 Hu) as (Cu & Aw & _). rewrite Cu, Aw. auto. }
    assert (Hk : holds_mu thu = true -> forall k, krot_f (sh s) (ths s) k -> krot_f g' (upd (ths s) t th') k).
    { intros Hu k Kf. destruct (G3 Hu) as (_ & Aw & _ & KL). unfold krot_f in *. destruct k; auto. rewrite Aw. destruct Kf; auto. }
    assert (Hr : forall k, (k = KRot -> holds_mu thu = true) -> (k = KRetry -> op_locking thu = true -> holds_mu thu = true) ->
                 krot_f (sh s) (ths s) k /\ (k = KRetry -> op_locking thu = true -> g_await (sh s) = None) ->
                 krot_f g' (upd (ths s) t th') k /\ (k = KRetry -> op_locking thu = true -> g_await g' = None)).
    { intros k H1 H2 [Kf Rf]. split.
      - destruct k; try exact Logic.I. apply (Hk (H1 eq_refl)), Kf.
      - intros Q L. destruct (G3 (H2 Q L)) as (_ & Aw & _). rewrite Aw. auto. }
    assert (Nr : t_rot thu = true -> t <> r).
    { intros R Q. apply N. rewrite (rot_thread s u thu I Eu R). auto. }
    pose proof (rot_of_pc thu WFu) as RO.
    unfold th_facts1 in *. unfold factsB in FBu.
    destruct (t_pc thu) eqn:Pu; auto.
    - (* PWaiting *) destruct TFu as (Lc & Aw). split; [lia|].
      destruct (G4 LK) as [Q|Q]; rewrite Q; auto.
    - (* PRecvAwait *) destruct TFu as (Lc & Aw). split; [lia|].
      destruct (G4 LK) as [Q|Q]; rewrite Q; auto.
    - (* PRelock *) destruct (G4 LK) as [Q|Q]; rewrite Q; auto.
    - (* PLoad *) intros L. assert (Hu : holds_mu thu = true) by (unfold holds_mu; now rewrite Pu).
      destruct (G3 Hu) as (_ & Aw & _). rewrite Aw. auto.
    - (* PLoaded *) intros L. apply Hl; [unfold holds_mu; now rewrite Pu | auto].
    - (* PAcq *) intros L. apply Hl; [unfold holds_mu; now rewrite Pu | auto].
    - (* PBody *) destruct TFu as [Ox Lf]. split; [rewrite G1; auto|].
      intros L. apply Hl; [unfold holds_mu; now rewrite Pu | auto].
    - (* PApp1 *) destruct TFu as (Xc & Ox & An).
      destruct (Hl ltac:(holder_of Pu) x (conj Xc An)), (Hc ltac:(holder_of Pu) x Xc Ox). auto.
    - (* PApp2 *) destruct TFu as (Xc & Ox & An).
      destruct (Hl ltac:(holder_of Pu) x (conj Xc An)), (Hc ltac:(holder_of Pu) x Xc Ox). auto.
    - (* PApp3 *) destruct TFu as (Xc & Ox & An).
      destruct (Hl ltac:(holder_of Pu) x (conj Xc An)), (Hc ltac:(holder_of Pu) x Xc Ox). auto.
    - (* PTrig *) destruct TFu as (Xc & Ox & An).
      destruct (Hl ltac:(holder_of Pu) x (conj Xc An)), (Hc ltac:(holder_of Pu) x Xc Ox). auto.
    - (* PSend *) assert (Hu : holds_mu thu = true) by holder_of Pu.
      destruct (G3 Hu) as (_ & Aw & Tr & _). destruct TFu as (Xc & Ox & Tf & An & Pe).
      destruct (Hc Hu x Xc Ox). rewrite Aw. repeat split; auto.
      apply (pend_stable s t th g' th' u thu x SA I E F Eu N Pu).
    - (* PM0 *) assert (Hu : holds_mu thu = true) by holder_of Pu. destruct TFu as (Oc & Kf).
      destruct (Hc Hu _ eq_refl Oc) as [Q O']. rewrite <- Q. split; [exact O' | apply (Hk Hu), Kf].
    - (* PM1 *) assert (Hu : holds_mu thu = true) by holder_of Pu. destruct TFu as (Yc & Oc & Kf).
      destruct (Hc Hu y Yc Oc). auto.
    - (* PM2 *) assert (Hu : holds_mu thu = true) by holder_of Pu. destruct TFu as (Yc & Oc & Kf).
      destruct (Hc Hu y Yc Oc). auto.
    - (* PM3 *) assert (Hu : holds_mu thu = true) by holder_of Pu. destruct TFu as (Yc & Oc & Kf).
      destruct (Hc Hu y Yc Oc). auto.
    - (* PM4 *) assert (Hu : holds_mu thu = true) by holder_of Pu. destruct TFu as (Yc & Kf).
      destruct (G3 Hu) as (Cu & _). rewrite Cu. auto.
    - (* PRel *) apply Hr; auto; intros ->; intros; unfold holds_mu; now rewrite Pu.
    - (* PLast *) apply Hr; auto; intros ->; intros; unfold holds_mu; now rewrite Pu.
    - (* PRun *) apply Hr; auto; intros ->; intros; unfold holds_mu; now rewrite Pu.
    - (* PC5 *) destruct (G3 ltac:(holder_of Pu)) as (Cu & _). congruence.
    - (* PC6 *) destruct (G3 ltac:(holder_of Pu)) as (Cu & _). congruence.
    - (* PCSwapped *) destruct (G3 ltac:(holder_of Pu)) as (Cu & _).
      destruct TFu as (Xc & Ec & Ox). rewrite Cu, G1 by lia. auto.
    - (* PRT3 *) apply (Hk ltac:(holder_of Pu) KRot), TFu.
    - (* PRT4 *) destruct TFu as (c & Qd & Co & Na). exists c. split; [exact Qd|].
      apply (rot_chan_stable s t th g' th' c I E (Nr RO) F Co Na).
    - (* PRT5 *) destruct TFu as (c & Qd & Co & Na). exists c. split; [exact Qd|].
      apply (rot_chan_stable s t th g' th' c I E (Nr RO) F Co Na).
  Qed.
End Thr.
