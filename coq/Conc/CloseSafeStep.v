(* CloseSafeStep.v -- every step preserves CloseSafe.Safe (or the process has panicked) *)
From Coq Require Import List Arith Bool Lia.
From RW Require Import Conc.Sys Conc.SysFacts Conc.Close Conc.ListX Conc.CloseInv Conc.CloseFacts Conc.CloseSafe.
Import ListNotations.

Ltac frame_tac :=
  first [ apply frame_refl | apply frame_ref | apply frame_fin | apply frame_retire | apply frame_close
        | apply frame_publish0 | (apply frame_ctl; reflexivity) ].

(* a lock holder rewrites the io fields of one file *)
Lemma core_mod g t v th th' :
  holds_mu th = true -> h_base v = h_base (geth g t) -> h_chain v -> h_syn (geth g t) <= h_syn v ->
  S (g_cur g) = length (g_states g) -> (forall h, h_chain (geth g h)) ->
  factsB (upd_h g t v) th' -> core g (upd_h g t v) th th'.
Proof.
  intros Hm B Cv Sv La Ch Fa. unfold core.
  split; [now apply frame_upd_h|]. split; [exact La|]. split; [|split; [|split; [now left | exact Fa]]].
  - intros h. rewrite geth_upd_h. destruct ((t =? h) && (t <? length (g_hnds g))); auto.
  - intros h _. rewrite geth_upd_h. destruct ((t =? h) && (t <? length (g_hnds g))) eqn:Q; [|lia].
    apply andb_true_iff in Q. destruct Q as [Q _]. apply Nat.eqb_eq in Q. now subst.
Qed.

Lemma tailh_upd_h g x v :
  tailh (upd_h g (tail_of (getst g x)) v) x =
  if tail_of (getst g x) <? length (g_hnds g) then v else tailh g x.
Proof.
  unfold tailh. change (getst (upd_h g (tail_of (getst g x)) v) x) with (getst g x).
  rewrite geth_upd_h, Nat.eqb_refl. reflexivity.
Qed.

Lemma tailh_oob g x : length (g_hnds g) <= tail_of (getst g x) -> tailh g x = dh.
Proof. intros L. unfold tailh, geth. now rewrite nth_overflow by lia. Qed.

Lemma core_step s t th g' th' :
  Safe s -> nth_error (ths s) t = Some th -> step_thread (sh s) t th = Some (g', th') ->
  t_pc th' <> PPanic -> core (sh s) g' th th'.
Proof.
  intros A E F NP.
  pose proof (a_thr _ A _ _ E) as TF. pose proof (a_last _ A) as La. pose proof (a_chain _ A) as Ch.
  pose proof (a_wf _ A _ _ E) as WF.
  unfold step_thread in F. crack F.
  all: open_tx.
  all: inversion F; subst; clear F.
  all: try (exfalso; apply NP; reflexivity). all: clear NP.
  all: unfold factsB in TF; repeat match goal with H : t_pc _ = _ |- _ => rewrite H in TF end.
  (* steps that do not touch the io fields of any file *)
  all: try (apply core_same;
            [ frame_tac
            | cbn; rewrite ?upd_length; try rewrite app_length; cbn; lia
            | exact Ch
            | intros h0; cbn; first [reflexivity | apply close_all_io]
            | unfold factsB; cbn; try exact I; try (cbn in TF; rewrite ?upd_length; lia);
              try (match goal with |- context [continue _ _ ?k] => destruct k; cbn; exact I end) ]; fail).
  - (* GetLog: the in-memory lookup found file n *)
    apply core_same; [apply frame_refl | exact La | exact Ch | reflexivity |].
    unfold factsB. cbn [t_pc setpc]. change (cur_op (setpc th (PGetRead x n))) with (cur_op th).
    rewrite Heqo. unfold find_log in Heqo1.
    destruct ((0 <? first_index (sh s) (getst (sh s) x)) && (first_index (sh s) (getst (sh s) x) <=? i) &&
              (i <=? last_index (sh s) (getst (sh s) x))); [|discriminate].
    destruct (seg_for (sh s) (s_segs (getst (sh s) x)) i None) as [h0|] eqn:Sf; [|discriminate].
    destruct (Nat.ltb_spec (i - h_base (geth (sh s) h0)) (h_cnt (geth (sh s) h0))) as [Lc|Lc]; [|discriminate].
    inversion Heqo1; subst. split.
    + destruct (seg_for_some _ _ _ _ _ Sf) as [[_ Lb]|Hq]; [exact Lb | discriminate Hq].
    + destruct (Ch n) as (C1 & _). lia.
  - (* StoreLogs: offsets published *)
    apply core_mod; auto.
    all: try (unfold holds_mu, op_locking; rewrite Heqp, Heqo; reflexivity).
    all: try (destruct (Ch (tail_of (getst (sh s) x))) as (C1 & C2 & C3);
              unfold h_chain, with_ents; cbn; rewrite app_length; lia).
    all: try (unfold factsB; cbn; exact TF).
  - (* WriteAt *)
    apply core_mod; auto.
    all: try (unfold holds_mu; rewrite Heqp; reflexivity).
    all: try (destruct (Ch (tail_of (getst (sh s) x))) as (C1 & C2 & C3); unfold h_chain, with_io; cbn; lia).
    unfold factsB. cbn [t_pc setpc]. split; [cbn; exact TF|]. rewrite tailh_upd_h.
    destruct (tail_of (getst (sh s) x) <? length (g_hnds (sh s))) eqn:Q; [reflexivity|].
    apply Nat.ltb_ge in Q. now rewrite tailh_oob by exact Q.
  - (* fsync *)
    destruct TF as (Lx & W).
    apply core_mod; auto.
    all: try (unfold holds_mu; rewrite Heqp; reflexivity).
    all: try (destruct (Ch (tail_of (getst (sh s) x))) as (C1 & C2 & C3); unfold h_chain, with_io; cbn; lia).
    unfold factsB. cbn [t_pc setpc]. split; [cbn; exact Lx|]. rewrite tailh_upd_h.
    destruct (tail_of (getst (sh s) x) <? length (g_hnds (sh s))) eqn:Q; [split; [exact W | reflexivity]|].
    apply Nat.ltb_ge in Q. now rewrite tailh_oob by exact Q.
  - (* commitIdx store, sealed *)
    destruct TF as (Lx & W & Sy). unfold tailh in *.
    apply core_mod; auto.
    all: try (unfold holds_mu; rewrite Heqp; reflexivity).
    all: try (destruct (Ch (tail_of (getst (sh s) x))) as (C1 & C2 & C3); unfold h_chain, with_io; cbn; lia).
    all: try exact I.
  - (* commitIdx store *)
    destruct TF as (Lx & W & Sy). unfold tailh in *.
    apply core_mod; auto.
    all: try (unfold holds_mu; rewrite Heqp; reflexivity).
    all: try (destruct (Ch (tail_of (getst (sh s) x))) as (C1 & C2 & C3); unfold h_chain, with_io; cbn; lia).
    all: try exact I.
  - (* ForceSeal, commit fails *)
    apply core_mod; auto.
    all: try (unfold holds_mu; rewrite Heqp; reflexivity).
    all: try apply (Ch _). all: try exact I.
  - (* ForceSeal *)
    apply core_mod; auto.
    all: try (unfold holds_mu; rewrite Heqp; reflexivity).
    all: try apply (Ch _). all: try exact I.
  - (* publish *)
    assert (Hn : nh = [] \/ exists b, nh = [new_hnd b]) by (destruct Q2 as [[-> _]|(b & -> & _)]; eauto).
    unfold core. split; [now apply frame_publish|]. split; [cbn; rewrite app_length; cbn; lia|].
    assert (G : forall h, h < length (g_hnds (sh s)) ->
                geth (publish (set_hnds (sh s) (g_hnds (sh s) ++ nh)) (mk_state segs mn)) h = geth (sh s) h).
    { intros h L. unfold geth, publish, set_hnds; cbn. now rewrite app_nth1 by exact L. }
    split; [|split; [|split; [left; unfold holds_mu; now rewrite Heqp | exact I]]].
    + intros h. destruct (Nat.lt_ge_cases h (length (g_hnds (sh s)))) as [L|L]; [rewrite G by exact L; apply Ch|].
      destruct (f_new _ _ (frame_publish (sh s) nh (mk_state segs mn) Hn) h L) as [Q|[b Q]];
        eapply chain_io; try exact Q; [apply chain_dh | unfold h_chain, new_hnd; cbn; lia].
    + intros h L. rewrite G by exact L. lia.
Qed.

Lemma not_panic_pc th : is_panic th = false -> t_pc th <> PPanic.
Proof. unfold is_panic. destruct (t_pc th); congruence. Qed.

Lemma safe_step_np s t th g' th' :
  Safe s -> nth_error (ths s) t = Some th -> step_thread (sh s) t th = Some (g', th') ->
  t_pc th' <> PPanic -> Safe {| sh := g'; ths := upd (ths s) t th' |}.
Proof.
  intros A E F P.
  assert (L : t < length (ths s)) by (eapply nth_error_Some_lt; eauto).
  pose proof (a_wf _ A _ _ E) as WF.
  pose proof (pc_ok_step _ _ _ _ _ WF F P) as WF'.
  pose proof (mu_change1 _ _ _ _ _ WF F P) as MC.
  destruct (core_step s t th g' th' A E F P) as (Fr & La' & Ch' & Mono & Hio & Fa').
  split; cbn [sh ths].
  - intros u thu Eu. destruct (nth_error_upd_inv _ _ _ _ _ Eu) as [(-> & -> & _)|(N & Eu')]; [exact WF'|].
    eapply a_wf; eauto.
  - intros u thu Eu Hu. destruct (nth_error_upd_inv _ _ _ _ _ Eu) as [(-> & -> & _)|(N & Eu')].
    + destruct MC as [(A1 & B)|[(A1 & B & C & D)|(A1 & B & C)]].
      * rewrite B. apply (a_mu1 _ A _ _ E). congruence.
      * exact D.
      * congruence.
    + pose proof (a_mu1 _ A _ _ Eu' Hu) as M.
      destruct MC as [(A1 & B)|[(A1 & B & C & D)|(A1 & B & C)]].
      * congruence.
      * congruence.
      * pose proof (a_mu1 _ A _ _ E A1). congruence.
  - intros u Mu. destruct MC as [(A1 & B)|[(A1 & B & C & D)|(A1 & B & C)]]; [| |congruence].
    + rewrite B in Mu. destruct (a_mu2 _ A _ Mu) as (thu & Eu & Hu).
      destruct (Nat.eq_dec u t) as [->|N].
      * exists th'. rewrite nth_error_upd_eq by exact L. split; [reflexivity|]. congruence.
      * exists thu. rewrite nth_error_upd_neq by congruence. auto.
    + assert (u = t) by congruence. subst. exists th'. rewrite nth_error_upd_eq by exact L. auto.
  - exact La'.
  - exact Ch'.
  - intros u thu Eu. destruct (nth_error_upd_inv _ _ _ _ _ Eu) as [(-> & -> & _)|(N & Eu')]; [exact Fa'|].
    apply (factsB_frame (sh s) g' thu Fr Mono); [|eapply a_thr; eauto].
    intros Hu. destruct Hio as [Ht|Hio]; [|exact Hio].
    pose proof (a_mu1 _ A _ _ E Ht). pose proof (a_mu1 _ A _ _ Eu' Hu). congruence.
Qed.

Lemma safe_step s t s' : Safe s -> step s t = Some s' -> crashed s' = true \/ Safe s'.
Proof.
  intros A H. destruct (step_decomp _ _ _ H) as (th & g' & th' & E & F & ->).
  assert (L : t < length (ths s)) by (eapply nth_error_Some_lt; eauto).
  destruct (is_panic th') eqn:P.
  { left. unfold crashed. cbn. now apply existsb_upd. }
  right. apply not_panic_pc in P. eapply safe_step_np; eauto.
Qed.

Lemma crashed_mono s t s' : step s t = Some s' -> crashed s = true -> crashed s' = true.
Proof.
  intros H C. destruct (step_decomp _ _ _ H) as (th & g' & th' & E & F & ->).
  unfold crashed in *. cbn. apply existsb_exists in C. destruct C as (thp & In_ & Pp).
  apply In_nth_error in In_. destruct In_ as (u & Eu).
  apply existsb_exists. exists thp. split; [|exact Pp].
  apply nth_error_In with (n := u). rewrite nth_error_upd_neq; [exact Eu|].
  intros ->. assert (thp = th) by congruence. subst.
  unfold is_panic in Pp. unfold step_thread in F. destruct (t_pc th); try discriminate.
Qed.

Lemma safe_init progs extra : Safe (init progs extra).
Proof.
  assert (Hth : forall t th, nth_error (ths (init progs extra)) t = Some th ->
                             (exists p, th = caller p) \/ th = rotator).
  { intros t th E. apply nth_error_In in E. cbn in E. apply in_app_or in E. destruct E as [E|[E|E]].
    - apply in_map_iff in E. destruct E as (p & <- & _). left; eauto.
    - right; auto.
    - apply in_map_iff in E. destruct E as (p & <- & _). left; eauto. }
  split.
  - intros t th E. destruct (Hth t th E) as [[p ->]| ->]; reflexivity.
  - intros t th E Hm. destruct (Hth t th E) as [[p ->]| ->]; discriminate.
  - cbn. discriminate.
  - reflexivity.
  - intros [|h]; unfold geth, h_chain; cbn; [lia|]. destruct h; cbn; lia.
  - intros t th E. destruct (Hth t th E) as [[p ->]| ->]; exact I.
Qed.

Theorem safe_run progs extra sch :
  let s := run step (init progs extra) sch in crashed s = true \/ Safe s.
Proof.
  cbn zeta. apply (run_inv sys step (fun s => crashed s = true \/ Safe s)).
  - intros s t s' [C|A] H; [left; eapply crashed_mono; eauto | eapply safe_step; eauto].
  - right. apply safe_init.
Qed.
