(* ListX.v -- list update / sum lemmas used by the concurrency proofs *)
From Coq Require Import List Arith Bool Lia.
From RW Require Import Conc.Sys Conc.Close.
Import ListNotations.

Lemma upd_length {A} (l : list A) i x : length (upd l i x) = length l.
Proof. revert i; induction l as [|a l IH]; intros [|i]; cbn; auto. Qed.

Lemma nth_error_upd_eq {A} (l : list A) i x : i < length l -> nth_error (upd l i x) i = Some x.
Proof. revert i; induction l as [|a l IH]; intros [|i] H; cbn in *; try lia; auto; try (apply IH; lia). Qed.

Lemma nth_error_upd_neq {A} (l : list A) i j x : i <> j -> nth_error (upd l i x) j = nth_error l j.
Proof.
  revert i j; induction l as [|a l IH]; intros [|i] [|j] H; cbn; auto; try lia; try (apply IH; lia).
Qed.

Lemma nth_upd_eq {A} (l : list A) i x d : i < length l -> nth i (upd l i x) d = x.
Proof. revert i; induction l as [|a l IH]; intros [|i] H; cbn in *; try lia; auto; try (apply IH; lia). Qed.

Lemma nth_upd_neq {A} (l : list A) i j x d : i <> j -> nth j (upd l i x) d = nth j l d.
Proof.
  revert i j; induction l as [|a l IH]; intros [|i] [|j] H; cbn; auto; try lia; try (apply IH; lia).
Qed.

Lemma upd_oob {A} (l : list A) i x : length l <= i -> upd l i x = l.
Proof. revert i; induction l as [|a l IH]; intros [|i] H; cbn in *; auto; try lia; try (f_equal; apply IH; lia). Qed.

Lemma nth_error_Some_lt {A} (l : list A) i x : nth_error l i = Some x -> i < length l.
Proof. intros H. apply nth_error_Some. congruence. Qed.

Lemma nth_error_nth' {A} (l : list A) i x d : nth_error l i = Some x -> nth i l d = x.
Proof. revert i; induction l as [|a l IH]; intros [|i] H; cbn in *; try discriminate; [congruence | auto]. Qed.

Fixpoint sum {A} (f : A -> nat) (l : list A) : nat :=
  match l with [] => 0 | a :: r => f a + sum f r end.

Lemma sum_app {A} (f : A -> nat) a b : sum f (a ++ b) = sum f a + sum f b.
Proof. induction a as [|x a IH]; cbn; [reflexivity | rewrite IH; lia]. Qed.

Lemma sum_upd {A} (f : A -> nat) (l : list A) i a b :
  nth_error l i = Some a -> sum f (upd l i b) + f a = sum f l + f b.
Proof.
  revert i; induction l as [|x l IH]; intros [|i] H; cbn in *; try discriminate.
  - inversion H; subst. lia.
  - specialize (IH _ H). lia.
Qed.

Lemma sum_upd_same {A} (f : A -> nat) l i a b :
  nth_error l i = Some a -> f b = f a -> sum f (upd l i b) = sum f l.
Proof. intros E Q. pose proof (sum_upd f l i a b E). lia. Qed.

Lemma sum_ext {A} (f g : A -> nat) l : (forall a, In a l -> f a = g a) -> sum f l = sum g l.
Proof. induction l as [|x l IH]; intros H; cbn; [reflexivity|]. rewrite H, IH; auto; [intros; apply H; now right | now left]. Qed.

Lemma sum_zero {A} (f : A -> nat) l : (forall a, In a l -> f a = 0) -> sum f l = 0.
Proof. induction l as [|x l IH]; intros H; cbn; [reflexivity|]. rewrite H, IH; auto; [intros; apply H; now right | now left]. Qed.

Lemma sum_zero_inv {A} (f : A -> nat) l : sum f l = 0 -> forall i a, nth_error l i = Some a -> f a = 0.
Proof.
  induction l as [|x l IH]; intros H [|i] a E; cbn in *; try discriminate.
  - inversion E; subst; lia.
  - eapply IH; eauto; lia.
Qed.

Lemma sum_pos_ex {A} (f : A -> nat) l : 0 < sum f l -> exists i a, nth_error l i = Some a /\ 0 < f a.
Proof.
  induction l as [|x l IH]; cbn; intros H; [lia|].
  destruct (f x) eqn:E.
  - destruct IH as [i [a [H1 H2]]]; [lia|]. exists (S i), a. auto.
  - exists 0, x. cbn. split; [reflexivity | lia].
Qed.

Lemma sum_ge_nth {A} (f : A -> nat) l i a : nth_error l i = Some a -> f a <= sum f l.
Proof.
  revert i; induction l as [|x l IH]; intros [|i] E; cbn in *; try discriminate.
  - inversion E; subst; lia.
  - specialize (IH _ E). lia.
Qed.

Lemma sum_ge_two {A} (f : A -> nat) l i j a b :
  i <> j -> nth_error l i = Some a -> nth_error l j = Some b -> f a + f b <= sum f l.
Proof.
  revert i j; induction l as [|x l IH]; intros [|i] [|j] N E1 E2; cbn in *; try discriminate; try lia.
  - inversion E1; subst. pose proof (sum_ge_nth f l j b E2). lia.
  - inversion E2; subst. pose proof (sum_ge_nth f l i a E1). lia.
  - assert (i <> j) by lia. specialize (IH _ _ H E1 E2). lia.
Qed.

Definition b2n (b : bool) : nat := if b then 1 else 0.

Definition cnt (h : nat) (l : list nat) : nat := count_occ Nat.eq_dec l h.

Lemma cnt_app h a b : cnt h (a ++ b) = cnt h a + cnt h b.
Proof. unfold cnt. apply count_occ_app. Qed.

Lemma cnt_single h x : cnt h [x] = b2n (x =? h).
Proof. unfold cnt. cbn. destruct (Nat.eq_dec x h); destruct (Nat.eqb_spec x h); cbn; congruence. Qed.
