(* CloseStep5.v -- the per-thread facts of CloseInv2 for the stepping thread, and the
   history clause (every recorded outcome is an allowed one) *)
From Coq Require Import List Arith Bool Lia.
From RW Require Import Conc.Sys Conc.SysFacts Conc.Close Conc.ListX Conc.CloseInv Conc.CloseInv2 Conc.CloseFacts
     Conc.CloseK Conc.CloseSafe Conc.CloseSafeStep Conc.CloseStep1 Conc.CloseFrames Conc.CloseFrames2
     Conc.CloseStepInv Conc.CloseStepThr Conc.CloseStepOwn Conc.CloseReach Conc.CloseCount Conc.CloseStep2
     Conc.CloseStep3 Conc.CloseOpen Conc.CloseStep4.
Import ListNotations.

(* a state index the thread holds a reference on (HL) is below the length of the states, which a step
   does not lower (SL) *)
Ltac len_tac :=
  match goal with HL : forall x, 0 < _ -> x < length ?L, SL : length ?L <= _ |- ?x < length _ =>
    first [ lia | assert (x < length L) by (apply HL; cbn [kouter]; rewrite ?Nat.eqb_refl; cbn; lia); lia ] end.

(* an outcome produced at this step is allowed for the current call *)
Ltac resok_tac :=
  match goal with WF : pc_ok ?th = true |- res_ok _ _ =>
    unfold res_ok; change (t_rot (setpc th _)) with (t_rot th); change (cur_op (setpc th _)) with (cur_op th);
    let Rf := fresh "Rf" in intros Rf; unfold pc_ok in WF; rewrite Rf in WF;
    repeat match goal with H : t_pc th = _ |- _ => rewrite H in WF end;
    repeat match goal with H : cur_op th = _ |- _ => rewrite H in WF |- * end;
    try (destruct (cur_op th) as [[]|]; try discriminate WF);
    try (match goal with |- context [allowed ?o _] => is_var o; destruct o end);
    try reflexivity; try discriminate WF
  end.

Lemma read_log_cases g h i : read_log g h i = Panic \/ (read_log g h i = IOErr /\ 0 < h_closes (geth g h)) \/
                             exists v, read_log g h i = Ok v.
Proof.
  unfold read_log. destruct (_ <=? _); [now left|]. destruct (Nat.ltb_spec 0 (h_closes (geth g h))); [right; left; auto|].
  right; right; eauto.
Qed.

Lemma find_log_In g st0 i h : find_log g st0 i = Some h -> In h (s_segs st0).
Proof.
  unfold find_log. destruct (_ && _); [|discriminate]. destruct (seg_for g (s_segs st0) i None) eqn:Q; [|discriminate].
  destruct (_ <? _); [|discriminate]. intros Hq. inversion Hq; subst.
  destruct (seg_for_some _ _ _ _ _ Q) as [[Hi _]|Hn]; [exact Hi | discriminate].
Qed.

Section P5.
  Variables (w r : tid) (orig : list (list op)).

  (* the current state is not retired and has no finalizer yet *)
  Lemma cur_fresh s : Full w r s -> Inv2 orig s ->
    s_ret (getst (sh s) (g_cur (sh s))) = false /\ is_fset (s_fin (getst (sh s) (g_cur (sh s)))) = false.
  Proof.
    intros [SA I] J. pose proof (a_last _ SA) as La.
    assert (R : s_ret (getst (sh s) (g_cur (sh s))) = false).
    { destruct (s_ret _) eqn:Q; [|reflexivity]. pose proof (j_ret _ _ J (g_cur (sh s)) ltac:(lia) Q). lia. }
    split; [exact R|]. destruct (s_fin _) eqn:Q; try reflexivity.
    destruct (j_fin _ _ J (g_cur (sh s)) _ _ ltac:(lia) Q) as (_ & _ & R' & _). congruence.
  Qed.

  Lemma thr2_own s t th g' th' :
    Full w r s -> Inv2 orig s -> nth_error (ths s) t = Some th -> step_thread (sh s) t th = Some (g', th') ->
    th_facts2 g' (upd (ths s) t th') th'.
  Proof.
    intros F0 J E F. pose proof F0 as [SA I].
    destruct (step_facts w r s t th g' th' SA I E F) as (NP & WF & TF & _ & La). unfold th_facts1 in TF.
    pose proof (j_thr _ _ J _ _ E) as TJ. unfold th_facts2 in TJ.
    pose proof (states_len _ _ _ _ _ F) as SL. pose proof F as F1.
    pose proof (i_meta _ _ _ I) as Im. pose proof (cur_fresh s F0 J) as [Cr Cf].
    assert (HL : forall x, 0 < href th x -> x < length (g_states (sh s))) by (intros x; apply (held_lt orig s t th x J E)).
    unfold step_thread in F; crack F;
      open_tx;
      inversion F; subst g' th'; clear F.
    all: try (exfalso; apply NP; reflexivity).
    all: unfold th_facts2.
    all: repeat match goal with H : t_pc _ = _ |- _ => rewrite H in TF, TJ, WF end.
    all: unfold href in HL; repeat match goal with H : t_pc _ = _ |- _ => rewrite H in HL end.
    all: cbn [t_pc setpc finish] in *.
    all: try exact Logic.I.
    all: try (split; [len_tac|]).
    all: try len_tac.
    all: try (match goal with |- res_ok _ _ => first [ exact TJ | exact (proj2 TJ) | resok_tac ] end; fail).
    (* readFrame returns an entry or an I/O error *)
    all: try (exfalso; match goal with H : read_log ?g ?h ?i = _ |- _ =>
                destruct (read_log_cases g h i) as [Q|[[Q _]|[v Q]]]; rewrite Q in H; discriminate H end).
    (* CommitState cannot fail: the meta store is closed only after the empty state was published *)
    all: try (exfalso; destruct TF as (Yc & Oy & _); pose proof (i_open _ _ _ I) as Io;
              rewrite Yc, Io in Oy; apply Nat.ltb_lt in Oy;
              match goal with H : (0 <? g_meta_closes _) = true |- _ => rewrite Im in H; apply Nat.ltb_lt in H;
                destruct (Nat.leb_spec 9 (K (sh s) (ths s))); cbn in H; lia end).
    (* continuations *)
    all: try (match goal with |- context [continue _ _ ?k0] => destruct k0 end;
              cbn [continue t_pc setpc finish]; try exact Logic.I;
              try (split; [len_tac|]);
              try (first [ exact TJ | exact (proj2 TJ) | exact (proj1 (proj2 (proj2 TJ))) ])).
    - (* Set: metaDB closed, so the flag is set *)
      apply Nat.ltb_lt in Heqb. rewrite Im in Heqb. unfold K in Heqb. destruct (g_closed (sh s)); [reflexivity|]. cbn in Heqb. lia.
    - (* GetUint64: the same *)
      apply Nat.ltb_lt in Heqb. rewrite Im in Heqb. unfold K in Heqb. destruct (g_closed (sh s)); [reflexivity|]. cbn in Heqb. lia.
    - (* validated: x is the current state *)
      apply negb_false_iff, Nat.eqb_eq in Heqb. intros y L1 L2. lia.
    - (* GetLog: segment found *)
      split; [match goal with H : find_log _ _ _ = Some _ |- _ => apply (find_log_In _ _ _ _ H) end|].
      apply (prot_step w r orig s t th _ _ t th x F0 J E F1 E); [unfold vhold; now rewrite Heqp | exact TJ].
    - (* readFrame: the handle is open *)
      exfalso. destruct TJ as [Hi Pr].
      destruct (read_log_cases (sh s) h i) as [Q|[[_ Q]|[v Q]]]; [congruence | | congruence].
      assert (Lx : x < length (g_states (sh s))) by (apply HL; rewrite Nat.eqb_refl; cbn; lia).
      pose proof (held_handle_open w r orig s x h F0 J Pr ltac:(lia) Hi). lia.
    - (* the transaction published the successor; the finalizer is built *)
      destruct TF as (Yc & Oy & _).
      assert (Ly : y < length (g_states (sh s))) by lia.
      assert (G1 : getst (publish (set_hnds (sh s) (g_hnds (sh s) ++ nh)) (mk_state segs mn)) y = getst (sh s) y)
        by (unfold getst, publish; cbn; now rewrite app_nth1).
      assert (G2 : getst (publish (set_hnds (sh s) (g_hnds (sh s) ++ nh)) (mk_state segs mn)) (S y) = mk_state segs mn)
        by (unfold getst, publish; cbn; rewrite Yc, La; apply nth_middle).
      exists l. rewrite G1, G2. subst y. split; [now rewrite La|]. split; [exact Cf|]. split; [exact Cr|].
      intros h Hi. apply cnt_In in Hi. cbn [s_segs mk_state].
      assert (0 < cnt h segs + cnt h l) by (destruct Q2 as [[_ Cn]|(b & _ & Cn)]; specialize (Cn h); lia).
      destruct (Nat.eq_dec (cnt h segs) 0); [right|left]; apply cnt_In; lia.
    - (* the last reference of a retired state *)
      apply andb_true_iff in Heqb. destruct Heqb as [R1 Rt]. apply Nat.eqb_eq in R1.
      destruct TJ as [Lx Ro].
      split; [rewrite getst_upd_same by exact Lx; exact Rt|]. split; [cbn; rewrite upd_length; exact Lx|].
      split; [exact Ro|].
      intros u thu z Eu Vz. destruct (nth_error_upd_inv _ _ _ _ _ Eu) as [(-> & -> & _)|(Nu & Eu')]; [discriminate Vz|].
      destruct (Nat.lt_ge_cases x z) as [Lz|Lz]; [exact Lz|exfalso].
      pose proof (j_ref _ _ J x Lx) as Rq. rewrite R1 in Rq.
      assert (Ht : 1 <= href th x) by (unfold href; rewrite Heqp, Nat.eqb_refl; cbn; lia).
      assert (Pz : prot (sh s) (ths s) z).
      { pose proof (j_thr _ _ J _ _ Eu') as Tu. unfold th_facts2 in Tu. unfold vhold in Vz.
        destruct (t_pc thu); try discriminate Vz; inversion Vz; subst; [exact Tu | exact (proj2 Tu)]. }
      destruct (Nat.eq_dec z x) as [->|Nz].
      + assert (Hu : 1 <= href thu x).
        { unfold vhold in Vz. unfold href. destruct (t_pc thu); try discriminate Vz; inversion Vz; subst;
            rewrite Nat.eqb_refl; cbn; lia. }
        pose proof (sum_ge_two (fun th0 => href th0 x) (ths s) t u th thu ltac:(congruence) E Eu'). cbn beta in H. lia.
      + pose proof (j_ret _ _ J x Lx Rt) as Lc.
        destruct (Pz (x - 1) ltac:(lia) ltac:(lia)) as (hs & [(sc & Q)|[(v & thv & Ev & Q)|(v & thv & e & Ev & Pv & Q)]]).
        * destruct (j_fin _ _ J (x - 1) hs sc ltac:(lia) Q) as (Sc & _).
          pose proof (sum_ge_nth (fun st0 => fsucc (s_fin st0) x) (g_states (sh s)) (x - 1) _
                        (nth_error_getst (sh s) (x - 1) ltac:(lia))) as G. cbn beta in G. rewrite Q in G. cbn in G.
          replace (sc =? x) with true in G by (symmetry; apply Nat.eqb_eq; lia). cbn in G.
          pose proof (sum_ge_nth (fun th0 => href th0 x) (ths s) t th E). cbn beta in H. lia.
        * pose proof (j_thr _ _ J _ _ Ev) as Tv. unfold th_facts2 in Tv. unfold fin_pending in Q.
          destruct (t_pc thv) eqn:Pv; try discriminate Q. destruct f; try discriminate Q.
          destruct (Nat.eqb_spec y (x - 1)) as [->|]; [|discriminate Q].
          destruct Tv as (hs' & Qf & _). inversion Qf; subst.
          assert (Hv : 1 <= href thv x).
          { unfold href. rewrite Pv. unfold fsucc. replace (S (x - 1) =? x) with true by (symmetry; apply Nat.eqb_eq; lia).
            change (b2n true) with 1. lia. }
          assert (v <> t) by (intros ->; congruence).
          pose proof (sum_ge_two (fun th0 => href th0 x) (ths s) t v th thv ltac:(congruence) E Ev). cbn beta in H0. lia.
        * pose proof (i_thr _ _ _ I _ _ Ev) as Tv. unfold th_facts1 in Tv. rewrite Pv in Tv. lia.
    - (* the finalizer is taken: its successor index is valid *)
      destruct TJ as (Rt & Lx & Ro & _).
      match goal with H : s_fin (getst (sh s) x) = FSet _ _ |- _ =>
        destruct (j_fin _ _ J x _ _ Lx H) as (_ & Ls & _) end.
      split; [cbn; rewrite upd_length; exact Ls | exact Ro].
    - (* Close published the empty state *)
      assert (Lx : x < length (g_states (sh s))) by lia.
      assert (G1 : getst (publish (sh s) empty_state) x = getst (sh s) x)
        by (unfold getst, publish; cbn; now rewrite app_nth1).
      rewrite G1, TF. split; [exact Cf|]. split; [exact Cr|].
      unfold getst, publish; cbn. now rewrite nth_middle.
  Qed.

  (* every outcome a call records is an allowed one *)
  Lemma hist_step s t th g' th' :
    Full w r s -> Inv2 orig s -> nth_error (ths s) t = Some th -> step_thread (sh s) t th = Some (g', th') ->
    t_rot th = false ->
    (t_prog th' = t_prog th /\ t_outs th' = t_outs th /\ t_rot th' = false) \/
    (exists o res, t_prog th = o :: t_prog th' /\ t_outs th' = t_outs th ++ [res] /\ t_rot th' = false /\
                   allowed o res = true).
  Proof.
    intros F0 J E F Rf. pose proof F0 as [SA I].
    pose proof (no_panic w r _ _ _ _ _ SA I E F) as NP. pose proof (i_wf _ _ _ I _ _ E) as WF.
    pose proof (j_thr _ _ J _ _ E) as TJ. unfold th_facts2 in TJ.
    destruct (thread_moves _ _ _ _ _ F) as [(p & ->)|[(res & -> & Fp)| ->]];
      [left; cbn; auto | right | exfalso; apply NP; reflexivity].
    (* the call returns res: at each of the six program counters where that happens res is allowed *)
    unfold step_thread in F. unfold pc_ok in WF. rewrite Rf in WF.
    destruct (t_pc th) eqn:P; try contradiction; try (destruct k; try contradiction); crack F; inversion F; subst g';
      try match goal with H : setpc _ _ = _ |- _ => apply (f_equal t_pc) in H; discriminate H end.
    all: unfold cur_op in *; destruct (t_prog th) as [|oo q] eqn:Pq; cbn [hd_error] in *; try discriminate.
    all: exists oo, res; cbn [finish t_prog t_outs t_rot]; rewrite Pq; cbn [tl].
    all: split; [reflexivity|]; split; [reflexivity|]; split; [exact Rf|].
    all: match goal with H : _ ++ [_] = _ ++ [_] |- _ => apply app_inj_tail in H; destruct H as [_ <-] end.
    all: try (match goal with H : Some _ = Some _ |- _ => inversion H; subst end).
    all: try reflexivity.
    all: try (destruct oo; try discriminate; reflexivity).
    all: match goal with |- allowed _ ?r0 = true =>
           assert (Ro : res_ok th r0) by (first [ exact TJ | exact (proj2 TJ) | exact (proj1 (proj2 (proj2 TJ))) ]) end;
      unfold res_ok, cur_op in Ro; rewrite Pq in Ro; exact (Ro Rf).
  Qed.
End P5.
