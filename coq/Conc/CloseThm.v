(* CloseThm.v -- the theorems behind Props/C14.v and Props/C06.v that need no more than Safe and part 1 of
   the invariant (after_close .. rotator_exits_reach for C14, visible_only_durable and no_conflict_file for
   C06), and the tie of the macro-step runner to `run`.  Those that need Inv2 are in CloseThm2 and CloseThm4,
   those that need Inv4 in CloseThm3 and SealStep, linearizability in ReadLin2, several writers in AwaitInv. *)
From Coq Require Import List Arith Bool Lia.
From RW Require Import Conc.Sys Conc.SysFacts Conc.Close Conc.ListX Conc.CloseInv Conc.CloseFacts
     Conc.CloseK Conc.CloseStep1 Conc.CloseLive Conc.CloseSafe Conc.CloseSafeStep Conc.CloseFrames Conc.CloseReach.
Import ListNotations.

Definition reach (progs extra : list (list op)) (s : sys) : Prop :=
  reachable step (init progs extra) s.

(* Once Close has set the closed flag (its first action; the flag is never reset):
   every call that starts returns ErrClosed without touching anything, a further
   Close returns nil without touching anything, and this stays so for ever. *)
Theorem after_close : forall progs extra s,
  reach progs extra s -> g_closed (sh s) = true ->
  (forall t th o, nth_error (ths s) t = Some th -> t_pc th = PIdle -> cur_op th = Some o ->
     step s t = Some {| sh := sh s;
                        ths := upd (ths s) t (finish th (if is_close o then Ok 0 else ErrClosed)) |}) /\
  (forall sch, g_closed (sh (run step s sch)) = true).
Proof.
  intros progs extra s _ C. split.
  - intros t th o E P O. now apply closed_call.
  - intros sch. now apply closed_run.
Qed.

(* writeMu: in every state reached without a panic the mutex is held by exactly the
   thread that is inside a critical section; two threads are never inside together *)
Theorem mutual_exclusion : forall progs extra s,
  reach progs extra s -> crashed s = false ->
  forall t1 t2 th1 th2,
    nth_error (ths s) t1 = Some th1 -> nth_error (ths s) t2 = Some th2 ->
    holds_mu th1 = true -> holds_mu th2 = true -> t1 = t2 /\ g_mu (sh s) = Some t1.
Proof.
  intros progs extra s [sch ->] C t1 t2 th1 th2 E1 E2 H1 H2.
  destruct (safe_run progs extra sch) as [C'|A]; [cbn zeta in C'; congruence|]. cbn zeta in A.
  pose proof (a_mu1 _ A _ _ E1 H1). pose proof (a_mu1 _ A _ _ E2 H2). split; congruence.
Qed.

(* the panics excluded: nil state, closed / nil channel, offsets index *)
Theorem no_panic_step : forall w r s t s',
  Safe s -> Inv1 w r s -> step s t = Some s' ->
  forall th', nth_error (ths s') t = Some th' -> t_pc th' <> PPanic.
Proof.
  intros w r s t s' SA I H th' E'. destruct (step_decomp _ _ _ H) as (th & g' & th'' & E & F & ->).
  cbn in E'. rewrite nth_error_upd_eq in E' by (eapply nth_error_Some_lt; eauto).
  inversion E'; subst. eapply no_panic; eauto.
Qed.

(* ---- reachable states of a single-writer system ----------------------------------------- *)
(* no thread ever panics: nil state dereference, close of a closed or nil channel, send on
   a closed channel, offsets index out of range are all unreachable *)
Theorem no_panic_reach : forall w progs extra s,
  single_writer w progs extra -> reach progs extra s -> crashed s = false.
Proof.
  intros w progs extra s SW R. destruct (full_reach w progs extra s SW R) as [_ I].
  unfold crashed. destruct (existsb is_panic (ths s)) eqn:X; [|reflexivity]. exfalso.
  apply existsb_exists in X. destruct X as (th & Hi & P). apply In_nth_error in Hi. destruct Hi as (t & E).
  pose proof (i_thr _ _ _ I _ _ E) as TF. unfold th_facts1 in TF. unfold is_panic in P.
  destruct (t_pc th); try discriminate. exact TF.
Qed.

Theorem no_deadlock_reach : forall w progs extra s,
  single_writer w progs extra -> reach progs extra s ->
  (exists t th, nth_error (ths s) t = Some th /\ t_rot th = false /\ th_done th = false) ->
  exists t, enabled step s t = true.
Proof.
  intros w progs extra s SW R. destruct (full_reach w progs extra s SW R) as [_ I].
  apply (no_deadlock_state w (length progs) s I).
Qed.

Theorem rotator_exits_reach : forall w progs extra s,
  single_writer w progs extra -> reach progs extra s -> g_closed (sh s) = true ->
  (exists thr, nth_error (ths s) (length progs) = Some thr /\ t_pc thr = PRDone) \/
  exists t, enabled step s t = true.
Proof.
  intros w progs extra s SW R. destruct (full_reach w progs extra s SW R) as [_ I].
  apply (rotator_exits_state w (length progs) s I).
Qed.

(* visibility: in every state reached without a panic, for every file the entries
   visible through commitIdx are covered by an fsync, and a reader that is about to
   read entry i of file h (it has passed the commitIdx check) reads below the synced
   prefix of that file *)
Theorem visible_only_durable : forall progs extra s,
  reach progs extra s -> crashed s = false ->
  (forall h, h_cnt (geth (sh s) h) <= h_syn (geth (sh s) h) /\
             h_syn (geth (sh s) h) <= h_wr (geth (sh s) h) /\
             h_wr (geth (sh s) h) <= length (h_ents (geth (sh s) h))) /\
  (forall t th x h i, nth_error (ths s) t = Some th -> t_pc th = PGetRead x h -> cur_op th = Some (OGet i) ->
     h_base (geth (sh s) h) <= i /\ i - h_base (geth (sh s) h) < h_syn (geth (sh s) h)).
Proof.
  intros progs extra s [sch ->] C.
  destruct (safe_run progs extra sch) as [C'|A]; [cbn zeta in C'; congruence|]. cbn zeta in A.
  split.
  - intros h. apply (a_chain _ A h).
  - intros t th x h i E P O. pose proof (a_thr _ A _ _ E) as Fa. unfold factsB in Fa. now rewrite P, O in Fa.
Qed.

(* model-level absence of conflicting accesses to file contents: the positions a
   pending WriteAt covers (from the written prefix on) lie above every position a
   concurrent reader of the same file reads; both threads cannot be anywhere else
   in conflict because all other shared locations are accessed atomically or under
   writeMu (see mutual_exclusion) *)
Theorem no_conflict_file : forall progs extra s,
  reach progs extra s -> crashed s = false ->
  forall t u th thu x y h i,
    nth_error (ths s) t = Some th -> t_pc th = PApp1 x ->          (* about to WriteAt *)
    nth_error (ths s) u = Some thu -> t_pc thu = PGetRead y h -> cur_op thu = Some (OGet i) ->
    h = tail_of (getst (sh s) x) ->
    i - h_base (geth (sh s) h) < h_wr (geth (sh s) h).             (* the read is below the write *)
Proof.
  intros progs extra s R C t u th thu x y h i E P Eu Pu Ou ->.
  destruct (visible_only_durable progs extra s R C) as [Ch Rd].
  destruct (Rd u thu y _ i Eu Pu Ou) as [_ L]. destruct (Ch (tail_of (getst (sh s) x))) as (_ & S2 & _). lia.
Qed.

(* ---- the runner executes `run` --------------------------------------------------------- *)
Theorem macro_is_run : forall fuel s sch tr,
  exists d, snd (macro step parked skip nthreads fuel s sch tr) = d ++ tr /\
            fst (macro step parked skip nthreads fuel s sch tr) = run step s (rev d).
Proof. intros. apply (macro_traces sys step parked skip nthreads fuel sch s tr). Qed.
