(* CloseOpen.v -- consequence of the invariants for one state: every file handle of a state
   that a validated holder holds is still open (its close count is 0) *)
From Coq Require Import List Arith Bool Lia.
From RW Require Import Conc.Sys Conc.Close Conc.ListX Conc.CloseInv Conc.CloseInv2 Conc.CloseFacts
     Conc.CloseSafe Conc.CloseReach Conc.CloseCount.
Import ListNotations.

Section Open.
  Variables (w r : tid) (orig : list (list op)).

  Lemma owned_open s h : Inv2 orig s -> 0 < owners (sh s) (ths s) h -> h_closes (geth (sh s) h) = 0.
  Proof.
    intros J O. destruct (j_own _ _ J h) as [W1 W2].
    destruct (Nat.lt_ge_cases h (length (g_hnds (sh s)))) as [L|L]; [specialize (W1 L); lia | specialize (W2 L); lia].
  Qed.

  (* handles listed by a finalizer that has not run are owned *)
  Lemma unrun_owned s y hs h :
    unrun (sh s) (ths s) y hs -> y < length (g_states (sh s)) -> In h hs -> 0 < owners (sh s) (ths s) h.
  Proof.
    intros U Ly Hi. apply cnt_In in Hi. unfold owners.
    destruct U as [(sc & Q)|[(t & th & E & Q)|(t & th & e & E & P & Q)]].
    - pose proof (sum_ge_nth (fun st0 => fin_cnt (s_fin st0) h) (g_states (sh s)) y _ (nth_error_getst (sh s) y Ly)) as G.
      cbn beta in G. rewrite Q in G. cbn in G. lia.
    - pose proof (sum_ge_nth (fun th0 => hpend (sh s) th0 h) (ths s) t th E) as G. cbn beta in G.
      unfold fin_pending in Q. destruct (t_pc th) eqn:P; try discriminate.
      destruct f; try discriminate. destruct (y0 =? y); [|discriminate]. inversion Q; subst.
      assert (Hq : hpend (sh s) th h = cnt h hs) by (unfold hpend; rewrite P; reflexivity). rewrite Hq in G. lia.
    - pose proof (sum_ge_nth (fun th0 => hpend (sh s) th0 h) (ths s) t th E) as G. cbn beta in G.
      assert (Hq : hpend (sh s) th h = cnt h hs) by (unfold hpend; rewrite P; subst hs; reflexivity). rewrite Hq in G. lia.
  Qed.

  (* what the finalizer of y does not close is carried over to the next state *)
  Lemma unrun_incl s y hs h :
    Inv2 orig s -> unrun (sh s) (ths s) y hs -> y < length (g_states (sh s)) ->
    In h (s_segs (getst (sh s) y)) -> In h (s_segs (getst (sh s) (S y))) \/ In h hs.
  Proof.
    intros J U Ly Hi.
    destruct U as [(sc & Q)|[(t & th & E & Q)|(t & th & e & E & P & Q)]].
    - destruct (j_fin _ _ J y hs sc Ly Q) as (Sc & _ & _ & _ & Inc). subst sc. auto.
    - pose proof (j_thr _ _ J _ _ E) as TJ. unfold th_facts2 in TJ. unfold fin_pending in Q.
      destruct (t_pc th); try discriminate. destruct f; try discriminate.
      destruct (Nat.eqb_spec y0 y) as [->|]; [|discriminate]. inversion Q; subst.
      destruct TJ as (hs' & Qf & _ & _ & Inc). inversion Qf; subst. auto.
    - right. subst hs. exact Hi.
  Qed.

  Lemma held_handle_open s x h :
    Full w r s -> Inv2 orig s ->
    (forall y, x <= y -> y < g_cur (sh s) -> exists hs, unrun (sh s) (ths s) y hs) ->
    x <= g_cur (sh s) -> In h (s_segs (getst (sh s) x)) -> h_closes (geth (sh s) h) = 0.
  Proof.
    (* of Full only the shape fact: the state pointer is the newest state *)
    intros F J Pr. pose proof (a_last _ (proj1 F)) as La. clear F.
    remember (g_cur (sh s) - x) as n eqn:Hn. revert x Hn Pr.
    induction n as [|n IH]; intros x Hn Pr Lx Hi.
    - assert (x = g_cur (sh s)) by lia. subst x. apply (owned_open s h J).
      destruct (s_open (getst (sh s) (g_cur (sh s)))) eqn:O.
      + unfold owners, live. rewrite O. apply cnt_In in Hi. lia.
      + rewrite (j_nseg _ _ J _ O) in Hi. destruct Hi.
    - assert (Lc : x < g_cur (sh s)) by lia. destruct (Pr x (Nat.le_refl _) Lc) as (hs & U).
      destruct (unrun_incl s x hs h J U ltac:(lia) Hi) as [Hn'|Hh].
      + apply (IH (S x)); [lia | | lia | exact Hn']. intros y Ly Lyc. apply Pr; lia.
      + apply (owned_open s h J). apply (unrun_owned s x hs h U ltac:(lia) Hh).
  Qed.
End Open.
