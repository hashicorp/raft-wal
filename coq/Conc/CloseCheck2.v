(* CloseCheck2.v -- executable mirror of CloseInv2 (a test aid, not used by theorems); as in
   CloseCheck.v, Inv2 implies it ([inv2_b_complete]) and the sample runs are instances of
   [full2_reach]. *)
From Coq Require Import List Arith Bool Lia NArith.
From RW Require Import Conc.Sys Conc.SysFacts Conc.Close Conc.ListX Conc.CloseInv Conc.CloseInv2 Conc.CloseCheck
     Conc.CloseReach Conc.CloseReach2.
Import ListNotations.

Definition unrun_hs (g : shared) (T : list thread) (y : nat) : option (list nat) :=
  match s_fin (getst g y) with
  | FSet hs _ => Some hs
  | _ => match find (fun th => match fin_pending th y with Some _ => true | None => false end) T with
         | Some th => fin_pending th y
         | None => match find (fun th => match t_pc th with PCSwapped y' _ => y' =? y | _ => false end) T with
                   | Some _ => Some (s_segs (getst g y))
                   | None => None
                   end
         end
  end.
Definition prot_b (g : shared) (T : list thread) (x : nat) : bool :=
  forallb (fun y => match unrun_hs g T y with Some _ => true | None => false end) (seq x (g_cur g - x)).
Definition mem (h : nat) (l : list nat) : bool := existsb (Nat.eqb h) l.
Definition res_b (th : thread) (res : outcome) : bool :=
  t_rot th || match cur_op th with Some o => allowed o res | None => true end.

Definition th_facts2_b (g : shared) (T : list thread) (th : thread) : bool :=
  let n := length (g_states g) in
  match t_pc th with
  | PBody x => prot_b g T x
  | PGetRead x h => mem h (s_segs (getst g x)) && prot_b g T x
  | PM4 y f k => match f with
                 | FSet hs sc => (sc =? S y) && negb (is_fset (s_fin (getst g y))) && negb (s_ret (getst g y)) &&
                                 forallb (fun h => mem h (s_segs (getst g (S y))) || mem h hs) (s_segs (getst g y))
                 | _ => false end
  | PCSwapped x e => negb (is_fset (s_fin (getst g x))) && negb (s_ret (getst g x)) &&
                     match s_segs (getst g e) with [] => true | _ => false end
  | PLast x res k => s_ret (getst g x) && (x <? n) && res_b th res &&
                     forallb (fun thu => match vhold thu with Some z => x <? z | None => true end) T
  | PRun _ sc res _ => (sc <? n) && res_b th res
  | PRel x res _ => (x <? n) && res_b th res
  | PUnl res => res_b th res
  | PStErr => g_closed g
  | PM2 x _ | PM3 x _ | PC6 x | PC8 x => x <? n
  | _ => true
  end.

(* clause numbers continue those of CloseCheck.inv1_b: 31 j_ref, 32-33 j_own, 34 j_fin, 35 j_ret, 36 j_thr,
   37 no IOErr / MetaErr / Panic recorded (from j_hist).  j_own speaks of every id beyond the handle list;
   33 samples the next three (a step creates at most one handle: CloseFacts.tx_count) *)
Definition inv2_b (s : sys) : list nat :=
  let g := sh s in let T := ths s in
  let chk (n : nat) (b : bool) := if b then [] else [n] in
  chk 31 (forallb (fun x => s_ref (getst g x) =? sum (fun th => href th x) T + sum (fun st0 => fsucc (s_fin st0) x) (g_states g))
                  (seq 0 (length (g_states g)))) ++
  chk 32 (forallb (fun h => owners g T h + h_closes (geth g h) =? 1) (seq 0 (length (g_hnds g)))) ++
  chk 33 (forallb (fun h => owners g T h =? 0) (seq (length (g_hnds g)) 3)) ++
  chk 34 (forallb (fun x => match s_fin (getst g x) with
                            | FSet hs sc => (sc =? S x) && (sc <? length (g_states g)) && s_ret (getst g x) &&
                                            (1 <=? s_ref (getst g x) + sum (fun th => nlast th x) T) &&
                                            forallb (fun h => mem h (s_segs (getst g sc)) || mem h hs) (s_segs (getst g x))
                            | _ => true end) (seq 0 (length (g_states g)))) ++
  chk 35 (forallb (fun x => imp (s_ret (getst g x)) (x <? g_cur g)) (seq 0 (length (g_states g)))) ++
  chk 36 (forallb (fun th => th_facts2_b g T th) T) ++
  chk 37 (forallb (fun th => t_rot th || negb (existsb (fun r => match r with IOErr | MetaErr | Panic => true | _ => false end) (t_outs th))) T).

Lemma mem_true h l : In h l -> mem h l = true.
Proof. intros H. apply existsb_exists. exists h. split; [exact H | apply Nat.eqb_refl]. Qed.

Lemma covered_true (l a b : list nat) :
  (forall h, In h l -> In h a \/ In h b) -> forallb (fun h => mem h a || mem h b) l = true.
Proof.
  intros H. apply forallb_forall. intros h Hi. apply orb_true_iff.
  destruct (H h Hi); [left | right]; now apply mem_true.
Qed.

Lemma find_first {A} (f : A -> bool) l x :
  In x l -> f x = true -> exists y, find f l = Some y /\ f y = true.
Proof.
  intros Hi Hf. destruct (find f l) as [y|] eqn:F.
  - exists y. split; [reflexivity | exact (proj2 (find_some _ _ F))].
  - rewrite (find_none _ _ F x Hi) in Hf. discriminate Hf.
Qed.

Lemma unrun_hs_some g T y hs : unrun g T y hs -> exists hs', unrun_hs g T y = Some hs'.
Proof.
  unfold unrun_hs. intros U. destruct (s_fin (getst g y)) eqn:Fy; [| |eauto].
  all: destruct (find _ T) as [th'|] eqn:F1;
    [apply find_some in F1 as [_ F1]; destruct (fin_pending th' y); [eauto | discriminate F1]|].
  all: destruct U as [(sc & U)|[(t & th & E & P)|(t & th & e & E & P & _)]]; [congruence| |];
    apply nth_error_In in E.
  1,3: pose proof (find_none _ _ F1 th E) as N; cbv beta in N; rewrite P in N; discriminate N.
  all: match goal with |- context [find ?f ?l] => destruct (find_first f l th E) as (th' & -> & _) end;
    [now rewrite P, Nat.eqb_refl | eauto].
Qed.

Lemma prot_b_complete g T x :
  (forall y, x <= y -> y < g_cur g -> exists hs, unrun g T y hs) -> prot_b g T x = true.
Proof.
  intros H. apply forallb_forall. intros y Hy. apply in_seq in Hy.
  destruct (H y) as (hs & U); [lia | lia |]. now destruct (unrun_hs_some _ _ _ _ U) as (hs' & ->).
Qed.

Lemma res_b_complete th res : res_ok th res -> res_b th res = true.
Proof.
  unfold res_ok, res_b. destruct (t_rot th); [reflexivity|]. intros H. specialize (H eq_refl).
  now destruct (cur_op th).
Qed.

Lemma vhold_above_true T x :
  (forall u thu z, nth_error T u = Some thu -> vhold thu = Some z -> x < z) ->
  forallb (fun thu => match vhold thu with Some z => x <? z | None => true end) T = true.
Proof.
  intros H. apply forallb_forall. intros thu Hi. apply In_nth_error in Hi as (u & E).
  destruct (vhold thu) as [z|] eqn:V; [|reflexivity]. apply Nat.ltb_lt. eauto.
Qed.

Lemma th_facts2_b_complete g T th : th_facts2 g T th -> th_facts2_b g T th = true.
Proof.
  unfold th_facts2, th_facts2_b. destruct (t_pc th); intros H; try reflexivity.
  all: repeat match goal with
       | H : exists _, _ |- _ => destruct H
       | H : _ /\ _ |- _ => destruct H
       | H : res_ok _ _ |- _ => apply res_b_complete in H
       | H : forall y, _ <= y -> _ |- _ => apply prot_b_complete in H
       | H : In _ _ |- _ => apply mem_true in H
       | H : forall h, In h _ -> _ |- _ => apply covered_true in H
       | H : forall u thu z, nth_error _ u = Some thu -> _ |- _ => apply vhold_above_true in H
       end.
  all: to_bool; reflexivity.
Qed.

Lemma allowed_not_failure o res :
  allowed o res = true -> match res with IOErr | MetaErr | Panic => true | _ => false end = false.
Proof. destruct o, res; (reflexivity || discriminate). Qed.

Lemma inv2_b_complete orig s : Inv2 orig s -> inv2_b s = [].
Proof.
  intros J. unfold inv2_b, imp. cbv beta zeta. repeat apply chk_app.
  - apply forallb_forall. intros x Hx. apply in_seq in Hx. apply Nat.eqb_eq, (j_ref _ _ J). lia.
  - apply forallb_forall. intros h Hh. apply in_seq in Hh. apply Nat.eqb_eq, (j_own _ _ J). lia.
  - apply forallb_forall. intros h Hh. apply in_seq in Hh. apply Nat.eqb_eq, (j_own _ _ J). lia.
  - apply forallb_forall. intros x Hx. apply in_seq in Hx. destruct (s_fin (getst (sh s) x)) as [| |hs sc] eqn:F; try reflexivity.
    destruct (j_fin _ _ J x hs sc) as (-> & L & -> & R & C); [lia | exact F |].
    apply Nat.ltb_lt in L. apply Nat.leb_le in R. rewrite L, R, Nat.eqb_refl. now apply covered_true.
  - apply forallb_forall. intros x Hx. apply in_seq in Hx. destruct (s_ret (getst (sh s) x)) eqn:R; [|reflexivity].
    apply Nat.ltb_lt, (j_ret _ _ J); [lia | exact R].
  - apply forallb_forall. intros th Hi. apply In_nth_error in Hi as (t & E).
    apply th_facts2_b_complete, (j_thr _ _ J t th E).
  - rewrite (proj2 (forallb_forall _ _)); [reflexivity|]. intros th Hi. apply In_nth_error in Hi as (t & E).
    destruct (t_rot th) eqn:R; [reflexivity|]. destruct (j_hist _ _ J t th E R) as (ops & _ & F).
    apply negb_true_iff. induction F as [|o res ops outs A _ IH]; [reflexivity|].
    cbn [existsb]. now rewrite (allowed_not_failure o res A).
Qed.

Definition test_inv2 (seed : N) : list (nat * list nat) :=
  check_run inv2_b (init test_cfg []) (lcg_sched 400 seed (N.of_nat (S (length test_cfg)))) 0.
Definition test_cfg2 : list (list op) :=
  [[OStore true 1 1; OStore true 2 1; ODelete 2; OStore false 3 3; OTrunc 3; OStore false 4 1; ODelete 9; OStore true 5 1];
   [OGet 1; OGet 2; OGet 3; OGet 4]; [OFirst; OLast; OGet 4; OGet 2]; [OGet 3; OClose]].
Definition test_inv2b (seed : N) : list (nat * list nat) :=
  check_run inv2_b (init test_cfg2 []) (lcg_sched 700 seed (N.of_nat (S (length test_cfg2)))) 0.
Example inv2_holds_on_samples :
  flat_map test_inv2 (map N.of_nat (seq 1 60)) ++ flat_map test_inv2b (map N.of_nat (seq 1 60)) = [].
Proof.
  assert (SW : single_writer 0 test_cfg []) by (apply single_writer_0; repeat constructor).
  assert (SW2 : single_writer 0 test_cfg2 []) by (apply single_writer_0; repeat constructor).
  rewrite !flat_map_nil; [reflexivity | |]; intros seed.
  - apply check_run_reachable with (s0 := init test_cfg2 []); [|exists []; reflexivity].
    intros s R. exact (inv2_b_complete _ s (proj2 (full2_reach 0 test_cfg2 [] s SW2 R))).
  - apply check_run_reachable with (s0 := init test_cfg []); [|exists []; reflexivity].
    intros s R. exact (inv2_b_complete _ s (proj2 (full2_reach 0 test_cfg [] s SW R))).
Qed.
