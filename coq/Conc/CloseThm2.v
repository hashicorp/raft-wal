(* CloseThm2.v -- consequences of part 2 of the invariant (Conc/CloseInv2.v) for reachable
   states of a single-writer system: the outcomes of racing calls, and the release of every
   file handle by Close *)
From Coq Require Import List Arith Bool Lia.
From RW Require Import Conc.Sys Conc.SysFacts Conc.Close Conc.ListX Conc.CloseInv Conc.CloseInv2 Conc.CloseFacts
     Conc.CloseK Conc.CloseSafe Conc.CloseSafeStep Conc.CloseStep1 Conc.CloseReach Conc.CloseThm Conc.CloseStep2 Conc.CloseStep3 Conc.CloseOpen
     Conc.CloseReach2 Conc.CloseThm4.
Import ListNotations.

(* ---- the outcomes of calls that race with Close ------------------------------------------- *)
(* Thread t has executed a prefix `ops` of its program p; the outcome recorded for every
   executed call is an allowed one (CloseInv2.allowed): a result or ErrClosed -- never a
   panic, never an I/O error from a closed or deleted file, never a metaDB error. *)
Theorem racing_calls : forall w progs extra s,
  single_writer w progs extra -> reach progs extra s ->
  forall t th, nth_error (ths s) t = Some th -> t <> length progs ->
    exists ops, nth_error (progs ++ [] :: extra) t = Some (ops ++ t_prog th) /\
                Forall2 (fun o res => allowed o res = true) ops (t_outs th).
Proof.
  intros w progs extra s SW R t th E N.
  destruct (full2_reach w progs extra s SW R) as [[SA I] J].
  apply (j_hist _ _ J t th E). apply (i_nrot _ _ _ I t th E N).
Qed.

Lemma allowed_clean o res : allowed o res = true -> res <> Panic /\ res <> IOErr /\ res <> MetaErr.
Proof. destruct o, res; cbn; intros Q; try discriminate Q; repeat split; discriminate. Qed.

(* ---- the rotation goroutine records no outcome ------------------------------------------------ *)
Lemma rot_outs_step g t th g' th' :
  pc_ok th = true -> t_rot th = true -> step_thread g t th = Some (g', th') -> t_pc th' <> PPanic ->
  t_outs th' = t_outs th /\ t_rot th' = true.
Proof.
  intros WF Rt F NP. pose proof (pc_ok_step _ _ _ _ _ WF F NP) as WF'.
  destruct (thread_step _ _ _ _ _ F) as [(p & ->)|[(res & ->)| ->]].
  - split; [reflexivity | exact Rt].
  - (* the rotation goroutine runs no call that could return *)
    exfalso. unfold pc_ok in WF'. cbn in WF'. rewrite Rt in WF'. destruct (tl (t_prog th)); discriminate.
  - exfalso. apply NP. reflexivity.
Qed.

Lemma rot_outs_nil w progs extra s :
  single_writer w progs extra -> reach progs extra s ->
  forall t th, nth_error (ths s) t = Some th -> t_rot th = true -> t_outs th = [].
Proof.
  intros SW. revert s.
  apply (reachable_inv_rel sys step (Full w (length progs))
           (fun s => forall t th, nth_error (ths s) t = Some th -> t_rot th = true -> t_outs th = [])).
  - intros s R. apply (full_reach w progs extra s SW R).
  - intros t th E _. destruct (init_threads _ _ _ _ E) as [(p & _ & -> & _)|(_ & ->)]; reflexivity.
  - intros s1 u s2 [SA I] IH H. destruct (step_decomp _ _ _ H) as (thu & g' & thu' & Eu & F & ->). cbn [ths].
    intros t th E Rt. destruct (nth_error_upd_inv _ _ _ _ _ E) as [(-> & -> & _)|(Nu & E')]; [|eauto].
    pose proof (CloseStep1.no_panic w (length progs) _ _ _ _ _ SA I Eu F) as NP.
    assert (Ru : t_rot thu = true) by (destruct (rot_prog_step _ _ _ _ _ F) as [Q _]; congruence).
    destruct (rot_outs_step _ _ _ _ _ (i_wf _ _ _ I _ _ Eu) Ru F NP) as [Qo _]. rewrite Qo. eauto.
Qed.

Lemma outs_allowed w progs extra s :
  single_writer w progs extra -> reach progs extra s ->
  forall t th res, nth_error (ths s) t = Some th -> In res (t_outs th) -> exists o, allowed o res = true.
Proof.
  intros SW R t th res E Hi. destruct (Nat.eq_dec t (length progs)) as [->|N].
  - destruct (full_reach w progs extra _ SW R) as [_ I]. destruct (i_rot _ _ _ I) as (thr & Er & Rr).
    assert (thr = th) by congruence. subst thr. rewrite (rot_outs_nil w progs extra _ SW R _ _ E Rr) in Hi. destruct Hi.
  - destruct (racing_calls w progs extra s SW R t th E N) as (ops & _ & Fa).
    clear -Fa Hi. induction Fa as [|o r0 ops outs A Fa IH]; [destruct Hi|]. destruct Hi as [->|Hi]; eauto.
Qed.

Theorem outcomes_clean : forall w progs extra s,
  single_writer w progs extra -> reach progs extra s ->
  forall t th res, nth_error (ths s) t = Some th -> t <> length progs -> In res (t_outs th) ->
    res <> Panic /\ res <> IOErr /\ res <> MetaErr.
Proof.
  intros w progs extra s SW R t th res E _ Hi.
  destruct (outs_allowed w progs extra s SW R t th res E Hi) as (o & A). exact (allowed_clean o res A).
Qed.

(* ---- C06: no read ever goes through a closed file handle ------------------------------------- *)
Theorem stable_entry_intact : forall w progs extra sch t th,
  single_writer w progs extra ->
  nth_error (ths (run step (init progs extra) sch)) t = Some th -> ~ In IOErr (t_outs th).
Proof.
  intros w progs extra sch t th SW E Hi.
  destruct (outs_allowed w progs extra _ SW (ex_intro _ sch eq_refl) t th IOErr E Hi) as (o & A).
  destruct (allowed_clean o _ A) as (_ & Q & _). now apply Q.
Qed.

(* ---- Close releases every file handle -------------------------------------------------------
   When Close has been called and every call has returned (all callers are between calls),
   every file handle ever opened has been closed exactly once and the metaDB exactly once:
   nothing leaks, nothing is closed twice. *)
(* Close has returned: stage 10 *)
Lemma idle_K10 w r s :
  Inv1 w r s -> g_closed (sh s) = true ->
  (forall t th, nth_error (ths s) t = Some th -> t <> r -> t_pc th = PIdle) -> K (sh s) (ths s) = 10.
Proof.
  intros I C Idle. destruct (i_rot _ _ _ I) as (thr & Er & Rr).
  unfold K. rewrite C. unfold nact. rewrite sum_zero; [reflexivity|].
  intros th Hi. apply In_nth_error in Hi. destruct Hi as (t & E).
  replace (cstage th) with 0; [reflexivity|]. destruct (Nat.eq_dec t r) as [->|N].
  - assert (th = thr) by congruence. subst th. pose proof (i_wf _ _ _ I _ _ E) as WF. unfold pc_ok in WF. rewrite Rr in WF.
    unfold cstage, op_close, cur_op. destruct (t_prog thr); [|discriminate]. destruct (t_pc thr); try discriminate; reflexivity.
  - unfold cstage. now rewrite (Idle t th E N).
Qed.

(* then the rotation goroutine is outside its critical section: the current state is the empty one *)
Lemma K10_rot_out w r s thr :
  Inv1 w r s -> K (sh s) (ths s) = 10 -> nth_error (ths s) r = Some thr -> rot_cs (t_pc thr) = false.
Proof.
  intros I K10 Er. destruct (i_rot _ _ _ I) as (thr' & Er' & Rr). assert (thr' = thr) by congruence. subst thr'.
  pose proof (i_thr _ _ _ I _ _ Er) as TF. unfold th_facts1 in TF. pose proof (i_open _ _ _ I) as Io. rewrite K10 in Io.
  pose proof (i_wf _ _ _ I _ _ Er) as WF. unfold pc_ok in WF. rewrite Rr in WF. destruct (t_prog thr); [|discriminate].
  destruct (t_pc thr) eqn:P; try reflexivity; exfalso; try discriminate WF.
  - destruct TF as [O _]. rewrite Io in O. discriminate.
  - destruct TF as (-> & O & _). rewrite Io in O. discriminate.
  - destruct TF as (-> & O & _). rewrite Io in O. discriminate.
  - destruct TF as (-> & O & _). rewrite Io in O. discriminate.
  - destruct k; try discriminate WF. destruct TF as (_ & Kl & _). lia.
  - destruct k; try discriminate WF. destruct TF as ((Kl & _) & _). lia.
  - destruct k; try discriminate WF. destruct TF as ((Kl & _) & _). lia.
  - destruct k; try discriminate WF. destruct TF as ((Kl & _) & _). lia.
  - destruct TF as (Kl & _). lia.
Qed.

Theorem handles_released : forall w progs extra s,
  single_writer w progs extra -> reach progs extra s -> g_closed (sh s) = true ->
  (forall t th, nth_error (ths s) t = Some th -> t <> length progs -> t_pc th = PIdle) ->
  (forall h, h < length (g_hnds (sh s)) -> h_closes (geth (sh s) h) = 1) /\ g_meta_closes (sh s) = 1.
Proof.
  intros w progs extra s SW R C Idle.
  destruct (full_reach w progs extra s SW R) as [_ I].
  pose proof (idle_K10 w _ s I C Idle) as K10.
  assert (Q : quiescent (length progs) s) by (split; [exact Idle | intros thr; apply (K10_rot_out w _ s thr I K10)]).
  split.
  - (* the state is quiescent and the current state is the empty one: nothing is live *)
    intros h Lh. pose proof (quiescent_reclaimed w progs extra s SW R Q h Lh) as E.
    unfold live in E. rewrite (i_open _ _ _ I), K10 in E. cbn in E. exact E.
  - rewrite (i_meta _ _ _ I), K10. reflexivity.
Qed.
