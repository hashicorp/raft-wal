(* CloseFacts.v -- basic facts about the L3 model that need no invariant *)
From Coq Require Import List Arith Bool Lia.
From RW Require Import Conc.Sys Conc.SysFacts Conc.Close Conc.ListX Conc.CloseInv.
Import ListNotations.

Lemma step_decomp s t s' :
  step s t = Some s' ->
  exists th g' th', nth_error (ths s) t = Some th /\ step_thread (sh s) t th = Some (g', th') /\
                    s' = {| sh := g'; ths := upd (ths s) t th' |}.
Proof.
  unfold step. destruct (nth_error (ths s) t) as [th|] eqn:E; [|discriminate].
  destruct (step_thread (sh s) t th) as [[g' th']|] eqn:F; [|discriminate].
  intros H; inversion H; subst. eauto 6.
Qed.

Lemma nth_error_upd_inv {A} (l : list A) t x u y :
  nth_error (upd l t x) u = Some y ->
  (u = t /\ y = x /\ t < length l) \/ (u <> t /\ nth_error l u = Some y).
Proof.
  intros H. destruct (Nat.eq_dec u t) as [->|N].
  - left. assert (L : t < length l).
    { apply nth_error_Some_lt in H. now rewrite upd_length in H. }
    rewrite nth_error_upd_eq in H by exact L. inversion H; auto.
  - right. rewrite nth_error_upd_neq in H by congruence. auto.
Qed.

(* ---- C14: after Close ----------------------------------------------------------- *)
(* once the closed flag is set (Close sets it in its first step and never resets
   it), a call that starts gets ErrClosed and a further Close is a no-op that
   does not touch the shared state *)
Lemma closed_call s t th o :
  g_closed (sh s) = true -> nth_error (ths s) t = Some th ->
  t_pc th = PIdle -> cur_op th = Some o ->
  step s t = Some {| sh := sh s;
                     ths := upd (ths s) t (finish th (if is_close o then Ok 0 else ErrClosed)) |}.
Proof.
  intros C E P O. unfold step. rewrite E. unfold step_thread. rewrite P, O, C.
  destruct o; reflexivity.
Qed.

(* destruct every match / if in hypothesis F (for F : step_thread g t th = Some _, unfolded:
   one goal per way the step can go); the equations get generated names *)
Ltac crack F :=
  repeat match type of F with
         | context [match ?x with _ => _ end] => destruct x eqn:?; try discriminate F
         | context [if ?x then _ else _] => destruct x eqn:?; try discriminate F
         end.

(* P : t_pc th = <a pc at which the mutex is held> *)
Ltac holder_of P := unfold holds_mu; rewrite P; reflexivity.

(* ---- what pc_ok says about the role of a thread at a given pc ------------------- *)
(* where a thread that runs Close can be, and where only such a thread can be *)
Lemma close_pcs th :
  pc_ok th = true ->
  match t_pc th with
  | PIdle | PUnl _ => True
  | PCFlag | PCLock | PCLocked | PC3 | PC4 | PC5 _ | PC6 _ | PCSwapped _ _ | PC8 _ => op_close th = true
  | PRel _ _ k | PLast _ _ k | PRun _ _ _ k => op_close th = true -> k = KUnlock
  | _ => op_close th = false
  end.
Proof.
  unfold pc_ok, op_close, op_locking, cur_op. intros WF.
  destruct (t_rot th).
  - destruct (t_prog th); [|discriminate]. destruct (t_pc th); try discriminate WF; try exact I; try reflexivity;
      intros Q; discriminate Q.
  - destruct (t_pc th); try discriminate WF; try exact I; try exact WF.
    all: destruct (hd_error (t_prog th)) as [[]|]; try discriminate WF; try reflexivity.
    all: destruct k; try discriminate WF; try reflexivity; intros Q; discriminate Q.
Qed.

Lemma rot_of_pc th :
  pc_ok th = true ->
  match t_pc th with PRIdle | PRRecv | PRLock | PRLocked | PRExit | PRT3 | PRT4 _ | PRT5 _ | PRDone => t_rot th = true
                | _ => True end.
Proof.
  unfold pc_ok. destruct (t_rot th); [destruct (t_pc th); auto|]. destruct (t_pc th); auto; discriminate.
Qed.

Lemma locking_of_pc th :
  pc_ok th = true ->
  match t_pc th with
  | PLock | PLocked | PWaiting _ | PRecvAwait _ | PRelock | PApp1 _ | PApp2 _ | PApp3 _ | PTrig _ | PSend _ =>
      op_locking th = true
  | _ => True end.
Proof.
  unfold pc_ok, op_locking. destruct (t_rot th).
  - destruct (t_prog th); [|discriminate]. destruct (t_pc th); auto; try discriminate.
  - destruct (t_pc th); auto; destruct (cur_op th) as [[]|]; try discriminate; reflexivity.
Qed.

(* the program counters from which a call can return *)
Definition fin_pc (p : pc) : Prop :=
  match p with
  | PIdle | PChecked | PStErr | PUnl _ | PRel _ _ KRet | PLast _ _ KRet => True
  | _ => False
  end.

(* how the thread record moves: its pc changes, or the call returns (panics) and is consumed *)
Lemma thread_moves g t th g' th' :
  step_thread g t th = Some (g', th') ->
  (exists p, th' = setpc th p) \/ (exists res, th' = finish th res /\ fin_pc (t_pc th)) \/ th' = panic th.
Proof.
  intros F. unfold step_thread in F. unfold fin_pc.
  destruct (t_pc th); crack F; inversion F; subst g' th'; eauto.
  all: match goal with |- context [continue _ _ ?k] => destruct k; cbn; eauto end.
Qed.

Lemma thread_step g t th g' th' :
  step_thread g t th = Some (g', th') ->
  (exists p, th' = setpc th p) \/ (exists res, th' = finish th res) \/ th' = panic th.
Proof. intros F. destruct (thread_moves _ _ _ _ _ F) as [Q|[(res & Q & _)|Q]]; eauto. Qed.

(* so a step never changes the role of a thread, and consumes at most the current call *)
Lemma rot_prog_step g t th g' th' :
  step_thread g t th = Some (g', th') ->
  t_rot th' = t_rot th /\ (t_prog th' = t_prog th \/ t_prog th' = tl (t_prog th)).
Proof. intros F. destruct (thread_step _ _ _ _ _ F) as [(p & ->)|[(res & ->)| ->]]; cbn; auto. Qed.

Lemma split_head_app g newMin li : forall segs rm keep,
  split_head g newMin li segs = (rm, keep) -> rm ++ keep = segs.
Proof.
  induction segs as [|h r IH]; intros rm keep H; cbn in H.
  - inversion H; reflexivity.
  - destruct r as [|h2 r'].
    + destruct (newMin <=? li); inversion H; reflexivity.
    + destruct (newMin <=? h_base (geth g h2) - 1); [inversion H; reflexivity|].
      destruct (split_head g newMin li (h2 :: r')) as [a b] eqn:Q. inversion H; subst.
      cbn. f_equal. now apply IH.
Qed.

Lemma split_tail_app g newMax : forall segs keep rm,
  split_tail g newMax segs = (keep, rm) -> keep ++ rm = segs.
Proof.
  induction segs as [|h r IH]; intros keep rm H; cbn in H.
  - inversion H; reflexivity.
  - destruct (h_base (geth g h) <=? newMax).
    + destruct (split_tail g newMax r) as [a b] eqn:Q. inversion H; subst. cbn. f_equal. now apply IH.
    + inversion H; reflexivity.
Qed.

(* the handle lists before and after a transaction: every old handle is either kept or
   handed to the finalizer, and at most one new handle (the next free id) is added *)
Definition tx_count (g : shared) (y : nat) (r : shared * list nat) : Prop :=
  exists segs mn nh,
    fst r = publish (set_hnds g (g_hnds g ++ nh)) (mk_state segs mn) /\
    ((nh = [] /\ forall h, cnt h segs + cnt h (snd r) = cnt h (s_segs (getst g y))) \/
     (exists b, nh = [new_hnd b] /\
                forall h, cnt h segs + cnt h (snd r) = cnt h (s_segs (getst g y)) + b2n (length (g_hnds g) =? h))).

Lemma count_same g y segs mn :
  segs = s_segs (getst g y) -> tx_count g y (publish g (mk_state segs mn), []).
Proof.
  intros ->. exists (s_segs (getst g y)), mn, []. split.
  - cbn. rewrite app_nil_r. destruct g; reflexivity.
  - left. split; [reflexivity|]. intros h. cbn. unfold cnt. cbn. lia.
Qed.

Lemma pm3_count g o y k : tx_count g y (pm3_tx g o y k).
Proof.
  assert (R : tx_count g y (do_rotate g y)).
  { unfold do_rotate. do 3 eexists. split; [cbn; reflexivity|]. right. eexists. split; [reflexivity|].
    intros h. cbn [snd]. rewrite cnt_app, cnt_single. unfold cnt at 2. cbn. lia. }
  assert (Hd : forall m, tx_count g y (do_trunc_head g y m)).
  { intros m. unfold do_trunc_head. destruct (split_head g m (last_index g (getst g y)) (s_segs (getst g y))) as [rm keep] eqn:Q.
    pose proof (split_head_app _ _ _ _ _ _ Q) as App. destruct keep as [|k0 keep].
    - do 3 eexists. split; [cbn; reflexivity|]. right. eexists. split; [reflexivity|].
      intros h. cbn [snd]. rewrite <- App, app_nil_r, cnt_single. lia.
    - exists (k0 :: keep), m, []. split.
      + cbn. rewrite app_nil_r. destruct g; reflexivity.
      + left. split; [reflexivity|]. intros h. cbn [snd]. rewrite <- App, cnt_app. lia. }
  assert (Tl : forall m, tx_count g y (do_trunc_tail g y m)).
  { intros m. unfold do_trunc_tail. destruct (split_tail g m (s_segs (getst g y))) as [keep rm] eqn:Q.
    pose proof (split_tail_app _ _ _ _ _ Q) as App.
    do 3 eexists. split; [cbn; reflexivity|]. right. eexists. split; [reflexivity|].
    intros h. cbn [snd]. rewrite <- App, !cnt_app, cnt_single. lia. }
  unfold pm3_tx. destruct k; auto; (destruct o as [o|]; [destruct (classify g (getst g y) o)|]; auto using count_same).
Qed.

(* after `crack`: replace the shared state produced by the PM3 transaction by what tx_count says of it;
   goals without a transaction are left as they are *)
Ltac open_tx :=
  match goal with
  | Q : pm3_tx ?g ?o ?y ?k = (?a, ?b) |- _ =>
      let segs := fresh "segs" in let mn := fresh "mn" in let nh := fresh "nh" in
      let Q1 := fresh "Q1" in let Q2 := fresh "Q2" in
      destruct (pm3_count g o y k) as (segs & mn & nh & Q1 & Q2); rewrite Q in Q1, Q2; cbn [fst] in Q1; cbn [snd] in Q2; subst a
  | _ => idtac
  end.
