(* SealStep.v -- consequences of SealInv.Inv4 for StoreLogs *)
From Coq Require Import List Arith Bool Lia.
From RW Require Import Conc.Sys Conc.Close Conc.CloseInv Conc.CloseReach Conc.SealInv.
Import ListNotations.

Section SS.
  Variables (w r : tid).

  Lemma seal_contra s t th x :
    Full w r s -> Inv4 s -> nth_error (ths s) t = Some th -> t_pc th = PBody x -> op_locking th = true ->
    h_sealed (geth (sh s) (tail_of (getst (sh s) x))) = true -> False.
  Proof. exact (append_tail_unsealed w r s t th x). Qed.
End SS.

Theorem no_errsealed : forall w progs extra s,
  single_writer w progs extra -> reachable step (init progs extra) s ->
  forall t th res, nth_error (ths s) t = Some th -> In res (t_outs th) -> res <> ErrSealed.
Proof.
  intros w progs extra s SW R t th res E Hi ->.
  pose proof (q_res _ (inv4_reach w progs extra s SW R) t th E) as N. unfold nosealed in N.
  apply andb_true_iff in N. destruct N as [_ N]. rewrite forallb_forall in N. specialize (N _ Hi). discriminate N.
Qed.
