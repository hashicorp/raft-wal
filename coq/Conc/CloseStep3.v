(* CloseStep3.v -- every step preserves the finalizer clauses (j_nseg, j_ret, j_fin) of CloseInv2.Inv2: fin_step *)
From Coq Require Import List Arith Bool Lia.
From RW Require Import Conc.Sys Conc.SysFacts Conc.Close Conc.ListX Conc.CloseInv Conc.CloseInv2 Conc.CloseFacts
     Conc.CloseK Conc.CloseSafe Conc.CloseSafeStep Conc.CloseStep1 Conc.CloseFrames Conc.CloseFrames2
     Conc.CloseStepInv Conc.CloseStepThr Conc.CloseStepOwn Conc.CloseReach Conc.CloseCount Conc.CloseStep2.
Import ListNotations.

(* a thread that holds a reference on x: x is a valid state index *)
Lemma held_lt orig s t th x :
  Inv2 orig s -> nth_error (ths s) t = Some th -> 0 < href th x -> x < length (g_states (sh s)).
Proof.
  intros J E Hh. destruct (Nat.lt_ge_cases x (length (g_states (sh s)))) as [L|L]; [exact L|].
  destruct (j_oob _ _ J x L) as [Q _].
  pose proof (sum_ge_nth (fun th0 => href th0 x) (ths s) t th E) as G. cbn beta in G. lia.
Qed.

(* state z is overwritten by a state with the same open bit and handle list *)
Lemma upd_props g z st' :
  z < length (g_states g) -> s_open st' = s_open (getst g z) -> s_segs st' = s_segs (getst g z) ->
  let g' := upd_st g z st' in
  (forall x, s_open (getst g' x) = s_open (getst g x)) /\
  (forall x, s_segs (getst g' x) = s_segs (getst g x)) /\
  length (g_states g') = length (g_states g) /\ g_cur g' = g_cur g /\
  (forall x, x <> z -> getst g' x = getst g x) /\ getst g' z = st'.
Proof.
  intros L Ho Hs. cbn zeta.
  split; [now apply getst_upd_keeps|]. split; [now apply getst_upd_keeps|].
  split; [cbn; now rewrite upd_length|]. split; [reflexivity|].
  split; [intros x N; apply getst_upd_other; congruence | now apply getst_upd_same].
Qed.

(* the clause j_fin of Inv2 at state x *)
Definition fin_ok (g : shared) (T : list thread) (x : nat) : Prop :=
  forall hs sc, s_fin (getst g x) = FSet hs sc ->
    sc = S x /\ sc < length (g_states g) /\ s_ret (getst g x) = true /\
    1 <= s_ref (getst g x) + sum (fun th => nlast th x) T /\
    (forall h, In h (s_segs (getst g x)) -> In h (s_segs (getst g sc)) \/ In h hs).

(* the clauses j_nseg, j_ret and j_fin of Inv2, of shared state g and thread list T *)
Definition fins_ok (g : shared) (T : list thread) : Prop :=
  (forall x, s_open (getst g x) = false -> s_segs (getst g x) = []) /\
  (forall x, x < length (g_states g) -> s_ret (getst g x) = true -> x < g_cur g) /\
  (forall x, x < length (g_states g) -> fin_ok g T x).

Lemma nlast_sum_upd T t th th' x :
  nth_error T t = Some th ->
  sum (fun th0 => nlast th0 x) (upd T t th') + nlast th x = sum (fun th0 => nlast th0 x) T + nlast th' x.
Proof. intros E. apply (sum_upd (fun th0 => nlast th0 x) T t th th' E). Qed.

(* the reference count of state z changes *)
Lemma fins_ref g T t th th' z n :
  nth_error T t = Some th -> z < length (g_states g) -> (forall x, nlast th x = 0) ->
  (forall hs sc, s_fin (getst g z) = FSet hs sc -> 1 <= s_ref (getst g z) + sum (fun th0 => nlast th0 z) T ->
                 1 <= n + sum (fun th0 => nlast th0 z) (upd T t th')) ->
  fins_ok g T -> fins_ok (upd_st g z (st_ref (getst g z) n)) (upd T t th').
Proof.
  intros E Lz N0 Hz (JN & JRt & JF).
  destruct (upd_props g z (st_ref (getst g z) n) Lz ltac:(reflexivity) ltac:(reflexivity)) as (Uo & Us & Ul & Uc & Ux & Uz).
  split; [|split].
  - intros x O. rewrite Us. apply JN. now rewrite <- Uo.
  - intros x L R0. rewrite Uc. rewrite Ul in L. apply (JRt x L).
    destruct (Nat.eq_dec x z) as [->|N]; [now rewrite Uz in R0 | now rewrite Ux in R0].
  - intros x L hs sc Q. rewrite Ul in L. rewrite Ul, !Us.
    destruct (Nat.eq_dec x z) as [->|N].
    + rewrite Uz in Q |- *. cbn [s_fin s_ret s_ref st_ref] in Q |- *.
      destruct (JF z Lz hs sc Q) as (A1 & A2 & A3 & A4 & A5). repeat split; auto. apply (Hz hs sc Q A4).
    + rewrite Ux in Q |- * by exact N. destruct (JF x L hs sc Q) as (A1 & A2 & A3 & A4 & A5).
      pose proof (nlast_sum_upd T t th th' x E) as HN. rewrite N0 in HN. repeat split; auto. lia.
Qed.

(* the finalizer of z is swapped out *)
Lemma fins_swap g T t th th' z :
  nth_error T t = Some th -> z < length (g_states g) -> (forall x, x <> z -> nlast th x = 0) ->
  fins_ok g T -> fins_ok (upd_st g z (st_fin (getst g z) FNil)) (upd T t th').
Proof.
  intros E Lz N0 (JN & JRt & JF).
  destruct (upd_props g z (st_fin (getst g z) FNil) Lz ltac:(reflexivity) ltac:(reflexivity)) as (Uo & Us & Ul & Uc & Ux & Uz).
  split; [|split].
  - intros x O. rewrite Us. apply JN. now rewrite <- Uo.
  - intros x L R0. rewrite Uc. rewrite Ul in L. apply (JRt x L).
    destruct (Nat.eq_dec x z) as [->|N]; [now rewrite Uz in R0 | now rewrite Ux in R0].
  - intros x L hs sc Q. rewrite Ul in L. rewrite Ul, !Us.
    destruct (Nat.eq_dec x z) as [->|N]; [rewrite Uz in Q; discriminate Q|].
    rewrite Ux in Q |- * by exact N. destruct (JF x L hs sc Q) as (A1 & A2 & A3 & A4 & A5).
    pose proof (nlast_sum_upd T t th th' x E) as HN. rewrite (N0 x N) in HN. repeat split; auto. lia.
Qed.

(* state z is retired with finalizer FSet hs (S z) *)
Lemma fins_retire g T t th th' z hs0 :
  nth_error T t = Some th -> S z < length (g_states g) -> z < g_cur g -> (forall x, nlast th x = 0) ->
  1 <= s_ref (getst g z) ->
  (forall h, In h (s_segs (getst g z)) -> In h (s_segs (getst g (S z))) \/ In h hs0) ->
  fins_ok g T -> fins_ok (upd_st g z (st_retire (getst g z) (FSet hs0 (S z)))) (upd T t th').
Proof.
  intros E Lz Lc N0 R1 Inc (JN & JRt & JF).
  destruct (upd_props g z (st_retire (getst g z) (FSet hs0 (S z))) ltac:(lia) ltac:(reflexivity) ltac:(reflexivity))
    as (Uo & Us & Ul & Uc & Ux & Uz).
  split; [|split].
  - intros x O. rewrite Us. apply JN. now rewrite <- Uo.
  - intros x L R0. rewrite Uc. rewrite Ul in L.
    destruct (Nat.eq_dec x z) as [->|N]; [exact Lc | rewrite Ux in R0 by exact N; apply (JRt x L R0)].
  - intros x L hs sc Q. rewrite Ul in L. rewrite Ul, !Us.
    destruct (Nat.eq_dec x z) as [->|N].
    + rewrite Uz in Q |- *. cbn [s_fin s_ret s_ref st_retire] in Q |- *. inversion Q; subst.
      repeat split; auto. lia.
    + rewrite Ux in Q |- * by exact N. destruct (JF x L hs sc Q) as (A1 & A2 & A3 & A4 & A5).
      pose proof (nlast_sum_upd T t th th' x E) as HN. rewrite N0 in HN. repeat split; auto. lia.
Qed.

(* a new state is appended and becomes current *)
Lemma fins_publish g nh st0 T t th th' :
  nth_error T t = Some th -> S (g_cur g) = length (g_states g) -> (forall x, nlast th x = 0) ->
  s_fin st0 = FUnset -> s_ret st0 = false -> (s_open st0 = false -> s_segs st0 = []) ->
  fins_ok g T -> fins_ok (publish (set_hnds g (g_hnds g ++ nh)) st0) (upd T t th').
Proof.
  intros E La N0 F0 R0 S0 (JN & JRt & JF).
  destruct (publish_shape g nh st0) as (Hl & Hg & Hn & _).
  assert (Hc : g_cur (publish (set_hnds g (g_hnds g ++ nh)) st0) = length (g_states g)) by reflexivity.
  split; [|split].
  - intros x O. destruct (Nat.lt_ge_cases x (length (g_states g))) as [L|L].
    + rewrite Hg in O |- * by exact L. now apply JN.
    + destruct (Nat.eq_dec x (length (g_states g))) as [->|N]; [rewrite Hn in O |- *; now apply S0|].
      unfold getst. rewrite nth_overflow; [reflexivity | rewrite Hl; lia].
  - intros x L Rx. rewrite Hc. rewrite Hl in L.
    destruct (Nat.eq_dec x (length (g_states g))) as [->|N]; [rewrite Hn in Rx; congruence | lia].
  - intros x L hs sc Q. rewrite Hl in L. rewrite Hl.
    destruct (Nat.eq_dec x (length (g_states g))) as [->|N]; [rewrite Hn in Q; congruence|].
    assert (Lx : x < length (g_states g)) by lia. rewrite Hg in Q |- * by exact Lx.
    destruct (JF x Lx hs sc Q) as (A1 & A2 & A3 & A4 & A5).
    pose proof (nlast_sum_upd T t th th' x E) as HN. rewrite N0 in HN.
    rewrite Hg by lia. repeat split; auto; lia.
Qed.

Section P3.
  Variables (w r : tid) (orig : list (list op)).

  Lemma nlast_continue th res k x : nlast (continue th res k) x = 0.
  Proof. destruct k; reflexivity. Qed.

  Lemma fins_threads g T T' :
    (forall x, sum (fun th0 => nlast th0 x) T <= sum (fun th0 => nlast th0 x) T') -> fins_ok g T -> fins_ok g T'.
  Proof.
    intros Hs (JN & JRt & JF). split; [exact JN|]. split; [exact JRt|].
    intros x L hs sc Q. destruct (JF x L hs sc Q) as (A1 & A2 & A3 & A4 & A5). specialize (Hs x).
    repeat split; auto. lia.
  Qed.

  Lemma fin_step s t s' :
    Full w r s -> Inv2 orig s -> step s t = Some s' -> fins_ok (sh s') (ths s').
  Proof.
    intros [SA I] J H. destruct (step_decomp _ _ _ H) as (th & g' & th' & E & F & ->). cbn [sh ths].
    destruct (step_facts w r s t th g' th' SA I E F) as (NP & _ & TF & FB & La). pose proof (j_thr _ _ J _ _ E) as TJ.
    assert (P0 : fins_ok (sh s) (ths s)).
    { split; [apply (j_nseg _ _ J)|]. split; [apply (j_ret _ _ J)|].
      intros x L hs sc Q. apply (j_fin _ _ J x hs sc L Q). }
    assert (HR : forall x, 0 < href th x -> x < length (g_states (sh s)) /\ 1 <= s_ref (getst (sh s) x)).
    { intros x Hh. pose proof (held_lt orig s t th x J E Hh) as L. split; [exact L|]. rewrite (j_ref _ _ J x L).
      pose proof (sum_ge_nth (fun th0 => href th0 x) (ths s) t th E) as G. cbn beta in G. lia. }
    destruct (special2 (t_pc th)) eqn:Sp.
    2: { destruct (frame2_plain _ _ _ _ _ F NP Sp) as [Qs Qc _ _ _ Qn _].
      assert (Q : fins_ok g' (ths s)).
      { destruct P0 as (JN & JRt & JF). unfold fins_ok, fin_ok, getst in *. rewrite Qs, Qc. auto. }
      apply (fins_threads g' (ths s)); [|exact Q]. intros x.
      pose proof (nlast_sum_upd (ths s) t th th' x E) as HN. destruct (Qn x) as [N1 N2]. lia. }
    unfold th_facts1 in TF. unfold th_facts2 in TJ. unfold factsB in FB.
    destruct (t_pc th) eqn:P; try discriminate Sp;
      unfold step_thread in F; rewrite P in F; crack F;
      open_tx;
      inversion F; subst g' th'; clear F.
    all: try (exfalso; apply NP; reflexivity).
    all: assert (N0 : forall x0, nlast th x0 = match t_pc th with PLast x' _ _ => b2n (x' =? x0) | _ => 0 end) by reflexivity;
      rewrite P in N0.
    - (* acquire *) apply (fins_ref (sh s) (ths s) t th _ _ _ E); auto. intros; lia.
    - (* mutate acquire *) destruct TF as (Yc & _). apply (fins_ref (sh s) (ths s) t th _ _ _ E); auto; [lia | intros; lia].
    - (* publish *) apply (fins_publish (sh s) _ _ (ths s) t th _ E); auto. intros Q; discriminate Q.
    - (* retire *)
      destruct TF as (Yc & _). destruct TJ as (hz & Qf & _ & _ & Inc). subst f.
      destruct (HR y) as [Ly Ry]; [unfold href; rewrite P; rewrite Nat.eqb_refl; cbn; lia|].
      apply (fins_retire (sh s) (ths s) t th _ _ _ E); auto; lia.
    - (* release -> last reference *)
      destruct (HR x) as [Lx Rx]; [unfold href; rewrite P; rewrite Nat.eqb_refl; cbn; lia|].
      apply (fins_ref (sh s) (ths s) t th _ _ _ E); auto. intros hs sc Q A4.
      pose proof (nlast_sum_upd (ths s) t th (setpc th (PLast x r0 k)) x E) as HN. rewrite N0 in HN.
      change (nlast (setpc th (PLast x r0 k)) x) with (b2n (x =? x)) in HN. rewrite Nat.eqb_refl in HN. cbn in HN. lia.
    - (* release *)
      destruct (HR x) as [Lx Rx]; [unfold href; rewrite P; rewrite Nat.eqb_refl; cbn; lia|].
      apply (fins_ref (sh s) (ths s) t th _ _ _ E); auto. intros hs sc Q A4.
      destruct P0 as (_ & _ & JF). destruct (JF x Lx hs sc Q) as (_ & _ & Rt & _).
      rewrite Rt, andb_true_r in Heqb. apply Nat.eqb_neq in Heqb. lia.
    - (* swap, nothing stored *)
      destruct TJ as (_ & Lx & _). apply (fins_swap (sh s) (ths s) t th _ _ E); auto.
      intros x0 N. rewrite N0. destruct (Nat.eqb_spec x x0); [congruence | reflexivity].
    - destruct TJ as (_ & Lx & _). apply (fins_swap (sh s) (ths s) t th _ _ E); auto.
      intros x0 N. rewrite N0. destruct (Nat.eqb_spec x x0); [congruence | reflexivity].
    - destruct TJ as (_ & Lx & _). apply (fins_swap (sh s) (ths s) t th _ _ E); auto.
      intros x0 N. rewrite N0. destruct (Nat.eqb_spec x x0); [congruence | reflexivity].
    - (* run the finalizer *)
      change (fins_ok (sh s) (upd (ths s) t (setpc th (PRel sc r0 k)))).
      apply (fins_threads (sh s) (ths s)); [|exact P0]. intros x0.
      pose proof (nlast_sum_upd (ths s) t th (setpc th (PRel sc r0 k)) x0 E) as HN. rewrite N0 in HN.
      change (nlast (setpc th (PRel sc r0 k)) x0) with 0 in HN. lia.
    - (* Close acquires *) apply (fins_ref (sh s) (ths s) t th _ _ _ E); auto; [lia | intros; lia].
    - (* Close publishes the empty state *)
      replace (publish (sh s) empty_state) with (publish (set_hnds (sh s) (g_hnds (sh s) ++ [])) empty_state)
        by (rewrite app_nil_r; destruct (sh s); reflexivity).
      apply (fins_publish (sh s) _ _ (ths s) t th _ E); auto.
    - (* Close retires the old state *)
      destruct TF as (Xc & Ec & _). try subst e. rewrite <- ?Xc.
      destruct (HR x) as [Lx Rx]; [unfold href; rewrite P; rewrite Nat.eqb_refl; cbn; lia|].
      apply (fins_retire (sh s) (ths s) t th _ _ _ E); auto; lia.
  Qed.
End P3.
