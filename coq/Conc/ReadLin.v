(* ReadLin.v -- per-read linearizability: every in-flight read carries a justification
   (a state between its invocation and now in which the abstract log gives the result it
   is going to return); the justification survives every step *)
From Coq Require Import List Arith Bool Lia.
From RW Require Import Conc.Sys Conc.SysFacts Conc.Close Conc.ListX Conc.CloseInv Conc.CloseInv2 Conc.CloseFacts
     Conc.CloseSafe Conc.CloseSafeStep Conc.CloseStep1 Conc.CloseReach Conc.CloseStep3 Conc.CloseStep5 Conc.CloseReach2
     Conc.ReadInv Conc.ReadStep Conc.Readers Conc.ReadView Conc.ReadStable Conc.ReadFrame.
Import ListNotations.

Definition just (H : list sys) (a n : nat) (o : op) (res : outcome) : Prop :=
  exists k, a <= k <= n /\ exists sk, nth_error H k = Some sk /\ lin_at (sh sk) o res.

Lemma just_mono H a n o res s' : just H a n o res -> just (H ++ [s']) a (S n) o res.
Proof.
  intros (k & Lk & sk & Ek & Lin). exists k. split; [lia|]. exists sk. split; [|exact Lin].
  rewrite nth_error_app1; [exact Ek | eapply nth_error_Some_lt; eauto].
Qed.

Lemma just_new H a n o res s' : length H = S n -> a <= S n -> lin_at (sh s') o res -> just (H ++ [s']) a (S n) o res.
Proof.
  intros L La Lin. exists (S n). split; [lia|]. exists s'. split; [|exact Lin].
  rewrite nth_error_app2 by lia. rewrite L, Nat.sub_diag. reflexivity.
Qed.

(* what an in-flight read at program counter p is going to return is justified *)
Definition claim (g : shared) (H : list sys) (a n : nat) (o : op) (p : pc) : Prop :=
  match p with
  | PBody x => just H a n o (view g x o)
  | PGetRead x h => match o with
                    | OGet i => just H a n o (Ok (nth (i - hb g h) (h_ents (geth g h)) 0))
                    | _ => True
                    end
  | PRel _ res KRet | PLast _ res KRet | PRun _ _ res KRet => just H a n o res
  | _ => True
  end.

Lemma read_log_ok g h i v : read_log g h i = Ok v -> v = nth (i - h_base (geth g h)) (h_ents (geth g h)) 0.
Proof. unfold read_log. destruct (_ <=? _); [discriminate|]. destruct (_ <? _); [discriminate|]. intros Q. now inversion Q. Qed.

Section Lin.
  Variables (w r : tid) (orig : list (list op)).

  Definition good (s : sys) : Prop := Full2 w r orig s /\ Inv3 (sh s).

  Lemma good_step s t s' : good s -> step s t = Some s' -> good s'.
  Proof. intros [F2 K] H. split; [eapply full2_step; eauto | eapply inv3_step; [exact (proj1 F2) | exact K | exact H]]. Qed.

  (* the claim of another thread survives the step *)
  Lemma claim_other s t s' u thu o H a n :
    good s -> step s t = Some s' -> nth_error (ths s) u = Some thu -> cur_op thu = Some o -> is_read_op o = true ->
    length H = S n -> a <= n ->
    claim (sh s) H a n o (t_pc thu) -> claim (sh s') (H ++ [s']) a (S n) o (t_pc thu).
  Proof.
    intros [[F0 J] K] St Eu Ou Ro LH La C. pose proof F0 as [SA I].
    pose proof (a_last _ SA) as Las.
    pose proof (a_thr _ SA _ _ Eu) as FB. unfold factsB in FB.
    pose proof (i_thr _ _ _ I _ _ Eu) as TF. unfold th_facts1 in TF.
    pose proof (j_thr _ _ J _ _ Eu) as TJ. unfold th_facts2 in TJ.
    unfold claim in *. destruct (t_pc thu) eqn:Pu; try exact Logic.I.
    - (* PBody: view stability *)
      destruct TF as [Ox _].
      destruct (view_step w r s t s' x o F0 K St ltac:(lia) Ox Ro) as [Q|(Qc & Oc & Q)].
      + rewrite Q. now apply just_mono.
      + rewrite Q. apply just_new; [exact LH | lia|]. left. apply spec_view; [exact Oc | exact Ro].
    - (* PGetRead: the entry about to be read does not change *)
      destruct o; try exact Logic.I. rewrite Ou in FB. destruct TJ as [Hi _].
      assert (Lx : x < length (g_states (sh s))).
      { apply (held_lt orig s u thu x J Eu). unfold href. rewrite Pu, Nat.eqb_refl. cbn. lia. }
      assert (Lh : h < nh_ (sh s)) by (apply (k_hlt _ K x h Lx Hi)).
      destruct (step_decomp _ _ _ St) as (th & g' & th' & E & F & ->). cbn [sh].
      pose proof (no_panic w r _ _ _ _ _ SA I E F) as NP.
      destruct (ents_step _ _ _ _ _ h F NP Lh) as (Qb & e & Qe).
      rewrite Qb, Qe. pose proof (a_chain _ SA h) as Ch. unfold h_chain in Ch.
      rewrite app_nth1 by (unfold hb; lia). now apply just_mono.
    - destruct k; try exact Logic.I. now apply just_mono.
    - destruct k; try exact Logic.I. now apply just_mono.
    - destruct k; try exact Logic.I. now apply just_mono.
  Qed.

  (* the two ways the stepping thread ends up: inside the call, or returned *)
  Lemma own_stay (th : thread) p (X : pc -> Prop) (Y : outcome -> Prop) : p <> PIdle -> X p ->
    (t_pc (setpc th p) <> PIdle -> t_outs (setpc th p) = t_outs th /\ X (t_pc (setpc th p))) /\
    (t_pc (setpc th p) = PIdle -> t_outs (setpc th p) = t_outs th ++ [last (t_outs (setpc th p)) Panic] /\
                                  Y (last (t_outs (setpc th p)) Panic)).
  Proof. intros N Xp. cbn. split; [auto | congruence]. Qed.

  Lemma own_ret (th : thread) res (X : pc -> Prop) (Y : outcome -> Prop) : Y res ->
    (t_pc (finish th res) <> PIdle -> t_outs (finish th res) = t_outs th /\ X (t_pc (finish th res))) /\
    (t_pc (finish th res) = PIdle -> t_outs (finish th res) = t_outs th ++ [last (t_outs (finish th res)) Panic] /\
                                     Y (last (t_outs (finish th res)) Panic)).
  Proof. intros Yr. cbn. rewrite last_last. split; [congruence | auto]. Qed.

  (* the stepping thread: its claim moves along with its program counter; when the call
     returns, the recorded outcome is justified *)
  Lemma claim_own s t th g' th' o H a n :
    good s -> nth_error (ths s) t = Some th -> step_thread (sh s) t th = Some (g', th') ->
    cur_op th = Some o -> is_read_op o = true -> t_rot th = false ->
    length H = S n -> nth_error H n = Some s -> a <= n ->
    (t_pc th = PIdle -> a = n) -> (t_pc th <> PIdle -> claim (sh s) H a n o (t_pc th)) ->
    let s' := {| sh := g'; ths := upd (ths s) t th' |} in
    (t_pc th' <> PIdle -> t_outs th' = t_outs th /\ claim g' (H ++ [s']) a (S n) o (t_pc th')) /\
    (t_pc th' = PIdle -> t_outs th' = t_outs th ++ [last (t_outs th') Panic] /\
                         just (H ++ [s']) a (S n) o (last (t_outs th') Panic)).
  Proof.
    intros G E F Oo Ro Rf LH Hn La A0 C s'. pose proof G as [[[SA Iv] J] K].
    assert (St : step s t = Some s') by (unfold step; rewrite E, F; reflexivity).
    pose proof (good_step s t s' G St) as [[_ J'] _].
    pose proof (no_panic w r _ _ _ _ _ SA Iv E F) as NP. pose proof (i_wf _ _ _ Iv _ _ E) as WF.
    assert (E' : nth_error (ths s') t = Some th').
    { unfold s'; cbn. apply nth_error_upd_eq. eapply nth_error_Some_lt; eauto. }
    pose proof (j_thr _ _ J' _ _ E') as TJ'. unfold th_facts2 in TJ'.
    assert (Mono : forall res, just H a n o res -> just (H ++ [s']) a (S n) o res) by (intros; now apply just_mono).
    (* a read is at one of ten program counters: PIdle, PChecked, PLoad, PLoaded, PAcq, PBody, PGetRead,
       then PRel, PLast, PRun *)
    unfold pc_ok, op_locking, op_close in WF. rewrite Rf, Oo in WF. unfold step_thread in F.
    destruct (t_pc th) eqn:P; try discriminate WF; try (exfalso; destruct o; try discriminate Ro; try destruct k; discriminate WF).
    (* PRel, PLast, PRun release the reference: the outcome is fixed, its justification is carried to the return *)
    8-10: specialize (C ltac:(discriminate)); destruct k; try discriminate WF;
      try (exfalso; destruct o; first [discriminate Ro | discriminate WF]);
      crack F; injection F as <- <-; cbn [continue];
      (first [apply own_ret | apply own_stay; [discriminate|]]); first [exact Logic.I | apply Mono, C].
    - (* PIdle: the invocation loads the closed flag *)
      assert (F1 : (if g_closed (sh s) then Some (sh s, finish th ErrClosed) else Some (sh s, setpc th PChecked)) = Some (g', th'))
        by (rewrite Oo in F; destruct o; try discriminate Ro; exact F).
      destruct (g_closed (sh s)) eqn:Cl; injection F1 as <- <-.
      + (* the closed flag is already set *)
        apply own_ret. exists n. split; [rewrite (A0 eq_refl); lia|]. exists s. split; [rewrite nth_error_app1 by lia; exact Hn|].
        right. split; [reflexivity | exact Cl].
      + apply own_stay; [discriminate | exact Logic.I].
    - (* PChecked *)
      assert (F1 : Some (sh s, setpc th PLoad) = Some (g', th')) by (rewrite Oo in F; destruct o; try discriminate Ro; exact F).
      injection F1 as <- <-. apply own_stay; [discriminate | exact Logic.I].
    - (* PLoad *) injection F as <- <-. apply own_stay; [discriminate | exact Logic.I].
    - (* PLoaded *) injection F as <- <-. apply own_stay; [discriminate | exact Logic.I].
    - (* PAcq: the linearization point, if the version loaded is still current *)
      rewrite Oo in F.
      destruct (Nat.eqb_spec (g_cur (sh s)) x) as [Qx|Nx]; cbn [negb] in F; [destruct (s_open (getst (sh s) x)) eqn:Ox|];
        injection F as <- <-; (apply own_stay; [discriminate|]).
      + (* validated: the version is current *)
        unfold claim. apply just_new; [exact LH | lia|]. left. change (sh s') with (sh s). rewrite <- Qx.
        apply spec_view; [unfold cur_st; rewrite Qx; exact Ox | exact Ro].
      + (* the current version is the closed one *)
        replace (if is_locking o then KUnlock else KRet) with KRet by (destruct o; try discriminate Ro; reflexivity).
        unfold claim. apply just_new; [exact LH | lia|]. left. change (sh s') with (sh s). unfold spec_read, cur_st. now rewrite Qx, Ox.
      + (* replaced meanwhile: retry *) exact Logic.I.
    - (* PBody: the result is the view through x *)
      specialize (C ltac:(discriminate)). unfold claim in C.
      destruct (s_open (getst (sh s) x)); cbn [negb] in F; [|injection F as <- <-; exfalso; apply NP; reflexivity].
      rewrite Oo in F. destruct o; try discriminate Ro.
      + injection F as <- <-. apply own_stay; [discriminate | apply Mono, C].
      + injection F as <- <-. apply own_stay; [discriminate | apply Mono, C].
      + (* GetLog: the segment lookup *)
        rewrite view_get in C.
        destruct (find_log (sh s) (getst (sh s) x) i); injection F as <- <-; (apply own_stay; [discriminate | apply Mono, C]).
    - (* PGetRead: readFrame returns the entry; an I/O error is not among the outcomes a read may produce *)
      specialize (C ltac:(discriminate)). rewrite Oo in F. destruct o; try discriminate WF. unfold claim in C.
      destruct (read_log_cases (sh s) h i) as [Q|[[Q _]|[v Q]]]; rewrite Q in F; injection F as <- <-.
      + exfalso; apply NP; reflexivity.
      + exfalso. destruct TJ' as [_ Ro']. specialize (Ro' Rf).
        change (cur_op (setpc th (PRel x IOErr KRet))) with (cur_op th) in Ro'. rewrite Oo in Ro'. discriminate Ro'.
      + apply own_stay; [discriminate|]. unfold claim. rewrite (read_log_ok _ _ _ _ Q). apply Mono, C.
  Qed.
End Lin.
