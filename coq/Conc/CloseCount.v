(* CloseCount.v -- how often close_all closes a handle; membership as a count *)
From Coq Require Import List Arith Bool Lia.
From RW Require Import Conc.Sys Conc.Close Conc.ListX Conc.CloseFacts Conc.CloseSafe.
Import ListNotations.

Lemma close_all_closes : forall hs l h,
  h < length l -> h_closes (nth h (close_all l hs) dh) = h_closes (nth h l dh) + cnt h hs.
Proof.
  induction hs as [|a hs IH]; intros l h L; cbn [close_all].
  - unfold cnt. cbn. lia.
  - rewrite IH by (now rewrite upd_length). unfold cnt. cbn [count_occ].
    destruct (Nat.eq_dec a h) as [->|N].
    + rewrite nth_upd_eq by exact L. cbn. lia.
    + rewrite nth_upd_neq by exact N. lia.
Qed.

Lemma cnt_In h l : 0 < cnt h l <-> In h l.
Proof. unfold cnt. split; intros H; [apply (count_occ_In Nat.eq_dec); lia | apply (count_occ_In Nat.eq_dec) in H; lia]. Qed.
