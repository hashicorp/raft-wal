(* CloseFrames2.v -- frame lemma for the reference / finalizer / handle bookkeeping: steps from
   all but ten program counters leave states, close counts and the thread's holdings alone *)
From Coq Require Import List Arith Bool Lia.
From RW Require Import Conc.Sys Conc.Close Conc.ListX Conc.CloseInv Conc.CloseInv2 Conc.CloseFacts
     Conc.CloseSafe Conc.CloseFrames.
Import ListNotations.

Definition special2 (p : pc) : bool :=
  match p with
  | PLoaded _ | PM1 _ _ | PC5 _ | PRel _ _ _ | PM3 _ _ | PC6 _ | PM4 _ _ _ | PCSwapped _ _
  | PLast _ _ _ | PRun _ _ _ _ => true
  | _ => false
  end.

Record same2 (g g' : shared) (th th' : thread) : Prop := {
  s2_states : g_states g' = g_states g;
  s2_cur : g_cur g' = g_cur g;
  s2_hlen : length (g_hnds g') = length (g_hnds g);
  s2_closes : forall h, h_closes (geth g' h) = h_closes (geth g h);
  s2_href : forall x, href th' x = href th x;
  s2_nlast : forall x, nlast th' x = 0 /\ nlast th x = 0;
  s2_hpend : forall h, hpend g' th' h = 0 /\ hpend g th h = 0
}.

Lemma frame2_plain g t th g' th' :
  step_thread g t th = Some (g', th') -> t_pc th' <> PPanic -> special2 (t_pc th) = false ->
  same2 g g' th th'.
Proof.
  intros F NP S. unfold step_thread in F.
  destruct (t_pc th) eqn:P; try discriminate S; crack F; inversion F; subst g' th'; clear F.
  all: try (exfalso; apply NP; reflexivity).
  all: split; cbn [g_states g_cur g_hnds upd_h set_hnds set_mu set_closed set_trig set_await set_meta];
    try reflexivity; try (now rewrite upd_length).
  all: try (now apply (geth_upd_keeps h_closes)).
  all: try (intros x0; unfold href; cbn [t_pc setpc finish]; rewrite P; cbn [kouter]; try reflexivity; try lia).
  all: try (intros x0; unfold nlast; cbn [t_pc setpc finish]; rewrite P; split; reflexivity).
  all: try (intros h0; unfold hpend; cbn [t_pc setpc finish]; rewrite P; split; reflexivity).
Qed.
