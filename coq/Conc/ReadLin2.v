(* ReadLin2.v -- every completed read of every schedule of a single-writer system is
   linearizable (Readers.lin_read): induction along the schedule with the justifications
   of Conc/ReadLin.v *)
From Coq Require Import List Arith Bool Lia.
From RW Require Import Conc.Sys Conc.SysFacts Conc.Close Conc.ListX Conc.CloseInv Conc.CloseInv2 Conc.CloseFacts
     Conc.CloseSafe Conc.CloseSafeStep Conc.CloseStep1 Conc.CloseReach Conc.CloseReach2 Conc.CloseThm2
     Conc.ReadInv Conc.ReadFrame Conc.ReadStep Conc.Readers Conc.ReadView Conc.ReadLin.
Import ListNotations.

Lemma pc_idle_dec (p : pc) : {p = PIdle} + {p <> PIdle}.
Proof. destruct p; first [left; reflexivity | right; discriminate]. Qed.

Lemma find_filter_other (u t : nat) (l : list (tid * nat)) : u <> t ->
  find (fun p => fst p =? u) (filter (fun p => negb (fst p =? t)) l) = find (fun p => fst p =? u) l.
Proof.
  intros N. induction l as [|[v a] l IH]; [reflexivity|]. cbn [filter find fst].
  destruct (Nat.eqb_spec v t) as [->|Nv]; cbn [negb].
  - destruct (Nat.eqb_spec t u); [congruence | exact IH].
  - cbn [find fst]. destruct (v =? u); [reflexivity | exact IH].
Qed.

Lemma step_keeps_op g t th g' th' :
  step_thread g t th = Some (g', th') -> t_pc th' <> PIdle -> t_pc th' <> PPanic ->
  cur_op th' = cur_op th /\ t_rot th' = t_rot th.
Proof.
  intros F N1 N2.
  destruct (thread_step _ _ _ _ _ F) as [(p & ->)|[(res & ->)| ->]]; [split; reflexivity | contradiction N1 | contradiction N2]; reflexivity.
Qed.

Lemma claim_mono g H a n o p s' : claim g H a n o p -> claim g (H ++ [s']) a (S n) o p.
Proof.
  unfold claim. destruct p; auto using just_mono.
  - destruct o; auto using just_mono.
  - destruct k; auto using just_mono.
  - destruct k; auto using just_mono.
  - destruct k; auto using just_mono.
Qed.

Lemma states_along_head s sch : exists tl, states_along s sch = s :: tl.
Proof. destruct sch; cbn; eauto. Qed.

Section Lin2.
  Variables (w r : tid) (orig : list (list op)).

  Definition tracked (s : sys) (H : list sys) (n : nat) (open_ : list (tid * nat)) : Prop :=
    forall t th o, nth_error (ths s) t = Some th -> t_pc th <> PIdle -> cur_op th = Some o -> is_read_op o = true ->
      exists a, find (fun p => fst p =? t) open_ = Some (t, a) /\ a <= n /\ claim (sh s) H a n o (t_pc th).

  Lemma just_lin H tl a n o res t :
    just H a n o res -> lin_read (H ++ tl) {| r_tid := t; r_op := o; r_inv := a; r_ret := n; r_res := res |}.
  Proof.
    intros (k & Lk & sk & Ek & Lin). exists k. cbn. split; [exact Lk|]. exists sk. split; [|exact Lin].
    rewrite nth_error_app1; [exact Ek | eapply nth_error_Some_lt; eauto].
  Qed.

  Lemma events_lin : forall sch s now open_ hs0,
    good w r orig s -> length hs0 = now -> tracked s (hs0 ++ [s]) now open_ ->
    forall e, In e (events_aux s sch now open_) -> lin_read (hs0 ++ states_along s sch) e.
  Proof.
    induction sch as [|t rest IH]; intros s now open_ hs0 G L T e Hi; [destruct Hi|].
    cbn [events_aux states_along] in *. unfold exec.
    destruct (step s t) as [s'|] eqn:St.
    2: { (* the thread cannot move: the state is repeated *)
      replace (hs0 ++ s :: states_along s rest) with ((hs0 ++ [s]) ++ states_along s rest) by (now rewrite <- app_assoc).
      apply (IH s (S now) open_ (hs0 ++ [s]) G); [rewrite app_length; cbn; lia | | exact Hi].
      intros u thu o Eu Pu Ou Ro. destruct (T u thu o Eu Pu Ou Ro) as (a & Fa & La & C).
      exists a. split; [exact Fa|]. split; [lia|]. now apply claim_mono. }
    destruct (step_decomp _ _ _ St) as (th & g' & th' & E & F & Qs'). rewrite E in Hi.
    pose proof G as [[[SA I] J] K].
    pose proof (no_panic w r _ _ _ _ _ SA I E F) as NP.
    pose proof (good_step w r orig s t s' G St) as G'.
    assert (Lt : t < length (ths s)) by (eapply nth_error_Some_lt; eauto).
    assert (Qg : sh s' = g') by (rewrite Qs'; reflexivity).
    assert (Th' : nth t (ths s') th = th').
    { subst s'. cbn. apply nth_error_nth'. now apply nth_error_upd_eq. }
    rewrite Th' in Hi.
    set (H := hs0 ++ [s]) in *.
    assert (LH : length H = S now) by (unfold H; rewrite app_length; cbn; lia).
    assert (Hn : nth_error H now = Some s) by (unfold H; rewrite nth_error_app2 by lia; rewrite L, Nat.sub_diag; reflexivity).
    replace (hs0 ++ s :: states_along s' rest) with (H ++ states_along s' rest) by (unfold H; now rewrite <- app_assoc).
    set (started := match t_pc th with PIdle => true | _ => false end) in *.
    set (open1 := if started then (t, now) :: filter (fun p => negb (fst p =? t)) open_ else open_) in *.
    (* what is known about the stepping thread when it runs a read *)
    assert (Own : forall o, cur_op th = Some o -> is_read_op o = true ->
              exists a, find (fun p => fst p =? t) open1 = Some (t, a) /\ a <= now /\
                (t_pc th' <> PIdle -> t_outs th' = t_outs th /\ claim (sh s') (H ++ [s']) a (S now) o (t_pc th')) /\
                (t_pc th' = PIdle -> t_outs th' = t_outs th ++ [last (t_outs th') Panic] /\
                                     just (H ++ [s']) a (S now) o (last (t_outs th') Panic))).
    { intros o Oo Ro.
      assert (Rf : t_rot th = false).
      { pose proof (i_wf _ _ _ I _ _ E) as WF. unfold pc_ok in WF. destruct (t_rot th); [|reflexivity].
        unfold cur_op in Oo. destruct (t_prog th); [discriminate Oo | discriminate WF]. }
      destruct (pc_idle_dec (t_pc th)) as [P|P].
      - exists now. split; [unfold open1, started; rewrite P; cbn [find fst]; now rewrite Nat.eqb_refl|]. split; [lia|].
        pose proof (claim_own w r orig s t th g' th' o H now now G E F Oo Ro Rf LH Hn (Nat.le_refl _)
                      ltac:(auto) ltac:(congruence)) as Q. cbn zeta in Q. rewrite <- Qs' in Q. rewrite <- Qg in Q. exact Q.
      - destruct (T t th o E P Oo Ro) as (a & Fa & La & C).
        exists a. split; [unfold open1, started; destruct (t_pc th); try exact Fa; congruence|]. split; [exact La|].
        pose proof (claim_own w r orig s t th g' th' o H a now G E F Oo Ro Rf LH Hn La
                      ltac:(congruence) ltac:(intros _; exact C)) as Q. cbn zeta in Q. rewrite <- Qs' in Q. rewrite <- Qg in Q. exact Q. }
    apply in_app_or in Hi. destruct Hi as [Hi|Hi].
    - (* the event emitted by this step *)
      destruct (length (t_outs th) <? length (t_outs th')) eqn:Fin; [|destruct Hi].
      destruct (cur_op th) as [o|] eqn:Oo; [|destruct Hi].
      destruct (find (fun p => fst p =? t) open1) as [[t0 a0]|] eqn:Fo; [|destruct Hi].
      destruct (is_read_op o) eqn:Ro; [|destruct Hi]. destruct Hi as [<-|[]].
      destruct (Own o eq_refl Ro) as (a & Fa & La & Q1 & Q2). injection Fa as Et0 Ea0. subst t0 a0.
      apply Nat.ltb_lt in Fin.
      assert (PI : t_pc th' = PIdle).
      { destruct (pc_idle_dec (t_pc th')) as [Q|Q]; [exact Q|]. destruct (Q1 Q) as [Qo _]. rewrite Qo in Fin. lia. }
      destruct (Q2 PI) as [_ Ju].
      destruct (states_along_head s' rest) as (tl & ->).
      replace (H ++ s' :: tl) with ((H ++ [s']) ++ tl) by (now rewrite <- app_assoc).
      now apply just_lin.
    - (* later events *)
      apply (IH s' (S now) open1 H G' LH); [|exact Hi].
      intros u thu o Eu Pu Ou Ro.
      destruct (Nat.eq_dec u t) as [->|Nu].
      + assert (thu = th') by (subst s'; cbn in Eu; rewrite nth_error_upd_eq in Eu by exact Lt; congruence). subst thu.
        destruct (step_keeps_op _ _ _ _ _ F Pu NP) as [Qo _]. rewrite Qo in Ou.
        destruct (Own o Ou Ro) as (a & Fa & La & Q1 & _). exists a. split; [exact Fa|]. split; [lia|]. apply (Q1 Pu).
      + assert (Eu' : nth_error (ths s) u = Some thu) by (subst s'; cbn in Eu; now rewrite nth_error_upd_neq in Eu by congruence).
        destruct (T u thu o Eu' Pu Ou Ro) as (a & Fa & La & C). exists a.
        split; [unfold open1; destruct started; [|exact Fa]; cbn [find fst]; destruct (Nat.eqb_spec t u) as [Q|Q]; [congruence|];
                rewrite find_filter_other by exact Nu; exact Fa|].
        split; [lia|]. apply (claim_other w r orig s t s' u thu o H a now G St Eu' Ou Ro LH La C).
  Qed.
End Lin2.

Theorem reads_linearizable : forall w progs extra sch e,
  single_writer w progs extra ->
  In e (events (init progs extra) sch) -> lin_read (states_along (init progs extra) sch) e.
Proof.
  intros w progs extra sch e SW Hi.
  assert (R : reachable step (init progs extra) (init progs extra)) by (exists []; reflexivity).
  assert (G : good w (length progs) (progs ++ [] :: extra) (init progs extra)).
  { split; [apply (full2_reach w progs extra _ SW R) | apply (inv3_reach w progs extra _ SW R)]. }
  apply (events_lin w (length progs) (progs ++ [] :: extra) sch (init progs extra) 0 [] [] G eq_refl); [|exact Hi].
  intros t th o E P O _. exfalso.
  destruct (init_threads _ _ _ _ E) as [(p & _ & -> & _)|(_ & ->)]; [apply P; reflexivity | discriminate O].
Qed.

(* the two statements as formulated in Conc/Readers.v *)
Theorem readers_statements : reads_linearizable_statement /\ stable_entry_intact_statement.
Proof.
  split.
  - intros w progs extra sch e SW. apply (reads_linearizable w progs extra sch e SW).
  - intros w progs extra sch t th SW. apply (stable_entry_intact w progs extra sch t th SW).
Qed.
