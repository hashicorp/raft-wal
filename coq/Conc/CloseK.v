(* CloseK.v -- how the progress measure K of Close and the rotator's pc change
   when one thread takes a step *)
From Coq Require Import List Arith Bool Lia.
From RW Require Import Conc.Sys Conc.Close Conc.ListX Conc.CloseInv Conc.CloseFacts.
Import ListNotations.

Lemma sum_b2n_zero {A} (f : A -> nat) l : sum (fun x => b2n (0 <? f x)) l = 0 -> sum f l = 0.
Proof.
  induction l as [|y l IH]; cbn [sum]; intros Z; [reflexivity|].
  destruct (Nat.ltb_spec 0 (f y)); cbn [b2n] in Z; [lia|]. rewrite IH by lia. lia.
Qed.

Lemma sum_single {A} (f : A -> nat) : forall l i a,
  nth_error l i = Some a -> sum (fun x => b2n (0 <? f x)) l <= b2n (0 <? f a) -> sum f l = f a.
Proof.
  induction l as [|x l IH]; intros [|i] a E H; cbn [sum nth_error] in *; try discriminate.
  - inversion E; subst.
    assert (Z : sum (fun x => b2n (0 <? f x)) l = 0) by lia.
    rewrite (sum_b2n_zero f l Z). lia.
  - pose proof (sum_ge_nth (fun x => b2n (0 <? f x)) l i a E) as G. cbn beta in G.
    destruct (Nat.ltb_spec 0 (f x)); cbn [b2n] in H; [destruct (0 <? f a); cbn [b2n] in *; lia|].
    rewrite (IH i a E) by lia. lia.
Qed.

Lemma nact_upd T t th th' :
  nth_error T t = Some th ->
  nact (upd T t th') + b2n (0 <? cstage th) = nact T + b2n (0 <? cstage th').
Proof. intros E. unfold nact. apply (sum_upd (fun th => b2n (0 <? cstage th)) T t th th' E). Qed.

Lemma gstage_upd T t th th' :
  nth_error T t = Some th -> gstage (upd T t th') + cstage th = gstage T + cstage th'.
Proof. intros E. unfold gstage. apply (sum_upd cstage T t th th' E). Qed.

Lemma cstage_continue th res k :
  cstage (continue th res k) = match k with KUnlock | KOuter _ => if op_close th then 9 else 0 | _ => 0 end.
Proof. destruct k; reflexivity. Qed.

(* the three ways K can change in a step of thread t *)
Lemma K_step g g' T t th th' :
  nact T <= 1 -> (g_closed g = false -> nact T = 0) -> nth_error T t = Some th ->
  (cstage th = 0 -> cstage th' = 0 -> g_closed g' = g_closed g -> K g' (upd T t th') = K g T) /\
  (cstage th = 0 -> cstage th' = 1 -> g_closed g = false -> g_closed g' = true ->
   K g T = 0 /\ K g' (upd T t th') = 1) /\
  (0 < cstage th -> g_closed g' = true ->
   g_closed g = true /\ K g T = cstage th /\
   K g' (upd T t th') = (if cstage th' =? 0 then 10 else cstage th')).
Proof.
  intros N1 N0 E. pose proof (nact_upd T t th th' E) as HN. pose proof (gstage_upd T t th th' E) as HG.
  pose proof (sum_ge_nth (fun th => b2n (0 <? cstage th)) T t th E) as G. cbn beta in G. fold (nact T) in G.
  unfold K. split; [|split].
  - intros A B C. rewrite C, A, B in *. cbn [b2n Nat.ltb Nat.leb] in HN.
    replace (nact (upd T t th')) with (nact T) by lia.
    replace (gstage (upd T t th')) with (gstage T) by lia. reflexivity.
  - intros A B C C'. rewrite C, C'. specialize (N0 C). rewrite A, B in *. cbn [b2n Nat.ltb Nat.leb] in HN.
    assert (Z : gstage T = 0) by (apply sum_b2n_zero; exact N0).
    replace (nact (upd T t th')) with 1 by lia. cbn. split; [reflexivity | lia].
  - intros A C'.
    destruct (Nat.ltb_spec 0 (cstage th)) as [L|L]; [|lia]. cbn [b2n] in G, HN.
    assert (C : g_closed g = true).
    { destruct (g_closed g) eqn:C; [reflexivity|]. specialize (N0 eq_refl). lia. }
    assert (N : nact T = 1) by lia.
    assert (GT : gstage T = cstage th).
    { unfold gstage. apply sum_single with (i := t); [exact E|]. fold (nact T).
      destruct (Nat.ltb_spec 0 (cstage th)); cbn [b2n]; lia. }
    rewrite C, C', N. cbn [Nat.eqb]. split; [reflexivity|]. split; [exact GT|].
    destruct (Nat.eqb_spec (cstage th') 0) as [Z|Z].
    + rewrite Z in HN. cbn [b2n Nat.ltb Nat.leb] in HN.
      replace (nact (upd T t th')) with 0 by lia. reflexivity.
    + destruct (Nat.ltb_spec 0 (cstage th')); [|lia]. cbn [b2n] in HN.
      replace (nact (upd T t th')) with 1 by lia. cbn [Nat.eqb]. lia.
Qed.

Lemma nact_step T t th th' :
  nact T <= 1 -> nth_error T t = Some th ->
  (0 < cstage th \/ nact T = 0 \/ cstage th' = 0) -> nact (upd T t th') <= 1.
Proof.
  intros N E H. pose proof (nact_upd T t th th' E) as HN.
  pose proof (sum_ge_nth (fun th => b2n (0 <? cstage th)) T t th E) as G. cbn in G. fold (nact T) in G.
  destruct (Nat.ltb_spec 0 (cstage th)); destruct (Nat.ltb_spec 0 (cstage th')); cbn in *; lia.
Qed.

Lemma rot_pc_upd T t th th' r :
  nth_error T t = Some th ->
  rot_pc (upd T t th') r = if r =? t then t_pc th' else rot_pc T r.
Proof.
  intros E. unfold rot_pc. destruct (Nat.eqb_spec r t) as [->|N].
  - rewrite nth_error_upd_eq; [reflexivity | eapply nth_error_Some_lt; eauto].
  - rewrite nth_error_upd_neq by congruence. reflexivity.
Qed.
