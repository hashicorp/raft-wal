(* ReadView.v -- what a reader sees through a version x it holds (`view`), and when that
   changes: only when the writer publishes commitIdx of a tail file that x shares with the
   current version, and then the new view is the view through the current version. *)
From Coq Require Import List Arith Bool Lia.
From RW Require Import Conc.Sys Conc.Close Conc.ListX Conc.CloseFacts Conc.CloseSafe Conc.ReadInv Conc.Readers.
Import ListNotations.

Definition view (g : shared) (x : nat) (o : op) : outcome :=
  let s := getst g x in
  match o with
  | OFirst => Ok (first_index g s)
  | OLast => Ok (last_index g s)
  | OGet i => match find_log g s i with
              | Some h => Ok (nth (i - h_base (geth g h)) (h_ents (geth g h)) 0)
              | None => NotFound
              end
  | _ => Panic
  end.

Lemma spec_view g o : s_open (cur_st g) = true -> is_read_op o = true -> spec_read g o = Some (view g (g_cur g) o).
Proof. intros O R. unfold spec_read. rewrite O. destruct o; try discriminate R; reflexivity. Qed.

Lemma seg_for_ext g g' i : forall segs acc,
  (forall h, In h segs -> hb g' h = hb g h) -> seg_for g' segs i acc = seg_for g segs i acc.
Proof.
  induction segs as [|a segs IH]; intros acc Hb; [reflexivity|]. cbn [seg_for].
  change (h_base (geth g' a)) with (hb g' a). change (h_base (geth g a)) with (hb g a).
  rewrite (Hb a (or_introl eq_refl)). destruct (_ <=? _); [|reflexivity]. apply IH. intros h Hi. apply Hb. now right.
Qed.

Lemma seg_for_all g i : forall segs acc,
  (forall h, In h segs -> hb g h <= i) -> segs <> [] -> seg_for g segs i acc = Some (last segs 0).
Proof.
  induction segs as [|a segs IH]; intros acc Hb Ne; [congruence|]. cbn [seg_for].
  pose proof (Hb a (or_introl eq_refl)) as La. apply Nat.leb_le in La. unfold hb in La. rewrite La.
  destruct segs as [|b segs]; [reflexivity|]. rewrite IH; [reflexivity | | discriminate]. intros h Hi. apply Hb. now right.
Qed.

(* ---- the view depends only on the files of x -------------------------------------------- *)
Lemma view_ext g g' x o :
  sg g' x = sg g x -> mn g' x = mn g x -> sg g x <> [] ->
  (forall h, In h (sg g x) -> hb g' h = hb g h /\ hc g' h = hc g h /\
             forall pos, pos < hc g h -> nth pos (h_ents (geth g' h)) 0 = nth pos (h_ents (geth g h)) 0) ->
  view g' x o = view g x o.
Proof.
  intros Es Em Ne Hh.
  assert (Ti : In (tl_of g x) (sg g x)) by (apply last_In; exact Ne).
  assert (Et : tl_of g' x = tl_of g x) by (unfold tl_of; now rewrite Es).
  destruct (Hh _ Ti) as (Bt & Ct & _).
  assert (Ef : first_index g' (getst g' x) = first_index g (getst g x)) by (rewrite !fi_eq, Es, Em, Et, Ct; reflexivity).
  assert (El : last_index g' (getst g' x) = last_index g (getst g x)) by (rewrite !li_eq, Es, Et, Ct, Bt; reflexivity).
  unfold view. destruct o; try reflexivity; cbn zeta.
  - now rewrite Ef.
  - now rewrite El.
  - unfold find_log. rewrite Ef, El. destruct (_ && _); [|reflexivity].
    fold (sg g' x). fold (sg g x). rewrite Es. rewrite (seg_for_ext g g' i (sg g x) None) by (intros h Hi; apply (Hh h Hi)).
    destruct (seg_for g (sg g x) i None) as [h|] eqn:Q; [|reflexivity].
    destruct (seg_for_some _ _ _ _ _ Q) as [[Hi Lb]|Hq]; [|discriminate].
    destruct (Hh h Hi) as (Bh & Ch & Eh). fold (hb g' h) (hb g h) (hc g' h) (hc g h). rewrite Bh, Ch.
    destruct (Nat.ltb_spec (i - hb g h) (hc g h)) as [Lp|Lp]; [|reflexivity].
    fold (hb g' h) (hb g h). rewrite Bh. now rewrite (Eh _ Lp).
Qed.

(* ---- a same-tail chain of versions ------------------------------------------------------- *)
Lemma chain g x : Inv3 g -> S (g_cur g) = ns g -> forall d y, y = d + x -> y <= g_cur g -> op_ g y = true ->
  In (tl_of g y) (sg g x) ->
  tl_of g x = tl_of g y /\ (exists rm, sg g x = rm ++ sg g y) /\ mn g x <= mn g y /\
  (length (sg g x) = 1 -> hc g (tl_of g x) = 0 -> mn g y = mn g x).
Proof.
  intros K La. induction d as [|d IH]; intros y Ey Ly Oy Hi.
  - cbn in Ey. subst y. split; [reflexivity|]. split; [exists []; reflexivity|]. split; [lia | auto].
  - remember (d + x) as z eqn:Ez. assert (Ey' : y = S z) by lia. clear Ey. subst y.
    assert (Oz : op_ g z = true) by (apply (k_open _ K); lia).
    assert (Lz : z < ns g) by lia.
    pose proof (k_ord _ K x z _ ltac:(lia) Lz Oz Hi) as O1.
    pose proof (k_ord _ K z (S z) (tl_of g z) ltac:(lia) ltac:(lia) Oy (last_In _ 0 (k_nonempty _ K z Lz Oz))) as O2.
    assert (Tz : tl_of g (S z) = tl_of g z) by lia.
    destruct (k_rel _ K z ltac:(lia) Oy Tz) as ((rm1 & R1) & R2 & R3).
    rewrite Tz in Hi. destruct (IH z eq_refl ltac:(lia) Oz Hi) as (I1 & (rm & I2) & I3 & I4).
    split; [congruence|]. split; [exists (rm ++ rm1); rewrite I2, R1; now rewrite app_assoc|]. split; [lia|].
    intros L1 C0. specialize (I4 L1 C0).
    assert (Nz : sg g z <> []) by (apply (k_nonempty _ K z Lz Oz)).
    assert (rm = []).
    { destruct rm as [|a rm]; [reflexivity|]. rewrite I2 in L1. cbn in L1. rewrite app_length in L1.
      destruct (sg g z); [congruence | cbn in L1; lia]. }
    subst rm. cbn in I2. rewrite <- I2 in R3. rewrite <- I1 in R3. lia.
Qed.

Lemma view_get g x i :
  view g x (OGet i) = match find_log g (getst g x) i with
                      | Some h => Ok (nth (i - hb g h) (h_ents (geth g h)) 0)
                      | None => NotFound
                      end.
Proof. reflexivity. Qed.

(* the view through x uses of x its file list and its first index only *)
Lemma view_same_version g x y o : sg g x = sg g y -> mn g x = mn g y -> view g x o = view g y o.
Proof. unfold view, sg, mn. destruct (getst g x), (getst g y). cbn. intros -> ->. reflexivity. Qed.

(* the segment lookup of getLog as a relation: index i of version x is found in file h *)
Definition found (g : shared) (x i h : nat) : Prop :=
  0 < first_index g (getst g x) <= i /\ i <= last_index g (getst g x) /\
  seg_for g (sg g x) i None = Some h /\ i - hb g h < hc g h.

Lemma find_log_found g x i h : find_log g (getst g x) i = Some h <-> found g x i h.
Proof.
  unfold find_log, found, sg, hb, hc. cbv zeta.
  destruct (Nat.ltb_spec 0 (first_index g (getst g x))), (Nat.leb_spec (first_index g (getst g x)) i),
    (Nat.leb_spec i (last_index g (getst g x))); cbn [andb]; try (split; [discriminate | lia]).
  destruct (seg_for g (s_segs (getst g x)) i None) as [h0|]; [|split; [discriminate | intros (_ & _ & Q & _); discriminate Q]].
  destruct (Nat.ltb_spec (i - h_base (geth g h0)) (h_cnt (geth g h0))); split; try discriminate.
  - intros [= ->]. auto.
  - intros (_ & _ & [= ->] & _). reflexivity.
  - intros (_ & _ & [= ->] & Q). lia.
Qed.

Lemma find_log_ext g1 x1 g2 x2 i :
  (forall h, found g1 x1 i h <-> found g2 x2 i h) -> find_log g1 (getst g1 x1) i = find_log g2 (getst g2 x2) i.
Proof.
  intros E. destruct (find_log g1 (getst g1 x1) i) as [h|] eqn:Q1.
  - symmetry. apply find_log_found, E, find_log_found, Q1.
  - destruct (find_log g2 (getst g2 x2) i) as [h|] eqn:Q2; [|reflexivity].
    apply find_log_found, E, find_log_found in Q2. congruence.
Qed.

(* ---- the commit of a batch: the only step that changes a view --------------------------- *)
Section Commit.
  Variables (g g' : shared) (x ht : nat).
  Hypotheses
    (K : Inv3 g) (La : S (g_cur g) = ns g) (Oy : op_ g (g_cur g) = true) (Lx : x <= g_cur g) (Ox : op_ g x = true)
    (Ht : ht = tl_of g (g_cur g))
    (Es : forall z, sg g' z = sg g z) (Em : forall z, mn g' z = mn g z)
    (Eb : forall h, hb g' h = hb g h) (Ee : forall h, h_ents (geth g' h) = h_ents (geth g h))
    (Ec : forall h, h <> ht -> hc g' h = hc g h) (Cg : hc g ht <= hc g' ht).

  Lemma commit_view o : is_read_op o = true -> view g' x o = view g x o \/ view g' x o = view g' (g_cur g) o.
  Proof.
    intros Ro. set (y := g_cur g) in *.
    assert (Lxn : x < ns g) by lia.
    assert (Nx : sg g x <> []) by (apply (k_nonempty _ K x Lxn Ox)).
    assert (Ny : sg g y <> []) by (apply (k_nonempty _ K y ltac:(lia) Oy)).
    destruct (in_dec Nat.eq_dec ht (sg g x)) as [Hi|Hn].
    2: { left. apply view_ext; auto. intros h Hh. split; [apply Eb|]. split; [apply Ec; congruence|]. intros pos _. now rewrite Ee. }
    destruct (Nat.eq_dec (hc g' ht) (hc g ht)) as [Ce|Cn].
    { left. apply view_ext; auto. intros h Hh. split; [apply Eb|]. split.
      - destruct (Nat.eq_dec h ht) as [->|N]; [exact Ce | now apply Ec].
      - intros pos _. now rewrite Ee. }
    rewrite Ht in Hi.
    destruct (chain g x K La (y - x) y ltac:(lia) ltac:(lia) Oy Hi) as (T1 & (rm & Sx) & M1 & Cd).
    rewrite <- Ht in T1.
    pose proof (k_m _ K Oy) as Mk. fold y in Mk. rewrite <- Ht in Mk.
    pose proof (k_min _ K x Lxn Ox) as Px. pose proof (k_min _ K y ltac:(lia) Oy) as Py.
    assert (Tx' : tl_of g' x = ht) by (unfold tl_of; rewrite Es; exact T1).
    assert (Ty' : tl_of g' y = ht) by (unfold tl_of; rewrite Es; symmetry; exact Ht).
    set (B := hb g ht) in *. set (c := hc g ht) in *. set (c' := hc g' ht) in *.
    destruct ((length (sg g x) =? 1) && (c =? 0)) eqn:E0.
    { (* x is a single empty file: y is the same version as far as reads go *)
      apply andb_true_iff in E0. destruct E0 as [L1 Z]. apply Nat.eqb_eq in L1, Z. right.
      apply view_same_version; rewrite ?Es, ?Em; [|symmetry; apply (Cd L1); rewrite T1; exact Z].
      destruct rm as [|a rm]; [exact Sx|]. rewrite Sx in L1. cbn in L1. rewrite app_length in L1.
      destruct (sg g y); [congruence | cbn in L1; lia]. }
    (* otherwise the first index is that of the version, before and after; the last index moves
       from the end of what was committed to the end of the batch *)
    assert (Fx : first_index g (getst g x) = mn g x) by (rewrite fi_eq, T1; unfold fiF; fold c; now rewrite E0).
    assert (Q : forall len m, fiF len m c' = m).
    { intros len m. unfold fiF. destruct (c' =? 0) eqn:Z; [apply Nat.eqb_eq in Z; lia|]. now rewrite andb_false_r. }
    assert (Ql : forall len, liF len B c' = B + c' - 1).
    { intros len. unfold liF. destruct (Nat.ltb_spec 0 c'); [reflexivity | lia]. }
    assert (Fx' : first_index g' (getst g' x) = mn g x) by (rewrite fi_eq, Tx', Es, Em; apply Q).
    assert (Fy' : first_index g' (getst g' y) = mn g y) by (rewrite fi_eq, Ty', Es, Em; apply Q).
    assert (Lx' : last_index g' (getst g' x) = B + c' - 1) by (rewrite li_eq, Tx', Eb; apply Ql).
    assert (Ly' : last_index g' (getst g' y) = B + c' - 1) by (rewrite li_eq, Ty', Eb; apply Ql).
    assert (Pl : forall i, 1 <= i -> (i <= last_index g (getst g x) <-> i < B + c)).
    { intros i Li. rewrite li_eq, T1. fold B c. unfold liF. destruct (Nat.ltb_spec 0 c); [lia|].
      destruct (Nat.leb_spec 2 (length (sg g x))); [lia|]. exfalso.
      apply andb_false_iff in E0. destruct E0 as [E0|E0]; apply Nat.eqb_neq in E0; [|lia].
      destruct (sg g x); [congruence | cbn in *; lia]. }
    destruct o; try discriminate Ro.
    - left. unfold view. cbn zeta. now rewrite Fx', Fx.
    - right. unfold view. cbn zeta. now rewrite Lx', Ly'.
    - rewrite !view_get. destruct (Nat.lt_ge_cases i (B + c)) as [Lo|Lo]; [|destruct (Nat.lt_ge_cases i (B + c')) as [Hi'|Hi']].
      + (* an index committed before is found where it was *)
        left. assert (Q1 : find_log g' (getst g' x) i = find_log g (getst g x) i).
        { apply find_log_ext. intros h. unfold found. rewrite Fx', Fx, Lx', Es, (seg_for_ext g g' i (sg g x) None), Eb by (intros; apply Eb).
          (* the file it is found in has it below both commit counters *)
          assert (Hc : seg_for g (sg g x) i None = Some h -> (i - hb g h < hc g' h <-> i - hb g h < hc g h)).
          { intros A3. destruct (seg_for_some _ _ _ _ _ A3) as [[_ Lb]|Hq]; [|discriminate]. fold (hb g h) in Lb.
            destruct (Nat.eq_dec h ht) as [->|Nh]; [unfold B, c, c' in *; lia | now rewrite Ec]. }
          specialize (Pl i). split; intros (A1 & A2 & A3 & A4); specialize (Hc A3); repeat split; try assumption; lia. }
        rewrite Q1. destruct (find_log g (getst g x) i); [now rewrite Eb, Ee | reflexivity].
      + (* an index of the batch just committed: both views find it in the shared tail *)
        right.
        assert (Sq : forall z, z < ns g -> tl_of g z = ht -> sg g z <> [] -> seg_for g' (sg g' z) i None = Some ht).
        { intros z Lz Tz Nz. rewrite Es, (seg_for_ext g g' i (sg g z) None) by (intros; apply Eb).
          rewrite (seg_for_all g i (sg g z) None); [now rewrite <- Tz | | exact Nz].
          intros h Hh. pose proof (k_base _ K z h Lz Hh) as Q0. rewrite Tz in Q0. fold B in Q0. lia. }
        assert (Q1 : find_log g' (getst g' x) i = Some ht).
        { apply find_log_found. unfold found. rewrite Fx', Lx', (Sq x Lxn T1 Nx), Eb. fold B c'. repeat split; lia. }
        assert (Q2 : find_log g' (getst g' y) i = Some ht).
        { apply find_log_found. unfold found. rewrite Fy', Ly', (Sq y ltac:(lia) (eq_sym Ht) Ny), Eb. fold B c'. repeat split; lia. }
        now rewrite Q1, Q2.
      + (* beyond the end in both *)
        left. assert (Q1 : find_log g' (getst g' x) i = find_log g (getst g x) i).
        { apply find_log_ext. intros h. unfold found. rewrite Lx'. pose proof (Pl i).
          split; intros (A1 & A2 & _); lia. }
        rewrite Q1. destruct (find_log g (getst g x) i); [now rewrite Eb, Ee | reflexivity].
  Qed.
End Commit.
