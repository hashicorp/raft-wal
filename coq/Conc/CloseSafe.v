(* CloseSafe.v -- a self-contained invariant of the L3 model, proved for every
   schedule: program counters are consistent with roles and calls, writeMu is
   held by exactly the threads that are inside a critical section (mutual
   exclusion), the state pointer is the newest state, and every file satisfies
   the durability chain  visible <= synced <= written <= published offsets;
   a reader about to read entry i of file h has i below the synced prefix.

   A Go panic terminates the process; `crashed` marks such states and the
   invariant is stated for the states reached without a panic (that no panic
   is reachable at all is a consequence of the larger invariant CloseInv.Inv1,
   see CloseStep1.no_panic). *)
From Coq Require Import List Arith Bool Lia.
From RW Require Import Conc.Sys Conc.SysFacts Conc.Close Conc.ListX Conc.CloseInv Conc.CloseFacts.
Import ListNotations.

Definition is_panic (th : thread) : bool := match t_pc th with PPanic => true | _ => false end.
Definition crashed (s : sys) : bool := existsb is_panic (ths s).

(* what Safe asks of a thread at its pc: the state index it holds is in range, the offsets of the append in
   progress, the entry about to be read lies below the synced prefix *)
Definition factsB (g : shared) (th : thread) : Prop :=
  match t_pc th with
  | PLoaded x | PAcq x | PBody x | PApp1 x => x < length (g_states g)
  | PApp2 x => x < length (g_states g) /\ h_wr (tailh g x) = length (h_ents (tailh g x))
  | PApp3 x => x < length (g_states g) /\ h_wr (tailh g x) = length (h_ents (tailh g x)) /\
               h_syn (tailh g x) = h_wr (tailh g x)
  | PGetRead x h => match cur_op th with
                    | Some (OGet i) => h_base (geth g h) <= i /\ i - h_base (geth g h) < h_syn (geth g h)
                    | _ => True
                    end
  | _ => True
  end.

Record Safe (s : sys) : Prop := {
  a_wf : forall t th, nth_error (ths s) t = Some th -> pc_ok th = true;
  a_mu1 : forall t th, nth_error (ths s) t = Some th -> holds_mu th = true -> g_mu (sh s) = Some t;
  a_mu2 : forall t, g_mu (sh s) = Some t -> exists th, nth_error (ths s) t = Some th /\ holds_mu th = true;
  a_last : S (g_cur (sh s)) = length (g_states (sh s));
  a_chain : forall h, h_chain (geth (sh s) h);
  a_thr : forall t th, nth_error (ths s) t = Some th -> factsB (sh s) th
}.

Lemma geth_upd_h g t v h :
  geth (upd_h g t v) h = if (t =? h) && (t <? length (g_hnds g)) then v else geth g h.
Proof.
  unfold geth, upd_h, set_hnds. cbn [g_hnds]. destruct (Nat.eqb_spec t h) as [->|N]; cbn [andb].
  - destruct (Nat.ltb_spec h (length (g_hnds g))); [now apply nth_upd_eq | now rewrite upd_oob by lia].
  - now apply nth_upd_neq.
Qed.

(* whatever the written value keeps of the one it replaces is kept at every index *)
Lemma geth_upd_keeps {A} (p : hnd -> A) g t v : p v = p (geth g t) -> forall h, p (geth (upd_h g t v) h) = p (geth g h).
Proof.
  intros Q h. rewrite geth_upd_h. destruct (Nat.eqb_spec t h) as [->|]; [|reflexivity].
  destruct (_ <? _); [exact Q | reflexivity].
Qed.

(* the fields of a file that h_chain and factsB speak of (all but h_sealed and h_closes) *)
Definition io (h : hnd) := (h_base h, h_ents h, h_wr h, h_syn h, h_cnt h).

Lemma close_all_io : forall hs l h, io (nth h (close_all l hs) dh) = io (nth h l dh).
Proof.
  induction hs as [|a hs IH]; intros l h; cbn [close_all]; [reflexivity|].
  rewrite IH. destruct (Nat.eq_dec a h) as [->|N].
  - destruct (Nat.lt_ge_cases h (length l)).
    + rewrite nth_upd_eq by assumption. reflexivity.
    + now rewrite upd_oob by lia.
  - now rewrite nth_upd_neq by assumption.
Qed.

Lemma chain_dh : h_chain dh.
Proof. unfold h_chain, dh; cbn; lia. Qed.

Lemma seg_for_some g i : forall segs acc h,
  seg_for g segs i acc = Some h -> (In h segs /\ h_base (geth g h) <= i) \/ acc = Some h.
Proof.
  induction segs as [|a segs IH]; intros acc h Q; cbn in Q; [now right|].
  destruct (Nat.leb_spec (h_base (geth g a)) i) as [La|]; [|now right].
  destruct (IH _ _ Q) as [[Hi L]|Hq]; [left; split; [now right | exact L]|].
  inversion Hq; subst. left. split; [now left | exact La].
Qed.

Lemma getst_upd_st g x st0 y :
  getst (upd_st g x st0) y = if (x =? y) && (x <? length (g_states g)) then st0 else getst g y.
Proof.
  unfold getst, upd_st, set_states. cbn [g_states]. destruct (Nat.eqb_spec x y) as [->|N]; cbn [andb].
  - destruct (Nat.ltb_spec y (length (g_states g))); [now apply nth_upd_eq | now rewrite upd_oob by lia].
  - now apply nth_upd_neq.
Qed.

Lemma getst_upd_keeps {A} (p : st -> A) g x s' : p s' = p (getst g x) -> forall y, p (getst (upd_st g x s') y) = p (getst g y).
Proof.
  intros Q y. rewrite getst_upd_st. destruct (Nat.eqb_spec x y) as [->|]; [|reflexivity].
  destruct (_ <? _); [exact Q | reflexivity].
Qed.

Lemma getst_upd_other g z v x : z <> x -> getst (upd_st g z v) x = getst g x.
Proof. intros N. rewrite getst_upd_st. destruct (Nat.eqb_spec z x); [congruence | reflexivity]. Qed.

Lemma getst_upd_same g z v : z < length (g_states g) -> getst (upd_st g z v) z = v.
Proof. intros L. rewrite getst_upd_st, Nat.eqb_refl. apply Nat.ltb_lt in L. now rewrite L. Qed.

Lemma getst_nth g x st0 : nth_error (g_states g) x = Some st0 -> getst g x = st0.
Proof. intros E. unfold getst. now apply nth_error_nth'. Qed.

Lemma nth_error_getst g x : x < length (g_states g) -> nth_error (g_states g) x = Some (getst g x).
Proof.
  intros L. unfold getst. destruct (nth_error (g_states g) x) eqn:E.
  - now rewrite (nth_error_nth' _ _ _ dst E).
  - apply nth_error_None in E. lia.
Qed.

Lemma getst_publish g st0 : getst (publish g st0) (g_cur (publish g st0)) = st0.
Proof. unfold getst, publish. cbn. rewrite app_nth2 by lia. now rewrite Nat.sub_diag. Qed.

(* what a step does to files and states, as far as the invariant is concerned *)
Record frame (g g' : shared) : Prop := {
  f_len : length (g_states g) <= length (g_states g');
  f_segs : forall x, x < length (g_states g) -> s_segs (getst g' x) = s_segs (getst g x);
  f_base : forall h, h < length (g_hnds g) -> h_base (geth g' h) = h_base (geth g h);
  f_new : forall h, length (g_hnds g) <= h -> io (geth g' h) = io dh \/ exists b, io (geth g' h) = io (new_hnd b)
}.

Lemma frame_refl g : frame g g.
Proof.
  split; auto. intros h L. left. unfold geth. now rewrite nth_overflow by lia.
Qed.

Lemma frame_upd_st g x s' : s_segs s' = s_segs (getst g x) -> frame g (upd_st g x s').
Proof.
  intros Hs. split.
  - unfold upd_st, set_states; cbn. rewrite upd_length. lia.
  - intros y _. now apply (getst_upd_keeps s_segs).
  - reflexivity.
  - intros h L. left. unfold geth, upd_st, set_states; cbn. now rewrite nth_overflow by lia.
Qed.

Lemma frame_hnds g l :
  length l = length (g_hnds g) ->
  (forall h, h_base (nth h l dh) = h_base (geth g h)) -> frame g (set_hnds g l).
Proof.
  intros Hl Hb. split; cbn; auto.
  intros h L. left. unfold geth, set_hnds; cbn. now rewrite nth_overflow by lia.
Qed.

Lemma frame_publish g nh st0 :
  (nh = [] \/ exists b, nh = [new_hnd b]) ->
  frame g (publish (set_hnds g (g_hnds g ++ nh)) st0).
Proof.
  intros Hn. split.
  - cbn. rewrite app_length. lia.
  - intros x L. unfold getst, publish, set_hnds; cbn. now rewrite app_nth1 by exact L.
  - intros h L. unfold geth, publish, set_hnds; cbn. now rewrite app_nth1 by exact L.
  - intros h L. unfold geth, publish, set_hnds; cbn. rewrite app_nth2 by exact L.
    destruct Hn as [->|[b ->]].
    + left. now destruct (h - length (g_hnds g)).
    + destruct (h - length (g_hnds g)) as [|[|k]]; [right; exists b; reflexivity | left; reflexivity | left; reflexivity].
Qed.

Lemma frame_ctl g g' :
  g_states g' = g_states g -> g_hnds g' = g_hnds g -> frame g g'.
Proof.
  intros A B. split.
  - now rewrite A.
  - intros x _. unfold getst. now rewrite A.
  - intros h _. unfold geth. now rewrite B.
  - intros h L. left. unfold geth. rewrite B. now rewrite nth_overflow by lia.
Qed.

Lemma frame_ref g x n : frame g (upd_st g x (st_ref (getst g x) n)).
Proof. now apply frame_upd_st. Qed.
Lemma frame_fin g x f : frame g (upd_st g x (st_fin (getst g x) f)).
Proof. now apply frame_upd_st. Qed.
Lemma frame_retire g x f : frame g (upd_st g x (st_retire (getst g x) f)).
Proof. now apply frame_upd_st. Qed.

Lemma close_all_length : forall hs l, length (close_all l hs) = length l.
Proof. induction hs as [|a hs IH]; intros l; cbn; [reflexivity|]. now rewrite IH, upd_length. Qed.

Lemma frame_close g hs : frame g (set_hnds g (close_all (g_hnds g) hs)).
Proof.
  apply frame_hnds; [apply close_all_length|]. intros h.
  pose proof (close_all_io hs (g_hnds g) h) as Q. unfold io in Q. unfold geth. congruence.
Qed.

Lemma frame_publish0 g st0 : frame g (publish g st0).
Proof.
  replace (publish g st0) with (publish (set_hnds g (g_hnds g ++ [])) st0).
  - apply frame_publish. now left.
  - rewrite app_nil_r. destruct g; reflexivity.
Qed.

Lemma frame_upd_h g t v : h_base v = h_base (geth g t) -> frame g (upd_h g t v).
Proof.
  intros B. apply frame_hnds; [apply upd_length|]. intros h.
  now apply (geth_upd_keeps h_base).
Qed.

(* ---- facts of a thread that does not move survive a step of another thread --------- *)
Lemma factsB_frame g g' thu :
  frame g g' ->
  (forall h, h < length (g_hnds g) -> h_syn (geth g h) <= h_syn (geth g' h)) ->
  (holds_mu thu = true -> forall h, io (geth g' h) = io (geth g h)) ->
  factsB g thu -> factsB g' thu.
Proof.
  intros Fr Mono Hio. unfold factsB, tailh, tail_of.
  pose proof (f_len _ _ Fr) as FL.
  destruct (t_pc thu) eqn:P; try (intros; exact I); try (intros; lia).
  - (* PGetRead *)
    destruct (cur_op thu) as [[]|]; try (intros; exact I). intros [B L].
    destruct (Nat.lt_ge_cases h (length (g_hnds g))) as [Lh|Lh].
    + rewrite (f_base _ _ Fr h Lh). specialize (Mono h Lh). lia.
    + exfalso. unfold geth in L. rewrite nth_overflow in L by lia. cbn in L. lia.
  - (* PApp2 *)
    intros [Lx W]. split; [lia|].
    assert (Hm : holds_mu thu = true) by (unfold holds_mu; now rewrite P).
    rewrite (f_segs _ _ Fr x Lx). pose proof (Hio Hm (last (s_segs (getst g x)) 0)) as Q. unfold io in Q. congruence.
  - (* PApp3 *)
    intros (Lx & W & Sy). split; [lia|].
    assert (Hm : holds_mu thu = true) by (unfold holds_mu; now rewrite P).
    rewrite (f_segs _ _ Fr x Lx). pose proof (Hio Hm (last (s_segs (getst g x)) 0)) as Q. unfold io in Q.
    split; congruence.
Qed.

Lemma chain_io h h' : io h' = io h -> h_chain h -> h_chain h'.
Proof. unfold io, h_chain. intros Q. inversion Q. congruence. Qed.

(* ---- pc consistency and the mutex, for a step that does not panic ----------------- *)
Lemma pc_ok_step g t th g' th' :
  pc_ok th = true -> step_thread g t th = Some (g', th') -> t_pc th' <> PPanic -> pc_ok th' = true.
Proof.
  intros WF F NP. unfold step_thread in F. unfold pc_ok in WF.
  destruct (t_pc th) eqn:P; crack F; inversion F; subst g' th'; clear F.
  all: try (exfalso; apply NP; reflexivity). all: clear NP.
  all: try match goal with |- context [continue _ _ ?k] => destruct k; cbn [continue] end.
  all: unfold pc_ok, op_locking, op_close, cur_op in *; cbn [t_rot t_prog t_pc setpc finish].
  (* the rotation goroutine has no calls and stays on its own program counters *)
  all: destruct (t_rot th); [destruct (t_prog th); try discriminate WF; cbn [hd_error tl] in *; try discriminate|].
  all: try reflexivity; try exact WF.
  (* a caller: the new program counter belongs to the kind of its current call *)
  all: repeat match goal with H : hd_error _ = _ |- _ => rewrite H in *; clear H end; subst; try reflexivity; try exact WF.
  all: try match goal with H : is_locking _ = _ |- _ => rewrite H in * end; try reflexivity; try exact WF.
  all: try match goal with k : kont |- _ => destruct k; try discriminate WF end.
  all: destruct (hd_error (t_prog th)) as [[]|]; try discriminate; reflexivity.
Qed.

Lemma mu_change1 g t th g' th' :
  pc_ok th = true -> step_thread g t th = Some (g', th') -> t_pc th' <> PPanic ->
  (holds_mu th' = holds_mu th /\ g_mu g' = g_mu g) \/
  (holds_mu th = false /\ holds_mu th' = true /\ g_mu g = None /\ g_mu g' = Some t) \/
  (holds_mu th = true /\ holds_mu th' = false /\ g_mu g' = None).
Proof.
  (* writeMu is taken at PLock, PRelock (with awaitRotate nil), PCLock, PRLock, each only when free;
     released at PLocked -> PWaiting, PUnl, PRExit, PRT4.  Every other step leaves g_mu alone, and
     holds_mu of the thread as well: where holds_mu depends on the call (PLoad .. PBody, a release with
     KRet / KRetry) pc_ok ties the pc and the continuation to the kind of the current call. *)
  intros WF F NP. unfold step_thread in F. unfold pc_ok in WF.
  destruct (t_pc th) eqn:P; crack F;
    open_tx;
    inversion F; subst g' th'; clear F.
  all: try (exfalso; apply NP; reflexivity). all: clear NP.
  all: try match goal with |- context [continue _ _ ?k] => destruct k; cbn [continue] end.
  all: unfold holds_mu; cbn [t_pc setpc finish]; rewrite P.
  all: unfold op_locking, op_close, cur_op in *; cbn [t_prog t_pc setpc finish g_mu set_mu publish set_cur set_hnds upd_st set_states].
  all: try (left; split; reflexivity).
  all: try (right; left; repeat split; first [reflexivity | assumption]).
  all: try (right; right; repeat split; reflexivity).
  (* what is left depends on the kind of the current call *)
  all: destruct (t_rot th); [destruct (t_prog th); try discriminate WF; try match goal with k : kont |- _ => destruct k; try discriminate WF end|].
  all: repeat match goal with H : hd_error _ = _ |- _ => rewrite H in *; clear H end; subst.
  all: try match goal with H : is_locking _ = _ |- _ => rewrite H in * end; rewrite ?WF.
  all: try (left; split; first [reflexivity | assumption]).
  all: try (right; left; repeat split; first [reflexivity | assumption]).
  all: try (right; right; repeat split; reflexivity).
  all: try discriminate WF.
  all: destruct k; try discriminate WF; left; split; reflexivity.
Qed.

Lemma existsb_upd {A} (f : A -> bool) l t x : t < length l -> f x = true -> existsb f (upd l t x) = true.
Proof.
  intros L F. apply existsb_exists. exists x. split; [|exact F].
  apply nth_error_In with (n := t). now apply nth_error_upd_eq.
Qed.

(* what safe_step needs of a step from g, th to g', th' beyond pc consistency and the mutex *)
Definition core (g g' : shared) (th th' : thread) : Prop :=
  frame g g' /\ S (g_cur g') = length (g_states g') /\ (forall h, h_chain (geth g' h)) /\
  (forall h, h < length (g_hnds g) -> h_syn (geth g h) <= h_syn (geth g' h)) /\
  (holds_mu th = true \/ forall h, io (geth g' h) = io (geth g h)) /\ factsB g' th'.

(* a step that leaves the files' io fields alone *)
Lemma core_same g g' th th' :
  frame g g' -> S (g_cur g') = length (g_states g') -> (forall h, h_chain (geth g h)) ->
  (forall h, io (geth g' h) = io (geth g h)) -> factsB g' th' -> core g g' th th'.
Proof.
  intros Fr La Ch Io Fa. unfold core.
  split; [exact Fr|]. split; [exact La|]. split; [|split; [|split; [now right | exact Fa]]].
  - intros h. eapply chain_io; [apply Io | apply Ch].
  - intros h _. pose proof (Io h) as Q. unfold io in Q. inversion Q. lia.
Qed.
