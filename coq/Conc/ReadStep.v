(* ReadStep.v -- ReadInv.Inv3 holds in every reachable state of a single-writer system *)
From Coq Require Import List Arith Bool Lia.
From RW Require Import Conc.Sys Conc.SysFacts Conc.Close Conc.ListX Conc.CloseInv Conc.CloseFacts Conc.CloseSafe
     Conc.CloseSafeStep Conc.CloseStep1 Conc.CloseReach Conc.CloseCount Conc.ReadInv Conc.ReadFrame Conc.ReadTx.
Import ListNotations.

Lemma inv3_upd_st g x s' :
  s_segs s' = s_segs (getst g x) -> s_min s' = s_min (getst g x) -> s_open s' = s_open (getst g x) ->
  Inv3 g -> Inv3 (upd_st g x s').
Proof.
  intros H1 H2 H3.
  apply inv3_ext; [apply upd_length | reflexivity | reflexivity | intros z | intros z | intros z | reflexivity | intros h; apply Nat.le_refl].
  - now apply (getst_upd_keeps s_segs).
  - now apply (getst_upd_keeps s_min).
  - now apply (getst_upd_keeps s_open).
Qed.

(* a file update that keeps the base and does not lower the commit counter *)
Lemma inv3_upd_h g t v :
  h_base v = h_base (geth g t) -> h_cnt (geth g t) <= h_cnt v -> Inv3 g -> Inv3 (upd_h g t v).
Proof.
  intros B C. apply inv3_ext; [reflexivity | reflexivity | apply upd_length | reflexivity | reflexivity | reflexivity | intros h | intros h].
  - now apply (geth_upd_keeps h_base).
  - unfold hc. rewrite geth_upd_h. destruct (Nat.eqb_spec t h) as [->|]; [|apply Nat.le_refl]. destruct (_ <? _); [exact C | apply Nat.le_refl].
Qed.

Lemma inv3_close g hs : Inv3 g -> Inv3 (set_hnds g (close_all (g_hnds g) hs)).
Proof.
  apply inv3_ext; [reflexivity | reflexivity | apply close_all_length | reflexivity | reflexivity | reflexivity | intros h | intros h];
    pose proof (geth_close g hs h) as Q; unfold io in Q; inversion Q; unfold hb, hc; [congruence | lia].
Qed.

Lemma inv3_tx g o k :
  S (g_cur g) = ns g -> op_ g (g_cur g) = true -> Inv3 g -> Inv3 (fst (pm3_tx g o (g_cur g) k)).
Proof.
  intros La Oc K. destruct (ok_pm3 g La Oc K o k) as (segs' & mn' & [(Q & A)|(b & Q & B)]); rewrite Q.
  - now apply inv3_pubA.
  - now apply inv3_pubB.
Qed.

Lemma inv3_ctl g g' :
  g_states g' = g_states g -> g_cur g' = g_cur g -> g_hnds g' = g_hnds g -> Inv3 g -> Inv3 g'.
Proof.
  intros E1 E2 E3. apply inv3_ext; unfold ns, nh_, sg, mn, op_, hb, hc, getst, geth; rewrite ?E1, ?E2, ?E3; auto.
Qed.

Section RS.
  Variables (w r : tid).

  Lemma inv3_step s t s' : Full w r s -> Inv3 (sh s) -> step s t = Some s' -> Inv3 (sh s').
  Proof.
    intros [SA I] K H. destruct (step_decomp _ _ _ H) as (th & g' & th' & E & F & ->). cbn [sh].
    pose proof (i_thr _ _ _ I _ _ E) as TF. unfold th_facts1 in TF. pose proof (a_last _ SA) as La.
    destruct (step_effect _ _ _ _ _ F) as [g1 E1 E2 E3 | x s1 S1 S2 S3 | t0 v B C _ | x P | hs | y k g1 hs P Q | x P].
    - now apply (inv3_ctl (sh s)).
    - now apply inv3_upd_st.
    - apply inv3_upd_h; [exact B | lia | exact K].
    - apply inv3_upd_h; [reflexivity | | exact K]. cbn. destruct (a_chain _ SA (tail_of (getst (sh s) x))) as (C1 & C2 & C3).
      unfold tailh. lia.
    - now apply inv3_close.
    - (* a transaction publishes the next version *)
      rewrite P in TF. destruct TF as (-> & Oy & _). pose proof (inv3_tx (sh s) (cur_op th) k La Oy K) as R. now rewrite Q in R.
    - (* Close publishes the empty version *)
      rewrite P in TF. subst x. apply inv3_pubE; [exact La | | exact K].
      pose proof (i_open _ _ _ I) as Io.
      destruct (K_active w r s t th I E ltac:(unfold cstage; rewrite P; lia)) as [_ Kq].
      unfold cstage in Kq. rewrite P in Kq. unfold op_. rewrite Io, Kq. reflexivity.
  Qed.

End RS.

Theorem inv3_reach w progs extra s :
  single_writer w progs extra -> reachable step (init progs extra) s -> Inv3 (sh s).
Proof.
  intros SW. apply (reachable_inv_rel sys step (Full w (length progs)) (fun s1 => Inv3 (sh s1))).
  - intros s1. now apply full_reach.
  - assert (X0 : forall x, x < ns init_shared -> x = 0) by (unfold ns; cbn; lia).
    constructor.
    + intros x L O. rewrite (X0 x L). cbn. lia.
    + intros x L O. rewrite (X0 x L). cbn. discriminate.
    + intros x h L Hi. rewrite (X0 x L) in Hi. cbn in Hi. destruct Hi as [<-|[]]. cbn. lia.
    + cbn. intros x L. lia.
    + intros x y h L1 L2 O Hi. pose proof (X0 y L2). subst y. assert (x = 0) by lia. subst x.
      cbn in Hi. destruct Hi as [<-|[]]. cbn. lia.
    + intros x h L Hi. rewrite (X0 x L) in *. cbn in Hi. destruct Hi as [<-|[]]. cbn. lia.
    + intros x L. pose proof (X0 _ L). lia.
    + intros _. cbn. lia.
  - intros s0 t s1 F0 K0 H. eapply inv3_step; eauto.
Qed.
