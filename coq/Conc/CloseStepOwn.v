(* CloseStepOwn.v -- the facts CloseInv.th_facts1 demands of a thread at its new
   program counter hold after its own step *)
From Coq Require Import List Arith Bool Lia.
From RW Require Import Conc.Sys Conc.SysFacts Conc.Close Conc.ListX Conc.CloseInv Conc.CloseFacts
     Conc.CloseK Conc.CloseSafe Conc.CloseSafeStep Conc.CloseStep1 Conc.CloseFrames Conc.CloseStepInv
     Conc.CloseStepThr.
Import ListNotations.

(* the facts asked at the pc a completed release continues with are those the release carried *)
Lemma facts_continue g T rp th res k :
  krot_f g T k -> (k = KRetry -> op_locking th = true -> g_await g = None) -> th_facts1 g T rp (continue th res k).
Proof.
  intros Kf Rf. destruct k; cbn; auto. split; [exact I | intros Q; discriminate Q].
Qed.

Section Own.
  Variables (w r : tid).

  Lemma thr_own s t th g' th' :
    Safe s -> Inv1 w r s -> nth_error (ths s) t = Some th -> step_thread (sh s) t th = Some (g', th') ->
    th_facts1 g' (upd (ths s) t th') (rot_pc (upd (ths s) t th') r) th'.
  Proof.
    intros SA I E F.
    destruct (step_facts w r s t th g' th' SA I E F) as (NP & WF & TF & _ & La). unfold th_facts1 in TF.
    destruct (K_move w r s t th g' th' SA I E F) as (_ & _ & KM).
    pose proof (rot_of_pc th WF) as RO.
    pose proof (i_pend _ _ _ I) as Ipend. pose proof (i_ch1 _ _ _ I) as Ich1. pose proof (i_open _ _ _ I) as Iopen.
    unfold step_thread in F; crack F;
      open_tx;
      inversion F; subst g' th'; clear F.
    all: try (exfalso; apply NP; reflexivity).
    all: repeat match goal with H : t_pc _ = _ |- _ => rewrite H in TF, RO, KM end.
    (* a completed release goes on as its continuation says *)
    all: try (apply facts_continue; [|exact (proj2 TF)];
              destruct (K_stays _ _ _ _ _ KM ltac:(intros ? [])) as [Kq _]; unfold krot_f; rewrite Kq; exact (proj1 TF)).
    all: unfold th_facts1.
    all: cbn [t_pc setpc finish] in *.
    all: try exact Logic.I.
    all: change (op_locking (setpc th _)) with (op_locking th) in *.
    all: rewrite ?(getst_upd_keeps s_open) by reflexivity.
    all: cbn [g_closed g_mu g_trig g_trig_closed g_await g_chans g_cur g_states g_hnds g_meta_closes g_stable
              set_trig set_closed set_await set_meta set_mu set_hnds set_states set_cur publish upd_st upd_h] in *.
    all: try (match goal with |- krot_f _ _ ?k => first [is_var k; fail 1 | idtac] end; exact Logic.I).
    all: try (intros L; specialize (TF L); tauto).
    all: try tauto.
    (* krot_f for a continuation that is a variable: only KRot says something *)
    all: try (match goal with |- context [krot_f _ _ ?k] => is_var k; destruct k end;
              unfold krot_f in *; try tauto).
    (* the retry clause: only for KRetry *)
    all: try (match goal with |- _ /\ (?k = KRetry -> _) =>
                split; [|first [ intros Q; discriminate Q | intros _ L ]] end).
    all: try (match goal with |- g_await _ = None =>
                match goal with L : op_locking _ = true |- _ =>
                  first [ destruct (TF L) as [? ?]; assumption
                        | destruct TF as [_ TFr]; apply TFr; [reflexivity | exact L]
                        | exfalso; clear -WF Heqp; unfold pc_ok in WF; rewrite Heqp in WF;
                          destruct (t_rot _); [destruct (t_prog _)|]; discriminate ] end end).
    all: try exact Logic.I.
    all: try (match goal with |- krot_f _ _ ?k => first [is_var k; fail 1 | idtac] end; exact Logic.I).
    (* helper facts *)
    (* reader leaves PChecked / retries: not a locking call *)
    all: try (intros L; exfalso; unfold op_locking in L;
              first [ rewrite Heqo in L; cbn in L; congruence | congruence ]; fail).
    (* KRot: K and awaitRotate are unchanged by the rotation goroutine's own step *)
    all: try (lazymatch goal with |- context [K _ (upd _ _ _)] => idtac end;
              destruct (K_stays _ _ _ _ _ KM ltac:(intros ? [])) as [Kq _]; rewrite Kq;
              unfold krot_f in *; try (rewrite La in *); tauto).
    all: try (lazymatch goal with |- context [K _ (upd _ _ _)] => idtac end;
              destruct (K_stays _ _ _ _ _ KM ltac:(intros ? [])) as [Kq _]; rewrite Kq; destruct TF as [TFk _];
              unfold krot_f in *; tauto).
    all: try (destruct TF as (Yc & _); split; [lia | exact Logic.I]).
    all: try (match goal with H : is_locking _ = false |- _ => cbn in H; discriminate H end).
    all: change (getst (upd_h ?g ?a ?b)) with (getst g) in *.
    (* PBody, DeleteRange or a truncation, classified DHead or DTail -> PM0 (KOuter x): four cases alike *)
    all: try (lazymatch goal with Hd : classify _ _ _ = _, Ho : cur_op _ = Some _ |- _ =>
                assert (L : op_locking th = true) by (unfold op_locking; now rewrite Ho) end;
              destruct TF as (Ox & Lf); destruct (Lf L) as (Xc & Aw); rewrite <- Xc; split; [exact Ox | exact Logic.I]).
    - (* PLocked -> PWaiting *)
      destruct (Ich1 n eq_refl) as [Ln _]. split; [exact Ln | now left].
    - (* PRecvAwait -> PRelock: the channel is closed, so it is not the awaited one *)
      destruct TF as (Lc & [Aw|Aw]); [|exact Aw]. destruct (Ich1 c Aw) as [_ Oc]. congruence.
    - (* PRelock with a rotation queued again: excluded for a single writer (th_facts1: awaitRotate is nil here) *)
      discriminate TF.
    - (* PBody, StoreLogs -> PApp1 *)
      assert (L : op_locking th = true) by (unfold op_locking; now rewrite Heqo).
      destruct TF as (Ox & Lf). destruct (Lf L) as (Xc & Aw). auto.
    - (* triggerRotateLocked -> PSend *)
      destruct TF as (Xc & Ox & Aw).
      assert (K0 : K (sh s) (ths s) = 0) by (unfold K; now rewrite Heqb).
      assert (Rf : t_rot th = false).
      { clear -WF Heqp. unfold pc_ok in WF. rewrite Heqp in WF. destruct (t_rot th); [|reflexivity].
        destruct (t_prog th); discriminate. }
      assert (Nr : r <> t).
      { intros Q. destruct (i_rot _ _ _ I) as (y & Ey & Ry). rewrite Q in Ey. congruence. }
      rewrite (rot_pc_upd (ths s) t th _ r E). apply Nat.eqb_neq in Nr. rewrite Nr.
      change (getst (set_await ?g ?a ?b)) with (getst g).
      split; [exact Xc|]. split; [exact Ox|].
      destruct (g_trig (sh s)) eqn:Tr; [exfalso; apply (Ipend K0); auto|].
      destruct (rot_pend (rot_pc (ths s) r)) eqn:Pe; [exfalso; apply (Ipend K0); auto|].
      repeat split; auto. discriminate.
    - (* the commit of a rotation cannot fail: metaDB is closed only after stage 8 *)
      destruct TF as (Yc & Oy & Kl & Aw).
      pose proof (i_meta _ _ _ I) as Im. destruct (Nat.leb_spec 9 (K (sh s) (ths s))); [lia|].
      rewrite Im in *. cbn in *. discriminate.
    - (* PM2 y KRot -> PM3: K is unchanged *)
      destruct (K_stays _ _ _ _ _ KM ltac:(intros ? [])) as [Kq _].
      destruct TF as (Yc & Oy & Kl & Aw). split; [exact Yc|]. split; [exact Oy|].
      unfold krot_f. rewrite Kq. auto.
    - (* PM3 y KRot -> PM4: the new state is current, K is unchanged *)
      destruct (K_stays _ _ _ _ _ KM ltac:(intros ? [])) as [Kq _].
      destruct TF as (Yc & Oy & Kl & Aw). split; [lia|].
      rewrite Kq. auto.
    - (* Close swaps in the empty state *)
      split; [lia|]. split; [reflexivity|].
      unfold getst, publish; cbn. rewrite app_nth1 by lia.
      unfold K_moves in KM. destruct KM as [(_ & _ & [])|(_ & _ & Up)].
      subst x. fold (getst (sh s) (g_cur (sh s))). rewrite Iopen, Up. reflexivity.
    - (* the rotation goroutine starts the rotation *)
      assert (K0 : K (sh s) (ths s) = 0) by (unfold K; now rewrite Heqb).
      assert (Qr : t = r) by (apply (rot_thread w r s t th I E RO)).
      assert (Rp : rot_pc (ths s) r = PRLocked) by (unfold rot_pc; rewrite <- Qr, E; exact Heqp).
      split; [rewrite Iopen, K0; reflexivity|]. unfold krot_f.
      destruct (K_stays _ _ _ _ _ KM ltac:(intros ? [])) as [Kq _]. rewrite Kq. split; [lia|]. apply (Ipend K0). right. rewrite Rp. reflexivity.
    - (* it takes the await channel *)
      destruct TF as (Kl & Aw). destruct (g_await (sh s)) as [c|] eqn:Q; [|congruence].
      exists c. split; [reflexivity|]. split; [apply (Ich1 c eq_refl) | discriminate].
  Qed.
End Own.
