(* CloseLive.v -- consequences of CloseInv.Inv1 for a single state: if some caller
   has not returned, some thread can take a step (no deadlock); once Close has
   been called the system cannot come to rest with the rotation goroutine alive. *)
From Coq Require Import List Arith Bool Lia.
From RW Require Import Conc.Sys Conc.SysFacts Conc.Close Conc.ListX Conc.CloseInv Conc.CloseFacts
     Conc.CloseK Conc.CloseStep1.
Import ListNotations.

(* the only ways a thread can be unable to step *)
Definition blocked_kind (g : shared) (th : thread) : Prop :=
  match t_pc th with
  | PIdle => t_prog th = []
  | PLock | PRelock | PCLock | PRLock => g_mu g <> None
  | PRecvAwait c => nth c (g_chans g) false = false
  | PSend _ => g_trig g = true
  | PRIdle => g_trig g = false /\ g_trig_closed g = false
  | PRDone | PPanic => True
  | _ => False
  end.

Lemma not_blocked_enabled g t th :
  pc_ok th = true -> ~ blocked_kind g th -> step_thread g t th <> None.
Proof.
  intros WF NB. destruct th as [rot prog outs p]. unfold blocked_kind in NB. cbn [t_pc t_prog] in NB.
  unfold step_thread. cbn [t_pc].
  unfold pc_ok, op_locking, op_close, cur_op in WF. cbn [t_rot t_prog t_pc] in WF.
  destruct p; cbn; unfold cur_op; cbn [t_prog];
    repeat match goal with
           | |- context [match hd_error ?p with _ => _ end] =>
               destruct p as [|[] ?]; cbn in *; try discriminate; try congruence
           | |- context [if ?b then _ else _] => destruct b eqn:?; cbn in *; try discriminate; try congruence
           | |- context [match ?x with _ => _ end] => destruct x eqn:?; cbn in *; try discriminate; try congruence
           end; try discriminate; try congruence; try tauto.
  all: try (destruct rot; cbn in *; try discriminate; try congruence).
  all: try (exfalso; apply NB; auto; fail).
  all: try (exfalso; apply NB; discriminate).
  all: try (destruct prog; discriminate).
  all: try (exfalso; apply NB; split; assumption).
Qed.

Lemma rot_cases g thr :
  pc_ok thr = true -> t_rot thr = true ->
  ~ blocked_kind g thr \/ (t_pc thr = PRIdle /\ g_trig g = false /\ g_trig_closed g = false) \/
  (t_pc thr = PRLock /\ g_mu g <> None) \/ t_pc thr = PRDone.
Proof.
  intros WF R. unfold pc_ok in WF. rewrite R in WF. unfold blocked_kind.
  destruct (t_prog thr); [|discriminate].
  destruct (t_pc thr); try discriminate; try (left; tauto); try (destruct k; try discriminate; left; tauto).
  - destruct (g_trig g) eqn:T; [left; intros [? ?]; congruence|].
    destruct (g_trig_closed g) eqn:C; [left; intros [? ?]; congruence|]. right; left; auto.
  - destruct (g_mu g) eqn:M; [right; right; left; split; [reflexivity | congruence] | left; tauto].
  - right; right; right; reflexivity.
Qed.

Section Live.
  Variables (w r : tid).

  Lemma holder_enabled s t th :
    Inv1 w r s -> nth_error (ths s) t = Some th -> holds_mu th = true -> enabled step s t = true.
  Proof.
    intros I E Hm. unfold enabled, step. rewrite E.
    destruct (step_thread (sh s) t th) as [[g' th']|] eqn:F; [reflexivity|]. exfalso.
    apply (not_blocked_enabled (sh s) t th (i_wf _ _ _ I _ _ E)); [|exact F].
    pose proof (i_thr _ _ _ I _ _ E) as TF. unfold th_facts1 in TF.
    unfold blocked_kind, holds_mu in *. destruct (t_pc th); try discriminate; try tauto.
    destruct TF as (_ & _ & Tr & _). congruence.
  Qed.

  Lemma free_enabled s t th :
    Inv1 w r s -> nth_error (ths s) t = Some th -> g_mu (sh s) = None ->
    ~ blocked_kind (sh s) th -> enabled step s t = true.
  Proof.
    intros I E M NB. unfold enabled, step. rewrite E.
    destruct (step_thread (sh s) t th) as [[g' th']|] eqn:F; [reflexivity|]. exfalso.
    apply (not_blocked_enabled (sh s) t th (i_wf _ _ _ I _ _ E) NB F).
  Qed.

  (* a thread whose stage of Close is between 1 and 9 can always step when the mutex is free *)
  Lemma closer_enabled s u thu :
    Inv1 w r s -> nth_error (ths s) u = Some thu -> 0 < cstage thu -> g_mu (sh s) = None ->
    enabled step s u = true.
  Proof.
    intros I E A M. apply (free_enabled s u thu I E M).
    unfold blocked_kind, cstage in *. destruct (t_pc thu); try lia; try tauto; congruence.
  Qed.

  Theorem no_deadlock_state s :
    Inv1 w r s ->
    (exists t th, nth_error (ths s) t = Some th /\ t_rot th = false /\ th_done th = false) ->
    exists t, enabled step s t = true.
  Proof.
    intros I (t & th & E & R & D).
    destruct (g_mu (sh s)) as [h|] eqn:M.
    { destruct (i_mu2 _ _ _ I _ M) as (thh & Eh & Hh). exists h. eapply holder_enabled; eauto. }
    destruct (i_rot _ _ _ I) as (thr & Er & Rr).
    assert (RP : rot_pc (ths s) r = t_pc thr) by (unfold rot_pc; now rewrite Er).
    (* is the unfinished caller itself able to move? *)
    pose proof (i_wf _ _ _ I _ _ E) as WF. pose proof (i_thr _ _ _ I _ _ E) as TF.
    destruct (t_pc th) eqn:P;
      try (exists t; apply (free_enabled s t th I E M); unfold blocked_kind; rewrite P; tauto; fail).
    - (* PIdle: not done means a call is left *)
      exists t. apply (free_enabled s t th I E M). unfold blocked_kind. rewrite P.
      unfold th_done in D. rewrite P in D. destruct (t_prog th); [discriminate | discriminate].
    - (* PRecvAwait c *)
      unfold th_facts1 in TF. rewrite P in TF. destruct TF as (Lc & Aw).
      destruct (nth c (g_chans (sh s)) false) eqn:Cc.
      { exists t. apply (free_enabled s t th I E M). unfold blocked_kind. rewrite P. congruence. }
      assert (CO : chan_open (sh s) c) by (split; assumption).
      assert (Rot_en : ~ blocked_kind (sh s) thr -> exists t0, enabled step s t0 = true).
      { intros NB. exists r. apply (free_enabled s r thr I Er M NB). }
      destruct Aw as [Aw|Aw].
      + (* rotation pending *)
        destruct (i_aw _ _ _ I c Aw) as [Tr|[Pe|[(u & thu & Eu & Su)|HK]]].
        * (* trigger in the channel *)
          destruct (rot_cases (sh s) thr (i_wf _ _ _ I _ _ Er) Rr) as [NB|[(Pr & T1 & _)|[(Pr & M1)|Pr]]];
            [now apply Rot_en | congruence | congruence |].
          (* the rotator has returned: Close was called, so Close is under way and can move *)
          pose proof (i_thr _ _ _ I _ _ Er) as TFr. unfold th_facts1 in TFr. rewrite Pr in TFr.
          destruct (K_closed w r s I TFr) as [HK|HK].
          -- destruct (closer_of w r s I HK) as (u & thu & Eu & Cu). exists u.
             apply (closer_enabled s u thu I Eu); [lia | exact M].
          -- pose proof (i_aw3 _ _ _ I) as A3. rewrite Aw in A3. discriminate A3. lia.
        * (* the rotator is on its way *)
          rewrite RP in Pe. apply Rot_en. unfold blocked_kind.
          destruct (t_pc thr); cbn in Pe; try discriminate; try tauto; congruence.
        * (* somebody at PSend holds the mutex *)
          assert (Hu : holds_mu thu = true) by (unfold holds_mu, at_send in *; destruct (t_pc thu); try discriminate; reflexivity).
          pose proof (i_mu1 _ _ _ I _ _ Eu Hu). congruence.
        * destruct (closer_of w r s I) as (u & thu & Eu & Cu); [lia|]. exists u.
          apply (closer_enabled s u thu I Eu); [lia | exact M].
      + (* the channel is no longer the awaited one: the rotator is about to close it *)
        destruct (i_ch2 _ _ _ I c CO) as [Q|Q]; [congruence|]. rewrite RP in Q.
        apply Rot_en. unfold blocked_kind, rot_has in *. destruct (t_pc thr); try discriminate; tauto.
    - (* PSend holds the mutex *)
      assert (Hu : holds_mu th = true) by (unfold holds_mu; now rewrite P).
      pose proof (i_mu1 _ _ _ I _ _ E Hu). congruence.
    - (* PRIdle: not a caller *)
      pose proof (i_wf _ _ _ I _ _ E) as W2. unfold pc_ok in W2. rewrite R, P in W2. discriminate.
    - (* PRDone *) unfold th_done in D. now rewrite P in D.
    - (* PPanic *) unfold th_done in D. now rewrite P in D.
  Qed.

  (* once Close has been called the system cannot come to rest while the rotation
     goroutine is still alive *)
  Theorem rotator_exits_state s :
    Inv1 w r s -> g_closed (sh s) = true ->
    (exists thr, nth_error (ths s) r = Some thr /\ t_pc thr = PRDone) \/ exists t, enabled step s t = true.
  Proof.
    intros I C.
    destruct (g_mu (sh s)) as [h|] eqn:M.
    { right. destruct (i_mu2 _ _ _ I _ M) as (thh & Eh & Hh). exists h. eapply holder_enabled; eauto. }
    destruct (i_rot _ _ _ I) as (thr & Er & Rr).
    destruct (K_closed w r s I C) as [HK|HK].
    - right. destruct (closer_of w r s I HK) as (u & thu & Eu & Cu). exists u.
      apply (closer_enabled s u thu I Eu); [lia | exact M].
    - pose proof (i_tc _ _ _ I) as Tc. rewrite HK in Tc. cbn in Tc.
      destruct (rot_cases (sh s) thr (i_wf _ _ _ I _ _ Er) Rr) as [NB|[(Pr & _ & T2)|[(Pr & M1)|Pr]]].
      + right. exists r. apply (free_enabled s r thr I Er M NB).
      + congruence.
      + congruence.
      + left. eauto.
  Qed.
End Live.
