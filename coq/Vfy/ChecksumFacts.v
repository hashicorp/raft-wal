(* ChecksumFacts.v -- the chained sum is FNV-1a (from state 0) over an explicit
   byte stream; where that stream is injective and where it is not. *)
From RW Require Import Base.Bytes Base.BytesFacts Base.Fnv Base.FnvFacts Gen.Constants Vfy.Checksum.
From RW Require Import Base.LiaSetup.
Open Scope N_scope.

Lemma checksum_log_stream s e :
  is_bootstrap e = false -> checksum_log s e = fnv_add s (entry_stream e).
Proof.
  intros Hb. unfold checksum_log, entry_stream, fnv_add_u64. rewrite Hb.
  rewrite !fnv_add_app. destruct (e_ext e) as [|x r]; reflexivity.
Qed.

Lemma checksum_log_bootstrap s e : is_bootstrap e = true -> checksum_log s e = 0.
Proof. intros Hb. unfold checksum_log. rewrite Hb. reflexivity. Qed.

Lemma chain_nil s : chain s [] = s.
Proof. reflexivity. Qed.
Lemma chain_cons s e r : chain s (e :: r) = chain (checksum_log s e) r.
Proof. reflexivity. Qed.
Lemma chain_app s a b : chain s (a ++ b) = chain (chain s a) b.
Proof. unfold chain. apply fold_left_app. Qed.
Lemma chain_snoc s a e : chain s (a ++ [e]) = checksum_log (chain s a) e.
Proof. rewrite chain_app. reflexivity. Qed.

Lemma chain_from_stream es : forall acc,
  chain (fnv_add 0 acc) es = fnv_add 0 (chain_stream_from acc es).
Proof.
  induction es as [|e r IH]; intros acc; [reflexivity|].
  rewrite chain_cons. cbn [chain_stream_from]. destruct (is_bootstrap e) eqn:Hb.
  - rewrite checksum_log_bootstrap by exact Hb. apply (IH []).
  - rewrite checksum_log_stream by exact Hb. rewrite <- fnv_add_app. apply IH.
Qed.

(* the chained sum of a range is FNV-1a from state 0 over
   be64 idx ++ be64 term ++ be64 type ++ data ++ ext per entry, restarted after
   a bootstrap entry *)
Lemma chain_is_fnv_of_stream es : chain 0 es = fnv_add 0 (chain_stream es).
Proof. apply (chain_from_stream es []). Qed.

Lemma chain_stream_from_no_bootstrap es : no_bootstrap es ->
  forall acc, chain_stream_from acc es = acc ++ concat (map entry_stream es).
Proof.
  induction 1 as [|e r He Hr IH]; intros acc; cbn [chain_stream_from map concat].
  - rewrite app_nil_r. reflexivity.
  - rewrite He, IH, app_assoc. reflexivity.
Qed.

Lemma chain_stream_no_bootstrap es : no_bootstrap es ->
  chain_stream es = concat (map entry_stream es).
Proof. intros H. apply (chain_stream_from_no_bootstrap es H []). Qed.

Lemma chain_no_bootstrap es : no_bootstrap es ->
  forall s, chain s es = fnv_add s (concat (map entry_stream es)).
Proof.
  induction 1 as [|e r He Hr IH]; intros s; [reflexivity|].
  rewrite chain_cons, checksum_log_stream by exact He. cbn [map concat].
  rewrite fnv_add_app. apply IH.
Qed.

Lemma checksum_log_lt s e : s < two64 -> checksum_log s e < two64.
Proof.
  intros Hs. destruct (is_bootstrap e) eqn:Hb.
  - rewrite checksum_log_bootstrap by exact Hb. reflexivity.
  - rewrite checksum_log_stream by exact Hb. apply fnv_add_lt. exact Hs.
Qed.

Lemma chain_lt es : forall s, s < two64 -> chain s es < two64.
Proof.
  induction es as [|e r IH]; intros s Hs; [exact Hs|].
  rewrite chain_cons. apply IH. apply checksum_log_lt. exact Hs.
Qed.

Lemma be64_inj a b : a < two64 -> b < two64 -> be64 a = be64 b -> a = b.
Proof.
  intros Ha Hb E. unfold be64 in E.
  assert (E2 : le64 a = le64 b).
  { rewrite <- (rev_involutive (le64 a)), <- (rev_involutive (le64 b)), E. reflexivity. }
  rewrite <- (rd64_le64 a Ha), <- (rd64_le64 b Hb), E2. reflexivity.
Qed.

Definition hdr_ok (e : entry) : Prop := e_index e < two64 /\ e_term e < two64 /\ e_type e < two64.

Lemma wf_entry_hdr_ok e : wf_entry e -> hdr_ok e.
Proof. unfold wf_entry, hdr_ok, two64. intros (?&?&?&?&?). repeat split; lia. Qed.

(* the stream determines Index, Term, Type and Data ++ Extensions -- and nothing more *)
Lemma entry_stream_inj e e' : hdr_ok e -> hdr_ok e' ->
  entry_stream e = entry_stream e' ->
  e_index e = e_index e' /\ e_term e = e_term e' /\ e_type e = e_type e' /\
  e_data e ++ e_ext e = e_data e' ++ e_ext e'.
Proof.
  intros (Hi&Ht&Hy) (Hi'&Ht'&Hy') E. unfold entry_stream in E.
  apply app_eq_len in E as [E1 E]; [|rewrite !be64_length; reflexivity].
  apply app_eq_len in E as [E2 E]; [|rewrite !be64_length; reflexivity].
  apply app_eq_len in E as [E3 E]; [|rewrite !be64_length; reflexivity].
  repeat split; auto using be64_inj.
Qed.

Lemma entry_ext_eq (e e' : entry) :
  e_index e = e_index e' -> e_term e = e_term e' -> e_type e = e_type e' ->
  e_data e = e_data e' -> e_ext e = e_ext e' -> e = e'.
Proof. destruct e, e'; simpl; intros; subst; reflexivity. Qed.

(* every mutation that leaves Data or Extensions alone (wrong index / term /
   type, any change of Data alone incl. truncation and extension, any change of
   Extensions alone) changes the hashed stream *)
Lemma single_field_mutation_changes_stream e e' : hdr_ok e -> hdr_ok e' ->
  e <> e' -> (e_data e = e_data e' \/ e_ext e = e_ext e') ->
  entry_stream e <> entry_stream e'.
Proof.
  intros H H' Hne Hside E. apply Hne.
  destruct (entry_stream_inj e e' H H' E) as (Ei&Et&Ey&Ed).
  destruct Hside as [Hd|Hx].
  - apply entry_ext_eq; auto. rewrite Hd in Ed. apply app_inv_head in Ed. exact Ed.
  - apply entry_ext_eq; auto. rewrite Hx in Ed. apply app_inv_tail in Ed. exact Ed.
Qed.

(* ... but NOT injective across the Data/Extensions boundary (no length prefix) *)
Lemma boundary_shift_same_stream i t y d x r :
  entry_stream {| e_index := i; e_term := t; e_type := y; e_data := d ++ x; e_ext := r |} =
  entry_stream {| e_index := i; e_term := t; e_type := y; e_data := d; e_ext := x ++ r |}.
Proof. unfold entry_stream; cbn. rewrite <- !app_assoc. reflexivity. Qed.

Lemma boundary_shift_same_checksum s i t y d x r :
  checksum_log s {| e_index := i; e_term := t; e_type := y; e_data := d ++ x; e_ext := r |} =
  checksum_log s {| e_index := i; e_term := t; e_type := y; e_data := d; e_ext := x ++ r |}.
Proof.
  destruct (is_bootstrap {| e_index := i; e_term := t; e_type := y; e_data := d ++ x; e_ext := r |}) eqn:Hb.
  - rewrite !checksum_log_bootstrap; auto.
  - rewrite !checksum_log_stream; auto. rewrite boundary_shift_same_stream. reflexivity.
Qed.

Lemma no_bootstrap_app a b : no_bootstrap (a ++ b) <-> no_bootstrap a /\ no_bootstrap b.
Proof. unfold no_bootstrap. apply Forall_app. Qed.

Lemma range_stream_split pre e post : no_bootstrap (pre ++ e :: post) ->
  chain_stream (pre ++ e :: post) =
  concat (map entry_stream pre) ++ entry_stream e ++ concat (map entry_stream post).
Proof.
  intros H. rewrite chain_stream_no_bootstrap by exact H.
  rewrite map_app, concat_app. reflexivity.
Qed.

(* replacing one entry of a range by one with a different stream changes the
   stream of the range (the hypothesis on the lengths is not needed) *)
Lemma range_mutation_changes_stream pre e e' post :
  no_bootstrap (pre ++ e :: post) -> no_bootstrap (pre ++ e' :: post) ->
  entry_stream e <> entry_stream e' ->
  length (entry_stream e) = length (entry_stream e') \/ post = [] ->
  chain_stream (pre ++ e :: post) <> chain_stream (pre ++ e' :: post).
Proof.
  intros H H' Hne _ E. rewrite !range_stream_split in E by assumption.
  apply app_inv_head, app_inv_tail in E. contradiction.
Qed.

Lemma wf_bytes_concat l : Forall wf_bytes l -> wf_bytes (concat l).
Proof.
  induction 1 as [|x r Hx Hr IH]; cbn; [constructor|].
  apply (proj2 (wf_bytes_app _ _)); split; assumption.
Qed.

Lemma wf_entry_stream e : wf_entry e -> wf_bytes (entry_stream e).
Proof.
  intros (_&_&_&Hd&Hx). unfold entry_stream.
  apply (proj2 (wf_bytes_app _ _)); split; [apply wf_be64|].
  apply (proj2 (wf_bytes_app _ _)); split; [apply wf_be64|].
  apply (proj2 (wf_bytes_app _ _)); split; [apply wf_be64|].
  apply (proj2 (wf_bytes_app _ _)); split; assumption.
Qed.

(* a one-byte difference anywhere in the stream of one entry of a range is
   detected whatever follows -- no collision caveat *)
Lemma range_byte_flip_changes_sum pre e e' post x b1 b2 y :
  no_bootstrap (pre ++ e :: post) -> no_bootstrap (pre ++ e' :: post) ->
  Forall wf_entry post ->
  entry_stream e = x ++ b1 :: y -> entry_stream e' = x ++ b2 :: y ->
  wf_byte b1 -> wf_byte b2 -> wf_bytes y -> b1 <> b2 ->
  chain 0 (pre ++ e :: post) <> chain 0 (pre ++ e' :: post).
Proof.
  intros H H' Hpost E1 E2 Hb1 Hb2 Hy Hne.
  rewrite !chain_is_fnv_of_stream, !range_stream_split by assumption.
  rewrite E1, E2, <- !app_assoc, !app_assoc with (l := concat (map entry_stream pre)).
  cbn [app]. apply single_byte_flip_always_detected; auto.
  - reflexivity.
  - apply (proj2 (wf_bytes_app _ _)); split; [exact Hy|].
    apply wf_bytes_concat. apply Forall_map.
    eapply Forall_impl; [|exact Hpost]. intros a Ha. apply wf_entry_stream. exact Ha.
Qed.

Lemma encode_meta_length a b : length (encode_meta a b) = 24%nat.
Proof. reflexivity. Qed.

Lemma magic_lt : ExtensionMagicPrefix < two64.
Proof. reflexivity. Qed.

Lemma decode_encode_meta a b : a < two64 -> b < two64 ->
  decode_meta (encode_meta a b) = MetaOk a b.
Proof.
  intros Ha Hb. unfold decode_meta. rewrite encode_meta_length.
  change (24 <? 24)%nat with false. cbv iota.
  unfold encode_meta.
  assert (F1 : forall u r, firstn 8 (le64 u ++ r) = le64 u).
  { intros u r. rewrite firstn_app, le64_length. simpl (8 - 8)%nat.
    rewrite firstn_O, app_nil_r. apply firstn_all2. rewrite le64_length. lia. }
  assert (S1 : forall u r, skipn 8 (le64 u ++ r) = r).
  { intros u r. rewrite skipn_app, le64_length. simpl (8 - 8)%nat.
    rewrite skipn_all2 by (rewrite le64_length; lia). reflexivity. }
  rewrite F1, (rd64_le64 _ magic_lt), N.eqb_refl.
  rewrite S1, F1, (rd64_le64 _ Ha).
  change (skipn 16 (le64 ExtensionMagicPrefix ++ le64 a ++ le64 b))
    with (skipn 8 (skipn 8 (le64 ExtensionMagicPrefix ++ le64 a ++ le64 b))).
  rewrite S1, S1. rewrite <- (app_nil_r (le64 b)), F1, (rd64_le64 _ Hb). reflexivity.
Qed.

Lemma entry_eqb_eq a b : entry_eqb a b = true <-> a = b.
Proof.
  unfold entry_eqb. split.
  - intros H. repeat (apply andb_true_iff in H as [H ?]).
    apply entry_ext_eq; try (apply N.eqb_eq; assumption); apply beq_bytes_eq; assumption.
  - intros ->. rewrite !N.eqb_refl, !beq_bytes_refl. reflexivity.
Qed.
