(* StoreFacts.v -- the running sum of the middleware is always the chain over the
   entries written since sumStartIdx and still held; what a triggered report
   claims as WrittenSum; what verify concludes. *)
From RW Require Import Base.Bytes Base.BytesFacts Base.Fnv Base.FnvFacts Vfy.Checksum Vfy.ChecksumFacts
  Vfy.Spec Vfy.SpecFacts Vfy.Store.
From RW Require Import Base.LiaSetup.
Open Scope N_scope.

(* the running state (cs, start) over a log l whose first entry has index f *)
Definition Pv (f : N) (l : list entry) (cs start : N) : Prop :=
  (start = 0 /\ cs = 0) \/
  (f <= start /\ start < f + len l /\ cs = chain 0 (skipn (N.to_nat (start - f)) l)).

Definition range_of (f : N) (l : list entry) (a b : N) : list entry :=
  firstn (N.to_nat (b - a)) (skipn (N.to_nat (a - f)) l).

(* the report's range lies inside l, the checkpoint entry itself (at r_end) too,
   and WrittenSum is the chain over exactly the entries of the range *)
Definition Rfull (f : N) (l : list entry) (r : report) : Prop :=
  f <= r_start r /\ r_start r <= r_end r /\ r_end r < f + len l /\
  r_written r = chain 0 (range_of f l (r_start r) (r_end r)).

(* every triggered report: no error, and a WrittenSum that is 0 (no sum was running) or right *)
Definition Rv (f : N) (l : list entry) (r : report) : Prop :=
  r_err r = ENone /\ (r_written r = 0 \/ Rfull f l r).

(* one triggered by a checkpoint that arrived without Extensions (the leader's own): the sum is
   right and ExpectedSum is that very sum *)
Definition Rleader (f : N) (l : list entry) (r : report) : Prop :=
  Rfull f l r /\ r_expected r = r_written r.

Lemma range_of_stable f l x a b :
  f <= a -> a <= b -> b <= f + len l -> range_of f (l ++ x) a b = range_of f l a b.
Proof.
  intros H1 H2 H3. unfold range_of. apply firstn_skipn_app_stable. lia.
Qed.

Lemma Rfull_stable f l x r : Rfull f l r -> Rfull f (l ++ x) r.
Proof.
  intros (H1&H2&H3&H4). unfold Rfull. rewrite app_length.
  repeat split; try lia. rewrite range_of_stable by lia. exact H4.
Qed.

Lemma Rv_stable f l x r : Rv f l r -> Rv f (l ++ x) r.
Proof. intros [He [H|H]]; split; auto. right. apply Rfull_stable; exact H. Qed.

Lemma Rleader_stable f l x r : Rleader f l r -> Rleader f (l ++ x) r.
Proof. intros [H E]; split; auto using Rfull_stable. Qed.

Section WithCpf.
  Variable cpf : entry -> option bool.

  Lemma set_ext_index e x : e_index (set_ext e x) = e_index e.
  Proof. reflexivity. Qed.

  (* one entry appended at position f + len l *)
  Lemma uvs_step_inv f l e cs start cs' st' ro e' :
    f <> 0 -> e_index e = f + len l -> Pv f l cs start ->
    update_verify_state cpf e cs start = UvsOk cs' st' ro e' ->
    Pv f (l ++ [e']) cs' st' /\ e_index e' = e_index e /\
    (forall r, ro = Some r -> Rv f (l ++ [e']) r /\
                               (e_ext e = [] -> Rleader f (l ++ [e']) r)).
  Proof.
    intros Hf Hi HP H. unfold update_verify_state in H.
    destruct (cpf e) as [is_cp|]; [|discriminate].
    assert (Hlen : N.to_nat (f + len l - f) = length l) by lia.
    assert (Hone : forall x : entry, skipn (N.to_nat (f + len l - f)) (l ++ [x]) = [x]).
    { intros x. rewrite Hlen. apply skipn_app_exact. }
    (* the state after taking "next index" when start = 0 *)
    set (st := if start =? 0 then e_index e else start) in *.
    assert (Hst : (start = 0 /\ cs = 0 /\ st = f + len l) \/
                  (start <> 0 /\ st = start /\ f <= start /\ start < f + len l /\
                   cs = chain 0 (skipn (N.to_nat (start - f)) l))).
    { destruct HP as [[Hs Hc]|(H1&H2&H3)].
      - left. subst st. rewrite Hs. cbn. auto.
      - right. assert (start <> 0) by lia. subst st.
        replace (start =? 0) with false by lia. auto. }
    assert (HnewP : forall x : entry, Pv f (l ++ [x]) (checksum_log 0 x) (f + len l)).
    { intros x. right. rewrite app_length. cbn [length]. repeat split; try lia.
      rewrite Hone. reflexivity. }
    (* the report of a checkpoint whose written sum is cs over [st, idx) *)
    assert (Hrep : forall x : entry, forall expd,
               Rv f (l ++ [x]) (new_report st (e_index e) expd cs) /\
               (expd = cs -> Rleader f (l ++ [x]) (new_report st (e_index e) expd cs))).
    { intros x expd.
      assert (HF : Rfull f (l ++ [x]) (new_report st (e_index e) expd cs)).
      { unfold Rfull. cbn [r_start r_end r_written new_report]. rewrite app_length. cbn [length].
        destruct Hst as [(Hs&Hc&Hs')|(Hs&Hs'&H1&H2&H3)].
        - rewrite Hs', Hi. repeat split; try lia. unfold range_of.
          replace (N.to_nat (f + len l - (f + len l))) with 0%nat by lia. rewrite Hc. reflexivity.
        - rewrite Hs', Hi. repeat split; try lia. unfold range_of.
          rewrite skipn_app_le by lia.
          replace (N.to_nat (f + len l - start)) with (length (skipn (N.to_nat (start - f)) l))
            by (rewrite skipn_length; lia).
          rewrite firstn_app_exact. exact H3. }
      split; [split; [reflexivity|right; exact HF]|]. intros ->. split; [exact HF|reflexivity]. }
    destruct is_cp.
    - destruct (e_ext e) as [|x0 xr] eqn:Ex.
      + (* leader *)
        inversion H; subst cs' st' ro e'. split; [rewrite Hi; apply HnewP|]. split; [reflexivity|].
        intros r Hr. inversion Hr; subst r. destruct (Hrep (set_ext e (encode_meta st cs)) cs) as [A B].
        split; [exact A|]. intros _. apply B. reflexivity.
      + destruct (decode_meta (x0 :: xr)) as [cps cpsum|] eqn:Ed; [|discriminate].
        inversion H; subst cs' st' ro e'. split; [rewrite Hi; apply HnewP|]. split; [reflexivity|].
        intros r Hr. inversion Hr; subst r. split; [|intros C; discriminate C].
        destruct (cps =? st) eqn:Ecp.
        * apply N.eqb_eq in Ecp. subst cps. apply (Hrep e cpsum).
        * split; [reflexivity|left; reflexivity].
    - inversion H; subst cs' st' ro e'. split; [|split; [reflexivity|intros r Hr; discriminate Hr]].
      destruct Hst as [(Hs&Hc&Hs')|(Hs&Hs'&H1&H2&H3)].
      + rewrite Hs', Hc. apply HnewP.
      + rewrite Hs'. right. rewrite app_length. cbn [length]. repeat split; try lia.
        rewrite skipn_app_le by lia. rewrite chain_snoc, <- H3. reflexivity.
  Qed.

  Lemma uvs_loop_inv b : forall f l cs start cs' st' rs b',
    f <> 0 -> contig_from (f + len l) b = true -> Pv f l cs start ->
    uvs_loop cpf b cs start = Some (cs', st', rs, b') ->
    Pv f (l ++ b') cs' st' /\ map e_index b' = map e_index b /\
    Forall (Rv f (l ++ b')) rs /\
    (Forall (fun e => e_ext e = []) (filter (fun e => match cpf e with Some true => true | _ => false end) b) ->
     Forall (Rleader f (l ++ b')) rs).
  Proof.
    induction b as [|e r IH]; intros f l cs start cs' st' rs b' Hf Hc HP H.
    - inversion H; subst. rewrite app_nil_r. repeat split; auto.
    - cbn [uvs_loop] in H.
      destruct (update_verify_state cpf e cs start) as [|c1 s1 ro e1] eqn:Eu; [discriminate|].
      destruct (uvs_loop cpf r c1 s1) as [[[[c2 s2] rs2] es2]|] eqn:El; [|discriminate].
      inversion H; subst cs' st' rs b'. clear H.
      apply contig_from_cons in Hc as [Hi Hc].
      destruct (uvs_step_inv f l e cs start c1 s1 ro e1 Hf Hi HP Eu) as (HP1 & Hi1 & Hr1).
      assert (Hc' : contig_from (f + len (l ++ [e1])) r = true).
      { rewrite app_length. cbn [length]. replace (f + N.of_nat (length l + 1)) with (f + len l + 1) by lia.
        exact Hc. }
      destruct (IH f (l ++ [e1]) c1 s1 c2 s2 rs2 es2 Hf Hc' HP1 El) as (HP2 & Hm & HR & HL).
      rewrite <- app_assoc in HP2, HR, HL. cbn [app] in HP2, HR, HL.
      split; [exact HP2|]. split; [cbn [map]; rewrite Hi1, Hm; reflexivity|].
      split.
      + apply Forall_app. split; [|exact HR]. destruct ro as [r0|]; cbn [opt_list]; [|constructor].
        constructor; [|constructor]. destruct (Hr1 r0 eq_refl) as [A _].
        change (e1 :: es2) with ([e1] ++ es2). rewrite app_assoc. apply Rv_stable. exact A.
      + intros Hlead. apply Forall_app. split.
        * destruct ro as [r0|]; cbn [opt_list]; [|constructor]. constructor; [|constructor].
          destruct (Hr1 r0 eq_refl) as [_ B].
          change (e1 :: es2) with ([e1] ++ es2). rewrite app_assoc. apply Rleader_stable. apply B.
          (* a report was triggered, so e is a checkpoint, so its Extensions are empty *)
          unfold update_verify_state in Eu. cbn [filter] in Hlead.
          destruct (cpf e) as [[|]|]; try discriminate Eu.
          inversion Hlead; assumption.
        * apply HL. cbn [filter] in Hlead. destruct (cpf e) as [[|]|]; auto. inversion Hlead; assumption.
  Qed.

  Lemma uvs_index e cs start cs' st' ro e' :
    update_verify_state cpf e cs start = UvsOk cs' st' ro e' -> e_index e' = e_index e.
  Proof.
    unfold update_verify_state. destruct (cpf e) as [[|]|]; try discriminate.
    - destruct (e_ext e) as [|x0 xr].
      + intros H; inversion H; reflexivity.
      + destruct (decode_meta (x0 :: xr)); [|discriminate]. intros H; inversion H; reflexivity.
    - intros H; inversion H; reflexivity.
  Qed.

  Lemma uvs_loop_map b : forall cs start cs' st' rs b',
    uvs_loop cpf b cs start = Some (cs', st', rs, b') -> map e_index b' = map e_index b.
  Proof.
    induction b as [|e r IH]; intros cs start cs' st' rs b' H.
    - inversion H; reflexivity.
    - cbn [uvs_loop] in H.
      destruct (update_verify_state cpf e cs start) as [|c1 s1 ro e1] eqn:Eu; [discriminate|].
      destruct (uvs_loop cpf r c1 s1) as [[[[c2 s2] rs2] es2]|] eqn:El; [|discriminate].
      inversion H; subst. cbn [map]. rewrite (uvs_index _ _ _ _ _ _ _ Eu), (IH _ _ _ _ _ _ El). reflexivity.
  Qed.

  Definition vinv (v : vstate) (sh : sstore) : Prop :=
    Pv (s_first sh) (s_logs sh) (v_sum v) (v_start v) /\ wf_store sh.

  Lemma Pv_empty f f' cs start : Pv f [] cs start -> Pv f' [] cs start.
  Proof. intros [H|(H1&H2&_)]; [left; exact H|]. cbn in H2. lia. Qed.

  Definition leader_batch (b : list entry) : Prop :=
    Forall (fun e => e_ext e = []) (filter (fun e => match cpf e with Some true => true | _ => false end) b).

  Lemma vstore_logs_ok fail v s sh b :
    vinv v sh -> aligned s sh ->
    o_res (vstore_logs cpf fail v s b) = SOk -> b <> [] ->
    let o := vstore_logs cpf fail v s b in
    exists sh', store_logs sh (o_batch o) = Some sh' /\ aligned (o_store o) sh' /\
                vinv (o_v o) sh' /\
                Forall (Rv (s_first sh') (s_logs sh')) (o_reports o) /\
                (leader_batch b -> Forall (Rleader (s_first sh') (s_logs sh')) (o_reports o)).
  Proof.
    intros [HP Hwf] Hs Hres Hb. cbv zeta. unfold vstore_logs in *.
    destruct b as [|e0 r]; [contradiction|].
    destruct (uvs_loop cpf (e0 :: r) (v_sum v) (v_start v)) as [[[[cs st] rs] b']|] eqn:El;
      [|discriminate Hres].
    destruct fail; [discriminate Hres|].
    destruct (store_logs s b') as [s'|] eqn:Es; [|discriminate Hres].
    cbn [o_batch o_store o_v o_reports].
    destruct (store_logs_aligned s sh b' s' Hs Es) as (sh' & Esh & Hs').
    exists sh'. split; [exact Esh|]. split; [exact Hs'|].
    pose proof (uvs_loop_map _ _ _ _ _ _ _ El) as Hm.
    assert (Hb' : b' <> []).
    { intros ->. discriminate Hm. }
    destruct (store_logs_some sh b' sh' Hb' Esh Hwf) as (Hlogs & Hcont & Hnz & Hsame).
    assert (HP' : Pv (s_first sh') (s_logs sh) (v_sum v) (v_start v)).
    { destruct (s_logs sh) as [|x l] eqn:E.
      - apply (Pv_empty (s_first sh)). exact HP.
      - rewrite Hsame by discriminate. exact HP. }
    rewrite (contig_from_map _ _ _ Hm) in Hcont.
    destruct (uvs_loop_inv (e0 :: r) (s_first sh') (s_logs sh) (v_sum v) (v_start v) cs st rs b'
                Hnz Hcont HP' El) as (HP2 & _ & HR & HL).
    rewrite <- Hlogs in HP2, HR, HL.
    split; [split; [exact HP2|eapply store_logs_wf; eauto]|]. split; [exact HR|exact HL].
  Qed.

  Lemma vstore_logs_err fail v s b :
    o_res (vstore_logs cpf fail v s b) <> SOk ->
    o_v (vstore_logs cpf fail v s b) = v /\ o_store (vstore_logs cpf fail v s b) = s /\
    o_reports (vstore_logs cpf fail v s b) = [].
  Proof.
    unfold vstore_logs. destruct b as [|e0 r]; [intros H; contradiction H; reflexivity|].
    destruct (uvs_loop cpf (e0 :: r) (v_sum v) (v_start v)) as [[[[cs st] rs] b']|]; [|auto].
    destruct fail; [auto|]. destruct (store_logs s b'); [|auto].
    intros H; contradiction H; reflexivity.
  Qed.

  Lemma vstore_logs_nil fail v s :
    vstore_logs cpf fail v s [] =
    {| o_res := SOk; o_v := v; o_store := s; o_reports := []; o_batch := []; o_called := false |}.
  Proof. reflexivity. Qed.
End WithCpf.

Lemma vinv_init sh : wf_store sh -> vinv v_init sh.
Proof. intros H. split; [left; split; reflexivity|exact H]. Qed.

Lemma slice_range_of s a b : s_first s <= a -> slice s a b = range_of (s_first s) (s_logs s) a b.
Proof. intros H. unfold slice, range_of. replace (a <? s_first s) with false by lia. reflexivity. Qed.

Lemma read_range_chain s : forall n idx sum,
  s_first s <= idx -> idx + N.of_nat n <= s_first s + len (s_logs s) ->
  read_range s idx n sum =
  Some (chain sum (firstn n (skipn (N.to_nat (idx - s_first s)) (s_logs s)))).
Proof.
  induction n as [|n IH]; intros idx sum H1 H2; [reflexivity|].
  cbn [read_range].
  destruct (get_in_range s idx H1) as [e He]; [lia|]. rewrite He.
  destruct (get_skipn s idx e He) as [_ Hsk]. rewrite Hsk. cbn [firstn]. rewrite chain_cons.
  rewrite IH by lia.
  replace (N.to_nat (idx + 1 - s_first s)) with (S (N.to_nat (idx - s_first s))) by lia. reflexivity.
Qed.

Lemma read_range_holds s a b :
  holds_range s a b -> read_range s a (N.to_nat (b - a)) 0 = Some (chain 0 (slice s a b)).
Proof.
  intros (Hne & Hf & Hl). rewrite slice_range_of by exact Hf. unfold range_of.
  destruct (N.le_gt_cases b a) as [Hba|Hab].
  - replace (N.to_nat (b - a)) with 0%nat by lia. reflexivity.
  - rewrite read_range_chain by lia. reflexivity.
Qed.

(* the verdict of verify in the three situations the theorems distinguish *)
Lemma verify_held sv r :
  r_err r = ENone -> holds_range sv (r_start r) (r_end r) ->
  r_err (verify sv r) =
    if negb (r_written r =? 0) && negb (r_written r =? r_expected r) then ECkInflight
    else if chain 0 (slice sv (r_start r) (r_end r)) =? r_expected r then ENone else ECkStorage.
Proof.
  intros He Hh. unfold verify.
  destruct (negb (r_written r =? 0) && negb (r_written r =? r_expected r)); [reflexivity|].
  pose proof (holds_range_first _ _ _ Hh) as Hf.
  replace (r_start r <? first_index sv) with false by lia.
  rewrite (read_range_holds _ _ _ Hh).
  destruct (chain 0 (slice sv (r_start r) (r_end r)) =? r_expected r); cbn; auto.
Qed.

Lemma verify_below sv r :
  r_start r < first_index sv ->
  r_err (verify sv r) = if negb (r_written r =? 0) && negb (r_written r =? r_expected r) then ECkInflight else ERange.
Proof.
  intros Hlt. unfold verify. destruct (negb (r_written r =? 0) && negb (r_written r =? r_expected r)); [reflexivity|].
  now replace (r_start r <? first_index sv) with true by lia.
Qed.

Lemma inflight_iff sv r :
  r_err r = ENone ->
  (r_err (verify sv r) = ECkInflight <-> r_written r <> 0 /\ r_written r <> r_expected r).
Proof.
  intros He. unfold verify.
  destruct (r_written r =? 0) eqn:E0; destruct (r_written r =? r_expected r) eqn:E1; cbn [negb andb].
  4:{ cbn. split; [intros _; lia|reflexivity]. }
  all: split; [|intros [? ?]; lia].
  all: destruct (r_start r <? first_index sv); [cbn; discriminate|].
  all: destruct (read_range sv (r_start r) (N.to_nat (r_end r - r_start r)) 0) as [sum|]; [|cbn; discriminate].
  all: destruct (sum =? r_expected r); cbn; rewrite ?He; discriminate.
Qed.

Lemma verify_fields s r :
  r_start (verify s r) = r_start r /\ r_end (verify s r) = r_end r /\
  r_expected (verify s r) = r_expected r /\ r_written (verify s r) = r_written r /\
  r_skipped (verify s r) = r_skipped r.
Proof.
  unfold verify.
  destruct (negb (r_written r =? 0) && negb (r_written r =? r_expected r)); [repeat split|].
  destruct (r_start r <? first_index s); [repeat split|].
  destruct (read_range s (r_start r) (N.to_nat (r_end r - r_start r)) 0) as [sum|]; [|repeat split].
  destruct (sum =? r_expected r); repeat split.
Qed.

Lemma verify_skipped_irrelevant s r k : r_err (verify s (set_skipped r k)) = r_err (verify s r).
Proof.
  unfold verify. cbn [set_skipped r_written r_expected r_start r_end].
  destruct (negb (r_written r =? 0) && negb (r_written r =? r_expected r)); [reflexivity|].
  destruct (r_start r <? first_index s); [reflexivity|].
  destruct (read_range s (r_start r) (N.to_nat (r_end r - r_start r)) 0) as [sum|]; [|reflexivity].
  destruct (sum =? r_expected r); reflexivity.
Qed.
