(* NodesFacts.v -- invariants of multi-node histories and the theorems behind
   C16 (no false alarms), C17 (detection, blame) and C18 (pass-through). *)
From RW Require Import Base.Bytes Base.Fnv Base.FnvFacts Vfy.Checksum Vfy.ChecksumFacts
  Vfy.Spec Vfy.SpecFacts Vfy.Store Vfy.StoreFacts Vfy.VerifChan Vfy.VerifChanFacts Vfy.Nodes.
From RW Require Import Base.LiaSetup.
Open Scope N_scope.

Section WithCpf.
  Variable cpf : entry -> option bool.

  Lemma node_at_upd st k f n :
    node_at (upd_nth st k f) n = node_at st n \/
    (n = k /\ node_at (upd_nth st k f) n = f (node_at st n)).
  Proof.
    unfold node_at. revert k n; induction st as [|x st IH]; intros k n.
    - left. destruct k; reflexivity.
    - destruct k as [|k]; destruct n as [|n]; cbn [upd_nth nth]; auto.
      destruct (IH k n) as [H|[H1 H2]]; [left; exact H|right; split; [congruence|exact H2]].
  Qed.

  Lemma node_at_init k n : node_at (sys_init k) n = node_init.
  Proof.
    unfold node_at, sys_init. revert n; induction k as [|k IH]; intros [|n]; cbn; auto.
  Qed.

  (* a property of nodes that every step allowed by [ok] preserves holds along every history of
     such steps *)
  Lemma run_invariant (ok : event -> bool) (P : node -> Prop) :
    (forall nd ev, ok ev = true -> P nd -> P (node_step cpf nd ev)) ->
    forall h st, forallb ok h = true -> (forall n, P (node_at st n)) -> forall n, P (node_at (run cpf st h) n).
  Proof.
    intros Hstep h. induction h as [|ev h IH]; intros st Hh H n; [apply H|].
    cbn [forallb] in Hh. apply andb_true_iff in Hh as [H1 H2].
    unfold run in *. cbn [fold_left]. apply (IH _ H2). intros m. unfold step.
    destruct (node_at_upd st (ev_node ev) (fun nd => node_step cpf nd ev) m) as [E|[_ E]]; rewrite E.
    - apply H.
    - apply (Hstep _ _ H1). apply H.
  Qed.

  Definition ninv (nd : node) : Prop :=
    aligned (n_store nd) (n_shadow nd) /\ vinv (n_v nd) (n_shadow nd).

  Lemma ninv_init : ninv node_init.
  Proof.
    split; [apply aligned_refl|]. apply vinv_init. intros C. contradiction C. reflexivity.
  Qed.

  (* what a successful StoreLogs guarantees about the node and its reports *)
  Lemma node_store_ok nd b nd' rs :
    ninv nd -> node_store cpf nd b = (SOk, nd', rs) ->
    ninv nd' /\
    Forall (Rv (s_first (n_shadow nd')) (s_logs (n_shadow nd'))) rs /\
    (leader_batch cpf b -> Forall (Rleader (s_first (n_shadow nd')) (s_logs (n_shadow nd'))) rs).
  Proof.
    intros [Hs Hv] H. unfold node_store in H.
    destruct b as [|e0 r].
    - rewrite vstore_logs_nil in H. cbn in H. inversion H; subst. cbn.
      split; [split; assumption|]. split; [constructor|intros _; constructor].
    - remember (vstore_logs cpf (n_fail nd) (n_v nd) (n_store nd) (e0 :: r)) as o eqn:Eo.
      inversion H as [[Hres Hnd Hrs]]. clear H.
      assert (Hb : e0 :: r <> []) by discriminate.
      assert (Hres' : o_res (vstore_logs cpf (n_fail nd) (n_v nd) (n_store nd) (e0 :: r)) = SOk)
        by (rewrite <- Eo; exact Hres).
      destruct (vstore_logs_ok cpf (n_fail nd) (n_v nd) (n_store nd) (n_shadow nd) (e0 :: r)
                  Hv Hs Hres' Hb) as (sh' & Esh & Hs' & Hv' & HR & HL).
      rewrite <- Eo in Esh, Hs', Hv', HR, HL.
      rewrite Hres. cbn [n_shadow n_store n_v]. rewrite Esh.
      split; [split; assumption|]. split; assumption.
  Qed.

  Lemma node_store_err nd b res nd' rs :
    node_store cpf nd b = (res, nd', rs) -> res <> SOk ->
    n_v nd' = n_v nd /\ n_store nd' = n_store nd /\ n_shadow nd' = n_shadow nd /\ rs = [] /\
    c_pending (n_c nd') = c_pending (n_c nd) /\ c_written (n_c nd') = c_written (n_c nd).
  Proof.
    unfold node_store. intros H Hne. inversion H as [[Hres Hnd Hrs]]. subst res.
    destruct (vstore_logs_err cpf (n_fail nd) (n_v nd) (n_store nd) b Hne) as (A & B & C).
    cbn [n_v n_store n_shadow n_c]. rewrite A, B, C.
    destruct (o_res (vstore_logs cpf (n_fail nd) (n_v nd) (n_store nd) b)); try contradiction;
      repeat split; cbn; try rewrite app_nil_r; try lia; reflexivity.
  Qed.

  Lemma ninv_store nd b : ninv nd -> ninv (snd (fst (node_store cpf nd b))).
  Proof.
    intros H. destruct (node_store cpf nd b) as [[res nd'] rs] eqn:E. cbn [fst snd].
    destruct res; [apply (node_store_ok nd b nd' rs H E)| |];
      (destruct (node_store_err nd b _ nd' rs E) as (A & B & C & _); [discriminate|]);
      destruct H as [Hs Hv]; split; rewrite ?A, ?B, ?C; assumption.
  Qed.

  Lemma ninv_delete nd mn mx lf : ninv nd -> ninv (snd (node_delete nd mn mx lf)).
  Proof.
    intros [Hs Hv]. unfold node_delete, vdelete_range.
    destruct (delete_range (n_store nd) mn mx) as [s'|] eqn:E; cbn [snd n_store n_shadow n_v].
    - destruct (delete_aligned _ _ _ _ _ Hs (proj2 Hv) E) as [Ha Hw].
      split; [exact Ha|].
      destruct (lf || (last_index (n_store nd) <=? mx)) eqn:El; [apply vinv_init; exact Hw|].
      apply Bool.orb_false_elim in El. destruct El as [_ El].
      (* a pure head truncation: the written log and the running sum are untouched *)
      destruct (delete_range_cases _ _ _ _ E) as [(_ & Q)|[(_ & L & _)|(_ & _ & _ & _ & Q)]]; [now rewrite Q | lia | now rewrite Q].
    - split; assumption.
  Qed.

  Lemma ninv_step nd ev : ninv nd -> ninv (node_step cpf nd ev).
  Proof.
    intros H. destruct ev; cbn [node_step].
    - destruct (c_pending (n_c nd)); [apply ninv_store; exact H|exact H].
    - apply ninv_delete; exact H.
    - unfold node_restart. destruct (ch_quiescent (n_c nd)); [|exact H].
      destruct H as [Hs [_ Hw]]. split; [exact Hs|]. apply vinv_init. exact Hw.
    - destruct H as [Hs Hv]. split; [|exact Hv]. cbn [node_tamper n_store n_shadow].
      apply tamper_aligned. exact Hs.
    - exact H.
    - exact H.
    - exact H.
    - exact H.
  Qed.

  Lemma ninv_run h k n : ninv (node_at (run cpf (sys_init k) h) n).
  Proof.
    apply (run_invariant (fun _ => true) ninv (fun nd ev _ => ninv_step nd ev)); [now apply forallb_forall|].
    intros m. rewrite node_at_init. apply ninv_init.
  Qed.

  (* without at-rest corruption the store is exactly the part of the written log
     that compaction has left (and all of it when nothing was compacted) *)
  Lemma suffix_step nd ev :
    is_tamper ev = false -> ninv nd -> suffix_of (n_store nd) (n_shadow nd) ->
    suffix_of (n_store (node_step cpf nd ev)) (n_shadow (node_step cpf nd ev)).
  Proof.
    intros Ht [Ha [_ Hw]] E. destruct ev; cbn [node_step is_tamper] in *; try discriminate; try exact E.
    - destruct (c_pending (n_c nd)); [|exact E]. unfold node_store. cbn [fst snd n_shadow n_store].
      unfold vstore_logs. destruct b as [|e0 r]; [exact E|].
      destruct (uvs_loop cpf (e0 :: r) (v_sum (n_v nd)) (v_start (n_v nd))) as [[[[cs st] rs] b']|];
        [|exact E].
      destruct (n_fail nd); [exact E|]. cbn.
      destruct (store_logs (n_store nd) b') as [s'|] eqn:Es; cbn; [|exact E].
      destruct (store_logs_aligned _ _ _ _ Ha Es) as (sh' & Esh & _). rewrite Esh.
      eapply suffix_of_store; eauto.
    - unfold node_delete, vdelete_range.
      destruct (delete_range (n_store nd) mn mx) as [s'|] eqn:Ed; cbn [snd n_store n_shadow]; [|exact E].
      eapply suffix_of_delete; eauto.
    - unfold node_restart. destruct (ch_quiescent (n_c nd)); exact E.
  Qed.

  Lemma no_tamper_suffix h k n :
    forallb (fun ev => negb (is_tamper ev)) h = true ->
    suffix_of (n_store (node_at (run cpf (sys_init k) h) n)) (n_shadow (node_at (run cpf (sys_init k) h) n)).
  Proof.
    intros Hh.
    apply (run_invariant _ (fun nd => ninv nd /\ suffix_of (n_store nd) (n_shadow nd))) with (st := sys_init k) (n := n) in Hh.
    - apply Hh.
    - intros nd ev Hok [Hi Hs]. split; [now apply ninv_step|]. apply suffix_step; [|exact Hi | exact Hs].
      now destruct (is_tamper ev).
    - intros m. rewrite node_at_init. split; [apply ninv_init | apply suffix_of_refl].
  Qed.

  Lemma Rfull_holds sh r :
    Rfull (s_first sh) (s_logs sh) r ->
    holds_range sh (r_start r) (r_end r) /\
    r_written r = chain 0 (slice sh (r_start r) (r_end r)).
  Proof.
    intros (H1 & H2 & H3 & H4). split.
    - split; [|split; lia]. intros C. rewrite C in H3. cbn in H3. lia.
    - rewrite slice_range_of by exact H1. exact H4.
  Qed.

  (* the report of a checkpoint stored after ANY history: it has no error yet and
     WrittenSum is either 0 (not claimed) or the chain over exactly the entries
     the node wrote, and still holds, for the whole range *)
  Lemma report_written h k n b nd' rs r :
    node_store cpf (node_at (run cpf (sys_init k) h) n) b = (SOk, nd', rs) -> In r rs ->
    r_err r = ENone /\
    (r_written r = 0 \/
     (holds_range (n_shadow nd') (r_start r) (r_end r) /\
      r_written r = chain 0 (slice (n_shadow nd') (r_start r) (r_end r)))).
  Proof.
    intros H Hin.
    destruct (node_store_ok _ b nd' rs (ninv_run h k n) H) as (_ & HR & _).
    rewrite Forall_forall in HR. destruct (HR r Hin) as [He [Hz|Hf]].
    - split; [exact He|left; exact Hz].
    - split; [exact He|right; apply Rfull_holds; exact Hf].
  Qed.

  (* a leader's own checkpoint: ExpectedSum (what goes into the Extensions and to
     every follower) is the chain over what the leader wrote for [Start, End) *)
  Lemma leader_sum h k n b nd' rs r :
    node_store cpf (node_at (run cpf (sys_init k) h) n) b = (SOk, nd', rs) ->
    leader_batch cpf b -> In r rs ->
    holds_range (n_shadow nd') (r_start r) (r_end r) /\
    r_expected r = chain 0 (slice (n_shadow nd') (r_start r) (r_end r)) /\
    r_written r = r_expected r.
  Proof.
    intros H Hl Hin.
    destruct (node_store_ok _ b nd' rs (ninv_run h k n) H) as (_ & _ & HL).
    specialize (HL Hl). rewrite Forall_forall in HL. destruct (HL r Hin) as [Hf He].
    destruct (Rfull_holds _ _ Hf) as [A B]. split; [exact A|]. split; [rewrite He; exact B|symmetry; exact He].
  Qed.

  (* C16.  [L]: the entries the leader checksummed for the report's range; the fourth hypothesis
     says the writing node wrote those very entries if it held the range at all; [sv]: the store at
     verification time, which holds the range with the same entries.  Then verify raises no error. *)
  Theorem no_false_alarm h k n b nd' rs r L sv :
    node_store cpf (node_at (run cpf (sys_init k) h) n) b = (SOk, nd', rs) -> In r rs ->
    r_expected r = chain 0 L ->
    (holds_range (n_shadow nd') (r_start r) (r_end r) ->
     slice (n_shadow nd') (r_start r) (r_end r) = L) ->
    holds_range sv (r_start r) (r_end r) -> slice sv (r_start r) (r_end r) = L ->
    r_err (verify sv r) = ENone.
  Proof.
    intros H Hin Hexp Hw Hh Hr.
    destruct (report_written h k n b nd' rs r H Hin) as [He Hwr].
    rewrite (verify_held sv r He Hh), Hr, <- Hexp, N.eqb_refl.
    destruct Hwr as [-> |[Hhr Hc]]; [reflexivity|].
    rewrite Hc, (Hw Hhr), <- Hexp, N.eqb_refl. now rewrite Bool.andb_false_r.
  Qed.

  (* C16, the other side: a verifying store [sv] whose first index lies beyond the range's start *)
  Theorem range_mismatch h k n b nd' rs r sv :
    node_store cpf (node_at (run cpf (sys_init k) h) n) b = (SOk, nd', rs) -> In r rs ->
    r_start r < first_index sv ->
    (* the node did not hold the whole range when the checkpoint was stored ... *)
    (~ holds_range (n_shadow nd') (r_start r) (r_end r) -> r_err (verify sv r) = ERange) /\
    (* ... and in any case the only other verdict is a write-time mismatch of a
       range the node did hold and write then *)
    (r_err (verify sv r) = ERange \/
     (r_err (verify sv r) = ECkInflight /\ holds_range (n_shadow nd') (r_start r) (r_end r) /\
      r_written r = chain 0 (slice (n_shadow nd') (r_start r) (r_end r)) /\
      r_written r <> r_expected r)).
  Proof.
    intros H Hin Hlt.
    destruct (report_written h k n b nd' rs r H Hin) as [He Hwr].
    pose proof (inflight_iff sv r He) as Hi. rewrite (verify_below sv r Hlt) in *.
    destruct (negb (r_written r =? 0) && negb (r_written r =? r_expected r)); [|split; [reflexivity | now left]].
    destruct (proj1 Hi eq_refl) as [Hnz Hne]. destruct Hwr as [Z|[Hhr Hc]]; [contradiction|].
    split; [intros Hnh; contradiction | right; auto].
  Qed.

  (* C17 *)
  Theorem detect_no_collision sv r L R :
    r_err r = ENone -> r_expected r = chain 0 L ->
    holds_range sv (r_start r) (r_end r) -> slice sv (r_start r) (r_end r) = R ->
    chain 0 R <> chain 0 L ->
    is_checksum_err (r_err (verify sv r)) = true.
  Proof.
    intros He Hexp Hh Hr Hne. rewrite (verify_held sv r He Hh), Hr, Hexp.
    destruct (negb (r_written r =? 0) && negb (r_written r =? chain 0 L)); [reflexivity|].
    now destruct (N.eqb_spec (chain 0 R) (chain 0 L)).
  Qed.

  (* detection is a property of verify alone: whatever the range holds at
     verification time (altered in flight or at rest), if it is not what the
     leader checksummed the verdict is a checksum mismatch -- unless the two byte
     streams collide under FNV-1a *)
  Theorem detect sv r L R :
    r_err r = ENone -> r_expected r = chain 0 L ->
    holds_range sv (r_start r) (r_end r) -> slice sv (r_start r) (r_end r) = R -> R <> L ->
    is_checksum_err (r_err (verify sv r)) = true \/
    fnv_add 0 (chain_stream R) = fnv_add 0 (chain_stream L).
  Proof.
    intros He Hexp Hh Hr Hne. destruct (N.eq_dec (chain 0 R) (chain 0 L)) as [Q|Q].
    - right. now rewrite <- !chain_is_fnv_of_stream.
    - left. now apply (detect_no_collision sv r L R).
  Qed.

  (* a one-byte difference in one entry of the range is always detected *)
  Theorem detect_byte_flip sv r pre e e' post x b1 b2 y :
    r_err r = ENone -> r_expected r = chain 0 (pre ++ e :: post) ->
    holds_range sv (r_start r) (r_end r) ->
    slice sv (r_start r) (r_end r) = pre ++ e' :: post ->
    no_bootstrap (pre ++ e :: post) -> no_bootstrap (pre ++ e' :: post) -> Forall wf_entry post ->
    entry_stream e = x ++ b1 :: y -> entry_stream e' = x ++ b2 :: y ->
    wf_byte b1 -> wf_byte b2 -> wf_bytes y -> b1 <> b2 ->
    is_checksum_err (r_err (verify sv r)) = true.
  Proof.
    intros He Hexp Hh Hr Hn1 Hn2 Hp E1 E2 B1 B2 Hy Hne.
    eapply detect_no_collision; eauto.
    apply not_eq_sym.
    eapply range_byte_flip_changes_sum; eauto.
  Qed.

  (* in-flight corruption is blamed only when the node really wrote, for the
     whole range, something other than what the leader checksummed *)
  Theorem blame_inflight_sound h k n b nd' rs r L sv :
    node_store cpf (node_at (run cpf (sys_init k) h) n) b = (SOk, nd', rs) -> In r rs ->
    r_expected r = chain 0 L ->
    r_err (verify sv r) = ECkInflight ->
    holds_range (n_shadow nd') (r_start r) (r_end r) /\
    slice (n_shadow nd') (r_start r) (r_end r) <> L /\
    r_written r = chain 0 (slice (n_shadow nd') (r_start r) (r_end r)).
  Proof.
    intros H Hin Hexp Hk.
    destruct (report_written h k n b nd' rs r H Hin) as [He Hwr].
    apply (inflight_iff sv r He) in Hk as [Hnz Hne].
    destruct Hwr as [Z|[Hhr Hc]]; [contradiction|]. split; [exact Hhr|]. split; [|exact Hc].
    intros E. apply Hne. rewrite Hc, E. symmetry. exact Hexp.
  Qed.

  (* ---- C18: pass-through ---------------------------------------------------------- *)
  (* e' is e, or e is a leader's checkpoint (empty Extensions) that gained the
     24 bytes of verification metadata *)
  Definition gains_meta (e e' : entry) : Prop :=
    e' = e \/ (cpf e = Some true /\ e_ext e = [] /\
               exists a c, e' = set_ext e (encode_meta a c) /\ length (e_ext e') = 24%nat).

  (* a checkpoint whose Extensions hold something that is not our metadata *)
  Definition foreign_checkpoint (e : entry) : Prop :=
    cpf e = Some true /\ e_ext e <> [] /\ decode_meta (e_ext e) = MetaErr.

  Lemma uvs_gains e cs start cs' st' ro e' :
    update_verify_state cpf e cs start = UvsOk cs' st' ro e' -> gains_meta e e'.
  Proof.
    unfold update_verify_state. destruct (cpf e) as [[|]|] eqn:Ec; try discriminate.
    - destruct (e_ext e) as [|x0 xr] eqn:Ex.
      + intros H; inversion H. right. repeat split; auto. eexists _, _. split; reflexivity.
      + destruct (decode_meta (x0 :: xr)); [|discriminate]. intros H; inversion H. left; reflexivity.
    - intros H; inversion H. left; reflexivity.
  Qed.

  Lemma uvs_loop_gains b : forall cs start cs' st' rs b',
    uvs_loop cpf b cs start = Some (cs', st', rs, b') -> Forall2 gains_meta b b'.
  Proof.
    induction b as [|e r IH]; intros cs start cs' st' rs b' H.
    - inversion H; constructor.
    - cbn [uvs_loop] in H.
      destruct (update_verify_state cpf e cs start) as [|c1 s1 ro e1] eqn:Eu; [discriminate|].
      destruct (uvs_loop cpf r c1 s1) as [[[[c2 s2] rs2] es2]|] eqn:El; [|discriminate].
      inversion H; subst. constructor; [eapply uvs_gains; eauto|eapply IH; eauto].
  Qed.

  Lemma uvs_loop_refuses b : forall cs start e,
    In e b -> (cpf e = None \/ foreign_checkpoint e) -> uvs_loop cpf b cs start = None.
  Proof.
    induction b as [|x r IH]; intros cs start e Hin Hbad; [contradiction|].
    cbn [uvs_loop]. destruct (update_verify_state cpf x cs start) as [|c1 s1 ro e1] eqn:Eu; [reflexivity|].
    destruct Hin as [->|Hin].
    - exfalso. unfold update_verify_state in Eu. destruct Hbad as [Hn|(Hc & Hx & Hd)].
      + rewrite Hn in Eu. discriminate.
      + rewrite Hc in Eu. destruct (e_ext e) as [|x0 xr]; [contradiction|]. rewrite Hd in Eu. discriminate.
    - rewrite (IH c1 s1 e Hin Hbad). reflexivity.
  Qed.

  (* StoreLogs through the middleware = StoreLogs of the same entries on the
     underlying store, a leader's checkpoint gaining metadata; on any error the
     store and the verifier state are untouched and nothing is reported *)
  Theorem passthrough_store nd b res nd' rs :
    node_store cpf nd b = (res, nd', rs) ->
    match res with
    | SOk => exists b', Forall2 gains_meta b b' /\ store_logs (n_store nd) b' = Some (n_store nd')
    | SErrVfy => n_store nd' = n_store nd /\ n_v nd' = n_v nd /\ rs = []
    | SErrStore => n_store nd' = n_store nd /\ n_v nd' = n_v nd /\ rs = [] /\
                   (n_fail nd = true \/
                    exists b', Forall2 gains_meta b b' /\ store_logs (n_store nd) b' = None)
    end.
  Proof.
    intros H. destruct res.
    - unfold node_store in H. inversion H as [[Hres Hnd Hrs]]. cbn [n_store].
      unfold vstore_logs in *. destruct b as [|e0 r].
      + exists []. split; [constructor|reflexivity].
      + destruct (uvs_loop cpf (e0 :: r) (v_sum (n_v nd)) (v_start (n_v nd))) as [[[[cs st] rs'] b']|] eqn:El;
          [|discriminate Hres].
        destruct (n_fail nd); [discriminate Hres|].
        destruct (store_logs (n_store nd) b') as [s'|] eqn:Es; [|discriminate Hres].
        exists b'. split; [eapply uvs_loop_gains; eauto|]. cbn. exact Es.
    - destruct (node_store_err nd b _ nd' rs H) as (A & B & _ & D & _); [discriminate|]. auto.
    - destruct (node_store_err nd b _ nd' rs H) as (A & B & _ & D & _); [discriminate|].
      repeat split; auto.
      unfold node_store in H. inversion H as [[Hres Hnd Hrs]].
      unfold vstore_logs in Hres. destruct b as [|e0 r]; [discriminate Hres|].
      destruct (uvs_loop cpf (e0 :: r) (v_sum (n_v nd)) (v_start (n_v nd))) as [[[[cs st] rs'] b']|] eqn:El;
        [|discriminate Hres].
      destruct (n_fail nd); [left; reflexivity|].
      destruct (store_logs (n_store nd) b') as [s'|] eqn:Es; [discriminate Hres|].
      right. exists b'. split; [eapply uvs_loop_gains; eauto|exact Es].
  Qed.

  Theorem foreign_checkpoint_refused nd b e :
    In e b -> (cpf e = None \/ foreign_checkpoint e) ->
    fst (fst (node_store cpf nd b)) = SErrVfy /\
    n_store (snd (fst (node_store cpf nd b))) = n_store nd.
  Proof.
    intros Hin Hbad. unfold node_store. cbn [fst snd n_store]. unfold vstore_logs.
    destruct b as [|e0 r]; [contradiction|].
    rewrite (uvs_loop_refuses (e0 :: r) _ _ e Hin Hbad). split; reflexivity.
  Qed.

  (* DeleteRange: same result and same effect on the store as the underlying
     call (preceded by one LastIndex read, which has no effect); the running sum
     restarts exactly when that read failed ([lf]) or the deleted range reached the
     last index; a head truncation after a successful read leaves it alone *)
  Theorem passthrough_delete nd mn mx lf :
    match delete_range (n_store nd) mn mx with
    | Some s' => node_delete nd mn mx lf = (true, snd (node_delete nd mn mx lf)) /\
                 n_store (snd (node_delete nd mn mx lf)) = s' /\
                 n_v (snd (node_delete nd mn mx lf)) =
                   (if lf || (last_index (n_store nd) <=? mx) then v_init else n_v nd)
    | None => fst (node_delete nd mn mx lf) = false /\
              n_store (snd (node_delete nd mn mx lf)) = n_store nd /\
              n_v (snd (node_delete nd mn mx lf)) = n_v nd
    end.
  Proof.
    unfold node_delete, vdelete_range. destruct (delete_range (n_store nd) mn mx); cbn; auto.
  Qed.

  (* reads never involve the middleware state, and no verifier step (send,
     receive + verify, ReportFn return, restart) changes the store *)
  Theorem passthrough_other nd ev :
    match ev with HStore _ _ | HDelete _ _ _ _ | HTamper _ _ _ => True
    | _ => n_store (node_step cpf nd ev) = n_store nd end.
  Proof.
    destruct ev; cbn [node_step]; auto.
    unfold node_restart. destruct (ch_quiescent (n_c nd)); reflexivity.
  Qed.

  (* ---- C18: the channel part of a node is the VerifChan system -------------------- *)
  Definition cevents_of (nd : node) (ev : event) : list cevent :=
    match ev with
    | HStore _ b => match c_pending (n_c nd) with
                    | [] => [CPush (snd (node_store cpf nd b))]
                    | _ => []
                    end
    | HSend _ => [CSend]
    | HRecv _ => [CRecv (n_store nd)]
    | HReturn _ => [CReturn]
    | _ => []
    end.

  Lemma node_step_channel nd ev :
    (forall n, ev <> HRestart n) ->
    n_c (node_step cpf nd ev) = crun (n_c nd) (cevents_of nd ev).
  Proof.
    intros Hnr. destruct ev; cbn [node_step cevents_of crun fold_left cstep]; try reflexivity.
    - destruct (c_pending (n_c nd)); reflexivity.
    - unfold node_delete, vdelete_range. destruct (delete_range (n_store nd) mn mx); reflexivity.
    - contradiction (Hnr n). reflexivity.
  Qed.
End WithCpf.
