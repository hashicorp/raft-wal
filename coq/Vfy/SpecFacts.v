(* SpecFacts.v -- the contiguous-log store of Vfy/Spec.v: [wf_store] (a non-empty log does not
   start at index 0) and that StoreLogs and DeleteRange keep it; which results the two calls have;
   and the two relations between a store and the ghost log of everything written, [aligned]
   (same end, kept by tampering) and [suffix_of] (the same entries, as long as nothing tampers). *)
From RW Require Import Base.Bytes Base.BytesFacts Vfy.Checksum Vfy.Spec.
From RW Require Import Base.LiaSetup.
Open Scope N_scope.

(* In Vfy [len] is this notation, on any list; it hides the definition [Base.Bytes.len]. *)
Notation len l := (N.of_nat (length l)).

Lemma firstn_skipn_app_stable {A} (l x : list A) (j k : nat) :
  (j + k <= length l)%nat -> firstn k (skipn j (l ++ x)) = firstn k (skipn j l).
Proof.
  intros H. rewrite skipn_app_le by lia. rewrite firstn_app.
  replace (k - length (skipn j l))%nat with 0%nat by (rewrite skipn_length; lia).
  rewrite firstn_O, app_nil_r. reflexivity.
Qed.

Lemma nth_error_skipn_cons {A} (l : list A) (k : nat) (e : A) :
  nth_error l k = Some e -> skipn k l = e :: skipn (S k) l.
Proof.
  revert k; induction l as [|x l IH]; intros [|k] H; try discriminate.
  - inversion H; subst. reflexivity.
  - cbn [nth_error] in H. cbn [skipn]. rewrite (IH k H). reflexivity.
Qed.

Lemma set_nth_length {A} (l : list A) k x : length (set_nth l k x) = length l.
Proof.
  revert k; induction l as [|y l IH]; intros [|k]; cbn; auto.
Qed.

Lemma length_pos_nonempty {A} (l : list A) : l <> [] <-> 0 < len l.
Proof. destruct l; cbn [length]; split; try lia; congruence. Qed.

Lemma contig_from_map i b b' :
  map e_index b' = map e_index b -> contig_from i b' = contig_from i b.
Proof.
  revert i b'; induction b as [|e r IH]; intros i [|e' r'] H; try discriminate; [reflexivity|].
  cbn in H. inversion H as [[H1 H2]]. cbn [contig_from]. rewrite H1, (IH (i + 1) r' H2). reflexivity.
Qed.

Lemma contig_from_cons i e r :
  contig_from i (e :: r) = true <-> e_index e = i /\ contig_from (i + 1) r = true.
Proof.
  cbn [contig_from]. rewrite andb_true_iff, N.eqb_eq. reflexivity.
Qed.

Lemma store_logs_nil s : store_logs s [] = Some s.
Proof. reflexivity. Qed.

Definition wf_store (s : sstore) : Prop := s_logs s <> [] -> s_first s <> 0.

Lemma store_logs_some s b s' :
  b <> [] -> store_logs s b = Some s' -> wf_store s ->
  s_logs s' = s_logs s ++ b /\
  contig_from (s_first s' + len (s_logs s)) b = true /\
  s_first s' <> 0 /\
  (s_logs s <> [] -> s_first s' = s_first s).
Proof.
  intros Hb H Hwf. destruct b as [|e0 r]; [contradiction|].
  unfold store_logs in H. destruct (s_logs s) as [|x l] eqn:El.
  - destruct (e_index e0 =? 0) eqn:E0; [discriminate|].
    destruct (contig_from (e_index e0) (e0 :: r)) eqn:Ec; [|discriminate].
    inversion H; subst; cbn [s_logs s_first length]. repeat split; auto.
    + rewrite N.add_0_r. exact Ec.
    + apply N.eqb_neq in E0. exact E0.
    + intros Hne. contradiction.
  - destruct (contig_from (s_first s + len (x :: l)) (e0 :: r)) eqn:Ec; [|discriminate].
    inversion H; subst; cbn [s_logs s_first]. repeat split; auto.
    apply Hwf. rewrite El. discriminate.
Qed.

Lemma store_logs_wf s b s' : store_logs s b = Some s' -> wf_store s -> wf_store s'.
Proof.
  intros H Hwf. destruct b as [|e0 r].
  - inversion H; subst; exact Hwf.
  - destruct (store_logs_some s (e0 :: r) s') as (_&_&Hnz&_); auto; try discriminate.
    intros _. exact Hnz.
Qed.

Lemma store_logs_shape a sh b a' :
  same_shape a sh -> store_logs a b = Some a' ->
  exists sh', store_logs sh b = Some sh' /\ same_shape a' sh'.
Proof.
  intros [Hf Hl] H. destruct b as [|e0 r].
  - inversion H; subst. exists sh. split; [reflexivity|split; assumption].
  - unfold store_logs in *. destruct (s_logs a) as [|x l] eqn:Ea; destruct (s_logs sh) as [|y m] eqn:Es;
      try discriminate Hl.
    + destruct (e_index e0 =? 0); [discriminate|].
      destruct (contig_from (e_index e0) (e0 :: r)); [|discriminate].
      inversion H; subst. eexists; split; [reflexivity|]. split; reflexivity.
    + rewrite <- Hf, <- Hl.
      destruct (contig_from (s_first a + len (x :: l)) (e0 :: r)); [|discriminate].
      inversion H; subst. eexists; split; [reflexivity|].
      split; cbn [s_first s_logs]; [reflexivity|]. rewrite !app_length. cbn [length] in *. rewrite ?app_length. cbn [length]. lia.
Qed.

Lemma store_logs_shape_none a sh b :
  same_shape a sh -> store_logs a b = None -> store_logs sh b = None.
Proof.
  intros Hs H. destruct (store_logs sh b) as [sh'|] eqn:E; [|reflexivity].
  assert (Hs' : same_shape sh a) by (destruct Hs; split; auto).
  destruct (store_logs_shape sh a b sh' Hs' E) as (x & Hx & _). congruence.
Qed.

Lemma last_index_shape a sh : same_shape a sh -> last_index a = last_index sh.
Proof.
  intros [Hf Hl]. unfold last_index.
  destruct (s_logs a) as [|x l]; destruct (s_logs sh) as [|y m]; try discriminate Hl; [reflexivity|].
  rewrite Hf, Hl. reflexivity.
Qed.

Lemma delete_range_shape a sh mn mx a' :
  same_shape a sh -> delete_range a mn mx = Some a' ->
  exists sh', delete_range sh mn mx = Some sh' /\ same_shape a' sh'.
Proof.
  intros Hs H. pose proof (last_index_shape a sh Hs) as Hlast. destruct Hs as [Hf Hl].
  unfold delete_range in *. destruct (mx <? mn).
  - inversion H; subst. exists sh. split; [reflexivity|split; assumption].
  - destruct (s_logs a) as [|x l] eqn:Ea; destruct (s_logs sh) as [|y m] eqn:Es; try discriminate Hl.
    + inversion H; subst. exists sh. split; [reflexivity|]. split; [exact Hf|]. rewrite Ea, Es. reflexivity.
    + cbv zeta in *. rewrite <- Hf, <- Hlast.
      destruct ((mx <? s_first a) || (last_index a <? mn)).
      * inversion H; subst. exists sh. split; [reflexivity|]. split; [exact Hf|]. rewrite Ea, Es. exact Hl.
      * destruct (mn <=? s_first a).
        -- destruct (last_index a <=? mx).
           ++ inversion H; subst. eexists; split; [reflexivity|]. split; reflexivity.
           ++ inversion H; subst. eexists; split; [reflexivity|]. split; [reflexivity|].
              cbn [s_logs]. rewrite !skipn_length, Hl. reflexivity.
        -- destruct (last_index a <=? mx); [|discriminate].
           inversion H; subst. eexists; split; [reflexivity|]. split; [reflexivity|].
           cbn [s_logs]. rewrite !firstn_length, Hl. reflexivity.
Qed.

(* the four ways DeleteRange succeeds, each with what it leaves of the written log *)
Lemma delete_range_cases s mn mx s' :
  delete_range s mn mx = Some s' ->
  (s' = s /\ forall sh, shadow_delete s sh mn mx = sh) \/
  (s_logs s <> [] /\ last_index s <= mx /\
   ((mn <= s_first s /\ s' = s_empty /\ forall sh, shadow_delete s sh mn mx = s_empty) \/
    (s_first s < mn <= last_index s /\
     s' = {| s_first := s_first s; s_logs := firstn (N.to_nat (mn - s_first s)) (s_logs s) |} /\
     forall sh, shadow_delete s sh mn mx =
                {| s_first := s_first sh; s_logs := firstn (N.to_nat (mn - s_first sh)) (s_logs sh) |}))) \/
  (s_logs s <> [] /\ mn <= s_first s <= mx /\ mx < last_index s /\
   s' = {| s_first := mx + 1; s_logs := skipn (N.to_nat (mx + 1 - s_first s)) (s_logs s) |} /\
   forall sh, shadow_delete s sh mn mx = sh).
Proof.
  unfold delete_range, shadow_delete. intros H.
  destruct (mx <? mn) eqn:Em; [left; injection H as <-; auto|].
  destruct (s_logs s) as [|x l] eqn:El; [left; injection H as <-; auto|]. cbv zeta in *.
  assert (Hlast : last_index s = s_first s + len (x :: l) - 1) by (unfold last_index; now rewrite El).
  assert (Hlen : 0 < len (x :: l)) by (cbn [length]; lia).
  destruct ((mx <? s_first s) || (last_index s <? mn)) eqn:Enoop.
  - left. injection H as <-. split; [reflexivity|]. intros sh.
    destruct (last_index s <=? mx) eqn:E1; [|reflexivity]. destruct (last_index s <? mn) eqn:E2; [reflexivity | lia].
  - destruct (mn <=? s_first s) eqn:Ehead; destruct (last_index s <=? mx) eqn:Eall; [| |  |discriminate H]; injection H as <-; right.
    + left. split; [discriminate|]. split; [lia|]. left. split; [lia|]. split; [reflexivity|].
      intros sh. now replace (last_index s <? mn) with false by lia.
    + right. split; [discriminate|]. repeat split; lia.
    + left. split; [discriminate|]. split; [lia|]. right. split; [lia|]. split; [reflexivity|].
      intros sh. now replace (last_index s <? mn) with false by lia.
Qed.

Lemma delete_range_wf s mn mx s' : delete_range s mn mx = Some s' -> wf_store s -> wf_store s'.
Proof.
  intros H Hwf. unfold wf_store.
  destruct (delete_range_cases _ _ _ _ H) as [(-> & _)|[(N & _ & [(_ & -> & _)|(_ & -> & _)])|(_ & L & _ & -> & _)]];
    cbn [s_logs s_first s_empty]; auto; try lia.
Qed.

Lemma tamper_shape s i e : same_shape (tamper s i e) s.
Proof.
  unfold tamper. destruct (i <? s_first s); split; auto. cbn [s_logs]. apply set_nth_length.
Qed.

Lemma same_shape_refl s : same_shape s s.
Proof. split; reflexivity. Qed.
Lemma same_shape_sym a b : same_shape a b -> same_shape b a.
Proof. intros [H1 H2]; split; auto. Qed.
Lemma same_shape_trans a b c : same_shape a b -> same_shape b c -> same_shape a c.
Proof. intros [H1 H2] [H3 H4]; split; congruence. Qed.

Lemma get_skipn s i e :
  get s i = Some e ->
  s_first s <= i /\ skipn (N.to_nat (i - s_first s)) (s_logs s) = e :: skipn (S (N.to_nat (i - s_first s))) (s_logs s).
Proof.
  unfold get. destruct (i <? s_first s) eqn:E; [discriminate|]. intros H.
  split; [lia|]. apply nth_error_skipn_cons. exact H.
Qed.

Lemma get_in_range s i :
  s_first s <= i -> i < s_first s + len (s_logs s) -> exists e, get s i = Some e.
Proof.
  intros H1 H2. unfold get. replace (i <? s_first s) with false by lia.
  destruct (nth_error (s_logs s) (N.to_nat (i - s_first s))) as [e|] eqn:E; [eauto|].
  apply nth_error_None in E. lia.
Qed.

Lemma holds_range_first s lo hi : holds_range s lo hi -> first_index s <= lo.
Proof.
  intros (Hne & Hf & _). unfold first_index. destruct (s_logs s); [contradiction|exact Hf].
Qed.

Lemma aligned_refl s : aligned s s.
Proof. unfold aligned. destruct (s_logs s); [exact I|split; lia]. Qed.

Lemma aligned_cases st sh :
  aligned st sh ->
  (s_logs st = [] /\ s_logs sh = []) \/
  (s_logs st <> [] /\ s_logs sh <> [] /\ s_first sh <= s_first st /\
   s_first sh + len (s_logs sh) = s_first st + len (s_logs st)).
Proof.
  unfold aligned. destruct (s_logs st) as [|x l]; destruct (s_logs sh) as [|y m]; try contradiction.
  - left; auto.
  - intros [H1 H2]. right. repeat split; try discriminate; assumption.
Qed.

Lemma aligned_intro st sh :
  s_logs st <> [] -> s_logs sh <> [] -> s_first sh <= s_first st ->
  s_first sh + len (s_logs sh) = s_first st + len (s_logs st) -> aligned st sh.
Proof.
  unfold aligned. destruct (s_logs st); destruct (s_logs sh); try contradiction; auto.
Qed.

Lemma aligned_empty st sh : s_logs st = [] -> s_logs sh = [] -> aligned st sh.
Proof. unfold aligned. intros -> ->. exact I. Qed.

Lemma store_logs_aligned st sh b st' :
  aligned st sh -> store_logs st b = Some st' ->
  exists sh', store_logs sh b = Some sh' /\ aligned st' sh'.
Proof.
  intros Ha H. destruct b as [|e0 r].
  - inversion H; subst. exists sh. split; [reflexivity|exact Ha].
  - destruct (aligned_cases _ _ Ha) as [[E1 E2]|(N1 & N2 & Hf & Hl)]; unfold store_logs in *.
    + rewrite E1 in H. rewrite E2.
      destruct (e_index e0 =? 0); [discriminate|].
      destruct (contig_from (e_index e0) (e0 :: r)); [|discriminate].
      inversion H; subst. eexists; split; [reflexivity|]. apply aligned_refl.
    + destruct (s_logs st) as [|x l] eqn:Est; [contradiction|].
      destruct (s_logs sh) as [|y m] eqn:Esh; [contradiction|].
      rewrite Hl.
      destruct (contig_from (s_first st + len (x :: l)) (e0 :: r)); [|discriminate].
      inversion H; subst. eexists; split; [reflexivity|].
      apply aligned_intro; cbn [s_logs s_first]; try discriminate; try exact Hf.
      change (x :: l ++ e0 :: r) with ((x :: l) ++ e0 :: r). rewrite !app_length. lia.
Qed.

Lemma store_logs_aligned_none st sh b :
  aligned st sh -> store_logs st b = None -> store_logs sh b = None.
Proof.
  intros Ha H. destruct b as [|e0 r]; [discriminate|].
  destruct (aligned_cases _ _ Ha) as [[E1 E2]|(N1 & N2 & Hf & Hl)]; unfold store_logs in *.
  - rewrite E1 in H. rewrite E2. exact H.
  - destruct (s_logs st) as [|x l] eqn:Est; [contradiction|].
    destruct (s_logs sh) as [|y m] eqn:Esh; [contradiction|].
    rewrite Hl. destruct (contig_from (s_first st + len (x :: l)) (e0 :: r)); [discriminate|reflexivity].
Qed.

Lemma tamper_aligned st sh i e : aligned st sh -> aligned (tamper st i e) sh.
Proof.
  intros Ha. destruct (tamper_shape st i e) as [Hf Hl].
  destruct (aligned_cases _ _ Ha) as [[E1 E2]|(N1 & N2 & H1 & H2)].
  - apply aligned_empty; [|exact E2]. apply length_zero_iff_nil. rewrite Hl, E1. reflexivity.
  - apply aligned_intro; auto; try lia.
    intros C. apply N1. apply length_zero_iff_nil. rewrite <- Hl, C. reflexivity.
Qed.

Lemma last_index_nonempty s : s_logs s <> [] -> last_index s = s_first s + len (s_logs s) - 1.
Proof. unfold last_index. destruct (s_logs s); [contradiction|reflexivity]. Qed.

Lemma delete_aligned st sh mn mx st' :
  aligned st sh -> wf_store sh -> delete_range st mn mx = Some st' ->
  aligned st' (shadow_delete st sh mn mx) /\ wf_store (shadow_delete st sh mn mx).
Proof.
  intros Ha Hwf H.
  destruct (delete_range_cases _ _ _ _ H) as [(-> & Q)|[(N1 & L & [(_ & -> & Q)|(L1 & -> & Q)])|(N1 & L1 & L2 & -> & Q)]]; rewrite Q; auto.
  - split; [apply aligned_empty; reflexivity | intros C; contradiction C; reflexivity].
  - (* tail truncation: both keep what lies below mn *)
    destruct (aligned_cases _ _ Ha) as [[E1 _]|(_ & N2 & Hf & Hl)]; [contradiction|].
    rewrite (last_index_nonempty st N1) in *. apply length_pos_nonempty in N1, N2. split.
    + apply aligned_intro; cbn [s_logs s_first]; rewrite ?firstn_length; try lia; apply length_pos_nonempty; rewrite firstn_length; lia.
    + unfold wf_store. cbn [s_logs s_first]. intros _. apply Hwf, length_pos_nonempty, N2.
  - (* head truncation: the written log stays *)
    destruct (aligned_cases _ _ Ha) as [[E1 _]|(_ & N2 & Hf & Hl)]; [contradiction|].
    rewrite (last_index_nonempty st N1) in *. apply length_pos_nonempty in N1. split; [|exact Hwf].
    apply aligned_intro; cbn [s_logs s_first]; rewrite ?skipn_length; try lia; [|exact N2].
    apply length_pos_nonempty. rewrite skipn_length. lia.
Qed.

(* without at-rest corruption the store is the part of the written log that
   compaction has left: the same entries, from the store's first index on *)
Definition suffix_of (st sh : sstore) : Prop :=
  aligned st sh /\ s_logs st = skipn (N.to_nat (s_first st - s_first sh)) (s_logs sh).

Lemma suffix_of_refl s : suffix_of s s.
Proof. split; [apply aligned_refl|]. rewrite N.sub_diag. reflexivity. Qed.

Lemma suffix_of_store st sh b st' sh' :
  suffix_of st sh -> store_logs st b = Some st' -> store_logs sh b = Some sh' -> suffix_of st' sh'.
Proof.
  intros [Ha Hs] H1 H2. destruct (store_logs_aligned st sh b st' Ha H1) as (x & Hx & Ha').
  rewrite H2 in Hx. inversion Hx; subst x. split; [exact Ha'|].
  destruct b as [|e0 r]; [inversion H1; inversion H2; subst; exact Hs|].
  destruct (aligned_cases _ _ Ha) as [[E1 E2]|(N1 & N2 & Hf & Hl)]; unfold store_logs in *.
  - rewrite E1 in H1. rewrite E2 in H2.
    destruct (e_index e0 =? 0); [discriminate|].
    destruct (contig_from (e_index e0) (e0 :: r)); [|discriminate].
    inversion H1; inversion H2; subst. cbn [s_first s_logs]. rewrite N.sub_diag. reflexivity.
  - destruct (s_logs st) as [|x l] eqn:Est; [contradiction|].
    destruct (s_logs sh) as [|y m] eqn:Esh; [contradiction|].
    destruct (contig_from (s_first st + len (x :: l)) (e0 :: r)); [|discriminate].
    destruct (contig_from (s_first sh + len (y :: m)) (e0 :: r)); [|discriminate].
    inversion H1; inversion H2; subst. cbn [s_first s_logs].
    change (y :: m ++ e0 :: r) with ((y :: m) ++ e0 :: r).
    rewrite skipn_app_le by (cbn [length] in *; lia). rewrite <- Hs. reflexivity.
Qed.

Lemma suffix_of_delete st sh mn mx st' :
  suffix_of st sh -> wf_store sh -> delete_range st mn mx = Some st' ->
  suffix_of st' (shadow_delete st sh mn mx).
Proof.
  intros [Ha Hs] Hwf H. split; [apply (delete_aligned st sh mn mx st' Ha Hwf H)|].
  destruct (delete_range_cases _ _ _ _ H) as [(-> & Q)|[(N1 & L & [(_ & -> & Q)|(L1 & -> & Q)])|(N1 & L1 & L2 & -> & Q)]];
    rewrite Q; cbn [s_logs s_first s_empty]; auto.
  - destruct (aligned_cases _ _ Ha) as [[E1 _]|(_ & _ & Hf & _)]; [contradiction|].
    rewrite Hs, firstn_skipn_comm. f_equal. f_equal. lia.
  - destruct (aligned_cases _ _ Ha) as [[E1 _]|(_ & _ & Hf & _)]; [contradiction|].
    rewrite Hs, skipn_skipn'. f_equal. lia.
Qed.
