(* VerifChanFacts.v -- all schedules of the hand-off between StoreLogs and the
   verifier goroutine: the sender never waits, every checkpoint is accounted for
   exactly once, and the report after drops names exactly the skipped range. *)
From RW Require Import Base.Bytes Vfy.Checksum Vfy.Spec Vfy.SpecFacts Vfy.Store Vfy.StoreFacts Vfy.VerifChan.
From RW Require Import Base.LiaSetup.
Open Scope N_scope.

Lemma ch_send_pending c r rest :
  c_pending c = r :: rest -> c_pending (ch_send c) = rest.
Proof. intros H. unfold ch_send. rewrite H. destruct (c_ch c); reflexivity. Qed.

Lemma ch_send_pending_nil c : c_pending c = [] -> ch_send c = c.
Proof. intros H. unfold ch_send. rewrite H. reflexivity. Qed.

Lemma ch_recv_pending s c : c_pending (ch_recv s c) = c_pending c.
Proof. unfold ch_recv. destruct (c_inprog c); [reflexivity|]. destruct (c_ch c) as [[r d]|]; reflexivity. Qed.

Lemma ch_return_pending c : c_pending (ch_return c) = c_pending c.
Proof. unfold ch_return. destruct (c_inprog c); reflexivity. Qed.

Definition is_push (ev : cevent) : bool := match ev with CPush _ => true | _ => false end.
Definition is_send (ev : cevent) : bool := match ev with CSend => true | _ => false end.
Definition is_return (ev : cevent) : bool := match ev with CReturn => true | _ => false end.

Definition count_sends (evs : list cevent) : nat := length (filter is_send evs).

(* Whatever the verifier and ReportFn do -- including ReportFn never returning:
   there may be no CReturn in the schedule at all -- every send step of the
   StoreLogs caller completes, and after as many of its own steps as it has
   triggered reports it is done ([store_completes]).  Stated as: a run without pushes shortens the
   caller's pending list by exactly its number of send steps. *)
Lemma pending_after_sends evs : forall c,
  forallb (fun ev => negb (is_push ev)) evs = true ->
  length (c_pending (crun c evs)) = (length (c_pending c) - count_sends evs)%nat.
Proof.
  induction evs as [|ev evs IH]; intros c Hnp; [cbn; lia|].
  cbn [forallb] in Hnp. apply andb_true_iff in Hnp as [H1 H2].
  unfold crun in *. cbn [fold_left]. rewrite (IH _ H2). unfold count_sends.
  destruct ev; cbn [cstep is_send filter is_push negb] in *; try discriminate.
  - destruct (c_pending c) as [|r rest] eqn:E.
    + rewrite ch_send_pending_nil by exact E. rewrite E. cbn. lia.
    + rewrite (ch_send_pending c r rest E). cbn [length]. lia.
  - rewrite ch_recv_pending. reflexivity.
  - rewrite ch_return_pending. reflexivity.
Qed.

Lemma store_completes evs c :
  forallb (fun ev => negb (is_push ev)) evs = true ->
  (length (c_pending c) <= count_sends evs)%nat ->
  c_pending (crun c evs) = [].
Proof.
  intros H1 H2. apply length_zero_iff_nil. rewrite pending_after_sends by exact H1. lia.
Qed.

Definition accounted (c : vchan) : N :=
  len (c_delivered c) + c_dropped c + opt_count (c_ch c) + opt_count (c_inprog c) + len (c_pending c).

(* both counters move by the number of checkpoints a step pushes, from any channel state *)
Lemma counts_step c ev :
  let n := len (pushed [ev]) in
  accounted (cstep c ev) = accounted c + n /\ c_written (cstep c ev) = c_written c + n.
Proof.
  unfold accounted, pushed. cbn [flat_map]. rewrite app_nil_r. destruct ev as [rs| |s|]; cbn [cstep].
  - unfold ch_push; cbn. rewrite app_length. lia.
  - unfold ch_send. destruct (c_pending c) as [|r rest] eqn:E; [rewrite E; cbn; lia|]. destruct (c_ch c); cbn; lia.
  - unfold ch_recv. destruct (c_inprog c) eqn:Ei; [rewrite Ei; cbn; lia|].
    destruct (c_ch c) as [[r d]|] eqn:Ec; [|rewrite Ei, Ec]; cbn; lia.
  - unfold ch_return. destruct (c_inprog c) eqn:Ei; [cbn; rewrite app_length; cbn|rewrite Ei; cbn]; lia.
Qed.

Lemma counts_run evs : forall c,
  accounted (crun c evs) = accounted c + len (pushed evs) /\
  c_written (crun c evs) = c_written c + len (pushed evs).
Proof.
  induction evs as [|ev evs IH]; intros c; [cbn; lia|].
  change (crun c (ev :: evs)) with (crun (cstep c ev) evs).
  replace (pushed (ev :: evs)) with (pushed [ev] ++ pushed evs) by (unfold pushed; cbn [flat_map]; now rewrite app_nil_r).
  destruct (IH (cstep c ev)) as [-> ->]. destruct (counts_step c ev) as [-> ->]. rewrite app_length. lia.
Qed.

(* every checkpoint pushed is, at any moment of any schedule, exactly one of:
   delivered, dropped (counted), in the channel, in progress, not yet sent *)
Theorem accounting evs :
  let c := crun c_init evs in
  len (c_delivered c) + c_dropped c + opt_count (c_ch c) + opt_count (c_inprog c) + len (c_pending c)
  = len (pushed evs) /\ c_written c = len (pushed evs).
Proof.
  cbv zeta. destruct (counts_run evs c_init) as [H W]. unfold accounted in H. cbn in H, W. split; lia.
Qed.

Definition drops_start (ds : list report) (dflt : N) : N :=
  match ds with [] => dflt | d :: _ => r_start d end.

(* what a processed report must say: the drops recorded before it tile the range
   from their first start to the report's own start, and SkippedRange is exactly
   that range (nil when it is empty) *)
Definition names_skipped (x : treport) : Prop :=
  let '(r, ds) := x in
  let a := drops_start ds (r_start r) in
  tiles ds a (r_start r) /\
  r_skipped r = (if a =? r_start r then None else Some (a, r_start r)).

(* the end of the last report that was enqueued: of the one in the channel, else of the one taken *)
Definition lastenq (c : vchan) : N :=
  match c_ch c with Some (r, _) => r_end r | None => c_last c end.

Definition last_end (ds : list report) (dflt : N) : N :=
  match rev ds with d :: _ => r_end d | [] => dflt end.

(* where the next report to be sent must start: behind the last drop, else behind [lastenq] *)
Definition tip (c : vchan) : N := last_end (g_drops c) (lastenq c).

Definition processed (c : vchan) : list treport :=
  c_delivered c ++ match c_inprog c with Some x => [x] | None => [] end.

Definition sum_drops (l : list treport) : N :=
  fold_right (fun x acc => len (snd x) + acc) 0 l.
Arguments sum_drops : simpl never.

(* The reports still to come continue the chain at [tip]; the drops since the last enqueue tile
   [lastenq .. tip]; the report in the channel carries drops that tile from [c_last] to its start;
   every processed report names its skipped range; the counter is the sum of all recorded drops. *)
Record sk_inv (c : vchan) (future : list report) : Prop := {
  sk_chain : chained_from (tip c) (c_pending c ++ future);
  sk_tiles : tiles (g_drops c) (lastenq c) (tip c);
  sk_ch : forall r ds, c_ch c = Some (r, ds) ->
            0 < r_end r /\
            ((c_last c = 0 /\ ds = []) \/ (0 < c_last c /\ tiles ds (c_last c) (r_start r)));
  sk_done : Forall names_skipped (processed c);
  sk_pos : Forall (fun d => 0 < r_end d) (g_drops c);
  sk_zero : lastenq c = 0 -> g_drops c = [];
  sk_count : c_dropped c =
             sum_drops (processed c) + match c_ch c with Some (_, ds) => len ds | None => 0 end
             + len (g_drops c)
}.

Lemma last_end_snoc ds d dflt : last_end (ds ++ [d]) dflt = r_end d.
Proof. unfold last_end. rewrite rev_app_distr. reflexivity. Qed.

Lemma last_end_nil dflt : last_end [] dflt = dflt.
Proof. reflexivity. Qed.

Lemma tiles_snoc ds : forall a b d,
  tiles ds a b -> r_start d = b -> tiles (ds ++ [d]) a (r_end d).
Proof.
  induction ds as [|x ds IH]; intros a b d H Hd; cbn [tiles app] in *.
  - subst. split; reflexivity.
  - destruct H as [H1 H2]. split; [exact H1|]. eapply IH; eauto.
Qed.

Lemma last_end_pos ds dflt :
  (ds = [] -> 0 < dflt) -> Forall (fun d => 0 < r_end d) ds -> 0 < last_end ds dflt.
Proof.
  intros Hd HF. unfold last_end. destruct (rev ds) as [|d r] eqn:E.
  - apply Hd. apply (f_equal (@rev report)) in E. now rewrite rev_involutive in E.
  - rewrite Forall_forall in HF. apply HF, in_rev. rewrite E. now left.
Qed.

Lemma sum_drops_app a b : sum_drops (a ++ b) = sum_drops a + sum_drops b.
Proof. unfold sum_drops. induction a as [|x a IH]; cbn [app fold_right]; [reflexivity|]. rewrite IH. lia. Qed.

Lemma sum_drops_single x : sum_drops [x] = len (snd x).
Proof. unfold sum_drops. cbn [fold_right]. lia. Qed.
Lemma sum_drops_nil : sum_drops [] = 0.
Proof. reflexivity. Qed.

Lemma sk_inv_init future : chained_from 0 future -> sk_inv c_init future.
Proof.
  intros H. constructor; cbn; auto. intros r ds C. discriminate C.
Qed.

Lemma verify_start s r : r_start (verify s r) = r_start r.
Proof. apply verify_fields. Qed.
Lemma verify_skipped s r : r_skipped (verify s r) = r_skipped r.
Proof. apply verify_fields. Qed.

Lemma sk_inv_step c ev future :
  sk_inv c (match ev with CPush rs => rs ++ future | _ => future end) ->
  sk_inv (cstep c ev) future.
Proof.
  intros I. destruct ev as [rs| |s|]; cbn [cstep].
  - (* push *)
    destruct I as [I1 I2 I3 I4 I5 I6 I7].
    constructor; auto. cbn [ch_push c_pending]. unfold tip, lastenq in *. cbn.
    rewrite <- app_assoc. exact I1.
  - (* send *)
    unfold ch_send. destruct (c_pending c) as [|r rest] eqn:Ep; [exact I|].
    destruct I as [I1 I2 I3 I4 I5 I6 I7]. rewrite Ep in I1. cbn [app chained_from] in I1.
    destruct I1 as (Hst & Hpos & Hrest).
    destruct (c_ch c) as [[r0 d0]|] eqn:Ec.
    + (* channel full: drop *)
      destruct (I3 r0 d0 eq_refl) as [Hp0 _].
      assert (Htip : r_start r = tip c).
      { destruct Hst as [Hz|Hs]; [|exact Hs]. exfalso.
        pose proof (last_end_pos (g_drops c) (lastenq c)) as P. fold (tip c) in P. rewrite Hz in P.
        unfold lastenq in P. rewrite Ec in P. assert (0 < 0) by (apply P; [intros _; exact Hp0 | exact I5]). lia. }
      constructor; unfold tip, lastenq, processed in *; cbn; rewrite ?Ec in *.
      * rewrite last_end_snoc. exact Hrest.
      * rewrite last_end_snoc. eapply tiles_snoc; eauto.
      * exact I3.
      * exact I4.
      * apply Forall_app. split; [exact I5|]. constructor; [exact Hpos|constructor].
      * intros Z. lia.
      * rewrite I7, app_length. cbn. lia.
    + (* channel empty: enqueue with the drops recorded so far *)
      constructor; unfold tip, lastenq, processed in *; cbn; rewrite ?Ec in *.
      * exact Hrest.
      * reflexivity.
      * intros r1 ds1 E1. inversion E1; subst r1 ds1. split; [exact Hpos|].
        destruct (N.eq_dec (c_last c) 0) as [Z|NZ].
        -- left. split; [exact Z|]. apply I6. exact Z.
        -- right. split; [lia|]. destruct Hst as [Hz|Hs].
           ++ exfalso. pose proof (last_end_pos (g_drops c) (c_last c)) as P. rewrite Hz in P.
              assert (0 < 0) by (apply P; [intros _; lia | exact I5]). lia.
           ++ rewrite Hs. exact I2.
      * exact I4.
      * constructor.
      * intros _. reflexivity.
      * rewrite I7. cbn. lia.
  - (* recv *)
    unfold ch_recv. destruct (c_inprog c) as [x|] eqn:Ei; [exact I|].
    destruct (c_ch c) as [[r ds]|] eqn:Ec; [|exact I].
    destruct I as [I1 I2 I3 I4 I5 I6 I7].
    destruct (I3 r ds Ec) as [Hpos Hcase].
    constructor; unfold tip, lastenq, processed in *; cbn; rewrite ?Ec, ?Ei in *; auto.
    + intros r1 ds1 C. discriminate C.
    + apply Forall_app. split; [apply Forall_app in I4 as [A _]; exact A|].
      constructor; [|constructor]. unfold names_skipped.
      rewrite verify_start, verify_skipped. cbn [set_skipped r_start r_skipped].
      unfold skipped_of. destruct Hcase as [[Z Hd]|[Hp Ht]].
      * subst ds. cbn [drops_start tiles]. rewrite Z, N.eqb_refl. cbn. auto.
      * destruct ds as [|d dr]; cbn [drops_start tiles] in *.
        -- rewrite Ht, !N.eqb_refl. replace (0 <? r_start r) with true by lia. cbn. auto.
        -- destruct Ht as [Hd Ht]. split; [split; [reflexivity|exact Ht]|].
           rewrite Hd. replace (0 <? c_last c) with true by lia. cbn.
           destruct (c_last c =? r_start r); reflexivity.
    + rewrite I7, !sum_drops_app, sum_drops_single, sum_drops_nil. cbn [snd]. lia.
  - (* return *)
    unfold ch_return. destruct (c_inprog c) as [x|] eqn:Ei; [|exact I].
    destruct I as [I1 I2 I3 I4 I5 I6 I7].
    constructor; unfold tip, lastenq, processed in *; cbn; rewrite ?Ei in *; auto.
    + rewrite app_nil_r. exact I4.
    + rewrite I7, app_nil_r. reflexivity.
Qed.

Lemma sk_inv_run evs : forall c future,
  sk_inv c (pushed evs ++ future) -> sk_inv (crun c evs) future.
Proof.
  induction evs as [|ev evs IH]; intros c future I; [exact I|].
  unfold crun in *. cbn [fold_left]. apply IH. apply sk_inv_step.
  unfold pushed in I. cbn [flat_map] in I. destruct ev; cbn in I |- *; try exact I.
  rewrite <- app_assoc in I. exact I.
Qed.

(* For every schedule whose checkpoints form a chain (each range starts where
   the previous one ended): every processed report carries, as SkippedRange,
   exactly the range tiled by the checkpoints dropped since the previous
   enqueued report (nil when there were none), and the drop counter is the
   number of reports so recorded. *)
Theorem skipped_range evs :
  chained_from 0 (pushed evs) ->
  let c := crun c_init evs in
  Forall names_skipped (processed c) /\
  c_dropped c = sum_drops (processed c)
                + match c_ch c with Some (_, ds) => len ds | None => 0 end + len (g_drops c).
Proof.
  intros H. cbv zeta.
  assert (I : sk_inv (crun c_init evs) []).
  { apply sk_inv_run. rewrite app_nil_r. apply sk_inv_init. exact H. }
  split; [apply (sk_done _ _ I)|apply (sk_count _ _ I)].
Qed.
