(* CopyFacts.v -- C19, the migration model of Mig/Copy.v.  CopyLogs: the fuelled loop over indexes
   is a structural loop over the source's entries ([loop_eq_list]); its invariant [copy_list_inv]
   gives the full copy without faults ([copy_logs_faithful]) and a prefix written by acceptable
   batches under any fault or cancellation ([copy_logs_prefix]).  CopyStable: [copy_stable_faithful].
   The deferred close runs on every path ([progress_closed], [stable_progress_closed]). *)
From RW Require Import Base.Bytes Base.BytesFacts Mig.Copy.
From RW Require Import Base.LiaSetup.
Open Scope N_scope.

Definition final_flush (ev : env) (batch_rev : list entry) (dst : lstore)
           (bs : list (list entry)) (g : N) : cout :=
  match batch_rev with
  | [] => ret COk dst bs g
  | _ => match flush ev dst bs batch_rev with
         | Some (d, bs') => ret COk d bs' g
         | None => ret CErrStore dst bs g
         end
  end.

Definition get_fails (ev : env) (e : entry) : bool :=
  match get_fail ev with Some f => f =? e_index e | None => false end.

Fixpoint copy_list (ev : env) (bb : Z) (rest : list entry) (chk : nat)
         (batch_rev : list entry) (bsize : Z) (dst : lstore) (bs : list (list entry)) (g : N) : cout :=
  match rest with
  | [] => final_flush ev batch_rev dst bs g
  | e :: r =>
      if cancelled ev chk then ret CCanceled dst bs g
      else if get_fails ev e then ret CErrGet dst bs (g + 1)
      else
        let batch' := e :: batch_rev in
        let bsize' := (bsize + Z.of_N (len (e_data e)) + 32)%Z in
        if (bb <=? bsize')%Z then
          match flush ev dst bs batch' with
          | Some (d, bs') => copy_list ev bb r (S chk) [] 0%Z d bs' (g + 1)
          | None => ret CErrStore dst bs (g + 1)
          end
        else copy_list ev bb r (S chk) batch' bsize' dst bs (g + 1)
  end.

Lemma indexed_from_app : forall a i b,
  indexed_from i (a ++ b) <-> indexed_from i a /\ indexed_from (i + N.of_nat (length a)) b.
Proof.
  induction a as [|x a IH]; intros i b; cbn [app indexed_from length].
  - replace (i + N.of_nat 0) with i by lia. tauto.
  - rewrite IH. replace (i + 1 + N.of_nat (length a)) with (i + N.of_nat (S (length a))) by lia. tauto.
Qed.

Lemma indexed_fromb_spec : forall l i, indexed_fromb i l = true <-> indexed_from i l.
Proof.
  induction l as [|e l IH]; intros i; cbn [indexed_fromb indexed_from].
  - tauto.
  - rewrite andb_true_iff, IH, N.eqb_eq. tauto.
Qed.

(* [consecutive_from], which [store_logs] tests, is the same function as [indexed_fromb] *)
Lemma consecutive_indexed : forall b i, indexed_from i b -> consecutive_from i b = true.
Proof. intros b i. apply (indexed_fromb_spec b i). Qed.
Lemma indexed_consecutive : forall b i, consecutive_from i b = true -> indexed_from i b.
Proof. intros b i. apply (indexed_fromb_spec b i). Qed.

Lemma wf_storeb_spec : forall s, wf_storeb s = true <-> wf_store s.
Proof.
  intros s. unfold wf_storeb, wf_store.
  rewrite !andb_true_iff, indexed_fromb_spec, N.ltb_lt.
  destruct (ls_ents s) as [|e l] eqn:E.
  - split.
    + intros [[H1 _] H3]. split; [exact H1|]. split; [congruence|exact H3].
    + intros (H1 & _ & H3). auto.
  - rewrite N.leb_le. split.
    + intros [[H1 H2] H3]. split; [exact H1|]. split; [intros _; exact H2|exact H3].
    + intros (H1 & H2 & H3). split; [split|]; auto. apply H2. discriminate.
Qed.

Lemma nth_error_mid : forall (A : Type) (a : list A) e b, nth_error (a ++ e :: b) (length a) = Some e.
Proof. induction a as [|x a IH]; intros; cbn; auto. Qed.

Lemma loop_eq_list : forall rest fuel ev src bb last idx chk batch_rev bsize dst bs g done,
  ls_ents src = done ++ rest ->
  indexed_from (ls_first src) (ls_ents src) ->
  ls_ents src <> [] ->
  idx = ls_first src + N.of_nat (length done) ->
  last = ls_first src + ls_len src - 1 ->
  ls_first src + ls_len src < two64 ->
  (length rest < fuel)%nat ->
  copy_loop fuel ev src bb last idx chk batch_rev bsize dst bs g
  = copy_list ev bb rest chk batch_rev bsize dst bs g.
Proof.
  induction rest as [|e r IH]; intros fuel ev src bb last idx chk batch_rev bsize dst bs g done
    Hsplit Hidx Hne Hi Hlast Hlt Hfuel;
    (destruct fuel as [|f]; [cbn in Hfuel; lia|]); cbn [copy_loop copy_list].
  - assert (Hlen : ls_len src = N.of_nat (length done)).
    { unfold ls_len. rewrite Hsplit, app_nil_r. reflexivity. }
    assert (Hpos : 0 < ls_len src).
    { unfold ls_len. destruct (ls_ents src); [congruence|cbn; lia]. }
    replace (last <? idx) with true by (symmetry; apply N.ltb_lt; lia).
    reflexivity.
  - assert (Hlen : ls_len src = N.of_nat (length done) + N.of_nat (S (length r))).
    { unfold ls_len. rewrite Hsplit, app_length. cbn [length]. lia. }
    replace (last <? idx) with false by (symmetry; apply N.ltb_ge; lia).
    destruct (cancelled ev chk); [reflexivity|].
    assert (Hget : get_log src idx = Some e).
    { unfold get_log. replace (idx <? ls_first src) with false by (symmetry; apply N.ltb_ge; lia).
      replace (N.to_nat (idx - ls_first src)) with (length done) by lia.
      rewrite Hsplit. apply nth_error_mid. }
    assert (He : e_index e = idx).
    { rewrite Hsplit in Hidx. apply indexed_from_app in Hidx. destruct Hidx as [_ Hidx].
      cbn [indexed_from] in Hidx. lia. }
    unfold src_get, get_fails. rewrite Hget, He.
    assert (Hmod : (idx + 1) mod two64 = idx + 1).
    { apply N.mod_small. lia. }
    rewrite Hmod.
    assert (Hrec : forall chk' batch' bsize' dst' bs' g',
               copy_loop f ev src bb last (idx + 1) chk' batch' bsize' dst' bs' g'
               = copy_list ev bb r chk' batch' bsize' dst' bs' g').
    { intros. apply (IH f ev src bb last (idx + 1) chk' batch' bsize' dst' bs' g' (done ++ [e])); auto.
      - rewrite <- app_assoc. exact Hsplit.
      - rewrite app_length. cbn [length]. lia.
      - cbn [length] in Hfuel. lia. }
    destruct (get_fail ev) as [fl|]; [destruct (fl =? idx); [reflexivity|]|].
    all: destruct (bb <=? bsize + Z.of_N (len (e_data e)) + 32)%Z; [|apply Hrec].
    all: destruct (flush ev dst bs (e :: batch_rev)) as [[d bs']|]; [apply Hrec|reflexivity].
Qed.

Fixpoint replay (d : lstore) (bs : list (list entry)) : option lstore :=
  match bs with
  | [] => Some d
  | b :: r => match store_logs d b with Some d' => replay d' r | None => None end
  end.

Lemma replay_app : forall bs d b d',
  replay d bs = Some d' -> replay d (bs ++ [b]) = store_logs d' b.
Proof.
  induction bs as [|x bs IH]; intros d b d' H; cbn [replay app] in *.
  - injection H as <-. destruct (store_logs d b); reflexivity.
  - destruct (store_logs d x) as [d1|]; [|discriminate]. eapply IH; eauto.
Qed.

Definition batch_ok (d : lstore) (b : list entry) : Prop :=
  match b with
  | [] => False
  | e :: _ => indexed_from (e_index e) b /\
              (ls_ents d = [] \/ e_index e = last_index d + 1)
  end.

Lemma store_logs_accepts : forall d b,
  b <> [] -> (batch_ok d b <-> exists d', store_logs d b = Some d').
Proof.
  intros d [|e b] Hne; [congruence|]. unfold batch_ok, store_logs.
  destruct (ls_ents d) as [|x l] eqn:E.
  - split.
    + intros [H _]. rewrite (consecutive_indexed _ _ H). eauto.
    + intros [d' H]. destruct (consecutive_from (e_index e) (e :: b)) eqn:C; [|discriminate].
      split; [apply indexed_consecutive; auto|auto].
  - split.
    + intros [H [H'|H']]; [discriminate|]. rewrite (consecutive_indexed _ _ H).
      rewrite (proj2 (N.eqb_eq _ _) H'). cbn. eauto.
    + intros [d' H].
      destruct ((e_index e =? last_index d + 1) && consecutive_from (e_index e) (e :: b)) eqn:C; [|discriminate].
      apply andb_true_iff in C. destruct C as [C1 C2]. apply N.eqb_eq in C1.
      split; [apply indexed_consecutive; auto|auto].
Qed.

(* every batch of a successful replay was acceptable when it was stored *)
Fixpoint all_batches_ok (d : lstore) (bs : list (list entry)) : Prop :=
  match bs with
  | [] => True
  | b :: r => batch_ok d b /\
              match store_logs d b with Some d' => all_batches_ok d' r | None => False end
  end.

Lemma replay_batches_ok : forall bs d d',
  replay d bs = Some d' -> Forall (fun b => b <> []) bs -> all_batches_ok d bs.
Proof.
  induction bs as [|b bs IH]; intros d d' H HF; cbn [replay all_batches_ok] in *; auto.
  inversion HF as [|? ? Hb HF']; subst.
  destruct (store_logs d b) as [d1|] eqn:S; [|discriminate].
  split; [apply store_logs_accepts; eauto|eauto].
Qed.

(* storing the next segment of [all] into a destination holding a prefix *)
Lemma store_next_segment : forall first all dst seg rest,
  indexed_from first all ->
  all = ls_ents dst ++ seg ++ rest ->
  (ls_ents dst <> [] -> ls_first dst = first) ->
  seg <> [] ->
  exists d, store_logs dst seg = Some d /\ ls_ents d = ls_ents dst ++ seg /\ ls_first d = first.
Proof.
  intros first all dst seg rest Hidx Hall Hfirst Hne.
  destruct seg as [|e seg]; [congruence|].
  rewrite Hall in Hidx. apply indexed_from_app in Hidx. destruct Hidx as [Hd Hs].
  apply indexed_from_app in Hs. destruct Hs as [Hs _].
  assert (He : e_index e = first + N.of_nat (length (ls_ents dst))) by (cbn [indexed_from] in Hs; tauto).
  unfold store_logs. rewrite <- He in Hs. rewrite (consecutive_indexed _ _ Hs).
  destruct (ls_ents dst) as [|x l] eqn:E.
  - eexists. split; [reflexivity|]. cbn. split; [reflexivity|]. cbn in He. lia.
  - assert (Hf : ls_first dst = first) by (apply Hfirst; discriminate).
    assert (Hl : e_index e = last_index dst + 1).
    { unfold last_index, ls_len. rewrite E, Hf, He. cbn [length]. lia. }
    rewrite (proj2 (N.eqb_eq _ _) Hl). cbn [andb].
    eexists. split; [reflexivity|]. cbn. auto.
Qed.

Definition is_prefix (p l : list entry) : Prop := exists n, p = firstn n l.

(* the destination and the accepted batches (newest first) at any point of the copy *)
Definition copied (first : N) (all : list entry) (dst : lstore) (bs : list (list entry)) : Prop :=
  is_prefix (ls_ents dst) all /\ (ls_ents dst <> [] -> ls_first dst = first) /\
  replay empty_store (rev bs) = Some dst /\ Forall (fun b => b <> []) bs.

(* what each way of leaving the loop says, when it was entered before check number chk with g
   GetLog calls made and n entries to go: Ok is the full copy, every error has its cause in
   the environment, a cancellation is seen by the first check it can be seen by *)
Definition loop_post (ev : env) (all : list entry) (chk n : nat) (g : N) (out : cout) : Prop :=
  match o_res out with
  | COk => ls_ents (o_dst out) = all /\ o_gets out = g + N.of_nat n /\
           forall k, cancel_at ev = Some k -> (chk + n <= k)%nat
  | CCanceled => exists k, cancel_at ev = Some k /\ (k < chk + n)%nat /\ o_gets out = g + N.of_nat (k - chk)
  | CErrGet => get_fail ev <> None
  | CErrStore => store_fail ev <> None
  | _ => False
  end.

Section Loop.
  Variables (ev : env) (bb : Z) (first : N) (all : list entry).
  Hypothesis Hidx : indexed_from first all.

  Lemma copied_here dst bs rest :
    all = ls_ents dst ++ rest -> (ls_ents dst <> [] -> ls_first dst = first) ->
    replay empty_store (rev bs) = Some dst -> Forall (fun b => b <> []) bs -> copied first all dst bs.
  Proof.
    intros Hall Hfirst Hrep Hbs. split; [|auto]. exists (length (ls_ents dst)).
    rewrite Hall, firstn_app, Nat.sub_diag, firstn_all. cbn. now rewrite app_nil_r.
  Qed.

  Lemma flush_spec dst bs batch_rev rest :
    all = ls_ents dst ++ rev batch_rev ++ rest ->
    (ls_ents dst <> [] -> ls_first dst = first) ->
    replay empty_store (rev bs) = Some dst ->
    batch_rev <> [] ->
    match flush ev dst bs batch_rev with
    | Some (d, bs') => ls_ents d = ls_ents dst ++ rev batch_rev /\ ls_first d = first /\
                       replay empty_store (rev bs') = Some d /\ bs' = rev batch_rev :: bs
    | None => store_fail ev <> None
    end.
  Proof.
    intros Hall Hfirst Hrep Hne.
    unfold flush. rewrite rev_append_rev, app_nil_r.
    assert (Hne' : rev batch_rev <> []).
    { intros H. apply Hne. rewrite <- (rev_involutive batch_rev), H. reflexivity. }
    destruct (store_next_segment first all dst (rev batch_rev) rest Hidx Hall Hfirst Hne')
      as (d & Hs & He & Hf).
    unfold dst_store. destruct (store_fail ev) as [k|]; [destruct (Nat.eqb k (length bs)); [discriminate|]|];
      rewrite Hs; repeat split; auto; cbn [rev]; rewrite (replay_app _ _ _ _ Hrep); exact Hs.
  Qed.

  Lemma copy_list_inv : forall rest chk batch_rev bsize dst bs g,
    all = ls_ents dst ++ rev batch_rev ++ rest ->
    (ls_ents dst <> [] -> ls_first dst = first) ->
    replay empty_store (rev bs) = Some dst ->
    Forall (fun b => b <> []) bs ->
    (forall k, cancel_at ev = Some k -> (chk <= k)%nat) ->
    let out := copy_list ev bb rest chk batch_rev bsize dst bs g in
    copied first all (o_dst out) (o_batches out) /\ loop_post ev all chk (length rest) g out.
  Proof.
    induction rest as [|e r IH]; intros chk batch_rev bsize dst bs g Hall Hfirst Hrep Hbs Hchk; cbn [copy_list].
    - unfold final_flush. destruct batch_rev as [|x br].
      + cbn [rev app] in Hall. split; [now apply (copied_here dst bs [])|].
        rewrite app_nil_r in Hall. cbn. split; [congruence|]. split; [lia|]. intros k Hk. specialize (Hchk k Hk). lia.
      + pose proof (flush_spec dst bs (x :: br) [] Hall Hfirst Hrep ltac:(discriminate)) as HF.
        destruct (flush ev dst bs (x :: br)) as [[d bs']|].
        * destruct HF as (He & Hf & Hr & ->). rewrite app_nil_r in Hall. split.
          -- apply (copied_here d _ []); [rewrite app_nil_r; congruence | auto | exact Hr|].
             constructor; [cbn [rev]; destruct (rev br); discriminate | exact Hbs].
          -- cbn. split; [congruence|]. split; [lia|]. intros k Hk. specialize (Hchk k Hk). lia.
        * split; [now apply (copied_here dst bs (rev (x :: br) ++ [])) | exact HF].
    - destruct (cancelled ev chk) eqn:EC.
      { split; [now apply (copied_here dst bs (rev batch_rev ++ e :: r))|]. unfold loop_post, cancelled in *. cbn.
        destruct (cancel_at ev) as [k|]; [|discriminate]. apply Nat.leb_le in EC. exists k. split; [reflexivity|].
        replace (k - chk)%nat with 0%nat by lia. split; lia. }
      destruct (get_fails ev e) eqn:EG.
      { split; [now apply (copied_here dst bs (rev batch_rev ++ e :: r))|]. unfold loop_post, get_fails in *. cbn.
        destruct (get_fail ev); [discriminate | discriminate EG]. }
      assert (Hall' : all = ls_ents dst ++ rev (e :: batch_rev) ++ r).
      { cbn [rev]. rewrite <- app_assoc. exact Hall. }
      assert (Hchk' : forall k, cancel_at ev = Some k -> (S chk <= k)%nat).
      { intros k Hk. unfold cancelled in EC. rewrite Hk in EC. apply Nat.leb_gt in EC. lia. }
      (* one more check passed, one more GetLog made *)
      assert (Hcount : forall out, loop_post ev all (S chk) (length r) (g + 1) out ->
                                   loop_post ev all chk (length (e :: r)) g out).
      { intros out. unfold loop_post. cbn [length]. destruct (o_res out); auto.
        - intros (H1 & H2 & H3). split; [exact H1|]. split; [lia|]. intros k Hk. specialize (H3 k Hk). lia.
        - intros (k & Hk & H1 & H2). exists k. specialize (Hchk' k Hk). split; [exact Hk|]. split; lia. }
      destruct (bb <=? bsize + Z.of_N (len (e_data e)) + 32)%Z.
      + pose proof (flush_spec dst bs (e :: batch_rev) r Hall' Hfirst Hrep ltac:(discriminate)) as HF.
        destruct (flush ev dst bs (e :: batch_rev)) as [[d bs']|].
        * destruct HF as (He & Hf & Hr & ->).
          destruct (IH (S chk) [] 0%Z d (rev (e :: batch_rev) :: bs) (g + 1)) as [Hc Hp]; auto.
          -- rewrite He. cbn [rev app]. rewrite <- app_assoc. exact Hall'.
          -- constructor; [cbn [rev]; destruct (rev batch_rev); discriminate | exact Hbs].
        * split; [now apply (copied_here dst bs (rev batch_rev ++ e :: r)) | exact HF].
      + destruct (IH (S chk) (e :: batch_rev) (bsize + Z.of_N (len (e_data e)) + 32)%Z dst bs (g + 1)) as [Hc Hp]; auto.
  Qed.
End Loop.

Lemma copy_core_list : forall ev bb src dst,
  wf_store src -> ls_ents src <> [] ->
  copy_logs_core ev bb src dst = copy_list ev bb (ls_ents src) 0 [] 0%Z dst [] 0.
Proof.
  intros ev bb src dst (Hidx & Hone & Hlt) Hne.
  unfold copy_logs_core, first_index, last_index.
  destruct (ls_ents src) as [|x l] eqn:E; [congruence|].
  specialize (Hone Hne).
  replace ((ls_first src =? 0) && (ls_first src + ls_len src - 1 =? 0)) with false.
  2:{ symmetry. apply andb_false_iff. left. apply N.eqb_neq. lia. }
  rewrite <- E.
  apply (loop_eq_list (ls_ents src) _ ev src bb _ _ 0%nat [] 0%Z dst [] 0 []); auto.
  - rewrite E. exact Hidx.
  - rewrite E. discriminate.
  - cbn. lia.
Qed.

(* CopyLogs on a well-formed source, from an empty destination: the early return for the empty
   source is the loop's postcondition with nothing to go; the two index lookups add their errors *)
Lemma copy_core_inv ev bb src :
  wf_store src ->
  let out := copy_logs_core ev bb src empty_store in
  copied (ls_first src) (ls_ents src) (o_dst out) (o_batches out) /\
  loop_post ev (ls_ents src) 0 (length (ls_ents src)) 0 out.
Proof.
  intros Hwf. cbn zeta. destruct (ls_ents src) as [|x l] eqn:E.
  - unfold copy_logs_core, first_index, last_index, ls_len. rewrite E. cbn.
    split; [split; [exists 0%nat; reflexivity | cbn; repeat split; auto; congruence]|]. repeat split; intros; lia.
  - rewrite <- E. assert (Hne : ls_ents src <> []) by (rewrite E; discriminate).
    rewrite (copy_core_list _ _ _ _ Hwf Hne). destruct Hwf as (Hidx & _).
    apply (copy_list_inv ev bb (ls_first src) (ls_ents src) Hidx); cbn; auto; [congruence | lia].
Qed.

Lemma copy_body_inv ev bb src :
  wf_store src ->
  let out := copy_logs_body ev bb src empty_store in
  copied (ls_first src) (ls_ents src) (o_dst out) (o_batches out) /\
  match o_res out with
  | CErrFirst => first_fail ev = true
  | CErrLast => last_fail ev = true
  | _ => loop_post ev (ls_ents src) 0 (length (ls_ents src)) 0 out
  end.
Proof.
  intros Hwf. cbn zeta. unfold copy_logs_body.
  assert (Hnone : forall r, copied (ls_first src) (ls_ents src) (o_dst (ret r empty_store [] 0)) (o_batches (ret r empty_store [] 0))).
  { intros r. split; [exists 0%nat; reflexivity | cbn; repeat split; auto; congruence]. }
  destruct (first_fail ev) eqn:EF; [split; [apply Hnone | reflexivity]|].
  destruct (last_fail ev) eqn:EL; [split; [apply Hnone | reflexivity]|].
  destruct (copy_core_inv ev bb src Hwf) as [Hc Hp]. split; [exact Hc|].
  unfold loop_post in *. destruct (o_res (copy_logs_core ev bb src empty_store)); auto; contradiction.
Qed.

Definition same_log (a b : lstore) : Prop :=
  ls_ents a = ls_ents b /\ first_index a = first_index b /\ last_index a = last_index b /\
  forall i, get_log a i = get_log b i.

Lemma same_log_of_ents : forall a b,
  ls_ents a = ls_ents b -> (ls_ents a <> [] -> ls_first a = ls_first b) -> same_log a b.
Proof.
  intros a b He Hf. unfold same_log, first_index, last_index, get_log, ls_len. rewrite He.
  destruct (ls_ents b) as [|x l] eqn:E.
  - repeat split; auto. intros i.
    destruct (i <? ls_first a), (i <? ls_first b); auto;
      repeat match goal with |- context [nth_error [] ?n] => destruct n; cbn end; reflexivity.
  - rewrite Hf by (rewrite He; discriminate). repeat split; auto.
Qed.

Lemma store_logs_ents d b d' : store_logs d b = Some d' -> ls_ents d' = ls_ents d ++ b.
Proof.
  unfold store_logs. destruct b as [|e b]; [intros [= <-]; symmetry; apply app_nil_r|].
  destruct (ls_ents d) eqn:Ed; [destruct (consecutive_from _ _) | destruct (_ && _)]; intros [= <-]; reflexivity.
Qed.

Lemma replay_concat : forall bs d d', replay d bs = Some d' -> ls_ents d' = ls_ents d ++ concat bs.
Proof.
  induction bs as [|b bs IH]; intros d d' H; cbn [replay concat] in *.
  - injection H as <-. symmetry. apply app_nil_r.
  - destruct (store_logs d b) as [d1|] eqn:S; [|discriminate].
    rewrite (IH _ _ H), (store_logs_ents _ _ _ S). symmetry. apply app_assoc.
Qed.

Theorem copy_logs_faithful : forall src bb p,
  wf_store src ->
  let r := copy_logs (no_faults p) bb src empty_store in
  r_res r = COk /\ same_log (r_dst r) src /\
  replay empty_store (r_batches r) = Some (r_dst r) /\
  all_batches_ok empty_store (r_batches r) /\
  concat (r_batches r) = ls_ents src /\
  r_gets r = ls_len src.
Proof.
  intros src bb p Hwf. cbn zeta. unfold copy_logs, run_deferred. cbn [r_res r_dst r_batches r_gets].
  change (copy_logs_body (no_faults p) bb src empty_store) with (copy_logs_core (no_faults p) bb src empty_store).
  destruct (copy_core_inv (no_faults p) bb src Hwf) as ((_ & H2 & H3 & H4) & HP).
  set (out := copy_logs_core (no_faults p) bb src empty_store) in *.
  (* without faults and cancellation the loop can only end with Ok *)
  unfold loop_post in HP. destruct (o_res out); try contradiction; try (now elim HP).
  destruct HP as (He & Hg & _).
  split; [reflexivity|]. split; [apply same_log_of_ents; auto|].
  split; [exact H3|]. split; [apply (replay_batches_ok _ _ _ H3), Forall_rev, H4|].
  split; [|unfold ls_len; rewrite Hg; lia].
  pose proof (replay_concat _ _ _ H3) as Hc. rewrite He in Hc. exact (eq_sym Hc).
Qed.

(* any cancellation point, any injected fault (including a source whose
   FirstIndex/LastIndex fails): the destination holds a prefix of the source,
   written by acceptable batches; Ok only with the full copy *)
Theorem copy_logs_prefix : forall src bb ev,
  wf_store src ->
  let r := copy_logs ev bb src empty_store in
  is_prefix (ls_ents (r_dst r)) (ls_ents src) /\
  (ls_ents (r_dst r) <> [] -> ls_first (r_dst r) = ls_first src) /\
  replay empty_store (r_batches r) = Some (r_dst r) /\
  (r_res r = COk -> same_log (r_dst r) src) /\
  r_res r <> COutOfFuel /\
  (first_fail ev = false -> r_res r <> CErrFirst) /\
  (last_fail ev = false -> r_res r <> CErrLast) /\
  (cancel_at ev = None -> r_res r <> CCanceled).
Proof.
  intros src bb ev Hwf. cbn zeta. unfold copy_logs, run_deferred. cbn [r_res r_dst r_batches].
  destruct (copy_body_inv ev bb src Hwf) as ((H1 & H2 & H3 & _) & HP).
  set (out := copy_logs_body ev bb src empty_store) in *.
  split; [exact H1|]. split; [exact H2|]. split; [exact H3|].
  unfold loop_post in HP. destruct (o_res out); try contradiction.
  (* [Ok -> same_log] is about the result Ok alone; the last four conjuncts compare the result with
     another one, or have the cause that [HP] names for it against them *)
  all: split; [intros Hok; try discriminate Hok | repeat split; try discriminate; try congruence].
  - (* Ok *) apply same_log_of_ents; [apply HP | exact H2].
  - (* Canceled *) intros Hc. destruct HP as (k & Hk & _). congruence.
Qed.

(* a source whose FirstIndex (resp. LastIndex) fails: that error is returned,
   nothing is read or written *)
Theorem copy_logs_index_fault : forall src dst bb ev,
  let r := copy_logs ev bb src dst in
  (first_fail ev = true -> r_res r = CErrFirst /\ r_dst r = dst /\ r_batches r = [] /\ r_gets r = 0) /\
  (first_fail ev = false -> last_fail ev = true ->
     r_res r = CErrLast /\ r_dst r = dst /\ r_batches r = [] /\ r_gets r = 0) /\
  r_closed r = has_progress ev.
Proof.
  intros src dst bb ev. cbn zeta. unfold copy_logs, run_deferred, copy_logs_body.
  cbn [r_res r_dst r_batches r_gets r_closed].
  split; [|split; [|reflexivity]].
  - intros ->. cbn. auto.
  - intros -> ->. cbn. auto.
Qed.

Theorem copy_logs_cancel_point : forall src bb p k,
  wf_store src ->
  let ev := {| cancel_at := Some k; get_fail := None; store_fail := None;
              first_fail := false; last_fail := false; has_progress := p |} in
  let r := copy_logs ev bb src empty_store in
  ((k < length (ls_ents src))%nat -> r_res r = CCanceled /\ r_gets r = N.of_nat k) /\
  ((length (ls_ents src) <= k)%nat -> r_res r = COk /\ same_log (r_dst r) src).
Proof.
  intros src bb p k Hwf. cbn zeta.
  set (ev := {| cancel_at := Some k; get_fail := None; store_fail := None;
              first_fail := false; last_fail := false; has_progress := p |}).
  unfold copy_logs, run_deferred. cbn [r_res r_dst r_batches r_gets].
  change (copy_logs_body ev bb src empty_store) with (copy_logs_core ev bb src empty_store).
  destruct (copy_core_inv ev bb src Hwf) as ((_ & H2 & _) & HP).
  set (out := copy_logs_core ev bb src empty_store) in *.
  unfold loop_post in HP. destruct (o_res out); try contradiction; try (now elim HP).
  - destruct HP as (He & _ & Hk). specialize (Hk k eq_refl).
    split; [lia|]. intros _. split; [reflexivity | now apply same_log_of_ents].
  - destruct HP as (k' & [= <-] & Hlt & Hg). rewrite Nat.sub_0_r in Hg. split; [auto | lia].
Qed.

(* the deferred close runs on every return path: any source (well-formed or
   not), any destination, any cancellation point, any fault *)
Theorem progress_closed : forall ev bb src dst,
  r_closed (copy_logs ev bb src dst) = has_progress ev.
Proof. reflexivity. Qed.

Theorem stable_progress_closed : forall pol cancel p src dst extra extra_int,
  sr_closed (copy_stable pol cancel p src dst extra extra_int) = p.
Proof. reflexivity. Qed.

Definition int_present (src : sstore) (ks : list bytes) : Prop :=
  forall k, In k ks -> s_get_int src k <> None.
Definition key_present (src : sstore) (ks : list bytes) : Prop :=
  forall k, In k ks -> s_get src k <> None.

Definition or_zero (o : option N) : N := match o with Some v => v | None => 0 end.
Definition or_empty (o : option bytes) : bytes := match o with Some v => v | None => [] end.

(* each of the two loops pushes one binding per key, in order, onto its own map *)
Lemma lookup_pushed {V : Type} (f : bytes -> V) : forall ks m k,
  (In k ks -> lookup k (fold_left (fun m k0 => (k0, f k0) :: m) ks m) = Some (f k)) /\
  (~ In k ks -> lookup k (fold_left (fun m k0 => (k0, f k0) :: m) ks m) = lookup k m).
Proof.
  induction ks as [|k0 ks IH]; intros m k; cbn [fold_left]; [split; [intros [] | reflexivity]|].
  destruct (IH ((k0, f k0) :: m) k) as [I1 I2].
  assert (Hk0 : ~ In k ks -> lookup k (fold_left (fun m k1 => (k1, f k1) :: m) ks ((k0, f k0) :: m)) =
                             if beq_bytes k k0 then Some (f k0) else lookup k m) by (intros Hn; now rewrite I2).
  split.
  - intros Hi. destruct (in_dec (list_eq_dec N.eq_dec) k ks) as [Hin|Hn]; [now apply I1|].
    destruct Hi as [<-|Hi]; [|contradiction]. now rewrite (Hk0 Hn), beq_bytes_refl.
  - intros Hn. rewrite Hk0 by (intros H; apply Hn; now right).
    destruct (beq_bytes k k0) eqn:B; [|reflexivity]. apply beq_bytes_eq in B. exfalso. apply Hn. now left.
Qed.

Lemma copy_int_keys_spec : forall ks pol src chk dst,
  (miss_int_err pol = true -> int_present src ks) ->
  let o := copy_int_keys pol None src ks chk dst in
  so_res o = SOk /\ s_kv (so_dst o) = s_kv dst /\
  s_int (so_dst o) = fold_left (fun m k => (k, or_zero (s_get_int src k)) :: m) ks (s_int dst).
Proof.
  induction ks as [|k0 ks IH]; intros pol src chk dst Hp; cbn [copy_int_keys fold_left]; [cbn; auto|].
  assert (Hp' : miss_int_err pol = true -> int_present src ks) by (intros H k Hk; apply (Hp H); now right).
  destruct (s_get_int src k0) as [v|] eqn:G; [exact (IH pol src (S chk) (s_set_int dst k0 v) Hp')|].
  case_eq (miss_int_err pol); intros M; [exfalso; apply (Hp M k0 (or_introl eq_refl) G)|].
  exact (IH pol src (S chk) (s_set_int dst k0 0) Hp').
Qed.

Lemma copy_keys_spec : forall ks pol src chk dst,
  (miss_get_err pol = true -> key_present src ks) ->
  let o := copy_keys pol None src ks chk dst in
  so_res o = SOk /\ s_int (so_dst o) = s_int dst /\
  s_kv (so_dst o) = fold_left (fun m k => (k, or_empty (s_get src k)) :: m) ks (s_kv dst).
Proof.
  induction ks as [|k0 ks IH]; intros pol src chk dst Hp; cbn [copy_keys fold_left]; [cbn; auto|].
  assert (Hp' : miss_get_err pol = true -> key_present src ks) by (intros H k Hk; apply (Hp H); now right).
  destruct (s_get src k0) as [v|] eqn:G; [exact (IH pol src (S chk) (s_set dst k0 v) Hp')|].
  case_eq (miss_get_err pol); intros M; [exfalso; apply (Hp M k0 (or_introl eq_refl) G)|].
  exact (IH pol src (S chk) (s_set dst k0 []) Hp').
Qed.

(* without cancellation, and with every requested key present in a source
   that fails on missing keys: all standard and extra keys arrive with their
   values, nothing else in the destination changes *)
Theorem copy_stable_faithful : forall pol p src dst extra extra_int,
  (miss_int_err pol = true -> int_present src (known_int_keys ++ extra_int)) ->
  (miss_get_err pol = true -> key_present src (known_keys ++ extra)) ->
  let r := copy_stable pol None p src dst extra extra_int in
  sr_res r = SOk /\ sr_closed r = p /\
  (forall k, In k (known_int_keys ++ extra_int) ->
             s_get_int (sr_dst r) k = Some (or_zero (s_get_int src k))) /\
  (forall k, In k (known_keys ++ extra) ->
             s_get (sr_dst r) k = Some (or_empty (s_get src k))) /\
  (forall k, ~ In k (known_int_keys ++ extra_int) -> s_get_int (sr_dst r) k = s_get_int dst k) /\
  (forall k, ~ In k (known_keys ++ extra) -> s_get (sr_dst r) k = s_get dst k).
Proof.
  intros pol p src dst extra extra_int Hi Hk. cbn zeta. unfold copy_stable.
  destruct (copy_int_keys_spec (known_int_keys ++ extra_int) pol src 0 dst Hi) as (A1 & A2 & A3).
  set (o1 := copy_int_keys pol None src (known_int_keys ++ extra_int) 0 dst) in *.
  rewrite A1.
  destruct (copy_keys_spec (known_keys ++ extra) pol src (so_chk o1) (so_dst o1) Hk) as (B1 & B2 & B3).
  set (o2 := copy_keys pol None src (known_keys ++ extra) (so_chk o1) (so_dst o1)) in *.
  cbn [sr_res sr_dst sr_closed].
  split; [exact B1|]. split; [reflexivity|].
  unfold s_get_int at 1 3 4, s_get at 1 3 4. rewrite B2, B3, A2, A3.
  pose proof (lookup_pushed (fun k => or_zero (s_get_int src k)) (known_int_keys ++ extra_int) (s_int dst)) as LI.
  pose proof (lookup_pushed (fun k => or_empty (s_get src k)) (known_keys ++ extra) (s_kv dst)) as LK.
  split; [intros k; apply (LI k)|]. split; [intros k; apply (LK k)|]. split; intros k; [apply (LI k) | apply (LK k)].
Qed.
