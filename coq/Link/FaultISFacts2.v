(* FaultISFacts2.v -- the IndexStart invariant under INJECTED FAULTS: the WAL
   operations.  Each lemma takes the byte-level link WL of the state (it gives
   tail_agree: the tail writer's index start is the seal offset of its file,
   so a write never goes to a file listed as sealed) and the facts a call has
   at its start (FaultIS.v), and shows FJ of the result, whatever fails. *)
From RW Require Import Base.Bytes Fmt.Codec Fmt.Frame Wal.Model Wal.Spec Wal.CrashInv Wal.CrashFacts1
     Wal.CrashFacts4 Wal.CrashCalls4 Wal.FaultInv Link.Abs Link.AbsFacts2 Link.ComposeFacts3 Link.IndexStartFacts1 Link.IndexStartFacts2
     Link.FaultDisk Link.FaultDiskFacts1 Link.FaultDiskFacts2 Link.FaultDiskFacts3 Link.FaultIS
     Link.FaultISFacts1 Wal.ModelFacts.
From RW Require Import Base.LiaSetup.
Open Scope N_scope.

(* from the byte-level link *)
Lemma WL_tail_agree c w bd d : WL c w bd d -> tail_agree w d.
Proof.
  intros ((_ & _ & Ht) & _) tw f Et El. rewrite Et in Ht. destruct Ht as (info & bs & [Tn Th Tw Tf]).
  destruct (Tf f El) as (bf & pb & _ & R). pose proof (wfrep_unpend _ _ _ _ _ R) as Ru.
  rewrite (rw_istart _ _ Tw). change (df_seal f) with (df_seal (Abs.unpend f)). rewrite (rep_seal _ _ _ Ru). reflexivity.
Qed.

Lemma tail_agree_target w d tw : tail_agree w d -> st_tail w = Some tw -> unsealed_target tw d.
Proof. intros H Et Hz f Ef. rewrite (H tw f Et Ef). exact Hz. Qed.

Lemma WL_NoDup c w bd d : WL c w bd d -> NoDup (map fst (dk_files d)).
Proof. intros ((_ & H & _) & _). exact H. Qed.

Lemma new_segment_IS' c d id base : ISseg' d (new_segment c id base).
Proof. apply ISseg'_unsealed. reflexivity. Qed.

Lemma FJ_mem w d : FJ w d -> ISs' d (st_segs w).
Proof. intros H. apply ISs'_app in H. apply H. Qed.

Lemma FJ_ext w w' d : st_segs w' = st_segs w -> FJ w d -> FJ w' d.
Proof. unfold FJ. intros ->. auto. Qed.

(* ids: a created segment's name differs from every listed one *)
Lemma ids_name_neq (L : list seginfo) nid base s c :
  Forall (fun x => si_id x < nid) L -> In s L -> name_of s <> name_of (new_segment c nid base).
Proof.
  intros H Hin E. rewrite Forall_forall in H. specialize (H s Hin). unfold name_of in E. cbn in E. inversion E. lia.
Qed.

(* outcome of an operation, as far as the next call is concerned *)
Definition same_state (w w' : wal) (e e' : env) : Prop :=
  st_segs w' = st_segs w /\ st_tail w' = st_tail w /\ st_next_id w' = st_next_id w /\
  (st_failed w' = true \/
   (dk_files (e_disk e') = dk_files (e_disk e) /\ dk_meta (e_disk e') = dk_meta (e_disk e))).

Lemma mutate_gen_create_FJ c defer w e nid0 segs nb del r w' e' dels :
  NoDup (map fst (dk_files (e_disk e))) -> FJ w (e_disk e) -> ids_ok w ->
  ISs' (e_disk e) segs -> Forall (fun x => si_id x < st_next_id w) segs -> nid0 = st_next_id w ->
  (let '(nid, segs2, si) := create_next c nid0 segs nb in
   mutate_gen defer w {| tx_next_id := nid; tx_segs := segs2; tx_delete := del; tx_create := Some si; tx_tail := None |} e)
    = (r, w', e', dels) ->
  FJ w' (e_disk e') /\ NoDup (map fst (dk_files (e_disk e'))) /\
  (same_state w w' e e' \/
   (r = ROk /\ st_next_id w' = (st_next_id w + 1) mod two64 /\ (exists si, st_tail w' = Some (new_wseg si)) /\
    forall x, In x (st_segs w') -> si_id x = st_next_id w \/ In x segs)).
Proof.
  intros ND HJ Hids Hsegs Hsid ->. unfold create_next. intros Hm.
  match type of Hm with mutate_gen _ _ ?t _ = _ => destruct (mutate_gen_FJ defer w t e r w' e' dels ND HJ) with (3 := Hm) as (HJ' & ND' & Hcase) end.
  - cbn [tx_segs]. eapply ISs'_incl; [|exact Hsegs]. intros x Hx. apply in_seg_set in Hx as [->|Hx]; [right; apply new_segment_IS'|left; exact Hx].
  - cbn [tx_create tx_segs]. intros si' [= <-] s Hs Hse. apply in_app_or in Hs as [Hs|Hs].
    + apply (ids_name_neq (st_segs w) _ _ s c Hids Hs).
    + apply in_seg_set in Hs as [->|Hs]; [discriminate|]. apply (ids_name_neq segs _ _ s c Hsid Hs).
  - split; [exact HJ'|]. split; [exact ND'|]. destruct Hcase as [(A & B & C & D)|(A & B & C & _ & D)].
    + left. split; [exact A|]. split; [exact B|]. split; [exact C|].
      destruct D as [D|[(_ & D & _)|(D1 & D2 & _)]]; [left; exact D|right; rewrite D; auto|right; auto].
    + right. split; [exact A|]. split; [exact C|]. split; [eexists; apply D; reflexivity|].
      rewrite B. cbn [tx_segs]. intros x Hx. apply in_seg_set in Hx as [->|Hx]; [left; reflexivity|right; exact Hx].
Qed.

Lemma mutate_create_FJ c w e nid0 segs nb del r w' e' :
  NoDup (map fst (dk_files (e_disk e))) -> FJ w (e_disk e) -> ids_ok w ->
  ISs' (e_disk e) segs -> Forall (fun x => si_id x < st_next_id w) segs -> nid0 = st_next_id w ->
  (let '(nid, segs2, si) := create_next c nid0 segs nb in
   mutate w {| tx_next_id := nid; tx_segs := segs2; tx_delete := del; tx_create := Some si; tx_tail := None |} e)
    = (r, w', e') ->
  FJ w' (e_disk e') /\ NoDup (map fst (dk_files (e_disk e'))).
Proof.
  intros ND HJ Hids Hsegs Hsid E Hm.
  destruct (create_next c nid0 segs nb) as [[nid segs2] si] eqn:Ecn. unfold mutate in Hm.
  destruct (mutate_gen false w _ e) as [[[r1 w1] e1] dels] eqn:Em. injection Hm as _ <- <-.
  destruct (mutate_gen_create_FJ c false w e nid0 segs nb del r1 w1 e1 dels ND HJ Hids Hsegs Hsid E) as (A & B & _); [|auto].
  rewrite Ecn. exact Em.
Qed.

Lemma mutate_gen_rotate defer w t e r w' e' dels :
  mutate_gen defer w t e = (r, w', e', dels) -> st_rotate w' = st_rotate w.
Proof.
  unfold mutate_gen. destruct (io _ e) as [ok e1]. destruct ok; cbn [negb]; [|intros [= _ <- _ _]; reflexivity].
  destruct (tx_create t).
  - destruct (seg_create _ _) as [[sw|] e2]; intros [= _ <- _ _]; reflexivity.
  - intros [= _ <- _ _]; reflexivity.
Qed.

Lemma rotate_FJ c w e w' e' :
  NoDup (map fst (dk_files (e_disk e))) -> FJ w (e_disk e) -> ids_ok w -> rot_facts w (e_disk e) -> tail_agree w (e_disk e) ->
  st_next_id w + 1 < two64 ->
  rotate c w e = (w', e') ->
  FJ w' (e_disk e') /\ NoDup (map fst (dk_files (e_disk e'))) /\ st_rotate w' = None /\
  (same_state w w' e e' \/
   (ids_ok w' /\ exists si, st_tail w' = Some (new_wseg si))).
Proof.
  intros ND HJ Hids Hrf Hta Hn. unfold rotate.
  destruct (st_rotate w) as [istart|] eqn:Er.
  2:{ intros [= <- <-]. split; [exact HJ|]. split; [exact ND|]. split; [exact Er|]. left. repeat split; auto. }
  set (w0 := {| st_next_id := st_next_id w; st_segs := st_segs w; st_tail := st_tail w; st_rotate := None;
                st_failed := st_failed w; st_closed := st_closed w |}).
  assert (Hsame : forall e0, e_disk e0 = e_disk e -> (w0, e0) = (w', e') ->
            FJ w' (e_disk e') /\ NoDup (map fst (dk_files (e_disk e'))) /\ st_rotate w' = None /\
            (same_state w w' e e' \/ (ids_ok w' /\ exists si, st_tail w' = Some (new_wseg si)))).
  { intros e0 Ed [= <- <-]. rewrite Ed. split; [exact HJ|]. split; [exact ND|]. split; [reflexivity|]. left.
    repeat split; auto. right. rewrite Ed. auto. }
  destruct (st_closed w) eqn:Ecl; [apply Hsame; reflexivity|].
  destruct (tail_info (st_segs w)) as [t|] eqn:Et; [|apply Hsame; reflexivity].
  destruct (Hrf istart Er) as (tw & Etw & Hix & Hpos & Hnm & Hcl).
  set (t' := {| si_id := si_id t; si_base := si_base t; si_min := si_min t; si_max := tail_last (st_tail w);
                si_codec := si_codec t; si_index_start := istart; si_sealed := true; si_size_limit := si_size_limit t |}).
  assert (Hin_t : In t (st_segs w)) by (apply tail_info_In; exact Et).
  assert (Ht' : ISseg' (e_disk e) t').
  { intros _ f Hf. change (name_of t') with (name_of t) in Hf. rewrite (Hnm t Et) in Hf.
    cbn [t' si_index_start]. rewrite (Hta tw f Etw Hf), Hix. split; [reflexivity|]. split; [lia|apply Hcl; exact Hf]. }
  assert (Hsegs1 : ISs' (e_disk e) (seg_set t' (st_segs w))).
  { eapply ISs'_incl; [|apply (FJ_mem _ _ HJ)]. intros x Hx. apply in_seg_set in Hx as [->|Hx]; auto. }
  assert (Hids1 : Forall (fun x => si_id x < st_next_id w) (seg_set t' (st_segs w))).
  { unfold ids_ok in Hids. rewrite Forall_forall in *. intros x Hx. apply in_seg_set in Hx as [->|Hx]; [apply (Hids t Hin_t)|apply Hids; exact Hx]. }
  unfold create_next, mutate. cbv beta iota zeta.
  destruct (mutate_gen false w0 _ _) as [[[r1 w1] e1] dels] eqn:Em. intros [= <- <-].
  match type of Em with mutate_gen _ _ _ ?e0 = _ =>
    destruct (mutate_gen_create_FJ c false w0 e0 (st_next_id w) (seg_set t' (st_segs w)) 0 [] r1 w1 e1 dels ND HJ Hids Hsegs1 Hids1 eq_refl)
      as (HJ' & ND' & Hcase) end.
  { unfold create_next. exact Em. }
  pose proof (mutate_gen_rotate _ _ _ _ _ _ _ _ Em) as Hro. cbn [w0 st_rotate] in Hro.
  split; [exact HJ'|]. split; [exact ND'|]. split; [exact Hro|].
  destruct Hcase as [(A & B & C & D)|(A & B & C & D)]; [left; repeat split; auto|].
  right. split; [|exact C]. unfold ids_ok. rewrite B. cbn [w0 st_next_id]. rewrite N.mod_small by exact Hn.
  rewrite Forall_forall in *. intros x Hx. destruct (D x Hx) as [E|Hx']; [cbn [w0 st_next_id] in E; lia|]. specialize (Hids1 x Hx'). lia.
Qed.

Lemma reset_first_FJ c w nb e r w' e' dels :
  NoDup (map fst (dk_files (e_disk e))) -> FJ w (e_disk e) -> ids_ok w ->
  reset_first c w nb e = (r, w', e', dels) ->
  FJ w' (e_disk e') /\ NoDup (map fst (dk_files (e_disk e'))).
Proof.
  intros ND HJ Hids. unfold reset_first. destruct (0 <? last_index _ _); [intros [= <- <- <- <-]; auto|].
  pose proof (FJ_mem _ _ HJ) as HJm.
  destruct (tail_info (st_segs w)) as [t|]; [destruct (si_base t =? nb)|]; intros Hm.
  - match type of Hm with mutate_gen _ _ ?tx _ = _ => pose proof (mutate_gen_FJ true w tx e r w' e' dels ND HJ) as X end.
    cbn [tx_segs tx_create] in X. destruct (X HJm ltac:(intros si; discriminate) Hm) as (A & B & _). auto.
  - eapply mutate_gen_create_FJ in Hm; try eassumption; [destruct Hm as (A & B & _); auto| | |reflexivity].
    + eapply ISs'_incl; [|exact HJm]. intros x Hx. left. eapply in_seg_del; eauto.
    + unfold ids_ok in Hids. rewrite Forall_forall in *. intros x Hx. apply Hids. eapply in_seg_del; eauto.
  - eapply mutate_gen_create_FJ in Hm; try eassumption; [destruct Hm as (A & B & _); auto|reflexivity].
Qed.

Lemma store_go_FJ c last ls w bd e r w' e' :
  WL c w bd (e_disk e) -> FJ w (e_disk e) ->
  store_go last ls w e = (r, w', e') -> FJ w' (e_disk e') /\ NoDup (map fst (dk_files (e_disk e'))).
Proof.
  intros HW HJ. pose proof (WL_NoDup _ _ _ _ HW) as ND. unfold store_go. destruct (check_logs last ls) as [res nbytes].
  destruct (result_ok_dec res) as [->|N]; [|rewrite (match_not_ok res _ _ N); intros [= <- <- <-]; auto].
  destruct (st_tail w) as [tw|] eqn:Et; [|intros [= <- <- <-]; auto].
  destruct (seg_append tw ls e) as [[r0 tw'] e1] eqn:Ea.
  destruct (seg_append_frame tw ls e r0 tw' e1 _ (tail_agree_target _ _ _ (WL_tail_agree _ _ _ _ HW) Et) HJ ND Ea) as (A & B & C).
  rewrite <- (meta_segs_files _ _ C) in A.
  destruct r0; intros [= <- <- <-]; auto.
Qed.

Theorem store_logs_FJ c w ls bd e r w' e' :
  cfg_ok c -> WL c w bd (e_disk e) -> st_next_id w + 1 < two64 -> FJ w (e_disk e) -> ids_ok w ->
  store_logs c w ls e = (r, w', e') -> FJ w' (e_disk e') /\ NoDup (map fst (dk_files (e_disk e'))).
Proof.
  intros Hc HW Hn HJ Hids. pose proof (WL_NoDup _ _ _ _ HW) as ND. rewrite store_logs_unfold.
  destruct (st_closed w); [intros [= <- <- <-]; auto|].
  destruct ls as [|l0 lr]; [intros [= <- <- <-]; auto|]. destruct (st_failed w); [intros [= <- <- <-]; auto|].
  cbn zeta. destruct (tail_info (st_segs w)) as [ti|]; [|intros [= <- <- <-]; auto].
  destruct (_ && _).
  - destruct (reset_first c w (l_index l0) e) as [[[r1 w1] e1] dels] eqn:Er.
    destruct (reset_first_FJ _ _ _ _ _ _ _ _ ND HJ Hids Er) as (HJ1 & ND1).
    destruct (reset_first_wlink c w _ bd e r1 w1 e1 dels Hc HW Hn Er) as (bd1 & _ & HW1).
    destruct (result_ok_dec r1) as [->|N]; [|rewrite (match_not_ok r1 _ _ N); intros [= <- <- <-]; auto].
    destruct (store_go _ _ w1 e1) as [[r2 w2] e2] eqn:Eg. intros [= <- <- <-].
    destruct (store_go_FJ c _ _ w1 bd1 e1 r2 w2 e2 HW1 HJ1 Eg) as (HJ2 & ND2).
    destruct (delete_files_frame dels e2 _ ND2 HJ2) as (A & B & C). rewrite <- (meta_segs_files _ _ C) in A. auto.
  - intros H. eapply store_go_FJ; eauto.
Qed.

Lemma truncate_head_FJ c w nm e r w' e' :
  NoDup (map fst (dk_files (e_disk e))) -> FJ w (e_disk e) -> ids_ok w ->
  truncate_head c w nm e = (r, w', e') -> FJ w' (e_disk e') /\ NoDup (map fst (dk_files (e_disk e'))).
Proof.
  intros ND HJ Hids. pose proof (FJ_mem _ _ HJ) as HJm. unfold truncate_head.
  destruct (head_scan nm (tail_last (st_tail w)) (st_segs w) [] 0) as [[[rest del] ntr] head] eqn:Eh.
  destruct (head_scan_in _ _ _ _ _ _ _ _ _ Eh) as (Hrest & Hhead).
  destruct head as [h|]; cbn zeta.
  - unfold mutate. destruct (mutate_gen false w _ _) as [[[r1 w1] e1] dels] eqn:Em. intros [= _ <- <-].
    match type of Em with mutate_gen _ _ ?tx ?e0 = _ => pose proof (mutate_gen_FJ false w tx e0 r1 w1 e1 dels ND HJ) as X end.
    cbn [tx_segs tx_create] in X. destruct X with (3 := Em) as (A & B & _); [|intros si; discriminate|auto].
    eapply ISs'_incl; [|exact HJm]. intros x Hx.
    apply in_seg_set in Hx as [->|Hx]; [right|left; apply Hrest; exact Hx].
    unfold ISs' in HJm. rewrite Forall_forall in HJm. eapply ISseg'_same; [| | |apply (HJm h (Hhead h eq_refl))]; reflexivity.
  - intros Hm. eapply mutate_create_FJ; [| | | | | |apply Hm]; auto; constructor.
Qed.

Lemma truncate_tail_FJ c w nm bd e r w' e' :
  WL c w bd (e_disk e) -> FJ w (e_disk e) -> ids_ok w -> trunc_facts w (e_disk e) ->
  truncate_tail c w nm e = (r, w', e') -> FJ w' (e_disk e') /\ NoDup (map fst (dk_files (e_disk e'))).
Proof.
  intros HW HJ Hids HT. pose proof (WL_NoDup _ _ _ _ HW) as ND. pose proof (FJ_mem _ _ HJ) as HJm. unfold truncate_tail.
  destruct (tail_scan nm _ (rev (st_segs w)) [] 0) as [[rrest del] ntr] eqn:Et.
  pose proof (tail_scan_in _ _ _ _ _ _ _ _ Et) as Hin.
  assert (Hin' : forall x, In x rrest -> In x (st_segs w)) by (intros x Hx; apply in_rev; apply Hin; exact Hx).
  destruct rrest as [|t rr].
  { intros Hm. eapply mutate_create_FJ; [| | | | | |apply Hm]; auto; constructor. }
  (* the transaction that lists t', the sealed successor of t, in place of t *)
  assert (Hfin : forall t' w0 e0 e1, st_segs w0 = st_segs w -> st_next_id w0 = st_next_id w -> e_disk e1 = e_disk e0 ->
            NoDup (map fst (dk_files (e_disk e0))) -> FJ w (e_disk e0) -> ISseg' (e_disk e0) t' -> si_id t' = si_id t ->
            (let '(nid, segs2, si) := create_next c (st_next_id w) (seg_set t' (rev (t :: rr))) 0 in
             mutate w0 {| tx_next_id := nid; tx_segs := segs2; tx_delete := del; tx_create := Some si; tx_tail := None |} e1)
              = (r, w', e') -> FJ w' (e_disk e') /\ NoDup (map fst (dk_files (e_disk e')))).
  { intros t' w0 e0 e1 Es En Ed ND0 HJ0 Ht' Hid' Hm. rewrite <- Ed in ND0, HJ0, Ht'.
    eapply (mutate_create_FJ c w0 e1); [exact ND0|eapply FJ_ext; eauto|unfold ids_ok; rewrite Es, En; exact Hids| | |symmetry; exact En|apply Hm].
    - eapply ISs'_incl; [|apply (FJ_mem _ _ HJ0)]. intros x Hx.
      apply in_seg_set in Hx as [->|Hx]; [right; exact Ht'|]. left. apply Hin'. apply in_rev. exact Hx.
    - unfold ids_ok in Hids. rewrite Forall_forall in *. intros x Hx. rewrite En.
      apply in_seg_set in Hx as [->|Hx]; [rewrite Hid'|]; apply Hids, Hin'; [left; reflexivity|apply in_rev; exact Hx]. }
  destruct (si_sealed t) eqn:Ets.
  - cbv zeta. apply (Hfin _ _ e); auto.
    unfold ISs' in HJm. rewrite Forall_forall in HJm.
    eapply ISseg'_same; [| | |apply (HJm t (Hin' t (or_introl eq_refl)))]; [reflexivity|reflexivity|cbn; symmetry; exact Ets].
  - destruct (st_tail w) as [tw|] eqn:Etw; [|intros [= <- <- <-]; auto].
    destruct (seg_force_seal tw e) as [[r1 tw'] e1] eqn:Efs.
    destruct (seg_force_seal_frame tw e r1 tw' e1 _ (tail_agree_target _ _ _ (WL_tail_agree _ _ _ _ HW) Etw) HJ ND Efs)
      as (A & B & C & Hcase).
    rewrite <- (meta_segs_files _ _ C) in A.
    destruct (result_ok_dec r1) as [->|N]; [|rewrite (match_not_ok r1 _ _ N); intros [= <- <- <-]; cbn [st_segs]; auto].
    specialize (Hcase eq_refl).
    cbv zeta. apply (Hfin _ _ e1); auto.
    intros _ f1 Hf1. change (name_of _) with (name_of t) in Hf1. cbn [si_index_start].
    destruct Hcase as [(-> & -> & Hpos)|(Hpos & Hn0 & Hfile)].
    + destruct (HT tw Etw (or_intror Hpos)) as (Hun & Hcl).
      rewrite (Hun t (Hin' t (or_introl eq_refl)) Ets) in Hf1.
      rewrite (WL_tail_agree _ _ _ _ HW tw f1 Etw Hf1). split; [reflexivity|]. split; [lia|apply (Hcl Hpos f1 Hf1)].
    + destruct (HT tw Etw (or_introl Hn0)) as (Hun & _).
      rewrite (Hun t (Hin' t (or_introl eq_refl)) Ets) in Hf1.
      destruct (Hfile f1 Hf1) as (Hs1 & Hp1). rewrite Hs1. split; [reflexivity|]. split; [lia|exact Hp1].
Qed.

Theorem delete_range_FJ c w mn mx bd e r w' e' :
  WL c w bd (e_disk e) -> FJ w (e_disk e) -> ids_ok w -> trunc_facts w (e_disk e) ->
  delete_range c w mn mx e = (r, w', e') -> FJ w' (e_disk e') /\ NoDup (map fst (dk_files (e_disk e'))).
Proof.
  intros HW HJ Hids HT. pose proof (WL_NoDup _ _ _ _ HW) as ND. unfold delete_range.
  destruct (st_closed w); [intros [= <- <- <-]; auto|].
  destruct (mx <? mn); [intros [= <- <- <-]; auto|].
  destruct (st_failed w); [intros [= <- <- <-]; auto|]. cbn zeta.
  destruct (_ || _); [intros [= <- <- <-]; auto|].
  destruct (mn <=? _); [apply truncate_head_FJ; assumption|].
  destruct (_ <=? mx); [eapply truncate_tail_FJ; eassumption|].
  intros [= <- <- <-]; auto.
Qed.

Lemma ISs'_adopt d L : NoDup (map fst (dk_files d)) -> ISs' d L -> ISs' (adopt_disk d) L.
Proof.
  intros ND. unfold ISs'. apply Forall_impl. intros s H Hs f' Hf'.
  rewrite adopt_is_map, lookup_map_files in Hf'.
  destruct (lookup (name_of s) (dk_files d)) as [f|] eqn:Ef; [|discriminate].
  cbn in Hf'. inversion Hf'; subst f'. destruct (H Hs f Ef) as (A & B & C).
  unfold adopt_file. rewrite C. auto.
Qed.

(* sealed and unsealed listed segments have different files *)
Definition names_sep (P : list seginfo) : Prop :=
  forall s u, In s P -> In u P -> si_sealed s = true -> si_sealed u = false -> name_of s <> name_of u.

Lemma open_segs_FJ c P segs acc e r segs' tail e1 :
  NoDup (map fst (dk_files (e_disk e))) -> no_pend (e_disk e) -> ISs' (e_disk e) P -> names_sep P ->
  (forall x, In x segs -> In x P) -> (forall x, In x acc -> In x P) ->
  open_segs c segs acc e = (r, segs', tail, e1) ->
  ISs' (e_disk e1) P /\ NoDup (map fst (dk_files (e_disk e1))) /\ dk_meta (e_disk e1) = dk_meta (e_disk e) /\
  (r = ROk -> ISs' (e_disk e1) segs' /\ forall x, In x segs' -> exists y, In y P /\ si_id x = si_id y).
Proof.
  intros ND Hnp HP Hsep Hsub Hacc Ho. destruct (open_segs_cases _ _ _ _ _ _ _ _ Ho) as (Hsegs & Hcase).
  assert (Hfr : ISs' (e_disk e1) P /\ NoDup (map fst (dk_files (e_disk e1))) /\ dk_meta (e_disk e1) = dk_meta (e_disk e)).
  { destruct Hcase as [(-> & _)|(si & Hin & Hse & _ & [(f & _ & -> & _)|(El & sw & Es & _)])]; auto.
    apply (seg_create_frame si e sw e1 P ND); [|exact HP|exact Es]. intros s Hs Hss. apply (Hsep s si Hs (Hsub _ Hin) Hss Hse). }
  destruct Hfr as (A & B & C). split; [exact A|]. split; [exact B|]. split; [exact C|]. intros Hr.
  assert (Hx : forall x, In x segs' -> ISseg' (e_disk e1) x /\ exists y, In y P /\ si_id x = si_id y).
  { unfold ISs' in A. rewrite Forall_forall in A. intros x Hx.
    destruct (Hsegs Hr x Hx) as [Hx1|[Hx1|(si & f & Hin & Hse & Ef & Hpos & -> & Hn & Hid & Hix)]];
      [split; [apply A|exists x]; auto..|].
    split; [|exists si; auto]. intros _ f' Hf'. rewrite Hn, Ef in Hf'. inversion Hf'; subst f'.
    pose proof (Hnp _ _ Ef) as Hp. unfold cur_seal in Hix, Hpos. rewrite Hp in Hix, Hpos. split; [exact Hix|]. split; [lia|exact Hp]. }
  split; [apply Forall_forall; intros x Hx'; apply (Hx x Hx')|intros x Hx'; apply (Hx x Hx')].
Qed.

Lemma open_newtail_FJ c nid0 segs garbage e res e' :
  NoDup (map fst (dk_files (e_disk e))) -> ISs' (e_disk e) segs -> Forall (fun x => si_id x < nid0) segs ->
  open_newtail c nid0 segs garbage e = (res, e') ->
  NoDup (map fst (dk_files (e_disk e'))) /\
  match res with
  | OOk w => FJ w (e_disk e')
  | OErr _ => ISs' (e_disk e') (meta_segs (e_disk e')) \/
              (dk_files (e_disk e') = dk_files (e_disk e) /\ dk_meta (e_disk e') = dk_meta (e_disk e))
  end.
Proof.
  intros ND Hs Hid. unfold open_newtail. cbn zeta.
  set (base := match tail_info segs with Some t => (si_max t + 1) mod two64 | None => 1 end).
  set (si := new_segment c nid0 base).
  match goal with |- context [io ?a e] => destruct (io a e) as [ok1 e1] eqn:Eio end.
  pose proof (io_meta_files _ _ _ _ Eio I) as Ef1.
  assert (ND1 : NoDup (map fst (dk_files (e_disk e1)))) by (rewrite Ef1; exact ND).
  assert (H1 : ISs' (e_disk e1) (seg_set si segs)).
  { eapply ISs'_files; [exact Ef1|]. eapply ISs'_incl; [|exact Hs]. intros x Hx.
    apply in_seg_set in Hx as [->|Hx]; [right; apply new_segment_IS'|left; exact Hx]. }
  destruct (io_cases3 _ _ _ _ Eio) as [(-> & Ed)|[(-> & Ed)|(-> & _ & Ed)]]; cbn [negb].
  2:{ intros [= <- <-]. rewrite Ed. split; [exact ND|]. right. auto. }
  2:{ (* the commit landed *)
      intros [= <- <-]. split; [exact ND1|]. left.
      replace (meta_segs (e_disk e1)) with (seg_set si segs) by (rewrite Ed; reflexivity). exact H1. }
  assert (Em1 : meta_segs (e_disk e1) = seg_set si segs) by (rewrite Ed; reflexivity).
  destruct (seg_create si e1) as [sw e2] eqn:Es.
  assert (Hn : forall s, In s (seg_set si segs) -> si_sealed s = true -> name_of s <> name_of si).
  { intros s Hx Hss. apply in_seg_set in Hx as [->|Hx]; [discriminate|]. apply (ids_name_neq segs nid0 base s c Hid Hx). }
  destruct (seg_create_frame si e1 sw e2 _ ND1 Hn H1 Es) as (A & B & C).
  assert (Em2 : meta_segs (e_disk e2) = seg_set si segs) by (rewrite (meta_segs_files _ _ C); exact Em1).
  destruct sw as [sw|].
  - destruct (delete_files_frame garbage e2 _ B A) as (A3 & B3 & C3).
    intros [= <- <-]. split; [exact B3|]. unfold FJ. cbn [st_segs]. rewrite (meta_segs_files _ _ C3), Em2.
    apply ISs'_app. auto.
  - intros [= <- <-]. split; [exact B|]. left. rewrite Em2. exact A.
Qed.

Theorem open_wal_FJ c e res e' :
  NoDup (map fst (dk_files (e_disk e))) -> no_pend (e_disk e) ->
  ISs' (e_disk e) (meta_segs (e_disk e)) -> names_sep (meta_segs (e_disk e)) -> dids_ok (e_disk e) ->
  open_wal c e = (res, e') ->
  NoDup (map fst (dk_files (e_disk e'))) /\
  match res with
  | OOk w => FJ w (e_disk e')
  | OErr _ => ISs' (e_disk e') (meta_segs (e_disk e'))
  end.
Proof.
  intros ND Hnp HP Hsep Hdid. rewrite open_wal_unfold.
  destruct (_ && _); [intros [= <- <-]; auto|].
  assert (Hrest : forall e0, dk_files (e_disk e0) = dk_files (e_disk e) -> dk_meta (e_disk e0) = dk_meta (e_disk e) ->
            open_rest c e0 = (res, e') ->
            NoDup (map fst (dk_files (e_disk e'))) /\
            match res with OOk w => FJ w (e_disk e') | OErr _ => ISs' (e_disk e') (meta_segs (e_disk e')) end).
  { intros e0 Ef0 Em0. unfold open_rest. cbn zeta.
    assert (ND0 : NoDup (map fst (dk_files (e_disk e0)))) by (rewrite Ef0; exact ND).
    assert (Hnp0 : no_pend (e_disk e0)) by (intros n f; rewrite Ef0; apply Hnp).
    assert (Ems : meta_segs (e_disk e0) = meta_segs (e_disk e)) by (apply meta_segs_files; exact Em0).
    set (ps := match dk_meta (e_disk e0) with Some ps => ps | None => {| ps_next_id := 0; ps_segs := [] |} end).
    assert (Eps : ps_segs ps = meta_segs (e_disk e)).
    { rewrite <- Ems. unfold ps, meta_segs. destruct (dk_meta (e_disk e0)); reflexivity. }
    assert (Hpid : Forall (fun x => si_id x < ps_next_id ps) (ps_segs ps)).
    { unfold ps, dids_ok in *. rewrite Em0. destruct (dk_meta (e_disk e)); [exact Hdid|constructor]. }
    destruct (open_segs c (ps_segs ps) [] e0) as [[[r segs] tail] e1] eqn:Eo.
    assert (HP0 : ISs' (e_disk e0) (ps_segs ps)) by (rewrite Eps; eapply ISs'_files; eauto).
    destruct (open_segs_FJ c (ps_segs ps) (ps_segs ps) [] e0 r segs tail e1 ND0 Hnp0 HP0) with (4 := Eo) as (A & B & C & D).
    - rewrite Eps. exact Hsep.
    - auto.
    - intros x [].
    - assert (Em1 : meta_segs (e_disk e1) = ps_segs ps).
      { rewrite (meta_segs_files _ _ C), Ems. symmetry. exact Eps. }
      destruct (result_ok_dec r) as [->|N]; [|rewrite (match_not_ok r _ _ N); intros [= <- <-]; split; [exact B|rewrite Em1; exact A]].
      destruct (D eq_refl) as (D1 & D2).
      destruct tail as [tw|].
      + destruct (delete_files_frame (filter (fun n => negb (listed (ps_segs ps) n)) (map fst (dk_files (e_disk e0)))) e1
                    (segs ++ ps_segs ps) B) as (A3 & B3 & C3); [apply ISs'_app; auto|].
        intros [= <- <-]. split; [exact B3|]. unfold FJ. cbn [st_segs]. rewrite (meta_segs_files _ _ C3), Em1. exact A3.
      + intros Hn.
        assert (Hid4 : Forall (fun x => si_id x < ps_next_id ps) segs).
        { rewrite Forall_forall in *. intros x Hx. destruct (D2 x Hx) as (y & Hy & ->). apply Hpid. exact Hy. }
        destruct (open_newtail_FJ c (ps_next_id ps) segs _ e1 res e' B D1 Hid4 Hn) as (B4 & Hres).
        * split; [exact B4|]. destruct res as [w|x]; [exact Hres|].
          destruct Hres as [K|(K1 & K2)]; [exact K|]. rewrite (meta_segs_files _ _ K2), Em1. eapply ISs'_files; eauto. }
  destruct (dk_inited (e_disk e)).
  - cbn [negb]. destruct (armed e && fx_list (e_fx e)); [intros [= <- <-]; auto|]. apply (Hrest e); reflexivity.
  - destruct (io AInitMeta e) as [ok0 e0] eqn:Eio.
    pose proof (io_meta_files _ _ _ _ Eio I) as Ef0.
    assert (Em0 : dk_meta (e_disk e0) = dk_meta (e_disk e)).
    { destruct (io_cases _ _ _ _ Eio eq_refl) as [(_ & ->)|(_ & ->)]; reflexivity. }
    assert (Hbase : NoDup (map fst (dk_files (e_disk e0))) /\ ISs' (e_disk e0) (meta_segs (e_disk e0))).
    { split; [rewrite Ef0; exact ND|]. rewrite (meta_segs_files _ _ Em0). eapply ISs'_files; eauto. }
    destruct ok0; cbn [negb]; [|intros [= <- <-]; exact Hbase].
    destruct (armed e0 && fx_list (e_fx e0)); [intros [= <- <-]; cbn [list_failed e_disk]; exact Hbase|].
    apply (Hrest e0); auto.
Qed.
