(* DiskFacts1.v -- the directory level of the link, part 1:
     - finite-map facts of the byte-level directory, in lock step with L2's;
     - the bytes of a segment file depend on its info only through the header
       fields (hdr_eq): cstate / image / rep / frep_at transfer;
     - torn_over (a torn write over arbitrary old content) over zeros is
       RecoverFacts.torn;
     - every byte-level action preserves drep w.r.t. the L2 action it stands
       for: create, write (via commit_rep), fsync, delete, metadata. *)
From RW Require Import Base.Bytes Base.BytesFacts Fmt.Frame Fmt.FrameFacts Seg.Writer Seg.SegAbs
     Seg.RecoverFacts Wal.Model Wal.Spec Wal.CrashFacts0 Link.Abs Link.AbsFacts2 Link.Disk Wal.ModelFacts.
From RW Require Import Base.LiaSetup.
Open Scope N_scope.

Lemma blookup_bupdate_eq n f bd : blookup n (bupdate n f bd) = Some f.
Proof.
  induction bd as [|[m g] r IH]; cbn [bupdate blookup].
  - rewrite fname_eqb_refl; reflexivity.
  - destruct (fname_eqb n m) eqn:E; cbn [blookup]; [rewrite fname_eqb_refl; reflexivity|rewrite E; exact IH].
Qed.

Lemma blookup_bupdate_neq n m f bd : n <> m -> blookup n (bupdate m f bd) = blookup n bd.
Proof.
  intros Hne. induction bd as [|[k g] r IH]; cbn [bupdate blookup].
  - replace (fname_eqb n m) with false by (symmetry; apply fname_eqb_neq; exact Hne). reflexivity.
  - destruct (fname_eqb m k) eqn:E; cbn [blookup].
    + apply fname_eqb_eq in E. subst k.
      replace (fname_eqb n m) with false by (symmetry; apply fname_eqb_neq; exact Hne). reflexivity.
    + rewrite IH. reflexivity.
Qed.

Lemma finfo_name c n : name_of (finfo c n) = n.
Proof. destruct n. reflexivity. Qed.

(* same names in the same order, files related by P: frel is the case P = frep *)
Section Rel.
Variable P : seginfo -> bfile -> dfile -> Prop.
Let rel (c : cfg) : bdisk -> list (fname * dfile) -> Prop :=
  Forall2 (fun nb nf => fst nb = fst nf /\ hdr_wf (finfo c (fst nf)) /\ P (finfo c (fst nf)) (snd nb) (snd nf)).

Lemma rel_lookup c bd fs n f :
  rel c bd fs -> lookup n fs = Some f ->
  exists bf, blookup n bd = Some bf /\ hdr_wf (finfo c n) /\ P (finfo c n) bf f.
Proof.
  intros H. induction H as [|[m bf] [m' g] bd fs (Hn & Hh & Hf) _ IH]; cbn [lookup blookup]; [discriminate|].
  cbn [fst snd] in *. subst m'. destruct (fname_eqb n m) eqn:E.
  - apply fname_eqb_eq in E. subst m. intros [= ->]. exists bf. auto.
  - exact IH.
Qed.

Lemma rel_lookup_none c bd fs n : rel c bd fs -> lookup n fs = None -> blookup n bd = None.
Proof.
  intros H. induction H as [|[m bf] [m' g] bd fs (Hn & _) _ IH]; cbn [lookup blookup]; [reflexivity|].
  cbn [fst] in Hn. subst m'. destruct (fname_eqb n m); [discriminate|exact IH].
Qed.

Lemma rel_blookup c bd fs n bf :
  rel c bd fs -> blookup n bd = Some bf ->
  exists f, lookup n fs = Some f /\ hdr_wf (finfo c n) /\ P (finfo c n) bf f.
Proof.
  intros H Hb. destruct (lookup n fs) as [f|] eqn:E.
  - destruct (rel_lookup _ _ _ _ _ H E) as (bf' & Hb' & Hh & Hp). rewrite Hb in Hb'. inversion Hb'; subst. eauto.
  - rewrite (rel_lookup_none _ _ _ _ H E) in Hb. discriminate.
Qed.

Lemma rel_keys c bd fs : rel c bd fs -> map fst bd = map fst fs.
Proof.
  intros H. induction H as [|x y bd fs (Hn & _) _ IH]; [reflexivity|]. cbn [map]. rewrite Hn, IH. reflexivity.
Qed.

Lemma rel_update c bd fs n bf f :
  rel c bd fs -> hdr_wf (finfo c n) -> P (finfo c n) bf f -> rel c (bupdate n bf bd) (update n f fs).
Proof.
  intros H Hh Hf. induction H as [|[m b] [m' g] bd fs (Hn & Hx) Hr IH]; cbn [update bupdate].
  - constructor; [|constructor]. cbn [fst snd]. auto.
  - cbn [fst snd] in *. subst m'. destruct (fname_eqb n m).
    + constructor; [|exact Hr]. cbn [fst snd]. auto.
    + constructor; [|exact IH]. cbn [fst snd]. auto.
Qed.

Lemma rel_remove c bd fs n : rel c bd fs -> rel c (bremove n bd) (remove n fs).
Proof.
  intros H. induction H as [|[m b] [m' g] bd fs (Hn & Hx) Hr IH]; cbn [remove bremove]; [constructor|].
  cbn [fst snd] in *. subst m'. destruct (fname_eqb n m); [exact Hr|].
  constructor; [|exact IH]. cbn [fst snd]. auto.
Qed.
End Rel.

Definition frel_lookup := rel_lookup frep.
Definition frel_lookup_none := rel_lookup_none frep.
Definition frel_update := rel_update frep.
Definition frel_remove := rel_remove frep.

Lemma frel_blookup c bd fs n bf :
  frel c bd fs -> blookup n bd = Some bf -> exists f, lookup n fs = Some f.
Proof. intros H Hb. destruct (rel_blookup frep _ _ _ _ _ H Hb) as (f & E & _). eauto. Qed.

Lemma frel_keys c bd fs : frel c bd fs -> map fst bd = map fst fs.
Proof. apply rel_keys. Qed.

(* the bytes depend on the header fields only *)
Lemma hdr_eq_refl i : hdr_eq i i.
Proof. unfold hdr_eq. auto. Qed.
Lemma hdr_eq_sym i j : hdr_eq i j -> hdr_eq j i.
Proof. unfold hdr_eq. intuition congruence. Qed.

Lemma file_header_hdr_eq i j : hdr_eq i j -> file_header i = file_header j.
Proof. intros (A & B & C). unfold file_header. rewrite A, B, C. reflexivity. Qed.

Lemma cstep_hdr_eq i j s b : hdr_eq i j -> cstep i s b = cstep j s b.
Proof.
  intros H. pose proof (file_header_hdr_eq _ _ H) as Hh.
  unfold cstep, batch_write, batch_body, c_offs', c_pos, c_pend. rewrite Hh. reflexivity.
Qed.

Lemma cstate_hdr_eq i j bs : hdr_eq i j -> cstate i bs = cstate j bs.
Proof.
  intros H. unfold cstate. generalize c0. induction bs as [|b r IH]; intros s; cbn [fold_left]; [reflexivity|].
  rewrite (cstep_hdr_eq _ _ _ _ H). apply IH.
Qed.

Lemma image_hdr_eq i j bs : hdr_eq i j -> image i bs = image j bs.
Proof. intros H. unfold image. rewrite (cstate_hdr_eq _ _ _ H). reflexivity. Qed.

Lemma batch_write_hdr_eq i j s b : hdr_eq i j -> batch_write i s b = batch_write j s b.
Proof.
  intros H. unfold batch_write, batch_body, c_offs', c_pos, c_pend. rewrite (file_header_hdr_eq _ _ H). reflexivity.
Qed.

Lemma rep_hdr_eq i j bs f : hdr_eq i j -> rep i bs f -> rep j bs f.
Proof.
  intros H [A B C D]. constructor; auto.
  - rewrite <- (image_hdr_eq _ _ _ H). exact B.
  - rewrite <- (cstate_hdr_eq _ _ _ H). exact C.
Qed.

Lemma rep_p_hdr_eq i j bs b f : hdr_eq i j -> rep_p i bs b f -> rep_p j bs b f.
Proof.
  intros H (R & pb & Hp & Hb1 & Hb2 & Hb3). split; [eapply rep_hdr_eq; eauto|].
  exists pb. split; [exact Hp|]. split; [exact Hb1|].
  rewrite <- (image_hdr_eq _ _ _ H), <- (cstate_hdr_eq _ _ _ H). auto.
Qed.

Lemma frep_at_hdr_eq i j bs pb bf f : hdr_eq i j -> frep_at i bs pb bf f -> frep_at j bs pb bf f.
Proof.
  intros H [A B C D E F G]. constructor; auto.
  - destruct pb; [eapply rep_p_hdr_eq|eapply rep_hdr_eq]; eauto.
  - rewrite <- (image_hdr_eq _ _ _ H). exact C.
  - rewrite <- (image_hdr_eq _ _ _ H). exact D.
  - rewrite E. destruct pb; [|reflexivity].
    rewrite (image_hdr_eq _ _ _ H), (cstate_hdr_eq _ _ _ H), (batch_write_hdr_eq _ _ _ _ H). reflexivity.
Qed.

Lemma frep_hdr_eq i j bf f : hdr_eq i j -> frep i bf f -> frep j bf f.
Proof. intros H (bs & pb & R). exists bs, pb. eapply frep_at_hdr_eq; eauto. Qed.

Lemma torn_over_length old new T : torn_over old new T -> length old = length new /\ length T = length new.
Proof.
  induction 1 as [|co cn old new T Hco Hcn _ [IH1 IH2]|co cn old new T Hco Hcn _ [IH1 IH2]];
    [auto|rewrite !app_length; lia..].
Qed.

Lemma zeros_split8 n c r : length c = 8%nat -> c ++ r = zeros n -> c = zeros 8 /\ r = zeros (n - 8) /\ (8 <= n)%nat.
Proof.
  intros Hc H. assert (Hn : (8 <= n)%nat).
  { apply (f_equal (@length N)) in H. rewrite app_length, zeros_length in H. lia. }
  replace n with (8 + (n - 8))%nat in H by lia. rewrite zeros_app in H.
  assert (H1 : firstn 8 (c ++ r) = firstn 8 (zeros 8 ++ zeros (n - 8))) by (rewrite H; reflexivity).
  assert (H2 : skipn 8 (c ++ r) = skipn 8 (zeros 8 ++ zeros (n - 8))) by (rewrite H; reflexivity).
  rewrite <- Hc in H1 at 1. rewrite <- Hc in H2 at 1.
  rewrite firstn_app_exact in H1. rewrite skipn_app_exact in H2.
  change 8%nat with (length (zeros 8)) in H1 at 1. change 8%nat with (length (zeros 8)) in H2 at 1.
  rewrite firstn_app_exact in H1. rewrite skipn_app_exact in H2. auto.
Qed.

Lemma torn_over_zeros new T n : torn_over (zeros n) new T -> torn new T.
Proof.
  intros H. remember (zeros n) as old eqn:E. revert n E.
  induction H as [|co cn old new T Hco Hcn _ IH|co cn old new T Hco Hcn _ IH]; intros n E.
  - constructor.
  - destruct (zeros_split8 n co old Hco E) as (_ & Er & _). apply torn_keep; [exact Hcn|]. eapply IH; eauto.
  - destruct (zeros_split8 n co old Hco E) as (Ec & Er & _). subst co. apply torn_zero; [exact Hcn|]. eapply IH; eauto.
Qed.

Lemma torn_torn_over new T : torn new T -> torn_over (zeros (length new)) new T.
Proof.
  induction 1 as [|c new T Hc _ IH|c new T Hc _ IH].
  - constructor.
  - rewrite app_length, Hc, zeros_app. apply tov_new; [apply zeros_length|exact Hc|exact IH].
  - rewrite app_length, Hc, zeros_app. apply tov_old; [apply zeros_length|exact Hc|exact IH].
Qed.

Lemma region_zeros a k n : region (a ++ zeros k) (length a) n = zeros n.
Proof.
  unfold region. rewrite skipn_app_exact. rewrite <- zeros_app, firstn_zeros. f_equal. lia.
Qed.

(* one file: create, write, fsync *)
Definition bwrite_file (bf : bfile) (off : N) (bs : bytes) : bfile :=
  {| bf_data := pwrite (bf_data bf) (off, bs); bf_sync := bf_sync bf;
     bf_pend := bf_pend bf ++ [(off, bs)]; bf_dir := bf_dir bf |}.
Definition bsync_file (bf : bfile) : bfile :=
  {| bf_data := bf_data bf; bf_sync := bf_data bf; bf_pend := []; bf_dir := true |}.

Lemma bapply_write bd n off bs bf :
  blookup n bd = Some bf -> bapply bd (BWrite n off bs) = bupdate n (bwrite_file bf off bs) bd.
Proof. intros H. cbn [bapply]. rewrite H. reflexivity. Qed.

Lemma bapply_sync bd n bf :
  blookup n bd = Some bf -> bapply bd (BSync n) = bupdate n (bsync_file bf) bd.
Proof. intros H. cbn [bapply]. rewrite H. reflexivity. Qed.

Lemma apply_sync_files d n f :
  lookup n (dk_files d) = Some f -> dk_files (apply_act d (ASync n)) = update n (crashed true f) (dk_files d).
Proof. intros H. cbn [apply_act]. rewrite H. unfold crashed, synced. destruct (df_pend f); reflexivity. Qed.

Lemma apply_write_files d n off l pb f :
  lookup n (dk_files d) = Some f -> df_pend f = None ->
  dk_files (apply_act d (AWrite n off l pb)) = update n (written f pb) (dk_files d).
Proof. intros H Hp. cbn [apply_act]. rewrite H, Hp. reflexivity. Qed.

Lemma image_nil info : image info [] = [].
Proof. reflexivity. Qed.

Lemma frep_create info size : frep_at info [] None (bcreated size) (created size).
Proof.
  constructor; cbn [opt_batch app bcreated created bf_sync bf_pend bf_dir df_dir cur_ents df_pend df_ents].
  - constructor; reflexivity.
  - constructor.
  - rewrite image_nil. unfold two32. cbn. lia.
  - exists (N.to_nat size). reflexivity.
  - reflexivity.
  - reflexivity.
  - reflexivity.
Qed.

Lemma cur_ents_crashed_true f : cur_ents (crashed true f) = cur_ents f.
Proof. unfold crashed, cur_ents, synced. destruct (df_pend f); reflexivity. Qed.

(* the content of the file: the image, the pending batch included, then zeros *)
Lemma frep_at_data info bs pb bf f :
  frep_at info bs pb bf f -> exists k, bf_data bf = image info (bs ++ opt_batch pb) ++ zeros k.
Proof.
  intros [_ _ _ [k D] E F _]. rewrite F, D, E. destruct pb as [b|]; cbn [opt_batch pwrites fold_left].
  - unfold pwrite. cbn [fst snd].
    rewrite to_nat_len, overwrite_app, skipn_zeros, app_assoc, <- image_snoc. eexists. reflexivity.
  - rewrite app_nil_r. exists k. reflexivity.
Qed.

(* fsync: what was pending is committed; the durable image is the content *)
Lemma frep_sync info bs pb bf f :
  frep_at info bs pb bf f -> frep_at info (bs ++ opt_batch pb) None (bsync_file bf) (crashed true f).
Proof.
  intros R. pose proof R as [A B C _ _ _ G].
  constructor; cbn [opt_batch bsync_file bf_sync bf_pend bf_dir bf_data]; try reflexivity.
  - destruct pb as [b|]; cbn [opt_batch].
    + apply (rep_crashed info bs b f true A).
    + rewrite app_nil_r. apply rep_crashed_none. exact A.
  - rewrite cur_ents_crashed_true. exact B.
  - rewrite app_nil_r. exact C.
  - apply (frep_at_data _ _ _ _ _ R).
  - unfold crashed, synced. destruct (df_pend f); reflexivity.
Qed.

(* pwrite of the bytes of one more batch right behind the image *)
Lemma frep_write info bs bf f b pb :
  frep_at info bs None bf f -> rep_p info bs b (written f pb) -> Forall log_ok (pb_ents pb) ->
  len (image info (bs ++ [b])) < two32 ->
  frep_at info bs (Some b) (bwrite_file bf (len (image info bs)) (batch_write info (cstate info bs) b))
          (written f pb).
Proof.
  intros [A B C D E F G] Rp Hok Hlen. cbn [opt_batch] in *.
  constructor; cbn [opt_batch bwrite_file bf_sync bf_pend bf_dir bf_data written df_dir].
  - exact Rp.
  - unfold cur_ents. cbn [written df_pend df_ents]. apply Forall_app. split; [|exact Hok].
    unfold cur_ents in B. rewrite (rep_pend _ _ _ A) in B. exact B.
  - exact Hlen.
  - exact D.
  - rewrite E. reflexivity.
  - unfold bf_wf in *. cbn [bwrite_file bf_data bf_sync bf_pend]. unfold pwrites. rewrite fold_left_app. cbn [fold_left].
    unfold pwrites in F. rewrite <- F. reflexivity.
  - exact G.
Qed.

(* disks: every action preserves drep *)
Theorem bcreate_drep c bd d n size :
  drep c bd d -> hdr_wf (finfo c n) ->
  drep c (bapply bd (BCreate n size)) (apply_act d (ACreate n size)).
Proof.
  intros H Hh. unfold drep. cbn [apply_act dk_files bapply]. apply frel_update; [exact H|exact Hh|].
  exists [], None. apply frep_create.
Qed.

Theorem bsync_drep c bd d n :
  drep c bd d -> drep c (bapply bd (BSync n)) (apply_act d (ASync n)).
Proof.
  intros H. unfold drep in *. destruct (lookup n (dk_files d)) as [f|] eqn:El.
  - destruct (frel_lookup _ _ _ _ _ H El) as (bf & Hb & Hh & bs & pb & R).
    rewrite (bapply_sync _ _ _ Hb), (apply_sync_files _ _ _ El).
    apply frel_update; [exact H|exact Hh|]. eexists. exists None. apply frep_sync. exact R.
  - pose proof (frel_lookup_none _ _ _ _ H El) as Hb. cbn [apply_act bapply]. rewrite El, Hb. exact H.
Qed.

Theorem bdelete_drep c bd d n :
  drep c bd d -> drep c (bapply bd (BDelete n)) (apply_act d (ADelete n)).
Proof. intros H. unfold drep in *. cbn [apply_act dk_files bapply]. apply frel_remove. exact H. Qed.

(* metadata commit, stable store, database initialisation, failed attempt *)
Definition meta_act (a : act) : Prop :=
  match a with ACommit _ | ASetStable _ _ | AInitMeta | AFail _ => True | _ => False end.

Lemma meta_act_files d a : meta_act a -> dk_files (apply_act d a) = dk_files d.
Proof. destruct a; cbn; intros H; try contradiction; reflexivity. Qed.

Theorem bnone_drep c bd d a : meta_act a -> drep c bd d -> drep c (bapply bd BNone) (apply_act d a).
Proof. intros Hm H. unfold drep in *. rewrite (meta_act_files _ _ Hm). exact H. Qed.

(* a write to a missing file has no effect at either level *)
Lemma bwrite_missing_drep c bd d n off l pb bytes :
  drep c bd d -> lookup n (dk_files d) = None ->
  drep c (bapply bd (BWrite n off bytes)) (apply_act d (AWrite n off l pb)).
Proof.
  intros H El. unfold drep in *. pose proof (frel_lookup_none _ _ _ _ H El) as Hb.
  cbn [apply_act bapply]. rewrite El, Hb. exact H.
Qed.

(* The write.  The file n represents the committed batches bs (nothing pending).
   One successful byte-level operation of the writer of that image (info: any
   segment info with the header fields of the file) commits the batch b: it
   writes [batch_write] at the end of the image.  The byte-level pwrite of
   exactly these bytes and L2's AWrite abstracting it lead to drep-related
   disks (the crash window: b pending on both sides), and so do the fsyncs. *)
Theorem bwrite_drep c bd d info n bs bf f op w1' acts b ls :
  let s := cstate info bs in
  let new := batch_write info s b in
  let off := len (image info bs) in
  let aw := AWrite n off (len new) (pb_of ls w1') in
  drep c bd d -> name_of info = n -> hdr_eq info (finfo c n) ->
  lookup n (dk_files d) = Some f -> blookup n bd = Some bf -> frep_at info bs None bf f ->
  wrun (wst info s) [op] = Some (w1', acts, [b]) -> fst b = map enc ls -> logs_ok ls ->
  len (image info (bs ++ [b])) < two32 ->
  acts = [WWrite off new; WSync] /\ w1' = wst info (cstate info (bs ++ [b])) /\
  drep c (bapply bd (BWrite n off new)) (apply_act d aw) /\
  drep c (bapply (bapply bd (BWrite n off new)) (BSync n)) (apply_act (apply_act d aw) (ASync n)) /\
  frep_at info bs (Some b) (bwrite_file bf off new) (written f (pb_of ls w1')) /\
  frep_at info (bs ++ [b]) None (bsync_file (bwrite_file bf off new)) (synced f (pb_of ls w1')).
Proof.
  intros s new off aw H Hn He El Hb R Hrun Hfb Hls Hlen. subst n.
  pose proof (fr_rep _ _ _ _ _ R) as Rr. cbn in Rr.
  destruct (commit_rep info bs f op w1' acts b ls d Rr El Hrun Hfb Hlen) as (Ea & Ew & _ & _ & Rp & _ & _).
  fold s new off in Ea, Rp.
  assert (Rw : frep_at info bs (Some b) (bwrite_file bf off new) (written f (pb_of ls w1'))).
  { apply frep_write; auto. }
  assert (Hh : hdr_wf (finfo c (name_of info))).
  { destruct (frel_lookup _ _ _ _ _ H El) as (_ & _ & Hh & _). exact Hh. }
  assert (D1 : drep c (bapply bd (BWrite (name_of info) off new)) (apply_act d aw)).
  { unfold drep, aw. rewrite (bapply_write _ _ _ _ _ Hb).
    rewrite (apply_write_files _ _ _ _ _ _ El (rep_pend _ _ _ Rr)).
    apply frel_update; [exact H|exact Hh|]. exists bs, (Some b). eapply frep_at_hdr_eq; eauto. }
  split; [exact Ea|]. split; [exact Ew|]. split; [exact D1|]. split; [apply bsync_drep; exact D1|]. split; [exact Rw|].
  pose proof (frep_sync _ _ _ _ _ Rw) as Rs. cbn [opt_batch] in Rs.
  replace (crashed true (written f (pb_of ls w1'))) with (synced f (pb_of ls w1')) in Rs by reflexivity.
  exact Rs.
Qed.

Lemma torn_over_zeros_iff new T :
  (forall n, torn_over (zeros n) new T -> torn new T) /\ (torn new T -> torn_over (zeros (length new)) new T).
Proof. split; [intros n; apply torn_over_zeros|apply torn_torn_over]. Qed.
