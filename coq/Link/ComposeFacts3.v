(* ComposeFacts3.v -- the WAL operations in lock step with the byte disk:
   mutate_gen (commit, post-commit create, deletions), rotate, reset_first,
   store_logs, truncate_head, truncate_tail, delete_range.  Each lemma: from a
   linked state (wlink) and without injected faults, the operation's new L2
   actions are a lock-step run (erun: every intermediate disk pair is
   drep-related, i.e. every crash point is covered) and the result is linked. *)
From RW Require Import Base.Bytes Fmt.Codec Fmt.Frame Seg.RecoverFacts Wal.Model Wal.Spec Wal.SeqFactsOps1
     Wal.CrashCalls4 Link.Abs Link.AbsFacts1 Link.AbsFacts4 Link.Disk Link.Compose Link.ComposeFacts1
     Link.ComposeFacts2 Wal.ModelFacts.
From RW Require Import Base.LiaSetup.
Open Scope N_scope.

Definition op_link (c : cfg) (bd : bdisk) (e : env) (w' : wal) (e' : env) : Prop :=
  exists bd', erun c bd e bd' e' /\ wlink c w' bd' (e_disk e').

Lemma op_link_same c w bd e : wlink c w bd (e_disk e) -> e_fault e = None -> op_link c bd e w e.
Proof. intros H Hf. exists bd. split; [apply erun_refl; [apply H|exact Hf]|exact H]. Qed.

Lemma wlink_L0 c w bd e : wlink c w bd (e_disk e) -> e_fault e = None -> L0 c (st_tail w) bd e.
Proof. intros (A & B & _ & D) Hf. repeat split; assumption. Qed.

Lemma op_link_intro c bd e w' e' :
  op_link0 c bd e (st_tail w') e' -> st_next_id w' < two64 -> op_link c bd e w' e'.
Proof. intros (bd' & E & A & B & _ & D) Hid. exists bd'. split; [exact E|]. repeat split; assumption. Qed.

Lemma op_link_trans c bd e w1 e1 w2 e2 :
  op_link c bd e w1 e1 ->
  (forall bd1, wlink c w1 bd1 (e_disk e1) -> e_fault e1 = None -> op_link c bd1 e1 w2 e2) ->
  op_link c bd e w2 e2.
Proof.
  intros (bd1 & E1 & W1) H. destruct (H bd1 W1 (erun_fault _ _ _ _ _ E1)) as (bd2 & E2 & W2).
  exists bd2. split; [eapply erun_trans; eauto|exact W2].
Qed.

(* a branch in which a call returns the state and the environment it got *)
Lemma op_link_ret {A} (x y : A) c w bd e w' e' :
  wlink c w bd (e_disk e) -> e_fault e = None -> (x, w, e) = (y, w', e') -> op_link c bd e w' e'.
Proof. intros HW Hf [= _ <- <-]. apply op_link_same; assumption. Qed.

Lemma wlink_ext c w w' bd d :
  st_next_id w' = st_next_id w -> st_tail w' = st_tail w -> wlink c w bd d -> wlink c w' bd d.
Proof. intros H1 H2 (A & B & C & D). unfold wlink. rewrite H1, H2. auto. Qed.

Lemma op_link_with_m_l c bd e w' e' m : op_link c bd (with_m e m) w' e' -> op_link c bd e w' e'.
Proof. intros (bd' & E & W). exists bd'. split; [exact (proj1 (erun_with_m_l _ _ _ _ _ _) E)|exact W]. Qed.
Lemma op_link_with_m_r c bd e w' e' m : op_link c bd e w' e' -> op_link c bd e w' (with_m e' m).
Proof. intros (bd' & E & W). exists bd'. split; [apply erun_with_m_r; exact E|exact W]. Qed.

Lemma create_next_facts c nid segs nb nid' segs' si :
  cfg_ok c -> nid < two64 -> create_next c nid segs nb = (nid', segs', si) ->
  nid' < two64 /\ si_codec si = c_codec c /\ hdr_wf (finfo c (name_of si)) /\
  small_tw (new_wseg si).
Proof.
  intros (_ & Hcod & Hsz0 & Hsz) Hn H. unfold create_next in H. inversion H; subst. clear H.
  split; [apply N.mod_lt; unfold two64; lia|]. split; [reflexivity|]. split.
  - unfold hdr_wf, finfo, name_of, new_segment. cbn. split; [apply N.mod_lt; unfold two64; lia|]. auto.
  - intros _. cbn [new_wseg new_segment ws_limit ws_off ws_n si_size_limit].
    assert (c_seg_size c mod two32 < two30).
    { rewrite N.mod_small; [exact Hsz|]. unfold two30, two32 in *. lia. }
    lia.
Qed.

Lemma mutate_gen_link c defer w t bd e r w' e' dels :
  L0 c (st_tail w) bd e -> st_next_id w < two64 ->
  tail_linked c (tx_tail t) bd (e_disk e) -> tx_next_id t < two64 ->
  (forall si, tx_create t = Some si -> si_codec si = c_codec c /\ hdr_wf (finfo c (name_of si))) ->
  mutate_gen defer w t e = (r, w', e', dels) ->
  op_link c bd e w' e' /\
  match tx_create t with
  | None => st_tail w' = tx_tail t
  | Some si => st_tail w' = Some (new_wseg si) \/ st_tail w' = st_tail w
  end.
Proof.
  intros HL Hid Htt Hnid Hcr Hm. pose proof HL as (H0 & Hnd & Hf & Ht). unfold mutate_gen in Hm.
  rewrite (io_nofault _ _ Hf) in Hm. cbn [negb] in Hm.
  set (a := ACommit {| ps_next_id := tx_next_id t; ps_segs := tx_segs t |}) in *.
  (* after the commit, whichever tail writer was linked still is *)
  assert (E1 : forall t0, tail_linked c t0 bd (e_disk e) -> op_link0 c bd e t0 (io_ok e a)).
  { intros t0 Ht0. apply op_link0_meta; [exact I|]. repeat split; assumption. }
  destruct (tx_create t) as [si|] eqn:Ec.
  - destruct (seg_create si (io_ok e a)) as [sw e2] eqn:Es. destruct (Hcr si eq_refl) as [Hc Hh].
    assert (E2 : op_link0 c bd e (match sw with Some _ => Some (new_wseg si) | None => st_tail w end) e2).
    { eapply op_link0_trans; [exact (E1 _ Ht)|]. intros bd1 H1. eapply seg_create_link; eauto. }
    destruct sw as [sw|].
    + pose proof (seg_create_some _ _ _ _ Es) as ->.
      destruct defer; inversion Hm; subst; (split; [|left; reflexivity]); apply op_link_intro; try exact Hnid.
      * exact E2.
      * eapply op_link0_trans; [exact E2|]. intros bd2. apply delete_files_link.
    + inversion Hm; subst. split; [|right; reflexivity]. apply op_link_intro; assumption.
  - destruct defer; inversion Hm; subst; (split; [|reflexivity]); apply op_link_intro; try exact Hnid.
    + exact (E1 _ Htt).
    + eapply op_link0_trans; [exact (E1 _ Htt)|]. intros bd1. apply delete_files_link.
Qed.

Lemma mutate_link c w t bd e r w' e' :
  L0 c (st_tail w) bd e -> st_next_id w < two64 ->
  tail_linked c (tx_tail t) bd (e_disk e) -> tx_next_id t < two64 ->
  (forall si, tx_create t = Some si -> si_codec si = c_codec c /\ hdr_wf (finfo c (name_of si))) ->
  mutate w t e = (r, w', e') ->
  op_link c bd e w' e' /\
  match tx_create t with
  | None => st_tail w' = tx_tail t
  | Some si => st_tail w' = Some (new_wseg si) \/ st_tail w' = st_tail w
  end.
Proof.
  intros HL Hid Ht Hn Hc Hm. unfold mutate in Hm.
  destruct (mutate_gen false w t e) as [[[r0 w0] e0] d0] eqn:Eg. inversion Hm; subst.
  eapply mutate_gen_link; eauto.
Qed.

(* the way the operations call it: the transaction creates the segment createNextSegment
   hands out; the tail writer afterwards is the old one or the new, small one *)
Lemma mutate_gen_create_link c defer w bd e nid0 segs nb del r w' e' dels :
  cfg_ok c -> L0 c (st_tail w) bd e -> st_next_id w < two64 -> nid0 < two64 ->
  (let '(nid, segs2, si) := create_next c nid0 segs nb in
   mutate_gen defer w {| tx_next_id := nid; tx_segs := segs2; tx_delete := del; tx_create := Some si; tx_tail := None |} e)
    = (r, w', e', dels) ->
  op_link c bd e w' e' /\
  (st_tail w' = st_tail w \/ exists si, small_tw (new_wseg si) /\ st_tail w' = Some (new_wseg si)).
Proof.
  intros Hc HL Hid Hid0. destruct (create_next c nid0 segs nb) as [[nid segs2] si] eqn:Ecn. intros Hm.
  destruct (create_next_facts _ _ _ _ _ _ _ Hc Hid0 Ecn) as (Hn' & Hcod & Hh & Hsm).
  eapply mutate_gen_link in Hm as (HL1 & Hcase); [|exact HL|exact Hid|exact I|exact Hn'|intros si' [= <-]; auto].
  split; [exact HL1|]. destruct Hcase as [Ht|Ht]; [right; exists si; auto|left; exact Ht].
Qed.

Lemma mutate_create_link c w bd e nid0 segs nb del r w' e' :
  cfg_ok c -> L0 c (st_tail w) bd e -> st_next_id w < two64 -> nid0 < two64 ->
  (let '(nid, segs2, si) := create_next c nid0 segs nb in
   mutate w {| tx_next_id := nid; tx_segs := segs2; tx_delete := del; tx_create := Some si; tx_tail := None |} e)
    = (r, w', e') ->
  op_link c bd e w' e' /\
  (st_tail w' = st_tail w \/ exists si, small_tw (new_wseg si) /\ st_tail w' = Some (new_wseg si)).
Proof.
  intros Hc HL Hid Hid0 Hm. unfold mutate in Hm.
  destruct (create_next c nid0 segs nb) as [[nid segs2] si] eqn:Ecn.
  destruct (mutate_gen false w _ e) as [[[r0 w0] e0] d0] eqn:Eg. injection Hm as <- <- <-.
  apply (mutate_gen_create_link c false w bd e nid0 segs nb del r0 w0 e0 d0 Hc HL Hid Hid0). rewrite Ecn. exact Eg.
Qed.

Lemma small_tail_case w w' :
  small_tail (st_tail w) ->
  st_tail w' = st_tail w \/ (exists si, small_tw (new_wseg si) /\ st_tail w' = Some (new_wseg si)) ->
  small_tail (st_tail w').
Proof. intros H [->|(si & Hs & ->)]; [exact H|exact Hs]. Qed.

Lemma rotate_link c w bd e w' e' :
  cfg_ok c -> wlink c w bd (e_disk e) -> e_fault e = None ->
  rotate c w e = (w', e') ->
  op_link c bd e w' e' /\
  (st_tail w' = st_tail w \/ exists si, small_tw (new_wseg si) /\ st_tail w' = Some (new_wseg si)).
Proof.
  intros Hc HW Hf. pose proof (wlink_L0 _ _ _ _ HW Hf) as HL. pose proof HW as (_ & _ & Hid & _). unfold rotate.
  destruct (st_rotate w) as [istart|]; [|intros [= <- <-]; split; [apply op_link_same; assumption|left; reflexivity]].
  set (w0 := {| st_next_id := st_next_id w; st_segs := st_segs w; st_tail := st_tail w; st_rotate := None;
                st_failed := st_failed w; st_closed := st_closed w |}).
  assert (HW0 : wlink c w0 bd (e_disk e)) by (eapply wlink_ext; [| |exact HW]; reflexivity).
  destruct (st_closed w); [intros [= <- <-]; split; [apply op_link_same; assumption|left; reflexivity]|].
  destruct (tail_info (st_segs w)) as [t|].
  2:{ intros [= <- <-]. split; [|left; reflexivity]. apply op_link_with_m_r. apply op_link_same; assumption. }
  cbn zeta. destruct (create_next c _ _ _) as [[nid segs2] si] eqn:Ecn.
  destruct (mutate w0 _ _) as [[r1 w1] e1] eqn:Em. intros [= <- <-].
  destruct (create_next_facts _ _ _ _ _ _ _ Hc Hid Ecn) as (Hn' & Hcod & Hh & Hsm).
  eapply mutate_link in Em as (HL1 & Hcase); [|exact HL|exact Hid|exact I|exact Hn'|intros si' [= <-]; auto].
  split; [apply op_link_with_m_l in HL1; exact HL1|].
  destruct Hcase as [Ht|Ht]; [right; exists si; auto|left; exact Ht].
Qed.

Lemma reset_first_link c w nb bd e r w' e' dels :
  cfg_ok c -> wlink c w bd (e_disk e) -> e_fault e = None -> small_tail (st_tail w) ->
  reset_first c w nb e = (r, w', e', dels) ->
  op_link c bd e w' e' /\ small_tail (st_tail w').
Proof.
  intros Hc HW Hf Hs. pose proof (wlink_L0 _ _ _ _ HW Hf) as HL. pose proof HW as (_ & _ & Hid & Ht). unfold reset_first.
  destruct (0 <? last_index (st_segs w) (st_tail w)).
  { intros [= _ <- <- _]. split; [apply op_link_same; assumption|exact Hs]. }
  destruct (tail_info (st_segs w)) as [t|]; [destruct (si_base t =? nb)|]; intros Hr.
  2,3: destruct (mutate_gen_create_link c true w bd e _ _ _ _ r w' e' dels Hc HL Hid Hid Hr) as (HL1 & Hcase);
       (split; [exact HL1|eapply small_tail_case; eauto]).
  (* the base is right already: the transaction keeps the tail writer *)
  eapply mutate_gen_link in Hr as (HL1 & Hcase); [|exact HL|exact Hid|exact Ht|exact Hid|discriminate].
  split; [exact HL1|]. cbn [tx_create tx_tail] in Hcase. rewrite Hcase. exact Hs.
Qed.

Lemma consecutive_consec_from ls : forall i, consecutive i ls = true -> consec_from i ls.
Proof.
  induction ls as [|l r IH]; intros i H; [exact I|]. cbn [consecutive] in H. apply andb_true_iff in H as [H1 H2].
  apply N.eqb_eq in H1. cbn [consec_from]. split; [exact H1|]. apply IH. exact H2.
Qed.

Lemma check_logs_consec last ls : logs_ok ls -> fst (check_logs last ls) = ROk -> consec ls.
Proof.
  intros Hok H. destruct ls as [|l0 r]; [exact I|]. inversion Hok as [|? ? Hl Hr]; subst.
  cbn [check_logs] in H. destruct ((0 <? last) && negb (l_index l0 =? (last + 1) mod two64)); [discriminate|].
  destruct (encode_log l0) as [b|]; [|discriminate].
  destruct Hl as (_ & Hl1 & Hl2 & _).
  pose proof (check_logs_inner r (l_index l0) Hr Hl1 Hl2) as Hin.
  destruct (check_logs (l_index l0) r) as [res n]. cbn [fst] in *. rewrite Hin in H.
  destruct (consecutive (l_index l0 + 1) r) eqn:Ec; [|discriminate].
  cbn [consec consec_from]. split; [reflexivity|]. apply consecutive_consec_from. exact Ec.
Qed.

Lemma store_go_link c last ls w bd e r w' e' :
  wlink c w bd (e_disk e) -> e_fault e = None -> small_tail (st_tail w) ->
  logs_ok ls -> frames_size ls < two30 ->
  store_go last ls w e = (r, w', e') -> op_link c bd e w' e'.
Proof.
  intros HW Hf Hs Hls Hfs H. unfold store_go in H.
  destruct (check_logs last ls) as [res nbytes] eqn:Ec.
  destruct (result_ok_dec res) as [->|N]; [|rewrite (match_not_ok res _ _ N) in H; exact (op_link_ret _ _ _ _ _ _ _ _ HW Hf H)].
  destruct (st_tail w) as [tw|] eqn:Et; [|exact (op_link_ret _ _ _ _ _ _ _ _ HW Hf H)].
  destruct (seg_append tw ls e) as [[r0 tw'] e1] eqn:Ea.
  pose proof HW as (_ & _ & Hid & _).
  assert (Hcon : consec ls) by (apply (check_logs_consec last); [exact Hls|rewrite Ec; reflexivity]).
  assert (Hg : ws_index_start tw = 0 -> ws_off tw + l2_total tw ls < two32).
  { intros Hz. cbn [small_tail] in Hs. destruct (Hs Hz) as (S1 & S2 & S3). apply l2_append_guard; assumption. }
  pose proof (wlink_L0 _ _ _ _ HW Hf) as HL. rewrite Et in HL.
  destruct (seg_append_link c tw ls bd e r0 tw' e1 HL Hcon Hls Hg Ea) as (E & Hcases).
  destruct r0;
    try (destruct Hcases as [Hx|[-> ->]]; [discriminate|exact (op_link_ret _ _ _ _ _ _ _ _ HW Hf H)]).
  inversion H; subst. apply op_link_intro; [apply op_link0_with_m; exact E|exact Hid].
Qed.

Theorem store_logs_link c w ls bd e r w' e' :
  cfg_ok c -> wlink c w bd (e_disk e) -> e_fault e = None -> small_tail (st_tail w) ->
  logs_ok ls -> frames_size ls < two30 ->
  store_logs c w ls e = (r, w', e') -> op_link c bd e w' e'.
Proof.
  intros Hc HW Hf Hs Hls Hfs H. rewrite store_logs_unfold in H.
  destruct (st_closed w); [exact (op_link_ret _ _ _ _ _ _ _ _ HW Hf H)|].
  destruct ls as [|l0 lr]; [exact (op_link_ret _ _ _ _ _ _ _ _ HW Hf H)|]. set (ls := l0 :: lr) in *.
  destruct (st_failed w); [exact (op_link_ret _ _ _ _ _ _ _ _ HW Hf H)|].
  cbn zeta in H. destruct (tail_info (st_segs w)) as [ti|]; [|exact (op_link_ret _ _ _ _ _ _ _ _ HW Hf H)].
  destruct ((last_index (st_segs w) (st_tail w) =? 0) && negb (l_index l0 =? si_base ti)).
  - destruct (reset_first c w (l_index l0) e) as [[[r1 w1] e1] dels] eqn:Er.
    destruct (reset_first_link c w _ bd e r1 w1 e1 dels Hc HW Hf Hs Er) as (HL1 & Hs1).
    destruct (result_ok_dec r1) as [->|N]; [|rewrite (match_not_ok r1 _ _ N) in H; inversion H; subst; exact HL1].
    destruct (store_go (last_index (st_segs w) (st_tail w)) ls w1 e1) as [[r2 w2] e2] eqn:Eg.
    inversion H; subst r2 w2 e'. clear H.
    eapply op_link_trans; [exact HL1|]. intros bd1 HW1 Hf1.
    eapply op_link_trans; [eapply store_go_link; eauto|]. intros bd2 HW2 Hf2.
    apply op_link_intro; [apply delete_files_link; apply wlink_L0; assumption|apply HW2].
  - eapply store_go_link; eauto.
Qed.

Lemma truncate_head_link c w nm bd e r w' e' :
  cfg_ok c -> wlink c w bd (e_disk e) -> e_fault e = None ->
  truncate_head c w nm e = (r, w', e') -> op_link c bd e w' e'.
Proof.
  intros Hc HW Hf. pose proof (wlink_L0 _ _ _ _ HW Hf) as HL. pose proof HW as (_ & _ & Hid & Ht). unfold truncate_head.
  destruct (head_scan nm (tail_last (st_tail w)) (st_segs w) [] 0) as [[[rest del] ntr] head].
  destruct head as [h|]; cbn zeta; intros H; eapply op_link_with_m_l.
  - eapply mutate_link in H as (HL1 & _); [exact HL1|exact HL|exact Hid|exact Ht|exact Hid|discriminate].
  - eapply mutate_create_link in H as (HL1 & _); [exact HL1|exact Hc|exact HL|exact Hid|exact Hid].
Qed.

(* truncate_tail: force-seal of the tail, then the transaction installing a new tail *)
Lemma truncate_tail_link c w nm bd e r w' e' :
  cfg_ok c -> wlink c w bd (e_disk e) -> e_fault e = None -> small_tail (st_tail w) ->
  truncate_tail c w nm e = (r, w', e') -> op_link c bd e w' e'.
Proof.
  intros Hc HW Hf Hs. pose proof (wlink_L0 _ _ _ _ HW Hf) as HL. pose proof HW as (H0 & Hnd & Hid & Ht). unfold truncate_tail.
  destruct (tail_scan nm (last_index (st_segs w) (st_tail w)) (rev (st_segs w)) [] 0) as [[rrest del] ntr].
  destruct rrest as [|t rr].
  { intros H. eapply mutate_create_link in H as (HL1 & _); [exact HL1|exact Hc|exact HL|exact Hid|exact Hid]. }
  destruct (si_sealed t).
  - cbv zeta. intros Hm. eapply op_link_with_m_l.
    eapply mutate_create_link in Hm as (HL1 & _); [exact HL1|exact Hc|exact HL|exact Hid|exact Hid].
  - destruct (st_tail w) as [tw|] eqn:Et; [|intros H; exact (op_link_ret _ _ _ _ _ _ _ _ HW Hf H)].
    destruct (seg_force_seal tw e) as [[r0 tw'] e1] eqn:Ea.
    set (w1 := {| st_next_id := st_next_id w; st_segs := st_segs w; st_tail := Some tw';
                  st_rotate := st_rotate w; st_failed := st_failed w; st_closed := st_closed w |}).
    assert (HL1 : op_link c bd e w1 e1).
    { apply op_link_intro; [|exact Hid]. apply (seg_force_seal_link c tw bd e r0 tw' e1 HL); [|exact Ea].
      intros Hz. cbn [small_tail] in Hs. destruct (Hs Hz) as (S1 & S2 & S3). apply l2_force_seal_guard; assumption. }
    destruct (result_ok_dec r0) as [->|N]; [|rewrite (match_not_ok r0 _ _ N); intros [= _ <- <-]; exact HL1].
    cbv zeta. intros Hm. eapply op_link_trans; [exact HL1|]. intros bd1 HW1 Hf1. eapply op_link_with_m_l.
    eapply mutate_create_link in Hm as (HL2 & _); [exact HL2|exact Hc|exact (wlink_L0 _ _ _ _ HW1 Hf1)|exact Hid|exact Hid].
Qed.

Theorem delete_range_link c w mn mx bd e r w' e' :
  cfg_ok c -> wlink c w bd (e_disk e) -> e_fault e = None -> small_tail (st_tail w) ->
  delete_range c w mn mx e = (r, w', e') -> op_link c bd e w' e'.
Proof.
  intros Hc HW Hf Hs H. unfold delete_range in H.
  destruct (st_closed w); [exact (op_link_ret _ _ _ _ _ _ _ _ HW Hf H)|].
  destruct (mx <? mn); [exact (op_link_ret _ _ _ _ _ _ _ _ HW Hf H)|].
  destruct (st_failed w); [exact (op_link_ret _ _ _ _ _ _ _ _ HW Hf H)|].
  cbn zeta in H.
  destruct ((mx <? first_index (st_segs w) (st_tail w)) || (last_index (st_segs w) (st_tail w) <? mn));
    [exact (op_link_ret _ _ _ _ _ _ _ _ HW Hf H)|].
  destruct (mn <=? first_index (st_segs w) (st_tail w)); [eapply truncate_head_link; eauto|].
  destruct (last_index (st_segs w) (st_tail w) <=? mx); [eapply truncate_tail_link; eauto|].
  exact (op_link_ret _ _ _ _ _ _ _ _ HW Hf H).
Qed.
