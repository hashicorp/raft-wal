(* AbsFacts1.v -- writer simulation: the numeric bookkeeping of the L2 segment
   writer (Wal/Model.v seg_append / seg_force_seal) is exactly the byte-level
   layout of the L1 writer (Seg/Writer.v append / force_seal): same results,
   same write offset, same number of bytes written, same seal decision and
   index start, same writer state afterwards -- for every fault position. *)
From RW Require Import Base.Bytes Base.Crc32c Fmt.Codec Fmt.Frame Fmt.FrameFacts Seg.Writer Seg.SegAbs
     Seg.WriterFacts Wal.Model Link.Abs Gen.Constants.
From RW Require Import Base.LiaSetup.
Open Scope N_scope.

Lemma enc_len_enc l : enc_len l = len (enc l).
Proof. unfold enc_len, enc. destruct (encode_log l); reflexivity. Qed.

Lemma map_snd_ents ls : map snd (ents ls) = map enc ls.
Proof. unfold ents. rewrite map_map. reflexivity. Qed.

Lemma ents_length ls : length (ents ls) = length ls.
Proof. unfold ents. apply map_length. Qed.

Lemma too_big_ents ls : too_big (ents ls) = existsb (fun l => MaxEntrySize <? enc_len l) ls.
Proof.
  unfold too_big, ents. induction ls as [|l r IH]; [reflexivity|].
  cbn [map existsb]. rewrite IH, enc_len_enc. reflexivity.
Qed.

Lemma frames_size_acc ls : forall a,
  fold_left (fun a l => a + enc_frame_size (enc_len l)) ls a = a + len (entries_bytes (map enc ls)).
Proof.
  induction ls as [|l r IH]; intros a; cbn [fold_left map].
  - change (len (entries_bytes [])) with 0. lia.
  - rewrite IH, len_entries_bytes_cons, enc_len_enc. lia.
Qed.

Lemma frames_size_eq ls : frames_size ls = len (entries_bytes (map enc ls)).
Proof. unfold frames_size. rewrite frames_size_acc. lia. Qed.

Lemma idx_ok_ents ls : forall i, idx_ok i (ents ls) <-> consec_from i ls.
Proof.
  induction ls as [|l r IH]; intros i; cbn [ents map idx_ok consec_from]; [tauto|].
  fold (ents r). rewrite IH. unfold ent. cbn [fst]. tauto.
Qed.

Lemma append_entries_first_bad w l r :
  l_index l <> si_base (w_info w) + len (w_offsets w) -> append_entries w (ents (l :: r)) = None.
Proof.
  intros H. cbn [ents map append_entries]. unfold append_entry, ent. cbn [fst].
  apply N.eqb_neq in H. rewrite H. reflexivity.
Qed.

Lemma append_ne w es f : es <> [] ->
  append w es f =
    if 0 <? w_index_start w then (WErrSealed, w, [])
    else if too_big es then (WErrTooBig, w, [])
    else match append_entries w es with
         | None => (WErrNonMono, w, [])
         | Some w1 =>
             match (if needs_seal w1 then append_index w1 else Some w1) with
             | None => (WErrShortBuf, w, [])
             | Some w2 =>
                 match append_commit w2 f with
                 | (Some w3, acts) => (WOk, w3, acts)
                 | (None, acts) => (WErrIO, w, acts)
                 end
             end
         end.
Proof. intros H. destruct es; [congruence|reflexivity]. Qed.

Lemma llen_len {A} (l : list A) (offs : list N) : length l = length offs -> llen l = len offs.
Proof. unfold llen, len. intros ->. reflexivity. Qed.

Definition io_ok (e : env) (a : act) : env :=
  {| e_acts := a :: e_acts e; e_disk := apply_act (e_disk e) a;
     e_fault := match e_fault e with Some (S n) => Some n | _ => None end; e_fx := e_fx e; e_m := e_m e |}.
Definition io_fail (e : env) (a : act) : env :=
  {| e_acts := AFail a :: e_acts e; e_disk := e_disk e; e_fault := None; e_fx := e_fx e; e_m := e_m e |}.

Lemma io_char a e : is_delete a = false -> is_txn a = false ->
  io a e = match e_fault e with Some O => (false, io_fail e a) | _ => (true, io_ok e a) end.
Proof. intros H H'. unfold io, io_ok, io_fail. rewrite H, H'. destruct (e_fault e) as [[|n]|]; reflexivity. Qed.

Lemma e_fault_io_ok e a :
  e_fault (io_ok e a) = match e_fault e with Some (S n) => Some n | _ => None end.
Proof. reflexivity. Qed.

(* both actions of a write+sync pair succeed *)
Definition both_ok (fl : option nat) : bool :=
  match fl with Some O => false | Some (S O) => false | _ => true end.

(* L2 closed forms *)
Definition hdr_len (w : wseg) : N := if ws_hdr w then 32 else 0.

Definition l2_seal (w : wseg) (ls : list log) : bool :=
  ws_limit w <? (ws_off w + ((hdr_len w + frames_size ls) + index_frame_size (ws_n w + llen ls)) mod two32) mod two32.
Definition l2_total (w : wseg) (ls : list log) : N :=
  (if l2_seal w ls then (hdr_len w + frames_size ls) + index_frame_size (ws_n w + llen ls)
   else hdr_len w + frames_size ls) + 8.
Definition l2_istart (w : wseg) (ls : list log) : N :=
  if l2_seal w ls then ws_off w + (hdr_len w + frames_size ls) + 8 else 0.
Definition l2_batch (w : wseg) (ls : list log) : pbatch :=
  {| pb_ents := ls; pb_end := (ws_off w + l2_total w ls) mod two32; pb_seal := l2_istart w ls |}.
Definition l2_after (w : wseg) (ls : list log) : wseg :=
  {| ws_name := ws_name w; ws_base := ws_base w; ws_min := ws_min w; ws_limit := ws_limit w;
     ws_n := ws_n w + llen ls; ws_off := (ws_off w + l2_total w ls) mod two32; ws_hdr := false;
     ws_index_start := l2_istart w ls; ws_commit_idx := ws_base w + (ws_n w + llen ls) - 1 |}.

Lemma seg_append_char w l0 lr e (ls := l0 :: lr) :
  (0 <? ws_index_start w) = false ->
  existsb (fun l => MaxEntrySize <? enc_len l) ls = false ->
  l_index l0 = ws_base w + ws_n w ->
  seg_append w ls e =
    (if both_ok (e_fault e) then ROk else RErrIO,
     if both_ok (e_fault e) then l2_after w ls else w,
     do_acts e [AWrite (ws_name w) (ws_off w) (l2_total w ls) (l2_batch w ls); ASync (ws_name w)]).
Proof.
  intros Hs Hb Hi. subst ls. set (ls := l0 :: lr) in *. unfold seg_append. unfold ls at 1. fold ls.
  rewrite Hs, Hb, Hi, N.eqb_refl. cbn [negb].
  fold (hdr_len w). fold (l2_seal w ls). fold (l2_total w ls). fold (l2_istart w ls). fold (l2_batch w ls).
  cbn [do_acts]. rewrite (io_char _ e) by reflexivity.
  destruct (e_fault e) as [[|[|n]]|] eqn:Ef; cbn [negb both_ok]; try reflexivity;
    rewrite io_char by reflexivity; rewrite !e_fault_io_ok, Ef; reflexivity.
Qed.

Definition fs_total (w : wseg) : N := hdr_len w + index_frame_size (ws_n w) + 8.
Definition fs_istart (w : wseg) : N := ws_off w + hdr_len w + 8.
Definition fs_batch (w : wseg) : pbatch :=
  {| pb_ents := []; pb_end := (ws_off w + fs_total w) mod two32; pb_seal := fs_istart w |}.
Definition fs_after (w : wseg) : wseg :=
  {| ws_name := ws_name w; ws_base := ws_base w; ws_min := ws_min w; ws_limit := ws_limit w;
     ws_n := ws_n w; ws_off := (ws_off w + fs_total w) mod two32; ws_hdr := false;
     ws_index_start := fs_istart w; ws_commit_idx := ws_base w + ws_n w - 1 |}.

Lemma seg_force_seal_char w e :
  (0 <? ws_index_start w) = false -> (ws_n w =? 0) = false ->
  seg_force_seal w e =
    (if both_ok (e_fault e) then ROk else RErrIO,
     if both_ok (e_fault e) then fs_after w else w,
     do_acts e [AWrite (ws_name w) (ws_off w) (fs_total w) (fs_batch w); ASync (ws_name w)]).
Proof.
  intros Hs Hn. unfold seg_force_seal. rewrite Hs, Hn.
  fold (hdr_len w). fold (fs_total w). fold (fs_istart w). fold (fs_batch w).
  cbn [do_acts]. rewrite (io_char _ e) by reflexivity.
  destruct (e_fault e) as [[|[|n]]|] eqn:Ef; cbn [negb both_ok]; try reflexivity;
    rewrite io_char by reflexivity; rewrite !e_fault_io_ok, Ef; reflexivity.
Qed.

(* refused without touching anything, or one commit (the closed forms above apply) *)
Lemma seg_append_cases tw ls e r tw' e' :
  seg_append tw ls e = (r, tw', e') ->
  (tw' = tw /\ e' = e) \/
  exists l0 lr, ls = l0 :: lr /\ (0 <? ws_index_start tw) = false /\
    existsb (fun l => MaxEntrySize <? enc_len l) ls = false /\ l_index l0 = ws_base tw + ws_n tw.
Proof.
  unfold seg_append. destruct ls as [|l0 lr]; [intros [= _ <- <-]; auto|].
  destruct (0 <? ws_index_start tw); [intros [= _ <- <-]; auto|].
  destruct (existsb _ _); [intros [= _ <- <-]; auto|].
  destruct (l_index l0 =? _) eqn:E3; cbn [negb]; [|intros [= _ <- <-]; auto].
  intros _. right. exists l0, lr. apply N.eqb_eq in E3. auto.
Qed.

Lemma seg_force_seal_cases tw e r tw' e' :
  seg_force_seal tw e = (r, tw', e') ->
  (tw' = tw /\ e' = e /\ (r = ROk -> 0 < ws_index_start tw)) \/
  ((0 <? ws_index_start tw) = false /\ (ws_n tw =? 0) = false).
Proof.
  unfold seg_force_seal. destruct (0 <? ws_index_start tw) eqn:E1; [intros [= _ <- <-]; left; repeat split; lia|].
  destruct (ws_n tw =? 0); [intros [= <- <- <-]; left; repeat split; discriminate|auto].
Qed.

Lemma seg_create_some si e tw e' : seg_create si e = (Some tw, e') -> tw = new_wseg si.
Proof.
  unfold seg_create. destruct (si_base si =? 0); [discriminate|].
  destruct (lookup _ _); [destruct (io _ e); discriminate|].
  destruct (io _ e) as [[|] e1]; [intros [= <- _]; reflexivity|discriminate].
Qed.

(* L1: faults only matter in the commit *)
Lemma append_commit_fault w :
  exists w' off buf,
    append_commit w FNone = (Some w', [WWrite off buf; WSync]) /\
    append_commit w FWrite = (None, []) /\
    append_commit w FWriteShort = (None, [WWrite off (firstn (length buf / 2) buf)]) /\
    append_commit w FSync = (None, [WWrite off buf; WSync]).
Proof. unfold append_commit. eexists; eexists; eexists. repeat split. Qed.

(* result, state and actions of a faulted operation from those of the
   fault-free one *)
Definition faulted (f : wfault) (w : wstate) (x : wres * wstate * list waction) : wres * wstate * list waction :=
  let '(r, w', acts) := x in
  match r, acts, f with
  | WOk, _ :: _, FWrite => (WErrIO, w, [])
  | WOk, WWrite off buf :: _, FWriteShort => (WErrIO, w, [WWrite off (firstn (length buf / 2) buf)])
  | WOk, _ :: _, FSync => (WErrIO, w, acts)
  | _, _, _ => x
  end.

Lemma faulted_nil f w r w' : faulted f w (r, w', []) = (r, w', []).
Proof. destruct r; reflexivity. Qed.

Lemma append_faulted w es f : append w es f = faulted f w (append w es FNone).
Proof.
  unfold append. destruct es as [|e0 r]; [destruct f; reflexivity|].
  destruct (0 <? w_index_start w); [destruct f; reflexivity|].
  destruct (too_big (e0 :: r)); [destruct f; reflexivity|].
  destruct (append_entries w (e0 :: r)) as [w1|]; [|destruct f; reflexivity].
  destruct (if needs_seal w1 then append_index w1 else Some w1) as [w2|]; [|destruct f; reflexivity].
  destruct f; reflexivity.
Qed.

Lemma force_seal_faulted w f : force_seal w f = faulted f w (force_seal w FNone).
Proof.
  unfold force_seal. destruct (0 <? w_index_start w); [destruct f; reflexivity|].
  destruct (append_index w) as [w1|]; [|destruct f; reflexivity].
  destruct f; reflexivity.
Qed.

(* a SHORT write (FWriteShort) has no counterpart among L2's faults (wfault_of
   yields FWrite / FSync only: at L2 a failed AWrite has no effect on the abstract
   file).  Result and writer are those of the write that fails outright, so the
   L2 correspondence of FWrite (append_sim_gen / force_seal_sim_gen with fault
   count 0) holds of it verbatim; only the bytes differ: the first half of the
   buffer is in the file, behind the image -- stale bytes that readers never
   look at (read_sim_tail, read_sim_sealed) and that recovery discards (Seg/FailFacts.v). *)
Lemma append_short_as_write w es :
  fst (append w es FWriteShort) = fst (append w es FWrite) /\
  (snd (append w es FWriteShort) = [] \/
   exists off buf, snd (append w es FNone) = [WWrite off buf; WSync] /\
                   snd (append w es FWriteShort) = [WWrite off (firstn (length buf / 2) buf)]).
Proof.
  rewrite (append_faulted w es FWriteShort), (append_faulted w es FWrite).
  unfold append.
  destruct es as [|e0 r]; [cbn; auto|].
  destruct (0 <? w_index_start w); [cbn; auto|].
  destruct (too_big (e0 :: r)); [cbn; auto|].
  destruct (append_entries w (e0 :: r)) as [w1|]; [|cbn; auto].
  destruct (if needs_seal w1 then append_index w1 else Some w1) as [w2|]; [|cbn; auto].
  cbn [append_commit faulted fst snd]. split; [reflexivity|]. right. eexists. eexists. split; reflexivity.
Qed.

Lemma force_seal_short_as_write w :
  fst (force_seal w FWriteShort) = fst (force_seal w FWrite) /\
  (snd (force_seal w FWriteShort) = [] \/
   exists off buf, snd (force_seal w FNone) = [WWrite off buf; WSync] /\
                   snd (force_seal w FWriteShort) = [WWrite off (firstn (length buf / 2) buf)]).
Proof.
  rewrite (force_seal_faulted w FWriteShort), (force_seal_faulted w FWrite). unfold force_seal.
  destruct (0 <? w_index_start w); [cbn; auto|].
  destruct (append_index w) as [w1|]; [|cbn; auto].
  cbn [append_commit faulted fst snd]. split; [reflexivity|]. right. eexists. eexists. split; reflexivity.
Qed.

Lemma len_rw_buf w1 w2 : rep_w w1 w2 -> len (w_buf w1) = hdr_len w2.
Proof.
  intros R. rewrite (rw_buf _ _ R). unfold hdr_len. destruct (ws_hdr w2); [apply len_file_header|reflexivity].
Qed.

Lemma rep_w_wabs w :
  (w_buf w = [] \/ w_buf w = file_header (w_info w)) -> w_crc w = crc32c (w_buf w) -> rep_w w (wabs w).
Proof.
  intros Hb Hc. constructor; try reflexivity; [|exact Hc].
  cbn [wabs ws_hdr]. destruct Hb as [Hb|Hb]; rewrite Hb; [reflexivity|].
  rewrite len_file_header. reflexivity.
Qed.

Lemma rep_w_init info : rep_w (init_empty info) (new_wseg info).
Proof. constructor; reflexivity. Qed.

(* the commit of either operation *)
(* sealing or not (sl), then appendCommit: the actions and the writer left *)
Lemma seal_commit (sl : bool) w : w_offsets w <> [] ->
  exists wb buf,
    (if sl then append_index w else Some w) = Some wb /\
    len buf = len (w_buf w) + (if sl then index_frame_size (len (w_offsets w)) else 0) + 8 /\
    append_commit wb FNone =
      (Some {| w_info := w_info w; w_buf := []; w_crc := 0; w_off := (w_off w + len buf) mod two32;
               w_index_start := if sl then w_off w + len (w_buf w) + 8 else w_index_start w;
               w_offsets := w_offsets w; w_commit_idx := si_base (w_info w) + len (w_offsets w) - 1 |},
       [WWrite (w_off w) buf; WSync]).
Proof.
  intros Hnn. pose proof (index_frame_size_spec _ Hnn) as Li.
  assert (Ei : commit_idx_of w = si_base (w_info w) + len (w_offsets w) - 1)
    by (unfold commit_idx_of; destruct (w_offsets w); congruence).
  rewrite <- Ei. unfold append_index.
  destruct (w_offsets w) as [|o r] eqn:Eo; [congruence|]. rewrite <- Eo in *. clear Eo.
  destruct sl; eexists; eexists; (split; [reflexivity|]); (split; [|reflexivity]);
    cbn [w_buf]; rewrite !len_app, len_commit_frame; lia.
Qed.

(* the fault-free L1 append in closed form, in the terms of the L2 writer *)
Lemma append_l1_char w1 w2 l0 lr (ls := l0 :: lr) :
  rep_w w1 w2 -> consec ls ->
  (0 <? ws_index_start w2) = false ->
  existsb (fun l => MaxEntrySize <? enc_len l) ls = false ->
  l_index l0 = ws_base w2 + ws_n w2 ->
  exists w1' buf,
    append w1 (ents ls) FNone = (WOk, w1', [WWrite (ws_off w2) buf; WSync]) /\
    len buf = l2_total w2 ls /\ rep_w w1' (l2_after w2 ls).
Proof.
  intros R Hc Hs Hb Hi.
  assert (Hidx : idx_ok (si_base (w_info w1) + len (w_offsets w1)) (ents ls)).
  { apply idx_ok_ents. rewrite <- (rw_base _ _ R), <- (rw_n _ _ R), <- Hi. exact Hc. }
  destruct (append_entries_ok _ _ Hidx) as [wa Ha].
  destruct (append_entries_char _ _ _ Ha) as [_ Ewa]. rewrite map_snd_ents in Ewa.
  (* the writer wa that holds the entry frames, in the terms of w2 *)
  assert (Loffs : len (w_offsets wa) = ws_n w2 + llen ls).
  { rewrite Ewa. cbn [set_buf w_offsets]. rewrite len_app, (rw_n _ _ R). f_equal.
    unfold len, llen. rewrite map_length, entry_offsets_length, map_length. reflexivity. }
  assert (Hnn : w_offsets wa <> []).
  { intros E. rewrite E in Loffs. unfold ls, llen in Loffs. cbn in Loffs. lia. }
  assert (Lbufa : len (w_buf wa) = hdr_len w2 + frames_size ls).
  { rewrite Ewa. cbn [set_buf w_buf]. rewrite len_app, (len_rw_buf _ _ R), frames_size_eq. reflexivity. }
  assert (Eoffa : w_off wa = ws_off w2) by (rewrite Ewa; symmetry; apply (rw_off _ _ R)).
  assert (Einfo : w_info wa = w_info w1) by (rewrite Ewa; reflexivity).
  assert (Eseal : needs_seal wa = l2_seal w2 ls).
  { unfold needs_seal, l2_seal. rewrite Einfo, Eoffa, Lbufa, Loffs, (rw_limit _ _ R). reflexivity. }
  destruct (seal_commit (needs_seal wa) wa Hnn) as (wb & buf & Eb & Lb & Ec).
  assert (Ltot : len buf = l2_total w2 ls).
  { rewrite Lb, Lbufa, Loffs. unfold l2_total. rewrite <- Eseal. destruct (needs_seal wa); lia. }
  eexists; exists buf. split; [|split; [exact Ltot|]].
  - rewrite append_ne by discriminate. rewrite <- (rw_istart _ _ R), Hs, too_big_ents, Hb, Ha, Eb, Ec, <- Eoffa. reflexivity.
  - constructor; cbn [l2_after w_info w_buf w_crc w_off w_index_start w_offsets w_commit_idx
                      ws_name ws_base ws_min ws_limit ws_n ws_off ws_hdr ws_index_start ws_commit_idx];
      rewrite ?Einfo; try (apply R); try reflexivity.
    + symmetry. exact Loffs.
    + rewrite Ltot, Eoffa. reflexivity.
    + unfold l2_istart. rewrite <- Eseal, Eoffa, Lbufa. destruct (needs_seal wa); [reflexivity|].
      rewrite Ewa. cbn [set_buf w_index_start]. rewrite <- (rw_istart _ _ R). apply N.ltb_ge in Hs. lia.
    + rewrite Loffs, (rw_base _ _ R). reflexivity.
Qed.

Lemma pb_of_l2_batch w1' w2 ls : rep_w w1' (l2_after w2 ls) -> pb_of ls w1' = l2_batch w2 ls.
Proof.
  intros R. unfold pb_of, l2_batch. rewrite <- (rw_off _ _ R), <- (rw_istart _ _ R). reflexivity.
Qed.

(* Either both levels refuse the batch (or it is empty) and nothing changes, or
   the guards of seg_append_char / append_l1_char hold. *)
Lemma append_cases w1 w2 ls e : rep_w w1 w2 ->
  (exists r, append w1 (ents ls) FNone = (r, w1, []) /\ seg_append w2 ls e = (res_abs r, w2, e) /\
             (r = WOk -> ls = [])) \/
  (exists l0 lr, ls = l0 :: lr /\ (0 <? ws_index_start w2) = false /\
     existsb (fun l => MaxEntrySize <? enc_len l) ls = false /\ l_index l0 = ws_base w2 + ws_n w2).
Proof.
  intros R. destruct ls as [|l0 lr]; [left; exists WOk; auto|].
  rewrite append_ne by discriminate. rewrite too_big_ents, <- (rw_istart _ _ R). unfold seg_append.
  destruct (0 <? ws_index_start w2); [left; exists WErrSealed; easy|].
  destruct (existsb _ (l0 :: lr)); [left; exists WErrTooBig; easy|].
  destruct (N.eqb_spec (l_index l0) (ws_base w2 + ws_n w2)) as [Hi|Hi]; [right; eauto 6|].
  left. exists WErrNonMono. rewrite append_entries_first_bad by (rewrite <- (rw_base _ _ R), <- (rw_n _ _ R); exact Hi). easy.
Qed.

(* The writer simulation (Append), any fault position.  x0 is the fault-free
   L1 run (it fixes the intended actions and the abstract batch), x the L1 run
   under the fault that corresponds to L2's fault counter. *)
Theorem append_sim_gen w1 w2 ls e :
  rep_w w1 w2 -> consec ls ->
  let x0 := append w1 (ents ls) FNone in
  let x := append w1 (ents ls) (wfault_of (e_fault e)) in
  exists w2',
    seg_append w2 ls e =
      (res_abs (fst (fst x)), w2',
       do_acts e (abs_acts (ws_name w2) (pb_of ls (snd (fst x0))) (snd x0))) /\
    rep_w (snd (fst x)) w2'.
Proof.
  intros R Hc. cbn zeta. rewrite (append_faulted w1 (ents ls) (wfault_of (e_fault e))).
  destruct (append_cases w1 w2 ls e R) as [(r & E1 & E2 & _)|(l0 & lr & -> & Hs & Hb & Hi)].
  - rewrite E1, E2, faulted_nil. exists w2. auto.
  - destruct (append_l1_char w1 w2 l0 lr R Hc Hs Hb Hi) as (w1' & buf & E & Lb & R').
    rewrite E. cbn [fst snd]. rewrite (seg_append_char w2 l0 lr e Hs Hb Hi).
    cbn [abs_acts map act_abs]. rewrite Lb, (pb_of_l2_batch _ _ _ R').
    destruct (e_fault e) as [[|[|n]]|]; cbn [wfault_of both_ok faulted fst snd res_abs];
      eexists; (split; [reflexivity|assumption]).
Qed.

(* no fault: the form asked for *)
Theorem append_sim w1 w2 ls e :
  rep_w w1 w2 -> consec ls -> e_fault e = None ->
  exists r w1' acts w2',
    append w1 (ents ls) FNone = (r, w1', acts) /\
    seg_append w2 ls e = (res_abs r, w2', do_acts e (abs_acts (ws_name w2) (pb_of ls w1') acts)) /\
    rep_w w1' w2' /\
    (acts = [] \/ exists buf, acts = [WWrite (ws_off w2) buf; WSync]).
Proof.
  intros R Hc Hf. destruct (append_cases w1 w2 ls e R) as [(r & E1 & E2 & _)|(l0 & lr & -> & Hs & Hb & Hi)].
  - exists r, w1, [], w2. auto.
  - destruct (append_l1_char w1 w2 l0 lr R Hc Hs Hb Hi) as (w1' & buf & E & Lb & R').
    exists WOk, w1', [WWrite (ws_off w2) buf; WSync], (l2_after w2 (l0 :: lr)).
    split; [exact E|]. split; [|eauto].
    rewrite (seg_append_char w2 l0 lr e Hs Hb Hi), Hf. cbn [both_ok abs_acts map act_abs].
    rewrite Lb, (pb_of_l2_batch _ _ _ R'). reflexivity.
Qed.

Lemma force_seal_l1_char w1 w2 :
  rep_w w1 w2 -> (0 <? ws_index_start w2) = false -> (ws_n w2 =? 0) = false ->
  exists w1' buf,
    force_seal w1 FNone = (WOk, w1', [WWrite (ws_off w2) buf; WSync]) /\
    len buf = fs_total w2 /\ rep_w w1' (fs_after w2).
Proof.
  intros R Hs Hn.
  assert (Hnn : w_offsets w1 <> []).
  { intros E. rewrite (rw_n _ _ R), E in Hn. discriminate. }
  destruct (seal_commit true w1 Hnn) as (wb & buf & Eb & Lb & Ec).
  rewrite (len_rw_buf _ _ R), <- (rw_n _ _ R) in Lb.
  assert (Ltot : len buf = fs_total w2) by (rewrite Lb; reflexivity).
  eexists; exists buf. split; [|split; [exact Ltot|]].
  - unfold force_seal. rewrite <- (rw_istart _ _ R), Hs, Eb, Ec, (rw_off _ _ R). reflexivity.
  - rewrite Ltot, (len_rw_buf _ _ R), <- (rw_n _ _ R), <- (rw_off _ _ R), <- (rw_base _ _ R).
    constructor; cbn [fs_after w_info w_buf w_crc w_off w_index_start w_offsets w_commit_idx
                      ws_name ws_base ws_min ws_limit ws_n ws_off ws_hdr ws_index_start ws_commit_idx];
      try (apply R); reflexivity.
Qed.

Lemma pb_of_fs_batch w1' w2 : rep_w w1' (fs_after w2) -> pb_of [] w1' = fs_batch w2.
Proof.
  intros R. unfold pb_of, fs_batch. rewrite <- (rw_off _ _ R), <- (rw_istart _ _ R). reflexivity.
Qed.

Lemma force_seal_cases w1 w2 e : rep_w w1 w2 ->
  (exists r, force_seal w1 FNone = (r, w1, []) /\ seg_force_seal w2 e = (res_abs r, w2, e) /\
             (r = WOk -> (0 <? ws_index_start w2) = true)) \/
  ((0 <? ws_index_start w2) = false /\ (ws_n w2 =? 0) = false).
Proof.
  intros R. unfold force_seal, seg_force_seal. rewrite <- (rw_istart _ _ R).
  destruct (0 <? ws_index_start w2); [left; exists WOk; auto|].
  destruct (N.eqb_spec (ws_n w2) 0) as [Hn|Hn]; [|auto].
  left. exists WErrShortBuf. unfold append_index. rewrite (rw_n _ _ R) in Hn.
  destruct (w_offsets w1); [easy|]. rewrite len_cons in Hn. lia.
Qed.

Theorem force_seal_sim_gen w1 w2 e :
  rep_w w1 w2 ->
  let x0 := force_seal w1 FNone in
  let x := force_seal w1 (wfault_of (e_fault e)) in
  exists w2',
    seg_force_seal w2 e =
      (res_abs (fst (fst x)), w2',
       do_acts e (abs_acts (ws_name w2) (pb_of [] (snd (fst x0))) (snd x0))) /\
    rep_w (snd (fst x)) w2'.
Proof.
  intros R. cbn zeta. rewrite (force_seal_faulted w1 (wfault_of (e_fault e))).
  destruct (force_seal_cases w1 w2 e R) as [(r & E1 & E2 & _)|(Hs & Hn)].
  - rewrite E1, E2, faulted_nil. exists w2. auto.
  - destruct (force_seal_l1_char w1 w2 R Hs Hn) as (w1' & buf & E & Lb & R').
    rewrite E. cbn [fst snd]. rewrite (seg_force_seal_char w2 e Hs Hn).
    cbn [abs_acts map act_abs]. rewrite Lb, (pb_of_fs_batch _ _ R').
    destruct (e_fault e) as [[|[|n]]|]; cbn [wfault_of both_ok faulted fst snd res_abs];
      eexists; (split; [reflexivity|assumption]).
Qed.

Theorem force_seal_sim w1 w2 e :
  rep_w w1 w2 -> e_fault e = None ->
  exists r w1' acts w2',
    force_seal w1 FNone = (r, w1', acts) /\
    seg_force_seal w2 e = (res_abs r, w2', do_acts e (abs_acts (ws_name w2) (pb_of [] w1') acts)) /\
    rep_w w1' w2'.
Proof.
  intros R Hf. destruct (force_seal_sim_gen w1 w2 e R) as (w2' & E & R').
  rewrite Hf in E, R'. cbn [wfault_of] in E, R'.
  destruct (force_seal w1 FNone) as [[r w1'] acts] eqn:Ea. cbn [fst snd] in E, R'.
  exists r, w1', acts, w2'. auto.
Qed.
