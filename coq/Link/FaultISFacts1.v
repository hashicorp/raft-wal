(* FaultISFacts1.v -- the IndexStart invariant under INJECTED FAULTS: frames
   for the single actions and for the primitives (delete_files, seg_create, one
   commit of the tail writer), and mutate_gen.  Every lemma: whatever fails, the
   listed sealed segments still record the seal offsets of their files. *)
From RW Require Import Base.Bytes Fmt.Frame Wal.Model Wal.ModelFacts Wal.CrashFacts0 Wal.CrashFacts2 Link.Abs
     Link.AbsFacts1 Link.DiskFacts1 Link.ComposeFacts1 Link.IndexStart Link.IndexStartFacts1
     Link.FaultDiskFacts2 Link.FaultIS.
From RW Require Import Base.LiaSetup.
Open Scope N_scope.

Lemma ISseg'_ISseg d s : ISseg' d s -> ISseg d s.
Proof.
  intros H Hs f Hf. destruct (H Hs f Hf) as (A & B & C). unfold cur_seal. rewrite C. auto.
Qed.

Lemma ISseg'_ext d d' s :
  lookup (name_of s) (dk_files d') = lookup (name_of s) (dk_files d) -> ISseg' d s -> ISseg' d' s.
Proof. unfold ISseg'. intros ->. auto. Qed.

Lemma ISs'_files d d' L : dk_files d' = dk_files d -> ISs' d L -> ISs' d' L.
Proof.
  intros E. unfold ISs'. apply Forall_impl. intros s. apply ISseg'_ext. rewrite E. reflexivity.
Qed.

Lemma ISseg'_unsealed d s : si_sealed s = false -> ISseg' d s.
Proof. unfold ISseg'. intros -> H. discriminate. Qed.

Lemma ISseg'_same d s s' :
  name_of s' = name_of s -> si_index_start s' = si_index_start s -> si_sealed s' = si_sealed s ->
  ISseg' d s -> ISseg' d s'.
Proof. unfold ISseg'. intros -> -> ->. auto. Qed.

Lemma ISs'_incl d l l' : (forall s, In s l' -> In s l \/ ISseg' d s) -> ISs' d l -> ISs' d l'.
Proof.
  unfold ISs'. rewrite !Forall_forall. intros H H0 s Hin. destruct (H s Hin) as [K|K]; [apply H0; exact K|exact K].
Qed.

Lemma ISs'_app d a b : ISs' d (a ++ b) <-> ISs' d a /\ ISs' d b.
Proof. unfold ISs'. apply Forall_app. Qed.

Lemma ISs'_create d L n sz :
  (forall s, In s L -> si_sealed s = true -> name_of s <> n) -> ISs' d L ->
  ISs' (apply_act d (ACreate n sz)) L.
Proof.
  intros Hn. unfold ISs'. rewrite !Forall_forall. intros H s Hin Hs f. cbn [apply_act dk_files].
  rewrite lookup_update_neq by (apply Hn; assumption). apply (H s Hin Hs).
Qed.

Lemma ISs'_write d L n off l b :
  (forall f, lookup n (dk_files d) = Some f -> df_seal f = 0) -> ISs' d L ->
  ISs' (apply_act d (AWrite n off l b)) L.
Proof.
  intros Hz. unfold ISs'. rewrite !Forall_forall. intros H s Hin Hs f'. cbn [apply_act].
  destruct (lookup n (dk_files d)) as [g|] eqn:Eg; [|apply (H s Hin Hs)]. cbn [dk_files].
  rewrite lookup_update. destruct (fname_eqb (name_of s) n) eqn:E; [|apply (H s Hin Hs)].
  apply fname_eqb_eq in E. exfalso. rewrite <- E in Eg. destruct (H s Hin Hs g Eg) as (_ & K & _).
  apply K. apply Hz. reflexivity.
Qed.

Lemma ISs'_sync d L n : ISs' d L -> ISs' (apply_act d (ASync n)) L.
Proof.
  unfold ISs'. rewrite !Forall_forall. intros H s Hin Hs f'. cbn [apply_act].
  destruct (lookup n (dk_files d)) as [g|] eqn:Eg; [|apply (H s Hin Hs)]. cbn [dk_files].
  rewrite lookup_update. destruct (fname_eqb (name_of s) n) eqn:E; [|apply (H s Hin Hs)].
  apply fname_eqb_eq in E. rewrite <- E in Eg. destruct (H s Hin Hs g Eg) as (A & B & C).
  rewrite C. intros [= <-]. cbn. auto.
Qed.

Lemma ISs'_delete d L n : NoDup (map fst (dk_files d)) -> ISs' d L -> ISs' (apply_act d (ADelete n)) L.
Proof.
  intros ND. unfold ISs'. rewrite !Forall_forall. intros H s Hin Hs f'. cbn [apply_act dk_files].
  rewrite (lookup_remove _ _ _ ND). destruct (fname_eqb (name_of s) n); [discriminate|apply (H s Hin Hs)].
Qed.

Lemma ISs'_meta d L a : meta_act a -> ISs' d L -> ISs' (apply_act d a) L.
Proof. intros Hm. apply ISs'_files. apply meta_act_files. exact Hm. Qed.

Lemma io_meta_frame a e ok e' L :
  io a e = (ok, e') -> meta_act a -> ISs' (e_disk e) L -> ISs' (e_disk e') L.
Proof. intros Hio Hm. apply ISs'_files. eapply io_meta_files; eauto. Qed.

Lemma delete_files_frame ns : forall e L,
  NoDup (map fst (dk_files (e_disk e))) -> ISs' (e_disk e) L ->
  ISs' (e_disk (delete_files ns e)) L /\ NoDup (map fst (dk_files (e_disk (delete_files ns e)))) /\
  dk_meta (e_disk (delete_files ns e)) = dk_meta (e_disk e).
Proof.
  induction ns as [|n ns IH]; intros e L ND H; [auto|].
  unfold delete_files. cbn [fold_left]. fold (delete_files ns (snd (io (ADelete n) e))).
  destruct (io (ADelete n) e) as [ok e1] eqn:Eio. cbn [snd].
  destruct (io_cases _ _ _ _ Eio eq_refl) as [(_ & Ed)|(_ & Ed)].
  - destruct (IH e1 L) as (A & B & C).
    + rewrite Ed. apply NoDup_apply. exact ND.
    + rewrite Ed. apply ISs'_delete; assumption.
    + split; [exact A|]. split; [exact B|]. rewrite C, Ed. reflexivity.
  - destruct (IH e1 L) as (A & B & C); [rewrite Ed; exact ND|rewrite Ed; exact H|].
    split; [exact A|]. split; [exact B|]. rewrite C, Ed. reflexivity.
Qed.

Lemma seg_create_frame si e sw e' L :
  NoDup (map fst (dk_files (e_disk e))) ->
  (forall s, In s L -> si_sealed s = true -> name_of s <> name_of si) -> ISs' (e_disk e) L ->
  seg_create si e = (sw, e') ->
  ISs' (e_disk e') L /\ NoDup (map fst (dk_files (e_disk e'))) /\ dk_meta (e_disk e') = dk_meta (e_disk e).
Proof.
  intros ND Hn H. unfold seg_create. destruct (si_base si =? 0); [intros [= <- <-]; auto|].
  destruct (lookup (name_of si) (dk_files (e_disk e))).
  - destruct (io _ e) as [ok e1] eqn:Eio. intros [= <- <-].
    pose proof (io_meta_files _ _ _ _ Eio I) as Ef.
    split; [eapply io_meta_frame; eauto; exact I|]. split; [rewrite Ef; exact ND|].
    destruct (io_cases _ _ _ _ Eio eq_refl) as [(_ & ->)|(_ & ->)]; reflexivity.
  - destruct (io _ e) as [ok e1] eqn:Eio.
    destruct (io_cases _ _ _ _ Eio eq_refl) as [(-> & Ed)|(-> & Ed)].
    + intros [= <- <-]. rewrite Ed. split; [apply ISs'_create; assumption|]. split; [apply NoDup_apply; exact ND|reflexivity].
    + destruct (fx_leave (e_fx e)); intros [= <- <-]; cbn [leave_entry e_disk]; rewrite Ed.
      * split; [apply ISs'_create; assumption|]. split; [apply NoDup_apply; exact ND|reflexivity].
      * auto.
Qed.

(* a write of the tail writer goes to a file that is not sealed *)
Definition unsealed_target (tw : wseg) (d : disk) : Prop :=
  ws_index_start tw = 0 -> forall f, lookup (ws_name tw) (dk_files d) = Some f -> df_seal f = 0.

(* one commit of the tail writer (write, fsync), whatever fails *)
Lemma commit_frame e n off l b L :
  (forall f, lookup n (dk_files (e_disk e)) = Some f -> df_seal f = 0) ->
  ISs' (e_disk e) L -> NoDup (map fst (dk_files (e_disk e))) ->
  let e' := do_acts e [AWrite n off l b; ASync n] in
  ISs' (e_disk e') L /\ NoDup (map fst (dk_files (e_disk e'))) /\ dk_meta (e_disk e') = dk_meta (e_disk e).
Proof.
  intros Hz H ND e'.
  pose proof (ISs'_write _ L n off l b Hz H) as H1.
  destruct (do_acts2_cases e (AWrite n off l b) (ASync n) eq_refl eq_refl eq_refl eq_refl) as [(_ & Ed)|[(_ & Ed)|(_ & Ed)]];
    fold e' in Ed; rewrite Ed; [| |auto].
  - split; [apply ISs'_sync; exact H1|]. split; [apply NoDup_apply, NoDup_apply; exact ND|].
    cbn [apply_act]. repeat (destruct (lookup _ _); cbn [apply_act dk_meta dk_files]); reflexivity.
  - split; [exact H1|]. split; [apply NoDup_apply; exact ND|]. cbn [apply_act]. destruct (lookup _ _); reflexivity.
Qed.

Lemma seg_append_frame tw ls e r tw' e' L :
  unsealed_target tw (e_disk e) -> ISs' (e_disk e) L -> NoDup (map fst (dk_files (e_disk e))) ->
  seg_append tw ls e = (r, tw', e') ->
  ISs' (e_disk e') L /\ NoDup (map fst (dk_files (e_disk e'))) /\ dk_meta (e_disk e') = dk_meta (e_disk e).
Proof.
  intros Ht H ND Hs. destruct (seg_append_cases _ _ _ _ _ _ Hs) as [(-> & ->)|(l0 & lr & -> & E1 & E2 & E3)]; [auto|].
  rewrite (seg_append_char tw l0 lr e E1 E2 E3) in Hs. injection Hs as _ _ <-.
  apply commit_frame; [apply Ht; apply N.ltb_ge in E1; lia|exact H|exact ND].
Qed.

Lemma seg_force_seal_frame tw e r tw' e' L :
  unsealed_target tw (e_disk e) -> ISs' (e_disk e) L -> NoDup (map fst (dk_files (e_disk e))) ->
  seg_force_seal tw e = (r, tw', e') ->
  ISs' (e_disk e') L /\ NoDup (map fst (dk_files (e_disk e'))) /\ dk_meta (e_disk e') = dk_meta (e_disk e) /\
  (r = ROk ->
   (tw' = tw /\ e' = e /\ 0 < ws_index_start tw) \/
   (0 < ws_index_start tw' /\ (ws_n tw =? 0) = false /\
    forall f', lookup (ws_name tw) (dk_files (e_disk e')) = Some f' -> df_seal f' = ws_index_start tw' /\ df_pend f' = None)).
Proof.
  intros Ht H ND Hs. destruct (seg_force_seal_cases _ _ _ _ _ Hs) as [(-> & -> & Hr)|(E1 & E2)]; [repeat split; auto|].
  rewrite (seg_force_seal_char tw e E1 E2) in Hs. set (e2 := do_acts e _) in Hs. injection Hs as <- <- <-. subst e2.
  assert (Hz : ws_index_start tw = 0) by (apply N.ltb_ge in E1; lia).
  destruct (commit_frame e (ws_name tw) (ws_off tw) (fs_total tw) (fs_batch tw) L (Ht Hz) H ND) as (A & B & C).
  split; [exact A|]. split; [exact B|]. split; [exact C|].
  destruct (do_acts2_cases e (AWrite (ws_name tw) (ws_off tw) (fs_total tw) (fs_batch tw)) (ASync (ws_name tw))
              eq_refl eq_refl eq_refl eq_refl) as [(Hok & Ed)|[(Hf & _)|(Hf & _)]]; [rewrite Hok|rewrite Hf; discriminate..].
  intros _. right. rewrite Ed. split; [cbn [fs_after ws_index_start]; unfold fs_istart; lia|]. split; [exact E2|].
  intros f' Ef'.
  destruct (lookup (ws_name tw) (dk_files (e_disk e))) as [f|] eqn:Ef.
  - destruct (lookup_write_eq (e_disk e) (ws_name tw) (ws_off tw) (fs_total tw) (fs_batch tw) f Ef) as (f1 & Ef1 & Hs1).
    rewrite (lookup_sync_eq _ _ _ Ef1) in Ef'. inversion Ef'; subst f'. cbn [synced_file df_seal df_pend]. split; [exact Hs1|reflexivity].
  - exfalso. cbn [apply_act] in Ef'. rewrite Ef in Ef'. cbn [apply_act] in Ef'. rewrite Ef in Ef'. rewrite Ef in Ef'. discriminate.
Qed.

Lemma meta_segs_files d d' : dk_meta d' = dk_meta d -> meta_segs d' = meta_segs d.
Proof. unfold meta_segs. intros ->. reflexivity. Qed.

Lemma mutate_gen_FJ defer w t e r w' e' dels :
  NoDup (map fst (dk_files (e_disk e))) -> FJ w (e_disk e) -> ISs' (e_disk e) (tx_segs t) ->
  (forall si, tx_create t = Some si ->
     forall s, In s (st_segs w ++ tx_segs t) -> si_sealed s = true -> name_of s <> name_of si) ->
  mutate_gen defer w t e = (r, w', e', dels) ->
  FJ w' (e_disk e') /\ NoDup (map fst (dk_files (e_disk e'))) /\
  ((st_segs w' = st_segs w /\ st_tail w' = st_tail w /\ st_next_id w' = st_next_id w /\
    ((st_failed w' = true) \/ (r <> ROk /\ e_disk e' = e_disk e /\ w' = w) \/
     (dk_files (e_disk e') = dk_files (e_disk e) /\ dk_meta (e_disk e') = dk_meta (e_disk e) /\ w' = w))) \/
   (r = ROk /\ st_segs w' = tx_segs t /\ st_next_id w' = tx_next_id t /\
    (tx_create t = None -> st_tail w' = tx_tail t) /\
    (forall si, tx_create t = Some si -> st_tail w' = Some (new_wseg si)))).
Proof.
  intros ND HJ Htx Hcr. unfold mutate_gen. unfold FJ in *. apply ISs'_app in HJ as (HJ1 & HJ2).
  set (a := ACommit {| ps_next_id := tx_next_id t; ps_segs := tx_segs t |}).
  destruct (io a e) as [ok e1] eqn:Eio.
  pose proof (io_meta_files _ _ _ _ Eio I) as Ef1.
  destruct (io_cases3 _ _ _ _ Eio) as [(-> & Ed)|[(-> & Ed)|(-> & _ & Ed)]]; cbn [negb].
  2:{ intros [= <- <- <- <-]. cbn [st_segs st_tail st_next_id st_failed]. rewrite Ed.
      split; [apply ISs'_app; auto|]. split; [exact ND|]. left. auto. }
  2:{ (* the commit landed *)
      intros [= <- <- <- <-]. cbn [st_segs st_tail st_next_id st_failed].
      assert (Em1 : meta_segs (e_disk e1) = tx_segs t) by (rewrite Ed; reflexivity).
      rewrite Em1. split; [apply ISs'_app; split; eapply ISs'_files; eauto|]. split; [rewrite Ef1; exact ND|]. left. auto. }
  assert (Em1 : meta_segs (e_disk e1) = tx_segs t) by (rewrite Ed; reflexivity).
  assert (ND1 : NoDup (map fst (dk_files (e_disk e1)))) by (rewrite Ef1; exact ND).
  (* from here the disk lists tx_segs while the memory may end with either list (a later step can
     fail): the invariant is carried for both at once, and each exit takes the pair it ends with *)
  assert (HA1 : ISs' (e_disk e1) (st_segs w ++ tx_segs t)).
  { apply ISs'_app. split; eapply ISs'_files; eauto. }
  destruct (tx_create t) as [si|] eqn:Ec.
  - destruct (seg_create si e1) as [sw e2] eqn:Es.
    (* the one action that can break the invariant: a creation over the file of a segment listed as
       sealed would reset its seal offset (Hcr).  A deletion cannot: ISseg' asks nothing of a missing file *)
    destruct (seg_create_frame si e1 sw e2 _ ND1 (Hcr si eq_refl) HA1 Es) as (HA2 & ND2 & Em2).
    apply ISs'_app in HA2 as (HA2a & HA2b).
    assert (Ems2 : meta_segs (e_disk e2) = tx_segs t) by (rewrite (meta_segs_files _ _ Em2); exact Em1).
    destruct sw as [sw|].
    + rewrite (seg_create_some _ _ _ _ Es) in *. destruct defer.
      * intros [= <- <- <- <-]. cbn [st_segs]. rewrite Ems2. split; [apply ISs'_app; auto|]. split; [exact ND2|].
        right. repeat split; auto; [discriminate|]. intros si' [= <-]. reflexivity.
      * destruct (delete_files_frame (tx_delete t) e2 (tx_segs t ++ tx_segs t) ND2) as (HA3 & ND3 & Em3); [apply ISs'_app; auto|].
        intros [= <- <- <- <-]. cbn [st_segs]. rewrite (meta_segs_files _ _ Em3), Ems2.
        split; [exact HA3|]. split; [exact ND3|]. right. repeat split; auto; [discriminate|]. intros si' [= <-]. reflexivity.
    + intros [= <- <- <- <-]. cbn [st_segs st_tail st_next_id st_failed]. rewrite Ems2.
      split; [apply ISs'_app; auto|]. split; [exact ND2|]. left. auto.
  - destruct defer.
    + intros [= <- <- <- <-]. cbn [st_segs]. rewrite Em1. apply ISs'_app in HA1 as (_ & HA1b).
      split; [apply ISs'_app; auto|]. split; [exact ND1|]. right. repeat split; auto. intros si; discriminate.
    + apply ISs'_app in HA1 as (_ & HA1b).
      destruct (delete_files_frame (tx_delete t) e1 (tx_segs t ++ tx_segs t) ND1) as (HA3 & ND3 & Em3); [apply ISs'_app; auto|].
      intros [= <- <- <- <-]. cbn [st_segs]. rewrite (meta_segs_files _ _ Em3), Em1.
      split; [exact HA3|]. split; [exact ND3|]. right. repeat split; auto. intros si; discriminate.
Qed.
