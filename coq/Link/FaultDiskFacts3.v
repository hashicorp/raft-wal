(* FaultDiskFacts3.v -- the WAL operations under INJECTED FAULTS in lock step
   with the byte disk (weak relation): mutate_gen (the commit may fail, the
   creation may fail and may leave the empty file, every deletion may fail),
   rotate, reset_first, store_logs, truncate_head, truncate_tail, delete_range,
   and Open: open_segs (the re-creation of a missing tail may fail), open_newtail,
   open_wal (the initialisation of the metadata database and the directory
   listing may fail; the disk Open starts from has no pending batch, adopt_disk /
   brestart came first).
   Each lemma: from WL (no hypothesis on e_fault / e_fx) the operation's
   effective actions are a weak lock-step run and the result satisfies WL. *)
From RW Require Import Base.Bytes Fmt.Codec Fmt.Frame Seg.RecoverFacts Wal.Model Wal.Spec Wal.CrashInv
     Wal.CrashFacts4 Wal.CrashCalls4 Link.AbsFacts1 Link.AbsFacts2 Link.AbsFacts4 Link.Disk Link.DiskFacts1 Link.Compose
     Link.ComposeFacts3 Link.ComposeFacts5 Link.FaultDisk Link.FaultDiskFacts1 Link.FaultDiskFacts2 Wal.ModelFacts.
From RW Require Import Base.LiaSetup.
Open Scope N_scope.

Lemma wop_link_same c w bd e : WL c w bd (e_disk e) -> wop_link c bd e w e.
Proof. intros H. exists bd. split; [apply werun_refl; apply H|exact H]. Qed.

(* a branch in which a call returns the state and the environment it got *)
Lemma wop_link_ret {A} (x y : A) c w bd e w' e' :
  WL c w bd (e_disk e) -> (x, w, e) = (y, w', e') -> wop_link c bd e w' e'.
Proof. intros H [= _ <- <-]. apply wop_link_same. exact H. Qed.

Lemma wop_link_disk_r c bd e w' e1 e2 : e_disk e1 = e_disk e2 -> wop_link c bd e w' e1 -> wop_link c bd e w' e2.
Proof. intros E (bd' & R & W). exists bd'. split; [eapply werun_disk; eauto|rewrite <- E; exact W]. Qed.

Lemma wop_link_disk_l c bd e1 e2 w' e' : e_disk e1 = e_disk e2 -> wop_link c bd e1 w' e' -> wop_link c bd e2 w' e'.
Proof. intros E (bd' & R & W). exists bd'. split; [eapply werun_disk_l; eauto|exact W]. Qed.

Lemma wop_link_trans c bd e w1 e1 w2 e2 :
  wop_link c bd e w1 e1 -> (forall bd1, WL c w1 bd1 (e_disk e1) -> wop_link c bd1 e1 w2 e2) ->
  wop_link c bd e w2 e2.
Proof.
  intros (bd1 & E1 & W1) H. destruct (H bd1 W1) as (bd2 & E2 & W2). exists bd2. split; [eapply werun_trans; eauto|exact W2].
Qed.

Lemma wop_link_intro c bd e w' e' : wop_link0 c bd e (st_tail w') e' -> WG w' -> wop_link c bd e w' e'.
Proof. intros (bd' & E & H) HG. exists bd'. split; [exact E|split; assumption]. Qed.

Lemma WL_ext c w w' bd d :
  st_next_id w' = st_next_id w -> st_tail w' = st_tail w -> WL c w bd d -> WL c w' bd d.
Proof. intros H1 H2 (A & B & C & D). unfold WL, WG, tail_id. rewrite H1, H2. auto. Qed.

Definition tx_ok (c : cfg) (w : wal) (t : txn) : Prop :=
  tx_next_id t < two64 /\ small_tail (tx_tail t) /\
  match tx_tail t with Some tw => snd (ws_name tw) < tx_next_id t | None => True end /\
  forall si, tx_create t = Some si ->
    si_codec si = c_codec c /\ hdr_wf (finfo c (name_of si)) /\ small_tw (new_wseg si) /\
    si_id si < tx_next_id t /\ other_name (st_tail w) (name_of si).

(* the deletions of a transaction, done now or left to the caller *)
Lemma defer_wlink c t (defer : bool) dels bd e :
  WL0 c t bd (e_disk e) -> wop_link0 c bd e t (if defer then e else delete_files dels e).
Proof. destruct defer; [apply wop_link0_refl|apply delete_files_wlink]. Qed.

Lemma mutate_gen_wlink c defer w t bd e r w' e' dels :
  WL c w bd (e_disk e) -> wtail_linked c (tx_tail t) bd (e_disk e) -> tx_ok c w t ->
  mutate_gen defer w t e = (r, w', e', dels) ->
  wop_link c bd e w' e'.
Proof.
  intros (H & HG) Htt (Hnid & Htsm & Httid & Hcr). unfold mutate_gen.
  destruct (io _ e) as [ok e1] eqn:Eio.
  (* the commit of the metadata touches no file: either tail writer stays linked *)
  assert (E1 : forall t0, wtail_linked c t0 bd (e_disk e) -> wop_link0 c bd e t0 e1).
  { intros t0 Ht0. apply (wop_link0_meta c bd e _ ok e1 t0 Eio I). destruct H as (A & B & _). repeat split; assumption. }
  destruct ok; cbn [negb]; [|intros [= _ <- <- _]; apply wop_link_intro; [apply E1, H|exact HG]].
  destruct (tx_create t) as [si|] eqn:Ec.
  - destruct (seg_create si e1) as [sw e2] eqn:Es. destruct (Hcr si eq_refl) as (Hc & Hh & Hs1 & Hsid & Hon).
    assert (E2 : wop_link0 c bd e (match sw with Some _ => sw | None => st_tail w end) e2).
    { eapply wop_link0_trans; [apply E1, H|]. intros bd1 H1. eapply seg_create_wlink; eauto. }
    destruct sw as [sw|]; intros [= _ <- <- _]; [|apply wop_link_intro; [exact E2|exact HG]].
    rewrite (seg_create_some _ _ _ _ Es) in *. apply wop_link_intro; cbn [st_tail].
    + eapply wop_link0_trans; [exact E2|]. intros bd2. apply defer_wlink.
    + split; [exact Hnid|]. split; [exact Hs1|exact Hsid].
  - intros [= _ <- <- _]. apply wop_link_intro; cbn [st_tail].
    + eapply wop_link0_trans; [apply E1, Htt|]. intros bd1. apply defer_wlink.
    + split; [exact Hnid|]. split; [exact Htsm|exact Httid].
Qed.

Lemma mutate_wlink c w t bd e r w' e' :
  WL c w bd (e_disk e) -> wtail_linked c (tx_tail t) bd (e_disk e) -> tx_ok c w t ->
  mutate w t e = (r, w', e') -> wop_link c bd e w' e'.
Proof.
  intros HW Ht Hok. unfold mutate.
  destruct (mutate_gen false w t e) as [[[r0 w0] e0] d0] eqn:Eg. intros [= _ <- <-].
  eapply mutate_gen_wlink; eauto.
Qed.

(* a transaction that keeps the tail writer and creates nothing *)
Lemma keep_tail_tx c w segs del :
  WG w -> tx_ok c w {| tx_next_id := st_next_id w; tx_segs := segs; tx_delete := del; tx_create := None; tx_tail := st_tail w |}.
Proof. intros (Hid & Hsm & Htid). split; [exact Hid|]. split; [exact Hsm|]. split; [exact Htid|]. intros si; discriminate. Qed.

(* a transaction that creates the segment createNextSegment hands out *)
Lemma create_next_tx c w segs nb nid segs2 si del :
  cfg_ok c -> WG w -> st_next_id w + 1 < two64 ->
  create_next c (st_next_id w) segs nb = (nid, segs2, si) ->
  tx_ok c w {| tx_next_id := nid; tx_segs := segs2; tx_delete := del; tx_create := Some si; tx_tail := None |}.
Proof.
  intros Hc (Hid & _ & Htid) Hn Ecn.
  destruct (create_next_facts _ _ _ _ _ _ _ Hc Hid Ecn) as (Hn' & Hcod & Hh & Hsm).
  unfold create_next in Ecn. inversion Ecn; subst. clear Ecn.
  rewrite (N.mod_small (st_next_id w + 1)) by exact Hn.
  split; [cbn [tx_next_id]; exact Hn|]. split; [exact I|]. split; [exact I|].
  intros si' [= <-]. split; [reflexivity|]. split; [exact Hh|]. split; [exact Hsm|].
  split; [cbn [new_segment si_id tx_next_id]; lia|].
  unfold other_name, tail_id in *. destruct (st_tail w) as [tw|]; [|exact I].
  intros E. rewrite E in Htid. cbn [name_of new_segment si_base si_id snd] in Htid. lia.
Qed.

Lemma mutate_gen_create_wlink c defer w bd e nid0 segs nb del r w' e' dels :
  cfg_ok c -> WL c w bd (e_disk e) -> nid0 = st_next_id w -> nid0 + 1 < two64 ->
  (let '(nid, segs2, si) := create_next c nid0 segs nb in
   mutate_gen defer w {| tx_next_id := nid; tx_segs := segs2; tx_delete := del; tx_create := Some si; tx_tail := None |} e)
    = (r, w', e', dels) ->
  wop_link c bd e w' e'.
Proof.
  intros Hc HW -> Hn. destruct (create_next c (st_next_id w) segs nb) as [[nid segs2] si] eqn:Ecn.
  apply mutate_gen_wlink; [exact HW|exact I|]. eapply create_next_tx; eauto. apply HW.
Qed.

Lemma mutate_create_wlink c w bd e e0 nid0 segs nb del r w' e' :
  cfg_ok c -> WL c w bd (e_disk e) -> nid0 = st_next_id w -> nid0 + 1 < two64 -> e_disk e0 = e_disk e ->
  (let '(nid, segs2, si) := create_next c nid0 segs nb in
   mutate w {| tx_next_id := nid; tx_segs := segs2; tx_delete := del; tx_create := Some si; tx_tail := None |} e0)
    = (r, w', e') ->
  wop_link c bd e w' e'.
Proof.
  intros Hc HW -> Hn Ed. destruct (create_next c (st_next_id w) segs nb) as [[nid segs2] si] eqn:Ecn. intros Hm.
  apply (wop_link_disk_l c bd e0 e _ _ Ed). revert Hm. rewrite <- Ed in HW.
  apply mutate_wlink; [exact HW|exact I|]. eapply create_next_tx; eauto. apply HW.
Qed.

(* the next id after a transaction: unchanged, or the transaction's *)
Lemma mutate_gen_nid defer w t e r w' e' dels :
  mutate_gen defer w t e = (r, w', e', dels) -> st_next_id w' = st_next_id w \/ st_next_id w' = tx_next_id t.
Proof.
  unfold mutate_gen. destruct (io _ e) as [ok e1]. destruct ok; cbn [negb]; [|intros [= _ <- _ _]; auto].
  destruct (tx_create t).
  - destruct (seg_create _ _) as [[sw|] e2]; intros [= _ <- _ _]; auto.
  - intros [= _ <- _ _]; auto.
Qed.

Lemma rotate_wlink c w bd e w' e' :
  cfg_ok c -> WL c w bd (e_disk e) -> st_next_id w + 1 < two64 ->
  rotate c w e = (w', e') ->
  wop_link c bd e w' e' /\ st_next_id w' <= st_next_id w + 1.
Proof.
  intros Hc HW Hn. unfold rotate.
  destruct (st_rotate w) as [istart|]; [|intros [= <- <-]; split; [apply wop_link_same; assumption|lia]].
  set (w0 := {| st_next_id := st_next_id w; st_segs := st_segs w; st_tail := st_tail w; st_rotate := None;
                st_failed := st_failed w; st_closed := st_closed w |}).
  assert (HW0 : forall e0, e_disk e0 = e_disk e -> wop_link c bd e w0 e0).
  { intros e0 Ed. eapply wop_link_disk_r; [symmetry; exact Ed|]. apply wop_link_same. eapply WL_ext; [| |exact HW]; reflexivity. }
  destruct (st_closed w); [intros [= <- <-]; split; [apply HW0; reflexivity|cbn; lia]|].
  destruct (tail_info (st_segs w)) as [t|]; [|intros [= <- <-]; split; [apply HW0; reflexivity|cbn; lia]].
  destruct (create_next c _ _ _) as [[nid segs2] si] eqn:Ecn.
  destruct (mutate w0 _ _) as [[r1 w1] e1] eqn:Em. intros [= <- <-].
  pose proof Ecn as Enid. unfold create_next in Enid. injection Enid as Enid _ _. rewrite N.mod_small in Enid by exact Hn.
  split.
  - eapply wop_link_disk_l; [|eapply (mutate_wlink c w0); [| | |exact Em]]; [reflexivity| |exact I|].
    + eapply WL_ext; [| |exact HW]; reflexivity.
    + eapply create_next_tx; eauto. apply HW.
  - unfold mutate in Em. destruct (mutate_gen false w0 _ _) as [[[r0 w2] e2] d0] eqn:Eg. injection Em as _ <- _.
    destruct (mutate_gen_nid _ _ _ _ _ _ _ _ Eg) as [->| ->]; cbn [w0 st_next_id tx_next_id]; lia.
Qed.

Lemma reset_first_wlink c w nb bd e r w' e' dels :
  cfg_ok c -> WL c w bd (e_disk e) -> st_next_id w + 1 < two64 ->
  reset_first c w nb e = (r, w', e', dels) ->
  wop_link c bd e w' e'.
Proof.
  intros Hc HW Hn. unfold reset_first.
  destruct (0 <? last_index (st_segs w) (st_tail w)); [intros [= _ <- <- _]; apply wop_link_same; exact HW|].
  destruct (tail_info (st_segs w)) as [t|]; [destruct (si_base t =? nb)|]; try (apply mutate_gen_create_wlink; auto).
  apply mutate_gen_wlink; [exact HW|apply HW|apply keep_tail_tx, HW].
Qed.

Lemma store_go_wlink c last ls w bd e r w' e' :
  WL c w bd (e_disk e) -> logs_ok ls -> frames_size ls < two30 ->
  store_go last ls w e = (r, w', e') -> wop_link c bd e w' e'.
Proof.
  intros HW Hls Hfs. unfold store_go. destruct (check_logs last ls) as [res nbytes] eqn:Ec.
  destruct (result_ok_dec res) as [->|N]; [|rewrite (match_not_ok res _ _ N); now apply wop_link_ret].
  destruct (st_tail w) as [tw|] eqn:Et; [|now apply wop_link_ret].
  destruct (seg_append tw ls e) as [[r0 tw'] e1] eqn:Ea.
  pose proof HW as (H & (Hid & Hs & Htid)). unfold tail_id in Htid. rewrite Et in H, Hs, Htid.
  destruct (seg_append_wlink c tw ls bd e r0 tw' e1 H) with (4 := Ea) as (E & Hcase).
  { apply (check_logs_consec last); [exact Hls|rewrite Ec; reflexivity]. }
  { exact Hls. }
  { intros Hz. destruct (Hs Hz) as (S1 & S2 & S3). apply l2_append_guard; assumption. }
  assert (HG' : forall ro, WG {| st_next_id := st_next_id w; st_segs := st_segs w; st_tail := Some tw'; st_rotate := ro;
                                 st_failed := st_failed w; st_closed := st_closed w |}).
  { intros ro. split; [exact Hid|]. unfold tail_id. cbn [st_tail st_next_id small_tail].
    destruct Hcase as [->|(_ & Hne & Hz & ->)]; [auto|]. split; [apply small_after; assumption|exact Htid]. }
  destruct r0; intros [= _ <- <-];
    try (destruct Hcase as [->|(Hr0 & _)]; [|discriminate]; apply wop_link_intro; [rewrite Et; exact E|apply HW]).
  eapply wop_link_disk_r; [|apply wop_link_intro; [exact E|apply HG']]. reflexivity.
Qed.

Theorem store_logs_wlink c w ls bd e r w' e' :
  cfg_ok c -> WL c w bd (e_disk e) -> st_next_id w + 1 < two64 ->
  logs_ok ls -> frames_size ls < two30 ->
  store_logs c w ls e = (r, w', e') -> wop_link c bd e w' e'.
Proof.
  intros Hc HW Hn Hls Hfs. rewrite store_logs_unfold.
  destruct (st_closed w); [now apply wop_link_ret|].
  destruct ls as [|l0 lr]; [now apply wop_link_ret|]. set (ls := l0 :: lr) in *.
  destruct (st_failed w); [now apply wop_link_ret|].
  cbn zeta. destruct (tail_info (st_segs w)) as [ti|]; [|now apply wop_link_ret].
  destruct (_ && _); [|apply store_go_wlink; assumption].
  destruct (reset_first c w (l_index l0) e) as [[[r1 w1] e1] dels] eqn:Er.
  pose proof (reset_first_wlink c w _ bd e r1 w1 e1 dels Hc HW Hn Er) as E1.
  destruct (result_ok_dec r1) as [->|N]; [|rewrite (match_not_ok r1 _ _ N); intros [= _ <- <-]; exact E1].
  destruct (store_go _ ls w1 e1) as [[r2 w2] e2] eqn:Eg. intros [= _ <- <-].
  eapply wop_link_trans; [exact E1|]. intros bd1 HW1.
  destruct (store_go_wlink c _ ls w1 bd1 e1 r2 w2 e2 HW1 Hls Hfs Eg) as (bd2 & E2 & (H2 & HG2)).
  apply wop_link_intro; [|exact HG2]. eapply wop_link0_trans; [exists bd2; split; eassumption|].
  intros bd3. apply delete_files_wlink.
Qed.

Lemma truncate_head_wlink c w nm bd e r w' e' :
  cfg_ok c -> WL c w bd (e_disk e) -> st_next_id w + 1 < two64 ->
  truncate_head c w nm e = (r, w', e') -> wop_link c bd e w' e'.
Proof.
  intros Hc HW Hn. unfold truncate_head.
  destruct (head_scan nm (tail_last (st_tail w)) (st_segs w) [] 0) as [[[rest del] ntr] head].
  destruct head as [h|]; cbn zeta; intros H.
  - eapply wop_link_disk_l; [|eapply (mutate_wlink c w); [| | |exact H]]; [reflexivity|exact HW|apply HW|apply keep_tail_tx, HW].
  - eapply (mutate_create_wlink c w bd e); [| | | | |apply H]; auto.
Qed.

Lemma truncate_tail_wlink c w nm bd e r w' e' :
  cfg_ok c -> WL c w bd (e_disk e) -> st_next_id w + 1 < two64 ->
  truncate_tail c w nm e = (r, w', e') -> wop_link c bd e w' e'.
Proof.
  intros Hc HW Hn. unfold truncate_tail.
  destruct (tail_scan nm (last_index (st_segs w) (st_tail w)) (rev (st_segs w)) [] 0) as [[rrest del] ntr].
  destruct rrest as [|t rr]; [apply (mutate_create_wlink c w bd e); auto|].
  destruct (si_sealed t).
  - cbv zeta. intros Hm. eapply (mutate_create_wlink c _ bd e); [| | | | |apply Hm]; auto.
  - destruct (st_tail w) as [tw|] eqn:Et; [|now apply wop_link_ret].
    destruct (seg_force_seal tw e) as [[r0 tw'] e1] eqn:Ea.
    pose proof HW as (H & (Hid & Hs & Htid)). unfold tail_id in Htid. rewrite Et in H, Hs, Htid.
    destruct (seg_force_seal_wlink c tw bd e r0 tw' e1 H) with (2 := Ea) as (E & Hn' & Hcase).
    { intros Hz. destruct (Hs Hz) as (S1 & S2 & S3). apply l2_force_seal_guard; assumption. }
    set (w1 := {| st_next_id := st_next_id w; st_segs := st_segs w; st_tail := Some tw';
                  st_rotate := st_rotate w; st_failed := st_failed w; st_closed := st_closed w |}).
    assert (E1 : wop_link c bd e w1 e1).
    { apply wop_link_intro; [exact E|]. split; [exact Hid|]. unfold tail_id. cbn [w1 st_tail st_next_id small_tail].
      rewrite Hn'. split; [|exact Htid]. destruct Hcase as [->|Hpos]; [exact Hs|]. intros Hz. lia. }
    destruct (result_ok_dec r0) as [->|N]; [|rewrite (match_not_ok r0 _ _ N); intros [= _ <- <-]; exact E1].
    cbv zeta. intros Hm. eapply wop_link_trans; [exact E1|]. intros bd1 HW1.
    eapply (mutate_create_wlink c w1 bd1 e1); [| | | | |apply Hm]; auto.
Qed.

Theorem delete_range_wlink c w mn mx bd e r w' e' :
  cfg_ok c -> WL c w bd (e_disk e) -> st_next_id w + 1 < two64 ->
  delete_range c w mn mx e = (r, w', e') -> wop_link c bd e w' e'.
Proof.
  intros Hc HW Hn. unfold delete_range.
  destruct (st_closed w); [now apply wop_link_ret|].
  destruct (mx <? mn); [now apply wop_link_ret|].
  destruct (st_failed w); [now apply wop_link_ret|].
  cbn zeta. destruct (_ || _); [now apply wop_link_ret|].
  destruct (mn <=? _); [apply truncate_head_wlink; assumption|].
  destruct (_ <=? mx); [apply truncate_tail_wlink; assumption|now apply wop_link_ret].
Qed.

(* RecoverTail on a file without a pending batch: the L2 writer is linked *)
Lemma seg_recover_wlink c si bd e f :
  wdrep c bd (e_disk e) -> si_codec si = c_codec c ->
  lookup (name_of si) (dk_files (e_disk e)) = Some f -> df_pend f = None ->
  exists bs, wtail_link c (recw si f) si bs bd (e_disk e).
Proof.
  intros H0 Hc El Hp.
  destruct (rel_lookup wfrep _ _ _ _ _ H0 El) as (bf & Hb & Hh & bs & pb & R).
  assert (He : hdr_eq (finfo c (name_of si)) si).
  { unfold hdr_eq, finfo, name_of. cbn. auto. }
  assert (Hpb : pb = None).
  { destruct pb as [b|]; [|reflexivity]. destruct (wr_rep _ _ _ _ _ R) as (_ & p & Hp' & _). congruence. }
  subst pb. pose proof (wfrep_at_hdr_eq _ _ _ _ _ _ He R) as R'.
  exists bs. constructor.
  - reflexivity.
  - cbn [recw ws_name]. apply hdr_eq_sym. exact He.
  - apply rep_w_recw, rep_cur_rep. apply (wr_rep _ _ _ _ _ R').
  - cbn [recw ws_name]. intros f' Hf'. rewrite El in Hf'. inversion Hf'; subst f'. exists bf, None. auto.
Qed.

Lemma open_segs_wlink c segs acc bd e r segs' tail e1 :
  cfg_ok c -> WL0 c None bd (e_disk e) -> no_pend (e_disk e) -> Forall name_small segs ->
  open_segs c segs acc e = (r, segs', tail, e1) -> wop_link0 c bd e tail e1.
Proof.
  intros Hc H Hnp Hsm Ho.
  destruct (open_segs_cases _ _ _ _ _ _ _ _ Ho) as (_ & [(-> & ->)|(si & Hin & _ & Ecod & [(f & El & -> & ->)|(El & sw & Es & ->)])]).
  - apply wop_link0_refl, H.
  - destruct (seg_recover_wlink c si bd e f (proj1 H) Ecod El (Hnp _ _ El)) as (bs & T).
    eapply wop_link0_tail; [apply werun_refl, H|apply H|exact T].
  - rewrite Forall_forall in Hsm. destruct (Hsm si Hin) as (Hb & Hi).
    assert (Hh : hdr_wf (finfo c (name_of si))).
    { destruct Hc as (_ & Hcod & _). unfold hdr_wf, finfo, name_of, new_segment. cbn. auto. }
    pose proof (seg_create_wlink c si bd e sw e1 None H Ecod Hh I Es) as E2. destruct sw; exact E2.
Qed.

(* the tail writer of what Open returns *)
Definition res_tail (res : open_res) : option wseg := match res with OOk w => st_tail w | OErr _ => None end.

Lemma open_newtail_wlink c nid0 segs garbage bd e res e' :
  cfg_ok c -> WL0 c None bd (e_disk e) -> nid0 < two64 ->
  open_newtail c nid0 segs garbage e = (res, e') -> wop_link0 c bd e (res_tail res) e'.
Proof.
  intros Hc H Hid. unfold open_newtail. cbn zeta.
  set (base := match tail_info segs with Some t => (si_max t + 1) mod two64 | None => 1 end).
  set (si := new_segment c nid0 base).
  destruct (io _ e) as [ok1 e1] eqn:Eio.
  assert (E1 : wop_link0 c bd e None e1) by apply (wop_link0_meta c bd e _ ok1 e1 None Eio I H).
  destruct ok1; cbn [negb]; [|intros [= <- <-]; exact E1].
  assert (Hbase : base < two64).
  { unfold base. destruct (tail_info segs); [apply N.mod_lt; unfold two64; lia|unfold two64; lia]. }
  assert (Hh : hdr_wf (finfo c (name_of si))).
  { destruct Hc as (_ & Hcod & _). unfold hdr_wf, finfo, name_of, si, new_segment. cbn. auto. }
  destruct (seg_create si e1) as [sw e2] eqn:Es.
  assert (E2 : wop_link0 c bd e (match sw with Some _ => sw | None => None end) e2).
  { eapply wop_link0_trans; [exact E1|]. intros bd1 H1. apply (seg_create_wlink c si bd1 e1 sw e2 None H1 eq_refl Hh I Es). }
  destruct sw as [sw|]; intros [= <- <-]; [|exact E2].
  eapply wop_link0_trans; [exact E2|]. intros bd2. apply delete_files_wlink.
Qed.

Theorem open_wal_wlink c bd e res e' :
  cfg_ok c -> wdrep c bd (e_disk e) -> NoDup (map fst (dk_files (e_disk e))) ->
  no_pend (e_disk e) -> meta_small (e_disk e) ->
  open_wal c e = (res, e') ->
  exists bd', werun c bd e bd' e' /\ NoDup (map fst (dk_files (e_disk e'))) /\
              match res with OOk w => wtail_linked c (st_tail w) bd' (e_disk e') | OErr _ => True end.
Proof.
  intros Hc H0 Hnd Hnp Hms Ho.
  cut (wop_link0 c bd e (res_tail res) e').
  { intros (bd' & E & (_ & B & C)). exists bd'. split; [exact E|]. split; [exact B|]. destruct res; [exact C|exact I]. }
  assert (H : WL0 c None bd (e_disk e)) by (repeat split; assumption).
  revert Ho. rewrite open_wal_unfold.
  destruct (_ && _); [intros [= <- <-]; apply wop_link0_refl, H|].
  (* from e0, which has the files and the metadata of e, on *)
  assert (Hrest : forall e0, wop_link0 c bd e None e0 ->
            dk_files (e_disk e0) = dk_files (e_disk e) -> dk_meta (e_disk e0) = dk_meta (e_disk e) ->
            (if armed e0 && fx_list (e_fx e0) then (OErr RErrIO, list_failed e0) else open_rest c e0) = (res, e') ->
            wop_link0 c bd e (res_tail res) e').
  { intros e0 E0 Ef0 Em0. destruct (_ && _).
    { intros [= <- <-]. destruct E0 as (bd0 & E0 & H1). exists bd0. split; [eapply werun_disk; [|exact E0]; reflexivity|exact H1]. }
    unfold open_rest. cbn zeta.
    set (ps := match dk_meta (e_disk e0) with Some ps => ps | None => {| ps_next_id := 0; ps_segs := [] |} end).
    assert (Hps : ps_next_id ps < two64 /\ Forall name_small (ps_segs ps)).
    { unfold ps, meta_small in *. rewrite Em0. destruct (dk_meta (e_disk e)); [exact Hms|]. cbn. split; [unfold two64; lia|constructor]. }
    destruct Hps as [Hpid Hpsm].
    destruct (open_segs c (ps_segs ps) [] e0) as [[[r segs] tail] e1] eqn:Eo.
    assert (E1 : wop_link0 c bd e tail e1).
    { eapply wop_link0_trans; [exact E0|]. intros bd0 H1. eapply open_segs_wlink; eauto. intros n f; rewrite Ef0; apply Hnp. }
    destruct (result_ok_dec r) as [->|N];
      [|rewrite (match_not_ok r _ _ N); intros [= <- <-]; destruct E1 as (bd1 & E1 & (A & B & _)); exists bd1; repeat split; assumption].
    destruct tail as [tw|].
    - intros [= <- <-]. eapply wop_link0_trans; [exact E1|]. intros bd1. apply delete_files_wlink.
    - intros Hr. eapply wop_link0_trans; [exact E1|]. intros bd1 H1. eapply open_newtail_wlink; eauto. }
  destruct (dk_inited (e_disk e)).
  - cbn [negb]. apply Hrest; [apply wop_link0_refl, H|reflexivity|reflexivity].
  - destruct (io AInitMeta e) as [ok0 e0] eqn:Eio.
    assert (E0 : wop_link0 c bd e None e0) by apply (wop_link0_meta c bd e _ ok0 e0 None Eio I H).
    destruct ok0; cbn [negb]; [|intros [= <- <-]; exact E0].
    apply Hrest; [exact E0|apply (io_meta_files _ _ _ _ Eio I)|].
    destruct (io_cases _ _ _ _ Eio eq_refl) as [(_ & ->)|(_ & ->)]; reflexivity.
Qed.
