(* ComposeFacts6.v -- the composition: every call of the model (step_model) in
   lock step, and histories with crashes (Wal/Hist.v).
     step_link         one API call from a linked state: its new L2 actions are a
                       lock-step run, the result is linked
     hist_step_link    the invariant HL is kept by every step of a history; for
                       the crash steps the byte-level outcome is the one that
                       realises the history's crash choice (bcrash_tight)
     hist_link         every history accepted by crash_refinement has a
                       byte-level run: at the end (hence at every prefix) the
                       byte disk is drep-related to L2's disk
     crash_in_call_covered / crash_in_open_covered
                       the other direction at every crash point: WHATEVER the
                       byte-level adversary leaves after j actions of a call
                       (of Open), there is an L2 crash choice cc for which the
                       history continues linked, after RecoverTail *)
From RW Require Import Base.Bytes Fmt.Frame Wal.Model Wal.Spec Wal.Hist Wal.CrashInv Wal.CrashFacts0
     Wal.CrashFacts4 Wal.CrashGlue Wal.CrashCalls10 Link.Disk Link.DiskFacts2 Link.Compose
     Link.ComposeFacts1 Link.ComposeFacts3 Link.ComposeFacts5 Wal.ModelFacts.
From RW Require Import Base.LiaSetup.
Open Scope N_scope.

(* the guards, from the invariants of crash_refinement *)
Lemma LInv_small c nb w d : cfg_ok c -> LInv c nb w d -> small_tail (st_tail w).
Proof.
  intros (_ & _ & _ & Hsz) (_ & _ & HD & _ & Hm & t & f & tw & Ht & Hl & Htw & Hok & _).
  rewrite Htw. cbn [small_tail]. intros Hz.
  destruct Hok as (_ & _ & _ & Hlim & Hn & Hoff & Hist & _).
  destruct HD as (_ & HD). rewrite Hm in HD. destruct HD as (_ & _ & S & t' & Hsegs & Hwf & _ & _ & Htok).
  cbn [persistent ps_segs] in Hsegs. rewrite Hsegs, tail_info_app in Ht. inversion Ht; subst t'.
  apply Forall_app in Hwf as [_ Hwf]. inversion Hwf as [|? ? (_ & Hl2 & _) _]; subst.
  destruct Htok as (_ & Htok). rewrite Hl in Htok. destruct Htok as ((F1 & F2 & F3 & _) & _).
  rewrite Hlim, Hl2, Hn, Hoff. rewrite Hist in Hz. specialize (F3 Hz). unfold two30 in *. lia.
Qed.

Lemma DIs_meta_small c nb d : DIs c nb d -> nb < two64 -> meta_small d.
Proof.
  intros (_ & HD) Hnb. unfold meta_small. destruct (dk_meta d) as [ps|]; [|exact I].
  destruct HD as (Hle & _ & S & t & Hsegs & Hwf & _). split; [lia|].
  rewrite Hsegs. eapply Forall_impl; [|exact Hwf]. intros s (_ & _ & _ & Hb & _ & Hi). split; [exact Hb|lia].
Qed.

Lemma settle_link c s bd :
  cfg_ok c -> wlink c (ss_wal s) bd (e_disk (ss_env s)) -> e_fault (ss_env s) = None ->
  small_tail (st_tail (ss_wal s)) ->
  op_link c bd (ss_env s) (ss_wal (settle c s)) (ss_env (settle c s)) /\
  small_tail (st_tail (ss_wal (settle c s))).
Proof.
  intros Hc HW Hf Hs. unfold settle. destruct (st_rotate (ss_wal s)) eqn:Er.
  - destruct (rotate c (ss_wal s) (ss_env s)) as [w' e'] eqn:Ero. cbn [ss_wal ss_env].
    destruct (rotate_link c _ bd _ w' e' Hc HW Hf Ero) as (HL & [Ht|(si & Hsm & Ht)]).
    + split; [exact HL|]. rewrite Ht. exact Hs.
    + split; [exact HL|]. rewrite Ht. exact Hsm.
  - split; [apply op_link_same; assumption|exact Hs].
Qed.

Lemma get_log_env w i e r e' : get_log w i e = (r, e') -> exists m, e' = with_m e m.
Proof.
  unfold get_log. destruct (st_closed w); [intros [= _ <-]; exists (e_m e); destruct e; reflexivity|].
  cbn zeta. unfold inc_read, add_m.
  repeat match goal with |- context [match ?x with _ => _ end] => destruct x end;
    intros [= _ <-]; eexists; reflexivity.
Qed.

(* what a call does: settle, then StoreLogs or DeleteRange; a change of the
   counters only; SetStable's one action; Close and Open *)
Inductive step_case (c : cfg) (s : sstate) : sop -> result -> sstate -> Prop :=
| sc_store ls r w' e' :
    store_logs c (ss_wal (settle c s)) ls (ss_env (settle c s)) = (r, w', e') ->
    step_case c s (OStore ls) r {| ss_wal := w'; ss_env := e' |}
| sc_delete mn mx r w' e' :
    delete_range c (ss_wal (settle c s)) mn mx (ss_env (settle c s)) = (r, w', e') ->
    step_case c s (ODelete mn mx) r {| ss_wal := w'; ss_env := e' |}
| sc_same o r : step_case c s o r s
| sc_counters o r m : step_case c s o r {| ss_wal := ss_wal s; ss_env := with_m (ss_env s) m |}
| sc_set k v n r m :
    step_case c s (OSet k v n) r
      {| ss_wal := ss_wal s; ss_env := snd (io (ASetStable k v) (with_m (ss_env s) m)) |}
| sc_open res e' :
    open_wal c (ss_env s) = (res, e') ->
    step_case c s OReopen (match res with OOk _ => ROk | OErr x => x end)
      {| ss_wal := match res with OOk w' => w' | OErr _ => close (ss_wal s) end; ss_env := e' |}.

Lemma step_cases c s o r s' : step_model c s o = (r, s') -> step_case c s o r s'.
Proof.
  destruct s as [w e]. destruct o; cbn [step_model ss_wal ss_env]; intros H.
  - destruct (store_logs _ _ _ _) as [[r0 w'] e'] eqn:E. inversion H; subst. apply sc_store. exact E.
  - destruct (delete_range _ _ _ _ _) as [[r0 w'] e'] eqn:E. inversion H; subst. apply sc_delete. exact E.
  - destruct (get_log _ _ _) as [r0 e'] eqn:E. inversion H; subst.
    destruct (get_log_env _ _ _ _ _ E) as [m' ->]. exact (sc_counters c {| ss_wal := w; ss_env := e |} _ _ m').
  - inversion H; subst. apply sc_same.
  - inversion H; subst. apply sc_same.
  - unfold set_stable, inc_stable, add_m in H.
    destruct (st_closed w); [inversion H; subst; apply sc_same|]. cbn zeta in H.
    destruct (negb (key_ok k)); [inversion H; subst; exact (sc_counters c {| ss_wal := w; ss_env := e |} _ _ _)|].
    destruct (io (ASetStable k v) _) as [ok e1] eqn:E. apply (f_equal snd) in E. cbn [snd] in E. subst e1.
    destruct ok; inversion H; subst; exact (sc_set c {| ss_wal := w; ss_env := e |} _ _ _ _ _).
  - unfold get_stable, inc_stable, add_m in H.
    destruct (st_closed w); inversion H; subst; [apply sc_same|exact (sc_counters c {| ss_wal := w; ss_env := e |} _ _ _)].
  - destruct (open_wal c e) as [res e'] eqn:E. pose proof (sc_open c {| ss_wal := w; ss_env := e |} res e' E) as X.
    destruct res; inversion H; subst; exact X.
Qed.

Theorem step_link c nb s o bd r s' :
  cfg_ok c -> sop_ok o ->
  wlink c (ss_wal s) bd (e_disk (ss_env s)) -> e_fault (ss_env s) = None ->
  LInv c nb (ss_wal s) (e_disk (ss_env s)) -> nb < two64 ->
  step_model c s o = (r, s') -> (o = OReopen -> r = ROk) ->
  op_link c bd (ss_env s) (ss_wal s') (ss_env s').
Proof.
  intros Hc Ho HW Hf HL Hnb H Hre. pose proof (LInv_small _ _ _ _ Hc HL) as Hs.
  destruct (step_cases _ _ _ _ _ H) as [ls r w' e' E|mn mx r w' e' E|o r|o r m|k v n r m|res e' Eo]; cbn [ss_wal ss_env].
  - destruct (settle_link c s bd Hc HW Hf Hs) as (HL1 & Hs1).
    eapply op_link_trans; [exact HL1|]. intros bd1 W1 Hf1. destruct Ho as (Hls & Hfs).
    eapply store_logs_link; eauto.
  - destruct (settle_link c s bd Hc HW Hf Hs) as (HL1 & Hs1).
    eapply op_link_trans; [exact HL1|]. intros bd1 W1 Hf1. eapply delete_range_link; eauto.
  - apply op_link_same; assumption.
  - apply op_link_with_m_r. apply op_link_same; assumption.
  - rewrite io_nofault by exact Hf. cbn [snd].
    eapply op_link_with_m_l, op_link_intro; [|apply HW]. apply op_link0_meta; [exact I|].
    apply (L0_files _ _ _ (ss_env s)); [reflexivity|exact Hf|apply wlink_L0; assumption].
  - (* Close; Open *)
    destruct HL as (_ & _ & HD & Hnp & _).
    destruct HW as (H0 & Hnd & _).
    destruct (open_wal_link c bd (ss_env s) res e' Hc H0 Hnd Hf Hnp (DIs_meta_small _ _ _ HD Hnb) Eo) as (bd' & E & Hres).
    destruct res as [w'|x]; [exists bd'; auto|]. assert (Hx := Hre eq_refl). subst x.
      (* Open returned ROk as an error value: impossible *)
      exfalso. clear - Eo. rewrite open_wal_unfold in Eo.
      destruct (_ && _); [discriminate|].
      destruct (if dk_inited (e_disk (ss_env s)) then (true, ss_env s) else io AInitMeta (ss_env s)) as [ok0 e0].
      destruct (negb ok0); [discriminate|].
      destruct (armed e0 && fx_list (e_fx e0)); [discriminate|]. unfold open_rest in Eo.
      destruct (open_segs _ _ _ _) as [[[r segs] tail] e1] eqn:Es. destruct r; try discriminate.
      destruct tail; [discriminate|]. unfold open_newtail in Eo. cbn zeta in Eo.
      destruct (io _ e1) as [ok1 e2]. destruct (negb ok1); [discriminate|].
      destruct (seg_create _ e2) as [[sw|] e3]; discriminate.
Qed.

(* crash points of a lock-step run *)
Lemma NoDup_fold acts : forall d, NoDup (map fst (dk_files d)) -> NoDup (map fst (dk_files (fold_left apply_act acts d))).
Proof. induction acts as [|a r IH]; intros d H; [exact H|]. cbn [fold_left]. apply IH, NoDup_apply. exact H. Qed.

Lemma crash_disk_NoDup cc d : NoDup (map fst (dk_files d)) -> NoDup (map fst (dk_files (crash_disk cc d))).
Proof. intros H. cbn [crash_disk dk_files]. apply crash_NoDup. exact H. Qed.

(* after any number j of the actions: the byte disk reached is related; every
   L2 crash choice is realised by a byte-level outcome; every byte-level
   outcome is covered by an L2 crash choice *)
Lemma crash_point c bd d acts bd' d' j :
  lrun c bd d acts bd' d' -> NoDup (map fst (dk_files d)) ->
  let dj := fold_left apply_act (firstn j acts) d in
  exists bdj, lrun c bd d (firstn j acts) bdj dj /\
    (forall cc, exists out, bcrash bdj out /\ drep c (bscrub c out) (crash_disk cc dj)) /\
    (forall out, bcrash bdj out -> exists cc, drep c (bscrub c out) (crash_disk cc dj)) /\
    (forall cc, NoDup (map fst (dk_files (crash_disk cc dj)))).
Proof.
  intros L Hnd dj. destruct (lrun_prefix c bd d acts bd' d' j L) as [bdj Lj]. exists bdj.
  pose proof (lrun_end _ _ _ _ _ _ Lj) as Hj. fold dj in Lj, Hj.
  assert (Hndj : NoDup (map fst (dk_files dj))) by (apply NoDup_fold; exact Hnd).
  split; [exact Lj|]. split; [intros cc; apply bcrash_tight; exact Hj|].
  split; [intros out Ho; eapply bcrash_sound; eauto|]. intros cc. apply crash_disk_NoDup. exact Hndj.
Qed.

Lemma new_acts_erun c bd e bd' e' :
  erun c bd e bd' e' -> lrun c bd (e_disk e) (new_acts e e') bd' (e_disk e').
Proof.
  intros (_ & acts & Ha & L). rewrite (new_acts_rev _ _ _ Ha). exact L.
Qed.

Lemma reopen_ok a r : result_eqb (res_class r) (fst (step_spec a OReopen)) = true -> r = ROk.
Proof. cbn [step_spec fst]. destruct r; cbn; congruence. Qed.

(* a call from a linked Up state of a history *)
Lemma call_link c nb h s o bd :
  cfg_ok c -> sop_ok o -> nb + 2 < two64 -> GI c nb h -> hs_mode h = Up s -> HL c h bd ->
  exists r s', step_model c s o = (r, s') /\
               op_link c bd (ss_env s) (ss_wal s') (ss_env s') /\
               NoDup (map fst (dk_files (e_disk (ss_env s)))).
Proof.
  intros Hc Ho Hnb (Hok & Hga & Hgm & HM) Emode HLk. unfold HL in HLk. rewrite Emode in HM, HLk.
  destruct HM as (_ & HLi & Hf & Hsp & _).
  destruct (call_ok_all c o nb s (hs_acked h) Hc Ho Hnb HLi Hf Hsp Hga) as (r & s' & Hst & Hres & _).
  exists r, s'. split; [exact Hst|]. split; [|apply HLk].
  eapply step_link; eauto; [lia|]. intros ->. eapply reopen_ok; eauto.
Qed.

Lemma open_link c nb h d bd :
  cfg_ok c -> nb + 2 < two64 -> GI c nb h -> hs_mode h = Down d -> HL c h bd ->
  exists w e, open_wal c (env_of d) = (OOk w, e) /\ op_link c bd (env_of d) w e.
Proof.
  intros Hc Hnb (Hok & Hga & Hgm & HM) Emode HLk. unfold HL in HLk. rewrite Emode in HM, HLk.
  destruct HM as (HD & HN & _). destruct HLk as (H0 & Hnd).
  destruct (open_wal_ok c nb (env_of d) Hc eq_refl HD HN) as (w & e' & Ho & _); [lia|].
  exists w, e'. split; [exact Ho|].
  destruct (open_wal_link c bd (env_of d) (OOk w) e' Hc H0 Hnd eq_refl HN) with (2 := Ho) as (bd' & E & HW).
  - eapply DIs_meta_small; eauto. lia.
  - exists bd'. auto.
Qed.

(* HL and the like look at the mode only: the mode after a step, by mode and kind of step *)
Definition hstep_mode (c : cfg) (m : hmode) (st : hstep) : hmode :=
  match m, st with
  | Up s, HOp o => Up (snd (step_model c s o))
  | Up s, HCrashIn o j cc =>
      let acts := new_acts (ss_env s) (ss_env (snd (step_model c s o))) in
      Down (crash_disk cc (fold_left apply_act (firstn j acts) (e_disk (ss_env s))))
  | Down d, HOpen =>
      match open_wal c (env_of d) with
      | (OOk w, e) => Up {| ss_wal := w; ss_env := e |}
      | (OErr _, e) => Down (e_disk e)
      end
  | Down d, HCrashInOpen j cc =>
      let acts := rev_append (e_acts (snd (open_wal c (env_of d)))) [] in
      Down (crash_disk cc (fold_left apply_act (firstn j acts) d))
  | _, _ => m
  end.

Lemma hs_mode_hstep_run c h st : hs_mode (hstep_run c h st) = hstep_mode c (hs_mode h) st.
Proof.
  unfold hstep_run, hstep_mode. destruct (hs_mode h) as [s|d] eqn:Em, st as [o|o j cc| |j cc]; try exact Em.
  - destruct (step_model c s o) as [r s'], (step_spec (hs_acked h) o) as [r' sp']. reflexivity.
  - destruct (step_model c s o) as [r s'], (step_spec (hs_acked h) o) as [r' sp']. cbn [snd].
    destruct (Nat.leb _ j); reflexivity.
  - destruct (open_wal c (env_of d)) as [[w|x] e]; reflexivity.
  - destruct (open_wal c (env_of d)) as [res e]. reflexivity.
Qed.

Theorem hist_step_link c nb h st bd :
  cfg_ok c -> hstep_wf st -> nb + 2 < two64 -> GI c nb h -> HL c h bd ->
  exists bd', HL c (hstep_run c h st) bd'.
Proof.
  intros Hc Hwf Hnb HG HLk. unfold HL at 1. rewrite hs_mode_hstep_run.
  destruct (hs_mode h) as [s|d] eqn:Emode; destruct st as [o|o j cc| |j cc]; cbn [hstep_mode];
    try (exists bd; unfold HL in HLk; rewrite Emode in HLk; exact HLk).
  - destruct (call_link c nb h s o bd Hc Hwf Hnb HG Emode HLk) as (r & s' & Hst & (bd' & E & HW) & _).
    rewrite Hst. exists bd'. exact HW.
  - destruct (call_link c nb h s o bd Hc Hwf Hnb HG Emode HLk) as (r & s' & Hst & (bd' & E & HW) & Hnd).
    rewrite Hst. cbn [snd].
    destruct (crash_point c bd _ _ bd' _ j (new_acts_erun _ _ _ _ _ E) Hnd) as (bdj & _ & Ht & _ & Hndc).
    destruct (Ht cc) as (out & _ & Hd). exists (bscrub c out). split; auto.
  - destruct (open_link c nb h d bd Hc Hnb HG Emode HLk) as (w & e & Ho & (bd' & E & HW)).
    rewrite Ho. exists bd'. exact HW.
  - destruct (open_link c nb h d bd Hc Hnb HG Emode HLk) as (w & e & Ho & (bd' & E & HW)).
    rewrite Ho. cbn [snd]. unfold HL in HLk. rewrite Emode in HLk. destruct HLk as (_ & Hnd).
    pose proof (new_acts_erun _ _ _ _ _ E) as L. unfold new_acts in L. cbn [env_of e_acts length] in L.
    rewrite Nat.sub_0_r, firstn_all in L. cbn [env_of e_disk] in L.
    destruct (crash_point c bd d _ bd' _ j L Hnd) as (bdj & _ & Ht & _ & Hndc).
    destruct (Ht cc) as (out & _ & Hd). exists (bscrub c out). split; auto.
Qed.

Lemma HL_init c : HL c hist_init [].
Proof. unfold HL, hist_init. cbn. split; constructor. Qed.

Lemma hist_link_gen c steps : forall nb h,
  cfg_ok c -> nb + 2 * N.of_nat (length steps) < two64 -> Forall hstep_wf steps ->
  GI c nb h -> (exists bd, HL c h bd) -> exists bd, HL c (hist_run c h steps) bd.
Proof.
  unfold hist_run. induction steps as [|st steps IH]; intros nb h Hc Hnb Hwf HG HLk; [exact HLk|].
  inversion Hwf as [|? ? Hw1 Hw2]; subst. cbn [fold_left length] in *. destruct HLk as [bd HLk].
  apply (IH (nb + 2)); auto; [lia| |].
  - apply (GI_step c nb h st Hc (call_ok_all c)); [lia|exact Hw1|exact HG].
  - eapply hist_step_link; eauto. lia.
Qed.

(* Every history has a byte-level run *)
Theorem hist_link c steps :
  cfg_ok c -> Forall hstep_wf steps -> short_enough steps ->
  exists bd, HL c (hist_run c hist_init steps) bd.
Proof.
  intros Hc Hwf Hshort. apply (hist_link_gen c steps 0 hist_init); auto.
  - unfold short_enough in Hshort. unfold two64. lia.
  - apply GI_init.
  - exists []. apply HL_init.
Qed.

(* the invariant GI of crash_refinement, at the end of any accepted history *)
Lemma hist_GI c steps :
  cfg_ok c -> Forall hstep_wf steps -> short_enough steps ->
  GI c (2 * N.of_nat (length steps)) (hist_run c hist_init steps).
Proof.
  intros Hc Hwf Hshort. exact (GI_hist c steps Hc (call_ok_all c) Hwf Hshort).
Qed.

(* Every byte-level crash outcome is covered.  After any accepted history that
   leaves the WAL running, linked to the byte disk bd: for a call o and any j,
   the byte disk bdj reached after the first j actions of the call is related
   to L2's; whatever the byte-level adversary makes of bdj, there is a crash
   choice cc such that the history continued with "power loss after j actions
   of o, choice cc" is linked to the outcome after RecoverTail -- and that
   continued history is again accepted by crash_refinement. *)
Theorem crash_in_call_covered c nb h s o j bd :
  cfg_ok c -> sop_ok o -> nb + 2 < two64 -> GI c nb h -> hs_mode h = Up s -> HL c h bd ->
  let s' := snd (step_model c s o) in
  let acts := new_acts (ss_env s) (ss_env s') in
  let dj := fold_left apply_act (firstn j acts) (e_disk (ss_env s)) in
  exists bdj, lrun c bd (e_disk (ss_env s)) (firstn j acts) bdj dj /\
    forall out, bcrash bdj out ->
      exists cc, HL c (hstep_run c h (HCrashIn o j cc)) (bscrub c out) /\
                 hs_mode (hstep_run c h (HCrashIn o j cc)) = Down (crash_disk cc dj) /\
                 GI c (nb + 2) (hstep_run c h (HCrashIn o j cc)).
Proof.
  intros Hc Ho Hnb HG Emode HLk s' acts dj.
  assert (HGI : forall cc, GI c (nb + 2) (hstep_run c h (HCrashIn o j cc))).
  { intros cc. exact (GI_step c nb h (HCrashIn o j cc) Hc (call_ok_all c) Hnb Ho HG). }
  destruct (call_link c nb h s o bd Hc Ho Hnb HG Emode HLk) as (r & s1 & Hst & (bd' & E & HW) & Hnd).
  destruct (crash_point c bd _ _ bd' _ j (new_acts_erun _ _ _ _ _ E) Hnd) as (bdj & Lj & _ & Hs & Hndc).
  exists bdj. unfold dj, acts, s'. rewrite Hst. cbn [snd]. split; [exact Lj|]. intros out Hout.
  destruct (Hs out Hout) as (cc & Hd). exists cc. unfold HL.
  rewrite hs_mode_hstep_run, Emode. cbn [hstep_mode]. rewrite Hst. auto.
Qed.

Theorem crash_in_open_covered c nb h d j bd :
  cfg_ok c -> nb + 2 < two64 -> GI c nb h -> hs_mode h = Down d -> HL c h bd ->
  let acts := rev_append (e_acts (snd (open_wal c (env_of d)))) [] in
  let dj := fold_left apply_act (firstn j acts) d in
  exists bdj, lrun c bd d (firstn j acts) bdj dj /\
    forall out, bcrash bdj out ->
      exists cc, HL c (hstep_run c h (HCrashInOpen j cc)) (bscrub c out) /\
                 hs_mode (hstep_run c h (HCrashInOpen j cc)) = Down (crash_disk cc dj) /\
                 GI c (nb + 2) (hstep_run c h (HCrashInOpen j cc)).
Proof.
  intros Hc Hnb HG Emode HLk acts dj.
  assert (HGI : forall cc, GI c (nb + 2) (hstep_run c h (HCrashInOpen j cc))).
  { intros cc. exact (GI_step c nb h (HCrashInOpen j cc) Hc (call_ok_all c) Hnb I HG). }
  destruct (open_link c nb h d bd Hc Hnb HG Emode HLk) as (w & e & Ho & (bd' & E & HW)).
  pose proof HLk as HLk'. unfold HL in HLk'. rewrite Emode in HLk'. destruct HLk' as (_ & Hnd).
  pose proof (new_acts_erun _ _ _ _ _ E) as L. unfold new_acts in L. cbn [env_of e_acts length] in L.
  rewrite Nat.sub_0_r, firstn_all in L. cbn [env_of e_disk] in L.
  assert (Ea : acts = rev_append (e_acts e) []) by (unfold acts; rewrite Ho; reflexivity).
  destruct (crash_point c bd d _ bd' _ j L Hnd) as (bdj & Lj & _ & Hs & Hndc).
  exists bdj. unfold dj. rewrite Ea. split; [exact Lj|]. intros out Hout.
  destruct (Hs out Hout) as (cc & Hd). exists cc. unfold HL.
  rewrite hs_mode_hstep_run, Emode. cbn [hstep_mode]. rewrite Ho. auto.
Qed.

(* which files can have a write in flight: on a disk satisfying the structural
   invariant of crash_refinement, a listed segment whose file has a pending
   batch is the unsealed tail -- the file Open hands to RecoverTail.  (Unlisted
   files are deleted by Open without being read.)  So of the files bscrub
   touches after a crash, the only one that is ever read is the recovered tail. *)
Lemma pending_only_tail c nb d ps n f s :
  DIs c nb d -> dk_meta d = Some ps -> lookup n (dk_files d) = Some f -> df_pend f <> None ->
  In s (ps_segs ps) -> name_of s = n -> si_sealed s = false /\ tail_info (ps_segs ps) = Some s.
Proof.
  intros (_ & HD) Hm Hl Hp Hin Hn. rewrite Hm in HD. destruct HD as (_ & _ & S & t & Hsegs & _ & _ & Hso & Htok).
  rewrite Hsegs in Hin |- *. rewrite tail_info_app. apply in_app_or in Hin as [Hin|[<-|[]]].
  - exfalso. rewrite Forall_forall in Hso. destruct (Hso s Hin) as (_ & _ & f' & Hl' & _ & Hp' & _).
    rewrite Hn, Hl in Hl'. inversion Hl'; subst f'. contradiction.
  - split; [apply Htok|reflexivity].
Qed.
