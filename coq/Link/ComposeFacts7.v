(* ComposeFacts7.v -- GetLog down to bytes, for a running WAL linked to a byte
   disk: whatever entry L2's get_log returns is the decoding of the bytes the
   byte-level reader (Seg/Reader.v: the tail reader with the in-memory offsets
   of the byte-level writer, or the sealed reader with the index block on the
   disk) returns from the byte-level file of the segment. *)
From RW Require Import Base.Bytes Fmt.Codec Fmt.Frame Seg.Reader Seg.SegAbs Wal.Model Wal.CrashInv
     Wal.CrashFacts0 Wal.CrashCalls2 Link.AbsFacts2 Link.AbsFacts3 Link.Disk Link.DiskFacts1 Link.Compose
     Wal.ModelFacts.
From RW Require Import Base.LiaSetup.
Open Scope N_scope.

(* what the metadata must say about a listed segment that is read through a
   sealed reader: MinIndex not below BaseIndex, and the recorded IndexStart is
   the index start of the file.  (L2's seg_read does not use IndexStart, so no
   WAL-level invariant speaks about the second part: it is a hypothesis here.) *)
Definition seg_meta_ok (w : wal) (d : disk) : Prop :=
  forall s, In s (st_segs w) ->
    si_base s <= si_min s /\
    forall f, lookup (name_of s) (dk_files d) = Some f ->
      (forall tw, st_tail w = Some tw -> ws_name tw <> name_of s) ->
      si_index_start s = cur_seal f /\ cur_seal f <> 0.

(* the byte-level read behind a GetLog *)
Definition bread (c : cfg) (w : wal) (bd : bdisk) (d : disk) (idx : N) (p : bytes) : Prop :=
  (exists tw info bs bf, st_tail w = Some tw /\ tail_link c tw info bs bd d /\
      blookup (ws_name tw) bd = Some bf /\
      tail_get (wst info (cstate info bs)) (bf_data bf) idx = Reader.ROk p) \/
  (exists s bf, In s (st_segs w) /\ blookup (name_of s) bd = Some bf /\
      sealed_get s (bf_data bf) idx = Reader.ROk p).

Lemma seg_read_lookup n base idx d l :
  seg_read n base idx d = Some l -> exists f, lookup n (dk_files d) = Some f /\ In l (cur_ents f).
Proof.
  unfold seg_read. destruct (lookup n (dk_files d)) as [f|]; [|discriminate]. intros H.
  exists f. split; [reflexivity|]. eapply nth_error_In; eauto.
Qed.

Lemma tail_read c tw info bs bd d idx l0 :
  tail_link c tw info bs bd d -> tail_lookup tw idx d = Some l0 ->
  exists bf p, blookup (ws_name tw) bd = Some bf /\
               tail_get (wst info (cstate info bs)) (bf_data bf) idx = Reader.ROk p /\
               decode_log p = Some (codec_view l0).
Proof.
  intros [Tn Th Tw Tf] Hl.
  assert (Hr : seg_read (ws_name tw) (ws_base tw) idx d = Some l0).
  { unfold tail_lookup in Hl. destruct (_ || _); [discriminate|exact Hl]. }
  destruct (seg_read_lookup _ _ _ _ _ Hr) as (f & Ef & Hin).
  destruct (Tf f Ef) as (bf & Hb & R). destruct (frep_at_data _ _ _ _ _ R) as [k Dk]. cbn [opt_batch] in Dk. rewrite app_nil_r in Dk.
  pose proof (fr_ok _ _ _ _ _ R) as Hok.
  assert (Hwf : wf_log l0). { rewrite Forall_forall in Hok. apply (Hok l0 Hin). }
  rewrite <- Tn in Ef.
  destruct (get_sim_tail info bs f d tw idx l0 (zeros k) (rep_cur_rep _ _ _ (fr_rep _ _ _ _ _ R))
              (logs_ok_encs_ok _ Hok) Ef Tw Hl Hwf) as (p & Hp & Hdec & _).
  exists bf, p. rewrite Dk. auto.
Qed.

Lemma sealed_read c bd d s idx l0 f :
  drep c bd d -> lookup (name_of s) (dk_files d) = Some f ->
  seg_read (name_of s) (si_base s) idx d = Some l0 ->
  si_index_start s = cur_seal f -> cur_seal f <> 0 ->
  si_base s <= idx -> si_min s <= idx -> (si_max s = 0 \/ idx <= si_max s) ->
  exists bf p, blookup (name_of s) bd = Some bf /\
               sealed_get s (bf_data bf) idx = Reader.ROk p /\ decode_log p = Some (codec_view l0).
Proof.
  intros H0 El Hr Hist Hnz Hb Hmin Hmax.
  destruct (frel_lookup _ _ _ _ _ H0 El) as (bf & Hbl & Hh & bs & pb & R).
  set (info := finfo c (name_of s)) in *.
  destruct (frep_at_data _ _ _ _ _ R) as [k Dk].
  assert (Hcr : cur_rep info (bs ++ opt_batch pb) f).
  { destruct pb as [b|]; cbn [opt_batch].
    - apply rep_p_cur_rep. apply (fr_rep _ _ _ _ _ R).
    - rewrite app_nil_r. apply rep_cur_rep. apply (fr_rep _ _ _ _ _ R). }
  pose proof (fr_ok _ _ _ _ _ R) as Hok.
  destruct (seg_read_lookup _ _ _ _ _ Hr) as (f' & Ef' & Hin). rewrite El in Ef'. inversion Ef'; subst f'.
  assert (Hwf : wf_log l0). { rewrite Forall_forall in Hok. apply (Hok l0 Hin). }
  assert (En : name_of info = name_of s) by apply finfo_name.
  assert (Eb : si_base info = si_base s) by reflexivity.
  assert (El' : lookup (name_of info) (dk_files d) = Some f) by (rewrite En; exact El).
  assert (Hb' : si_base info <= idx) by (rewrite Eb; exact Hb).
  assert (Hr' : seg_read (name_of info) (si_base info) idx d = Some l0) by (rewrite En, Eb; exact Hr).
  destruct (get_sim_sealed info s (bs ++ opt_batch pb) f d idx l0 (zeros k) Hcr (logs_ok_encs_ok _ Hok)
              (fr_len _ _ _ _ _ R) El' Hnz (eq_sym Eb) Hist Hb' Hmin Hmax Hr' Hwf) as (p & Hp & Hdec & _).
  exists bf, p. rewrite Dk. auto.
Qed.

(* GetLog down to bytes *)
Theorem get_log_link c w bd e idx l e' :
  wlink c w bd (e_disk e) -> seg_meta_ok w (e_disk e) ->
  get_log w idx e = (RLog l, e') ->
  exists p, bread c w bd (e_disk e) idx p /\ decode_log p = Some l.
Proof.
  intros (H0 & Hnd & Hid & Ht) Hmeta H. unfold get_log in H.
  destruct (st_closed w); [discriminate|]. cbn zeta in H.
  assert (Htail : forall tw l0, st_tail w = Some tw -> tail_lookup tw idx (e_disk e) = Some l0 ->
            exists p, bread c w bd (e_disk e) idx p /\ decode_log p = Some (codec_view l0)).
  { intros tw l0 Et Hl. rewrite Et in Ht. destruct Ht as (info & bs & T).
    destruct (tail_read c tw info bs bd _ idx l0 T Hl) as (bf & p & Hb & Hp & Hd).
    exists p. split; [|exact Hd]. left. exists tw, info, bs, bf. auto. }
  match type of H with context [match ?ft with Some _ => _ | None => _ end] =>
    destruct ft as [l0|] eqn:Eft end.
  - inversion H; subst l.
    destruct (st_tail w) as [tw|] eqn:Et; [|discriminate].
    assert (Hl : tail_lookup tw idx (e_disk e) = Some l0).
    { destruct (tail_info (st_segs w)) as [ti|]; [|exact Eft]. destruct (si_min ti <=? idx); [exact Eft|discriminate]. }
    eapply Htail; eauto.
  - destruct (find_segment (st_segs w) idx) as [s|] eqn:Efs; [|discriminate].
    destruct (find_segment_sound _ _ _ Efs) as (Hin & Hmin & Hmax).
    destruct (Hmeta s Hin) as (Hbase & Hist).
    match type of H with context [if ?b then _ else _] => destruct b eqn:Eis end.
    + destruct (st_tail w) as [tw|] eqn:Et; [|discriminate].
      destruct (tail_lookup tw idx (e_disk e)) as [l0|] eqn:Hl; [|discriminate].
      inversion H; subst l. eapply Htail; eauto.
    + destruct (seg_read (name_of s) (si_base s) idx (e_disk e)) as [l0|] eqn:Hr; [|discriminate].
      inversion H; subst l.
      destruct (seg_read_lookup _ _ _ _ _ Hr) as (f & Ef & _).
      destruct (Hist f Ef) as (Hi1 & Hi2).
      { intros tw Et. rewrite Et in Eis. apply fname_eqb_neq in Eis. exact Eis. }
      destruct (sealed_read c bd _ s idx l0 f H0 Ef Hr Hi1 Hi2) as (bf & p & Hb & Hp & Hd); auto; [lia|].
      exists p. split; [|exact Hd]. right. exists s, bf. auto.
Qed.

(* the first part of seg_meta_ok follows from the invariant of crash_refinement *)
Lemma LInv_base_le_min c nb w d s : LInv c nb w d -> In s (st_segs w) -> si_base s <= si_min s.
Proof.
  intros (_ & _ & HD & _ & Hm & _) Hin. destruct HD as (_ & HD). rewrite Hm in HD.
  destruct HD as (_ & _ & S & t & Hsegs & Hwf & _). cbn [persistent ps_segs] in Hsegs.
  rewrite Hsegs in Hin. rewrite Forall_forall in Hwf. destruct (Hwf s Hin) as (_ & _ & _ & _ & H & _). exact H.
Qed.
