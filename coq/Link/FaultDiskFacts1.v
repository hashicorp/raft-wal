(* FaultDiskFacts1.v -- the weak representation relation (Link/FaultDisk.v):
   every byte-level action preserves it w.r.t. the L2 action, also when bytes
   of failed writes lie behind the valid chain; and a restart (page cache
   adopted, RecoverTail on every file) re-establishes the STRONG relation drep
   under the side condition stale_free (Seg/FailFacts.v recover_behind).
     frep_wfrep / drep_wdrep   strong implies weak
     wcreate / wdelete / wnone / wsync / wwrite_drep   the actions
     wfrep_restart, wrestart   the restart *)
From RW Require Import Base.Bytes Fmt.Frame Fmt.FrameFacts Seg.Writer Seg.Recover Seg.SegAbs
     Seg.RecoverFacts Seg.FailFacts Wal.Model Wal.Spec Wal.ModelFacts Wal.CrashFacts0 Link.Abs Link.AbsFacts2 Link.Disk
     Link.DiskFacts1 Link.DiskFacts2 Link.DiskFacts3 Link.Compose Link.FaultDisk.
From RW Require Import Base.LiaSetup.
Open Scope N_scope.

(* grel P is the relation of DiskFacts1's section Rel: its rel_* lemmas apply as they stand *)
Section Grel.
Variable P : seginfo -> bfile -> dfile -> Prop.

Lemma grel_blookup c bd fs n bf :
  grel P c bd fs -> blookup n bd = Some bf -> exists f, lookup n fs = Some f /\ hdr_wf (finfo c n) /\ P (finfo c n) bf f.
Proof. exact (rel_blookup P c bd fs n bf). Qed.

Lemma grel_keys c bd fs : grel P c bd fs -> map fst bd = map fst fs.
Proof. exact (rel_keys P c bd fs). Qed.
End Grel.

Lemma grel_impl (P Q : seginfo -> bfile -> dfile -> Prop) c bd fs :
  (forall i bf f, P i bf f -> Q i bf f) -> grel P c bd fs -> grel Q c bd fs.
Proof.
  intros HPQ H. induction H as [|x y bd fs (Hn & Hh & Hp) _ IH]; constructor; [|exact IH]. auto.
Qed.

Lemma frel_is_grel c bd fs : frel c bd fs <-> grel frep c bd fs.
Proof. reflexivity. Qed.

(* strong implies weak *)
Lemma frep_wfrep info bs pb bf f : frep_at info bs pb bf f -> wfrep_at info bs pb bf f.
Proof.
  intros R. destruct (frep_at_data _ _ _ _ _ R) as [k D]. destruct R as [A B C _ _ _ G].
  constructor; auto. exists (zeros k). exact D.
Qed.

Theorem drep_wdrep c bd d : drep c bd d -> wdrep c bd d.
Proof.
  unfold drep, wdrep. apply grel_impl. intros i bf f (bs & pb & R). exists bs, pb. apply frep_wfrep. exact R.
Qed.

Lemma wfrep_at_hdr_eq i j bs pb bf f : hdr_eq i j -> wfrep_at i bs pb bf f -> wfrep_at j bs pb bf f.
Proof.
  intros He [A B C D E]. pose proof (image_hdr_eq _ _ (bs ++ opt_batch pb) He) as Ei.
  constructor; auto.
  - destruct pb as [b|]; [eapply rep_p_hdr_eq; eauto|eapply rep_hdr_eq; eauto].
  - rewrite <- Ei. exact C.
  - rewrite <- Ei. exact D.
Qed.

(* the synced part of a weakly represented file *)
Lemma wfrep_unpend info bs pb bf f : wfrep_at info bs pb bf f -> rep info bs (Abs.unpend f).
Proof.
  intros [A _ _ _ _]. destruct pb as [b|]; [apply A|].
  destruct A as [A1 A2 A3 A4]. constructor; cbn [Abs.unpend df_ents df_end df_seal df_pend]; auto.
Qed.

Lemma wfrep_cur_rep info bs pb bf f : wfrep_at info bs pb bf f -> cur_rep info (bs ++ opt_batch pb) f.
Proof.
  intros [A _ _ _ _]. destruct pb as [b|]; cbn [opt_batch]; [apply rep_p_cur_rep; exact A|].
  rewrite app_nil_r. apply rep_cur_rep. exact A.
Qed.

Lemma wfrep_cur_end info bs pb bf f : wfrep_at info bs pb bf f -> cur_end f = len (image info (bs ++ opt_batch pb)).
Proof. intros R. destruct (wfrep_cur_rep _ _ _ _ _ R) as (_ & H & _). exact H. Qed.

Lemma wfrep_chain info bs pb bf f : wfrep_at info bs pb bf f -> chain_wf info c0 (bs ++ opt_batch pb).
Proof.
  intros R. eapply chain_wf_cur; [apply (wfrep_cur_rep _ _ _ _ _ R)|apply logs_ok_encs_ok'; apply (wr_ok _ _ _ _ _ R)|apply (wr_len _ _ _ _ _ R)].
Qed.

(* what a write at the synced end goes over *)
Lemma wfrep_prefix info bs pb bf f : wfrep_at info bs pb bf f -> exists X, bf_data bf = image info bs ++ X.
Proof.
  intros R. destruct (wr_data _ _ _ _ _ R) as [R0 ->].
  destruct pb as [b|]; cbn [opt_batch]; [rewrite image_snoc, <- app_assoc|rewrite app_nil_r]; eexists; reflexivity.
Qed.

Lemma wfrep_ents_ok info bs pb bf f : wfrep_at info bs pb bf f -> Forall log_ok (df_ents f).
Proof.
  intros R. pose proof (wr_ok _ _ _ _ _ R) as B. unfold cur_ents in B.
  destruct (df_pend f); [apply Forall_app in B; apply B|exact B].
Qed.

(* a batch still pending in L2 (its fsync failed) ends strictly behind the synced end *)
Lemma wfrep_pend_end info bs pb bf f p :
  wfrep_at info bs pb bf f -> df_pend f = Some p -> len (image info bs) < pb_end p.
Proof.
  intros [A _ _ _ _] Ep. destruct pb as [b|].
  - destruct A as (_ & p' & Hp' & _ & Hb2 & _). rewrite Ep in Hp'. inversion Hp'; subst p'.
    rewrite Hb2, image_snoc, len_app. pose proof (batch_write_pos info (cstate info bs) b). lia.
  - rewrite (rep_pend _ _ _ A) in Ep. discriminate.
Qed.

(* the disk that holds the one file f under the name n *)
Definition one_file (n : fname) (f : dfile) : disk :=
  {| dk_files := [(n, f)]; dk_meta := None; dk_stable := []; dk_inited := false |}.

Lemma lookup_one_file n f : lookup n (dk_files (one_file n f)) = Some f.
Proof. cbn [one_file dk_files lookup]. rewrite fname_eqb_refl. reflexivity. Qed.

Lemma wfrep_create info size : wfrep_at info [] None (bcreated size) (created size).
Proof. apply frep_wfrep, frep_create. Qed.

Theorem wcreate_drep c bd d n size :
  wdrep c bd d -> hdr_wf (finfo c n) ->
  wdrep c (bapply bd (BCreate n size)) (apply_act d (ACreate n size)).
Proof.
  intros H Hh. unfold wdrep. cbn [apply_act dk_files bapply]. apply (rel_update wfrep); [exact H|exact Hh|].
  exists [], None. apply wfrep_create.
Qed.

Theorem wdelete_drep c bd d n :
  wdrep c bd d -> wdrep c (bapply bd (BDelete n)) (apply_act d (ADelete n)).
Proof. intros H. unfold wdrep in *. cbn [apply_act dk_files bapply]. apply (rel_remove wfrep). exact H. Qed.

Theorem wnone_drep c bd d a : meta_act a -> wdrep c bd d -> wdrep c (bapply bd BNone) (apply_act d a).
Proof. intros Hm H. unfold wdrep in *. rewrite (meta_act_files _ _ Hm). exact H. Qed.

(* fsync: a pending batch (of a write whose own fsync failed, or of the write
   just issued) becomes committed; the bytes do not change *)
Lemma wfrep_sync info bs pb bf f :
  wfrep_at info bs pb bf f -> wfrep_at info (bs ++ opt_batch pb) None (bsync_file bf) (crashed true f).
Proof.
  intros [A B C D E]. constructor; cbn [opt_batch bsync_file bf_data bf_dir].
  - destruct pb as [b|]; cbn [opt_batch].
    + apply (rep_crashed info bs b f true A).
    + rewrite app_nil_r. destruct A as [A1 A2 A3 A4]. unfold crashed. rewrite A4.
      constructor; cbn [df_ents df_end df_seal df_pend]; auto.
  - rewrite cur_ents_crashed_true. exact B.
  - rewrite app_nil_r. exact C.
  - rewrite app_nil_r. exact D.
  - unfold crashed, synced. destruct (df_pend f); reflexivity.
Qed.

Theorem wsync_drep c bd d n :
  wdrep c bd d -> wdrep c (bapply bd (BSync n)) (apply_act d (ASync n)).
Proof.
  intros H. unfold wdrep in *. destruct (lookup n (dk_files d)) as [f|] eqn:El.
  - destruct (rel_lookup wfrep _ _ _ _ _ H El) as (bf & Hb & Hh & bs & pb & R).
    rewrite (bapply_sync _ _ _ Hb), (apply_sync_files _ _ _ El).
    apply (rel_update wfrep); [exact H|exact Hh|]. eexists. exists None. apply wfrep_sync. exact R.
  - pose proof (rel_lookup_none wfrep _ _ _ _ H El) as Hb. cbn [apply_act bapply]. rewrite El, Hb. exact H.
Qed.

Lemma wwrite_missing_drep c bd d n off l pb bytes :
  wdrep c bd d -> lookup n (dk_files d) = None ->
  wdrep c (bapply bd (BWrite n off bytes)) (apply_act d (AWrite n off l pb)).
Proof.
  intros H El. unfold wdrep in *. pose proof (rel_lookup_none wfrep _ _ _ _ H El) as Hb.
  cbn [apply_act bapply]. rewrite El, Hb. exact H.
Qed.

(* L2's write at the synced end: a pending batch (left by a failed fsync) is
   replaced, never extended -- its end lies behind the synced end *)
Lemma apply_write_over d n l q f info bs pb bf :
  lookup n (dk_files d) = Some f -> wfrep_at info bs pb bf f ->
  dk_files (apply_act d (AWrite n (len (image info bs)) l q)) = update n (written f q) (dk_files d).
Proof.
  intros El R. destruct (df_pend f) as [p|] eqn:Ep.
  - apply (apply_replace_files d n _ l p q f El Ep). pose proof (wfrep_pend_end _ _ _ _ _ _ R Ep). lia.
  - apply apply_write_files; assumption.
Qed.

(* The write over leftovers.  The file n represents the committed batches bs;
   behind their image lie arbitrary bytes (possibly a complete batch of a failed
   fsync, pending in L2).  One successful operation of the byte-level writer of
   the image of bs writes batch_write at the end of the image -- over those
   bytes.  Afterwards both sides hold the new batch as pending. *)
Theorem wwrite_drep c bd d info n bs pb0 bf f op w1' acts b ls :
  let s := cstate info bs in
  let new := batch_write info s b in
  let off := len (image info bs) in
  let aw := AWrite n off (len new) (pb_of ls w1') in
  wdrep c bd d -> name_of info = n -> hdr_eq info (finfo c n) ->
  lookup n (dk_files d) = Some f -> blookup n bd = Some bf -> wfrep_at info bs pb0 bf f ->
  SegAbs.wrun (wst info s) [op] = Some (w1', acts, [b]) -> fst b = map enc ls -> logs_ok ls ->
  len (image info (bs ++ [b])) < two32 ->
  acts = [WWrite off new; WSync] /\ w1' = wst info (cstate info (bs ++ [b])) /\
  wdrep c (bapply bd (BWrite n off new)) (apply_act d aw) /\
  lookup n (dk_files (apply_act d aw)) = Some (written f (pb_of ls w1')) /\
  blookup n (bapply bd (BWrite n off new)) = Some (bwrite_file bf off new) /\
  wfrep_at info bs (Some b) (bwrite_file bf off new) (written f (pb_of ls w1')).
Proof.
  intros s new off aw H Hn He El Hb R Hrun Hfb Hls Hlen. subst n.
  (* the L1 facts, from the per-file theorem on the synced part of the file *)
  destruct (commit_rep info bs (Abs.unpend f) op w1' acts b ls (one_file (name_of info) (Abs.unpend f))
              (wfrep_unpend _ _ _ _ _ R) (lookup_one_file _ _) Hrun Hfb Hlen) as (Ea & Ew & _ & _ & Rp & _ & _).
  fold s new off in Ea, Rp.
  assert (Rw : wfrep_at info bs (Some b) (bwrite_file bf off new) (written f (pb_of ls w1'))).
  { constructor; cbn [opt_batch bwrite_file bf_data bf_dir written df_dir].
    - exact Rp.
    - unfold cur_ents. cbn [written df_pend df_ents]. apply Forall_app. split; [|exact Hls].
      apply (wfrep_ents_ok _ _ _ _ _ R).
    - exact Hlen.
    - destruct (wfrep_prefix _ _ _ _ _ R) as [X ->]. unfold pwrite, off. cbn [fst snd].
      rewrite to_nat_len, overwrite_app, image_snoc. fold s new. eexists. rewrite <- app_assoc. reflexivity.
    - apply (wr_dir _ _ _ _ _ R). }
  destruct (rel_lookup wfrep _ _ _ _ _ H El) as (_ & _ & Hh & _).
  assert (Ef : dk_files (apply_act d aw) = update (name_of info) (written f (pb_of ls w1')) (dk_files d))
    by (eapply apply_write_over; eauto).
  split; [exact Ea|]. split; [exact Ew|]. split; [|split; [|split; [|exact Rw]]].
  - unfold wdrep. rewrite (bapply_write _ _ _ _ _ Hb), Ef.
    apply (rel_update wfrep); [exact H|exact Hh|]. exists bs, (Some b). eapply wfrep_at_hdr_eq; eauto.
  - rewrite Ef. apply lookup_update_eq.
  - rewrite (bapply_write _ _ _ _ _ Hb). apply blookup_bupdate_eq.
Qed.

Lemma wlrun_start c bd d acts bd' d' : wlrun c bd d acts bd' d' -> wdrep c bd d.
Proof. destruct 1; assumption. Qed.

Lemma wlrun_end c bd d acts bd' d' : wlrun c bd d acts bd' d' -> wdrep c bd' d'.
Proof. induction 1; assumption. Qed.

Lemma wlrun_disk c bd d acts bd' d' : wlrun c bd d acts bd' d' -> d' = fold_left apply_act acts d.
Proof. induction 1; [reflexivity|]. cbn [fold_left]. assumption. Qed.

Lemma wlrun_app c bd d a1 bd1 d1 a2 bd2 d2 :
  wlrun c bd d a1 bd1 d1 -> wlrun c bd1 d1 a2 bd2 d2 -> wlrun c bd d (a1 ++ a2) bd2 d2.
Proof.
  induction 1 as [|bd d a ba acts bd' d' H0 Hm _ IH]; intros H2; [exact H2|].
  cbn [app]. econstructor; eauto.
Qed.

Lemma wlrun_one c bd d a ba :
  wdrep c bd d -> bmatch a ba -> wdrep c (bapply bd ba) (apply_act d a) ->
  wlrun c bd d [a] (bapply bd ba) (apply_act d a).
Proof. intros H0 Hm H1. econstructor; eauto. constructor. exact H1. Qed.

(* a strong run is a weak run *)
Lemma lrun_wlrun c bd d acts bd' d' : lrun c bd d acts bd' d' -> wlrun c bd d acts bd' d'.
Proof.
  induction 1 as [bd d H|bd d a ba acts bd' d' H0 Hm _ IH].
  - constructor. apply drep_wdrep. exact H.
  - econstructor; [apply drep_wdrep; exact H0|exact Hm|exact IH].
Qed.

Lemma werun_refl c bd e : wdrep c bd (e_disk e) -> werun c bd e bd e.
Proof. intros H. exists []. constructor. exact H. Qed.

Lemma werun_trans c bd e bd1 e1 bd2 e2 : werun c bd e bd1 e1 -> werun c bd1 e1 bd2 e2 -> werun c bd e bd2 e2.
Proof. intros (a1 & L1) (a2 & L2). exists (a1 ++ a2). eapply wlrun_app; eauto. Qed.

Lemma werun_start c bd e bd' e' : werun c bd e bd' e' -> wdrep c bd (e_disk e).
Proof. intros (acts & L). eapply wlrun_start; eauto. Qed.
Lemma werun_end c bd e bd' e' : werun c bd e bd' e' -> wdrep c bd' (e_disk e').
Proof. intros (acts & L). eapply wlrun_end; eauto. Qed.

Lemma werun_disk c bd e bd' e1 e2 : e_disk e1 = e_disk e2 -> werun c bd e bd' e1 -> werun c bd e bd' e2.
Proof. intros E (acts & L). exists acts. rewrite <- E. exact L. Qed.
Lemma werun_disk_l c bd e1 e2 bd' e' : e_disk e1 = e_disk e2 -> werun c bd e1 bd' e' -> werun c bd e2 bd' e'.
Proof. intros E (acts & L). exists acts. rewrite <- E. exact L. Qed.

Lemma erun_werun c bd e bd' e' : erun c bd e bd' e' -> werun c bd e bd' e'.
Proof. intros (_ & acts & _ & L). exists acts. apply lrun_wlrun. exact L. Qed.

(* One file.  Whatever lies behind the image of the committed batches (and of
   the batch of the last write whose fsync failed): if no commit frame there
   verifies, RecoverTail returns the writer of bs ++ [b], zeroes the rest, and
   the file is again "image, then zeros" with nothing pending -- related by the
   STRONG relation to L2's adopted file. *)
Theorem wfrep_restart info bs pb bf f :
  hdr_wf info -> wfrep_at info bs pb bf f -> no_stale_commit (bf_data bf) (cur_end f) ->
  let bs' := bs ++ opt_batch pb in
  recover_state info (bf_data bf) = Some (wst info (cstate info bs')) /\
  frep_at info bs' None (bscrub_file info (badopt_file bf)) (adopt_file f).
Proof.
  intros Hh R Hns bs'. pose proof (wfrep_chain _ _ _ _ _ R) as Hwf. fold bs' in Hwf.
  pose proof (wfrep_cur_end _ _ _ _ _ R) as Hce. fold bs' in Hce.
  pose proof (wfrep_cur_rep _ _ _ _ _ R) as Hcr. fold bs' in Hcr.
  destruct R as [A B C [R0 D] E]. fold bs' in C, D.
  assert (Hr : recover_state info (image info bs' ++ R0) = Some (wst info (cstate info bs'))).
  { apply (recover_behind info bs' R0 Hh Hwf). rewrite D, Hce in Hns. exact Hns. }
  split; [rewrite D; exact Hr|].
  destruct (bscrub_file_clean info bs' R0 (badopt_file bf) D eq_refl eq_refl Hr) as (P1 & P2 & P3 & P4).
  constructor; cbn [opt_batch].
  - destruct Hcr as (H1 & H2 & H3). unfold adopt_file, cur_ents, cur_end, cur_seal in *.
    destruct (df_pend f) as [p|] eqn:Ep; constructor; cbn [df_ents df_end df_seal df_pend]; auto.
  - rewrite cur_ents_adopt. exact B.
  - rewrite app_nil_r. exact C.
  - rewrite P2, P1. eexists. reflexivity.
  - exact P3.
  - unfold bf_wf. rewrite P3, P2. reflexivity.
  - rewrite P4. cbn [badopt_file bf_dir]. rewrite E. unfold adopt_file. destruct (df_pend f); reflexivity.
Qed.

(* The disk.  After a restart without power loss, byte-level recovery of every
   file yields a disk related by the strong relation to L2's adopt_disk. *)
Theorem wrestart c bd d :
  wdrep c bd d -> NoDup (map fst (dk_files d)) -> stale_free bd d ->
  drep c (brestart c bd) (adopt_disk d).
Proof.
  unfold wdrep, drep, brestart, stale_free. cbn [adopt_disk dk_files]. generalize (dk_files d). intros fs H.
  induction H as [|[m bf] [n f] bd fs (Hn & Hh & bs & pb & R) Hr IH]; intros ND Hs; cbn [badopt bscrub map]; [constructor|].
  cbn [fst snd] in *. subst m. inversion ND as [|? ? Hni ND']; subst.
  constructor.
  - cbn [fst snd]. split; [reflexivity|]. split; [exact Hh|]. eexists. exists None.
    apply (wfrep_restart _ _ _ _ _ Hh R). apply (Hs n bf f); cbn [blookup lookup]; rewrite fname_eqb_refl; reflexivity.
  - apply IH; [exact ND'|]. intros k bf' f' Hb Hl.
    assert (E : fname_eqb k n = false).
    { apply fname_eqb_neq. intros ->. apply Hni. apply (in_map fst _ _ (lookup_In _ _ _ Hl)). }
    apply (Hs k bf' f'); cbn [blookup lookup]; rewrite E; assumption.
Qed.
