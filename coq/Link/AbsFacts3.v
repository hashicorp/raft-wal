(* AbsFacts3.v -- reader simulation: reading entry idx of the abstract file
   (Wal/Model.v seg_read / tail_lookup) returns the record whose encoding the
   byte-level readers (Seg/Reader.v tail_get / sealed_get) return on the byte
   image, and decoding those bytes gives the record back. *)
From RW Require Import Base.Bytes Base.BytesFacts Fmt.Codec Fmt.CodecFacts Fmt.Frame Fmt.FrameFacts
     Seg.Writer Seg.Reader Seg.SegAbs Seg.WriterFacts Seg.RecoverFacts Seg.ReaderFacts Wal.Model Wal.Spec
     Link.Abs Link.AbsFacts1 Link.AbsFacts2 Gen.Constants.
From RW Require Import Base.LiaSetup.
Open Scope N_scope.

Lemma wf_put_uvarint_aux fuel : forall v, wf_bytes (put_uvarint_aux fuel v).
Proof.
  induction fuel as [|fuel IH]; intros v; cbn [put_uvarint_aux]; [constructor|].
  destruct (v <? 128) eqn:E.
  - constructor; [|constructor]. unfold wf_byte. lia.
  - constructor; [|apply IH]. unfold wf_byte. pose proof (N.mod_lt v 128). lia.
Qed.

Lemma wf_put_uvarint v : wf_bytes (put_uvarint v).
Proof. apply wf_put_uvarint_aux. Qed.

Lemma wf_enc_bytes bs : wf_bytes bs -> wf_bytes (enc_bytes bs).
Proof. intros H. unfold enc_bytes. apply wf_bytes_app; split; [apply wf_put_uvarint|exact H]. Qed.

(* the stored bytes of a well-formed record: its encoding; it decodes to the
   record; GetLog's view of the record is the record *)
Theorem enc_decode l :
  wf_log l -> encode_log l = Some (enc l) /\ decode_log (enc l) = Some l /\ codec_view l = l /\ wf_bytes (enc l).
Proof.
  intros H. destruct (decode_encode l H) as (bs & E1 & E2).
  assert (Ee : enc l = bs) by (unfold enc; rewrite E1; reflexivity).
  split; [rewrite Ee; exact E1|]. split; [rewrite Ee; exact E2|].
  split; [unfold codec_view; rewrite E1, E2; reflexivity|].
  destruct H as (_ & _ & _ & Hd & He & _ & _ & Htm).
  destruct (time_roundtrip _ Htm) as (tb & Hm & _ & Hwt).
  unfold enc, encode_log. rewrite Hm.
  apply wf_bytes_app; split; [apply wf_put_uvarint|].
  apply wf_bytes_app; split; [apply wf_put_uvarint|].
  apply wf_bytes_app; split; [apply wf_put_uvarint|].
  apply wf_bytes_app; split; [apply wf_enc_bytes; exact Hd|].
  apply wf_bytes_app; split; [apply wf_enc_bytes; exact He|exact Hwt].
Qed.

(* the WAL-level guard on records implies the byte-level one *)
Lemma log_ok_enc_ok l : log_ok l -> enc_ok l.
Proof.
  intros (Hw & _ & _ & Hm). split; [apply (enc_decode l Hw)|].
  rewrite <- enc_len_enc. exact Hm.
Qed.

Lemma logs_ok_encs_ok ls : logs_ok ls -> encs_ok ls.
Proof. intros H. eapply Forall_impl; [|exact H]. apply log_ok_enc_ok. Qed.

(* record i of the file is payload i of the image *)
Lemma cur_rep_payload info bs f i l :
  cur_rep info bs f -> nth_error (cur_ents f) i = Some l -> nth_error (payloads bs) i = Some (enc l).
Proof. intros (He & _) Hl. rewrite <- pls_payloads, He. apply map_nth_error. exact Hl. Qed.

Lemma encs_ok_nth ls i l : encs_ok ls -> nth_error ls i = Some l -> len (enc l) <= MaxEntrySize.
Proof. intros Hok Hl. apply (proj1 (Forall_forall _ _) Hok l (nth_error_In _ _ Hl)). Qed.

(* Reader simulation, tail.  Whatever idx: the byte-level tail reader on the
   image returns the encoding of exactly the record L2's tail lookup returns,
   and ErrNotFound exactly when L2 finds nothing. *)
Theorem read_sim_tail info bs f d w2 idx r :
  cur_rep info bs f -> encs_ok (cur_ents f) ->
  lookup (name_of info) (dk_files d) = Some f ->
  rep_w (wst info (cstate info bs)) w2 ->
  tail_get (wst info (cstate info bs)) (image info bs ++ r) idx =
    match tail_lookup w2 idx d with
    | Some l => Reader.ROk (enc l)
    | None => RNotFound
    end.
Proof.
  intros C Hok Hl Rw. set (s := cstate info bs) in *.
  unfold tail_get, tail_offset, tail_lookup.
  rewrite (rw_base _ _ Rw), (rw_min _ _ Rw), (rw_cidx _ _ Rw), (rw_name _ _ Rw).
  change (w_info (wst info s)) with info.
  destruct ((idx <? si_base info) || (idx <? si_min info) || (w_commit_idx (wst info s) <? idx));
    [reflexivity|].
  unfold seg_read. rewrite Hl. change (w_offsets (wst info s)) with (c_offs s).
  set (i := N.to_nat (idx - si_base info)).
  destruct (nth_error (cur_ents f) i) as [l|] eqn:El.
  - destruct (image_frame_at info bs i (enc l) r (cur_rep_payload _ _ _ _ _ C El) (encs_ok_nth _ _ _ Hok El))
      as (off & Eo & _ & Hr).
    fold s in Eo. rewrite Eo. exact Hr.
  - apply nth_error_None in El.
    pose proof (cur_rep_offs _ _ _ C) as Ln. fold s in Ln. unfold len, llen in Ln.
    assert (Hn : nth_error (c_offs s) i = None) by (apply nth_error_None; lia).
    rewrite Hn. reflexivity.
Qed.

(* Reader simulation, sealed.  A sealed reader opened with the index start
   recorded in the abstract file returns the encoding of the record L2 reads. *)
Theorem read_sim_sealed info info' bs f d idx l r :
  cur_rep info bs f -> encs_ok (cur_ents f) -> len (image info bs) < two32 ->
  lookup (name_of info) (dk_files d) = Some f ->
  cur_seal f <> 0 ->
  si_base info' = si_base info -> si_index_start info' = cur_seal f ->
  si_base info <= idx -> si_min info' <= idx -> (si_max info' = 0 \/ idx <= si_max info') ->
  seg_read (name_of info) (si_base info) idx d = Some l ->
  sealed_get info' (image info bs ++ r) idx = Reader.ROk (enc l).
Proof.
  intros C Hok Hlen Hl Hsealed Hbase His Hge Hmin Hmax Hrd.
  unfold seg_read in Hrd. rewrite Hl in Hrd. set (i := N.to_nat (idx - si_base info)) in *.
  assert (Eidx : idx = si_base info + N.of_nat i) by (unfold i; lia).
  clearbody i. subst idx. rewrite (proj2 (proj2 C)) in Hsealed, His.
  apply sealed_get_image; try assumption.
  - exact (cur_rep_payload _ _ _ _ _ C Hrd).
  - exact (encs_ok_nth _ _ _ Hok Hrd).
Qed.

(* GetLog down to bytes: the record L2 hands back for idx (codec_view l) is the
   decoding of the bytes the byte-level reader finds in the file, and it is
   the stored record itself. *)
Theorem get_sim_tail info bs f d w2 idx l r :
  cur_rep info bs f -> encs_ok (cur_ents f) ->
  lookup (name_of info) (dk_files d) = Some f ->
  rep_w (wst info (cstate info bs)) w2 ->
  tail_lookup w2 idx d = Some l -> wf_log l ->
  exists p, tail_get (wst info (cstate info bs)) (image info bs ++ r) idx = Reader.ROk p /\
            decode_log p = Some (codec_view l) /\ codec_view l = l.
Proof.
  intros C Hok Hl Rw Ht Hw. exists (enc l).
  rewrite (read_sim_tail info bs f d w2 idx r C Hok Hl Rw), Ht.
  destruct (enc_decode l Hw) as (_ & Hd & Hv & _). rewrite Hv. auto.
Qed.

Theorem get_sim_sealed info info' bs f d idx l r :
  cur_rep info bs f -> encs_ok (cur_ents f) -> len (image info bs) < two32 ->
  lookup (name_of info) (dk_files d) = Some f ->
  cur_seal f <> 0 ->
  si_base info' = si_base info -> si_index_start info' = cur_seal f ->
  si_base info <= idx -> si_min info' <= idx -> (si_max info' = 0 \/ idx <= si_max info') ->
  seg_read (name_of info) (si_base info) idx d = Some l -> wf_log l ->
  exists p, sealed_get info' (image info bs ++ r) idx = Reader.ROk p /\
            decode_log p = Some (codec_view l) /\ codec_view l = l.
Proof.
  intros C Hok Hlen Hl Hs Hb Hi Hge Hmin Hmax Hrd Hw. exists (enc l).
  rewrite (read_sim_sealed info info' bs f d idx l r C Hok Hlen Hl Hs Hb Hi Hge Hmin Hmax Hrd).
  destruct (enc_decode l Hw) as (_ & Hd & Hv & _). rewrite Hv. auto.
Qed.

(* Filer.Open of a sealed segment *)
Lemma hdr_inv_cstate info bs : hdr_inv info (cstate info bs).
Proof.
  induction bs as [|b bs IH] using rev_ind; [apply hdr_inv_c0|].
  rewrite cstate_snoc. apply hdr_inv_step. exact IH.
Qed.

Lemma image_starts_with_header info bs :
  image info bs <> [] -> exists r, image info bs = file_header info ++ r.
Proof.
  intros Hn. destruct (hdr_inv_cstate info bs) as [r H]. exists r.
  unfold image in *. unfold c_pend in H. destruct (c_img (cstate info bs)); [congruence|].
  rewrite app_nil_r in H. exact H.
Qed.

(* L2's Open refuses a sealed segment whose file has no committed header
   (cur_end = 0, Wal/Model.v open_segs: RErrCorrupt) and accepts it otherwise;
   the byte-level Open validates the 32-byte header of the image *)
Theorem open_sealed_sim info bs f r :
  hdr_wf info -> cur_rep info bs f ->
  open_sealed info (image info bs ++ r) = true <-> (cur_end f =? 0) = false \/ open_sealed info r = true.
Proof.
  intros (Hb & Hi & Hc) (_ & He & _). rewrite He.
  destruct (image info bs) as [|x im] eqn:Eim.
  - cbn [app]. change (len [] =? 0) with true. split; [auto|]. intros [H|H]; [discriminate|exact H].
  - assert (Hne : image info bs <> []) by (rewrite Eim; discriminate).
    destruct (image_starts_with_header info bs Hne) as [r' Hr']. rewrite <- Eim, Hr'.
    replace (len (file_header info ++ r') =? 0) with false
      by (symmetry; apply N.eqb_neq; rewrite len_app, len_file_header; lia).
    split; [auto|]. intros _.
    unfold open_sealed. rewrite <- app_assoc.
    replace (len (file_header info ++ r' ++ r) <? 32) with false
      by (symmetry; apply N.ltb_ge; rewrite len_app, len_file_header; lia).
    change 32%nat with (length (file_header info)). rewrite firstn_app_exact.
    rewrite <- (app_nil_r (file_header info)).
    rewrite read_file_header_hdr by assumption. apply validate_file_header_refl.
Qed.

Corollary open_sealed_sim_zeros info bs f k :
  hdr_wf info -> cur_rep info bs f ->
  open_sealed info (image info bs ++ zeros k) = negb (cur_end f =? 0).
Proof.
  intros Hhw C. pose proof (open_sealed_sim info bs f (zeros k) Hhw C) as H.
  assert (Hz : open_sealed info (zeros k) = false).
  { destruct (Nat.lt_ge_cases k 32) as [Hk|Hk].
    - apply open_sealed_short. rewrite len_zeros. lia.
    - apply open_sealed_bad_magic. replace k with (8 + (k - 8))%nat by lia. rewrite zeros_app.
      unfold magic. cbn. lia. }
  rewrite Hz in H. destruct (cur_end f =? 0); cbn [negb].
  - destruct (open_sealed info (image info bs ++ zeros k)); [|reflexivity].
    destruct H as [H _]. destruct (H eq_refl); discriminate.
  - apply H. left. reflexivity.
Qed.
