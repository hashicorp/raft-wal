(* FaultDiskFacts2.v -- the primitives of the WAL under INJECTED FAULTS, in
   lock step with the byte disk (weak relation, Link/FaultDisk.v):
   io, delete_files (every deletion may fail), seg_create (a failed creation
   may leave the empty file), seg_append / seg_force_seal (failed write:
   nothing written; failed fsync: the bytes stay behind the valid chain, both
   writers rolled back).  No hypothesis on e_fault / e_fx. *)
From RW Require Import Base.Bytes Fmt.Codec Fmt.Frame Fmt.FrameFacts Seg.Writer Seg.SegAbs
     Seg.WriterFacts Seg.RecoverFacts Wal.Model Wal.Spec Wal.ModelFacts Wal.CrashFacts0 Link.Abs Link.AbsFacts1
     Link.AbsFacts2 Link.AbsFacts4 Link.Disk Link.DiskFacts1 Link.Compose Link.ComposeFacts1
     Link.FaultDisk Link.FaultDiskFacts1 Gen.Constants.
From RW Require Import Base.LiaSetup.
Open Scope N_scope.

(* one I/O action, whatever the fault state: what the outcome says of the disk.  (Wal/FaultSim.v
   has lemmas of these two names about the whole environment, for actions that are no deletions) *)
Lemma io_cases3 a e ok e' :
  io a e = (ok, e') ->
  (ok = true /\ e_disk e' = apply_act (e_disk e) a) \/ (ok = false /\ e_disk e' = e_disk e) \/
  (* a transaction that landed (reported as failed, found applied) *)
  (ok = false /\ is_txn a = true /\ e_disk e' = apply_act (e_disk e) a).
Proof.
  unfold io. destruct (is_delete a).
  - destruct (armed e && fx_del (e_fx e)); intros [= <- <-]; cbn; auto.
  - destruct (e_fault e) as [[|k]|]; [|intros [= <- <-]; cbn; auto..].
    destruct (is_txn a) eqn:Et, (fx_land (e_fx e)); cbn [andb]; intros [= <- <-]; cbn; auto.
Qed.

Lemma io_cases a e ok e' :
  io a e = (ok, e') -> is_txn a = false ->
  (ok = true /\ e_disk e' = apply_act (e_disk e) a) \/ (ok = false /\ e_disk e' = e_disk e).
Proof.
  intros H Ht. destruct (io_cases3 _ _ _ _ H) as [K|[K|(_ & K & _)]]; [left; exact K|right; exact K|congruence].
Qed.

(* an action on a segment file: performed on both sides, or on neither *)
Lemma werun_io c bd e a ba ok e' : is_txn a = false ->
  io a e = (ok, e') -> wdrep c bd (e_disk e) -> bmatch a ba ->
  wdrep c (bapply bd ba) (apply_act (e_disk e) a) ->
  (ok = true /\ e_disk e' = apply_act (e_disk e) a /\ werun c bd e (bapply bd ba) e') \/
  (ok = false /\ e_disk e' = e_disk e /\ werun c bd e bd e').
Proof.
  intros Hnt Hio H0 Hm H1. destruct (io_cases _ _ _ _ Hio Hnt) as [(-> & E)|(-> & E)]; [left|right].
  - repeat split; [exact E|]. exists [a]. rewrite E. apply wlrun_one; assumption.
  - repeat split; [exact E|]. exists []. rewrite E. constructor. exact H0.
Qed.

Lemma werun_meta c bd e a ok e' :
  io a e = (ok, e') -> meta_act a -> wdrep c bd (e_disk e) -> werun c bd e bd e'.
Proof.
  intros Hio Hm H0.
  assert (Hb : bmatch a BNone) by (destruct a; cbn in Hm |- *; try contradiction; reflexivity).
  pose proof (wlrun_one c bd _ a BNone H0 Hb (wnone_drep _ _ _ _ Hm H0)) as L.
  destruct (io_cases3 _ _ _ _ Hio) as [(_ & E)|[(_ & E)|(_ & _ & E)]]; rewrite <- E in L.
  - exists [a]. exact L.
  - exists []. rewrite E. constructor. exact H0.
  - exists [a]. exact L.
Qed.

Lemma io_meta_files a e ok e' : io a e = (ok, e') -> meta_act a -> dk_files (e_disk e') = dk_files (e_disk e).
Proof.
  intros Hio Hm. destruct (io_cases3 _ _ _ _ Hio) as [(_ & E)|[(_ & E)|(_ & _ & E)]]; rewrite E;
    [apply meta_act_files; exact Hm|reflexivity|apply meta_act_files; exact Hm].
Qed.

(* the weak tail link across actions on other files *)
Lemma wtail_link_frame c tw info bs bd d bd' d' :
  wtail_link c tw info bs bd d ->
  (forall f, lookup (ws_name tw) (dk_files d') = Some f ->
             lookup (ws_name tw) (dk_files d) = Some f /\ blookup (ws_name tw) bd' = blookup (ws_name tw) bd) ->
  wtail_link c tw info bs bd' d'.
Proof.
  intros [A B C D] H. constructor; auto. intros f Hf. destruct (H f Hf) as [H1 H2]. rewrite H2. apply D. exact H1.
Qed.

Lemma tail_link_wtail c tw info bs bd d : tail_link c tw info bs bd d -> wtail_link c tw info bs bd d.
Proof.
  intros [A B C D]. constructor; auto. intros f Hf. destruct (D f Hf) as (bf & Hb & R).
  exists bf, None. split; [exact Hb|apply frep_wfrep; exact R].
Qed.

Lemma tail_linked_wtail c t bd d : tail_linked c t bd d -> wtail_linked c t bd d.
Proof. destruct t as [tw|]; [|auto]. intros (info & bs & H). exists info, bs. apply tail_link_wtail. exact H. Qed.

(* WL0 (wdrep, distinct names, the tail linked) across single actions *)
Definition other_name (t : option wseg) (n : fname) : Prop :=
  match t with Some tw => ws_name tw <> n | None => True end.

Lemma wtail_linked_frame c t bd d bd' d' :
  wtail_linked c t bd d ->
  (forall tw f, t = Some tw -> lookup (ws_name tw) (dk_files d') = Some f ->
                lookup (ws_name tw) (dk_files d) = Some f /\ blookup (ws_name tw) bd' = blookup (ws_name tw) bd) ->
  wtail_linked c t bd' d'.
Proof.
  destruct t as [tw|]; [|auto]. intros (info & bs & T) H. exists info, bs.
  eapply wtail_link_frame; [exact T|]. intros f. apply H. reflexivity.
Qed.

Lemma WL0_files c t bd d d' : dk_files d' = dk_files d -> WL0 c t bd d -> WL0 c t bd d'.
Proof.
  intros E (H0 & Hnd & Ht). unfold WL0, wdrep. rewrite E. repeat split; [exact H0|exact Hnd|].
  eapply wtail_linked_frame; [exact Ht|]. intros tw f _. rewrite E. auto.
Qed.

Lemma WL0_delete c t bd d m : WL0 c t bd d -> WL0 c t (bapply bd (BDelete m)) (apply_act d (ADelete m)).
Proof.
  intros (H0 & Hnd & Ht). split; [apply wdelete_drep; exact H0|]. split; [apply NoDup_apply; exact Hnd|].
  eapply wtail_linked_frame; [exact Ht|]. cbn [apply_act dk_files bapply]. intros tw f _ Hf.
  destruct (fname_eqb (ws_name tw) m) eqn:E.
  - apply fname_eqb_eq in E. subst m. rewrite lookup_remove_eq in Hf by exact Hnd. discriminate.
  - apply fname_eqb_neq in E. rewrite lookup_remove_neq in Hf by exact E. split; [exact Hf|].
    apply blookup_bremove_neq. exact E.
Qed.

Lemma WL0_create_other c t bd d m size :
  hdr_wf (finfo c m) -> other_name t m -> WL0 c t bd d ->
  WL0 c t (bapply bd (BCreate m size)) (apply_act d (ACreate m size)).
Proof.
  intros Hh Hne (H0 & Hnd & Ht). split; [apply wcreate_drep; assumption|]. split; [apply NoDup_apply; exact Hnd|].
  eapply wtail_linked_frame; [exact Ht|]. cbn [apply_act dk_files bapply]. intros tw f -> Hf. cbn [other_name] in Hne.
  rewrite lookup_update_neq in Hf by exact Hne. split; [exact Hf|]. apply blookup_bupdate_neq. exact Hne.
Qed.

(* the created file is the file of the fresh writer *)
Lemma WL0_created c t si bd d size :
  si_codec si = c_codec c -> hdr_wf (finfo c (name_of si)) -> WL0 c t bd d ->
  WL0 c (Some (new_wseg si)) (bapply bd (BCreate (name_of si) size)) (apply_act d (ACreate (name_of si) size)).
Proof.
  intros Hc Hh (H0 & Hnd & _). split; [apply wcreate_drep; assumption|]. split; [apply NoDup_apply; exact Hnd|].
  exists si, []. constructor.
  - reflexivity.
  - cbn [new_wseg ws_name]. unfold hdr_eq, finfo, name_of. cbn. auto.
  - change (cstate si []) with c0. rewrite wst_c0. apply rep_w_init.
  - cbn [new_wseg ws_name apply_act dk_files bapply]. intros f Hf. rewrite lookup_update_eq in Hf. inversion Hf; subst f.
    exists (bcreated size), None. split; [apply blookup_bupdate_eq|]. apply wfrep_create.
Qed.

(* runs that end in WL0 *)
(* what every primitive below establishes: its effective actions are a weak
   lock-step run, at whose end the tail writer t is linked *)
Definition wop_link0 (c : cfg) (bd : bdisk) (e : env) (t : option wseg) (e' : env) : Prop :=
  exists bd', werun c bd e bd' e' /\ WL0 c t bd' (e_disk e').

Lemma wop_link0_refl c bd e t : WL0 c t bd (e_disk e) -> wop_link0 c bd e t e.
Proof. intros H. exists bd. split; [apply werun_refl; apply H|exact H]. Qed.

Lemma wop_link0_trans c bd e t1 e1 t2 e2 :
  wop_link0 c bd e t1 e1 -> (forall bd1, WL0 c t1 bd1 (e_disk e1) -> wop_link0 c bd1 e1 t2 e2) ->
  wop_link0 c bd e t2 e2.
Proof.
  intros (bd1 & E1 & W1) H. destruct (H bd1 W1) as (bd2 & E2 & W2). exists bd2. split; [eapply werun_trans; eauto|exact W2].
Qed.

Lemma wop_link0_tail c bd e bd' e' tw info bs :
  werun c bd e bd' e' -> NoDup (map fst (dk_files (e_disk e'))) -> wtail_link c tw info bs bd' (e_disk e') ->
  wop_link0 c bd e (Some tw) e'.
Proof.
  intros E Hnd T. exists bd'. split; [exact E|]. split; [apply (werun_end _ _ _ _ _ E)|]. split; [exact Hnd|]. exists info, bs. exact T.
Qed.

(* an action that touches no segment file *)
Lemma wop_link0_meta c bd e a ok e' t :
  io a e = (ok, e') -> meta_act a -> WL0 c t bd (e_disk e) -> wop_link0 c bd e t e'.
Proof.
  intros Hio Hm H. exists bd. split; [eapply werun_meta; eauto; apply H|].
  eapply WL0_files; [eapply io_meta_files; eauto|exact H].
Qed.

(* delete_files: every deletion may fail *)
Lemma delete_files_wlink c t ns : forall bd e,
  WL0 c t bd (e_disk e) -> wop_link0 c bd e t (delete_files ns e).
Proof.
  induction ns as [|n ns IH]; intros bd e H; [apply wop_link0_refl; exact H|].
  unfold delete_files. cbn [fold_left]. fold (delete_files ns (snd (io (ADelete n) e))).
  destruct (io (ADelete n) e) as [ok e1] eqn:Eio. cbn [snd].
  pose proof (WL0_delete c t bd _ n H) as H1.
  destruct (werun_io c bd e (ADelete n) (BDelete n) ok e1 eq_refl Eio (proj1 H) eq_refl (proj1 H1)) as [(_ & Ed & E)|(_ & Ed & E)];
    rewrite <- Ed in *; (eapply wop_link0_trans; [eexists; split; [exact E|eassumption]|intros bd1; apply IH]).
Qed.

(* seg_create: the creation may fail, and may leave the empty file *)
Lemma seg_create_wlink c si bd e sw e' t :
  WL0 c t bd (e_disk e) -> si_codec si = c_codec c -> hdr_wf (finfo c (name_of si)) -> other_name t (name_of si) ->
  seg_create si e = (sw, e') ->
  wop_link0 c bd e (match sw with Some _ => sw | None => t end) e'.
Proof.
  intros H Hc Hh Hon. unfold seg_create. destruct (si_base si =? 0); [intros [= <- <-]; apply wop_link0_refl; exact H|].
  destruct (lookup (name_of si) (dk_files (e_disk e))).
  - destruct (io _ e) as [ok e1] eqn:Eio. intros [= <- <-]. apply (wop_link0_meta c bd e _ ok e1 t Eio I H).
  - destruct (io _ e) as [ok e1] eqn:Eio.
    pose proof (fun size => WL0_create_other c t bd _ _ size Hh Hon H) as H1.
    destruct (werun_io c bd e (ACreate (name_of si) (si_size_limit si)) (BCreate (name_of si) (si_size_limit si)) ok e1 eq_refl Eio (proj1 H) eq_refl (proj1 (H1 _)))
      as [(-> & Ed & E)|(-> & Ed & E)].
    + intros [= <- <-]. eexists. split; [exact E|]. rewrite Ed. apply (WL0_created c t); assumption.
    + destruct (fx_leave (e_fx e)); intros [= <- <-].
      * (* the failed creation leaves the empty file *)
        exists (bapply bd (BCreate (name_of si) 0)). cbn [leave_entry e_disk]. rewrite Ed. split; [|apply H1].
        exists [ACreate (name_of si) 0]. cbn [leave_entry e_disk]. rewrite Ed. apply wlrun_one; [apply H|reflexivity|apply H1].
      * eexists. split; [exact E|]. rewrite Ed. exact H.
Qed.

(* one commit of the tail writer, with faults *)
(* the environment after the two actions of a commit, whatever fails *)
Lemma do_acts2_cases e a1 a2 :
  let e' := do_acts e [a1; a2] in
  is_delete a1 = false -> is_delete a2 = false -> is_txn a1 = false -> is_txn a2 = false ->
  (both_ok (e_fault e) = true /\ e_disk e' = apply_act (apply_act (e_disk e) a1) a2) \/
  (e_fault e = Some 1%nat /\ e_disk e' = apply_act (e_disk e) a1) \/
  (e_fault e = Some O /\ e_disk e' = e_disk e).
Proof.
  intros e' H1 H2 T1 T2. unfold e'. cbn [do_acts]. rewrite (io_char _ e H1 T1).
  destruct (e_fault e) as [[|[|k]]|] eqn:Ef.
  - right. right. auto.
  - right. left. split; [reflexivity|]. rewrite (io_char _ _ H2 T2). rewrite e_fault_io_ok, Ef. reflexivity.
  - left. split; [reflexivity|]. rewrite (io_char _ _ H2 T2). rewrite e_fault_io_ok, Ef. reflexivity.
  - left. split; [reflexivity|]. rewrite (io_char _ _ H2 T2). rewrite e_fault_io_ok, Ef. reflexivity.
Qed.

Lemma wcommit_link c tw info bs bd e op ls w1' new tot pb tw' :
  let n := ws_name tw in
  let aw := AWrite n (ws_off tw) tot pb in
  let e' := do_acts e [aw; ASync n] in
  wdrep c bd (e_disk e) -> NoDup (map fst (dk_files (e_disk e))) ->
  wtail_link c tw info bs bd (e_disk e) -> logs_ok ls ->
  do_op (wst info (cstate info bs)) op = (WOk, w1', [WWrite (ws_off tw) new; WSync]) ->
  wop_of pb = op -> op_batch (wst info (cstate info bs)) w1' op = [(map enc ls, sealed w1')] ->
  len new = tot -> len (batch_write info (cstate info bs) (map enc ls, sealed w1')) = tot ->
  rep_w w1' tw' -> ws_name tw' = n -> pb = pb_of ls w1' ->
  ws_off tw + tot < two32 ->
  exists bd',
    werun c bd e bd' e' /\ NoDup (map fst (dk_files (e_disk e'))) /\
    if both_ok (e_fault e) then exists bs', wtail_link c tw' info bs' bd' (e_disk e')
    else wtail_link c tw info bs bd' (e_disk e').
Proof.
  intros n aw e' H0 Hnd T Hls Hop Hwop Hob Hlen Hlb Rw' Hn' Hpb Hguard. pose proof T as [Tn Th Tw Tf].
  set (s := cstate info bs) in *. set (b := (map enc ls, sealed w1')) in *.
  assert (Hrun : SegAbs.wrun (wst info s) [op] = Some (w1', [WWrite (ws_off tw) new; WSync], [b])).
  { cbn [SegAbs.wrun]. rewrite Hop, Hob. rewrite !app_nil_r. reflexivity. }
  assert (Hoff : ws_off tw = len (image info bs)) by (rewrite (rw_off _ _ Tw); reflexivity).
  assert (Hm : bmatch aw (BWrite n (ws_off tw) new)).
  { cbn [aw bmatch]. exists new. split; [reflexivity|]. split; [exact Hlen|].
    exists (wst info s), w1'. rewrite Hwop. exact Hop. }
  assert (Hlen' : len (image info (bs ++ [b])) < two32).
  { rewrite image_snoc, len_app. fold s. rewrite Hlb, <- Hoff. exact Hguard. }
  (* the writer after the commit is linked to whatever represents bs ++ [b] *)
  assert (T' : forall bd' d',
            (forall f', lookup n (dk_files d') = Some f' ->
                        exists bf pb0, blookup n bd' = Some bf /\ wfrep_at info (bs ++ [b]) pb0 bf f') ->
            wtail_link c tw' info (bs ++ [b]) bd' d').
  { intros bd' d' Hf. constructor; rewrite ?Hn'; auto.
    destruct (wrun_char info [op] s w1' _ [b] Hrun) as (Ew & _); [unfold image in Hlen'; rewrite cstate_snoc in Hlen'; exact Hlen'|].
    cbn [fold_left] in Ew. rewrite cstate_snoc. fold s. rewrite <- Ew. exact Rw'. }
  pose proof (do_acts2_cases e aw (ASync n) eq_refl eq_refl eq_refl eq_refl) as Hcases. fold e' in Hcases.
  destruct (lookup n (dk_files (e_disk e))) as [f|] eqn:El.
  - destruct (Tf f El) as (bf & pb0 & Hbl & R).
    destruct (wwrite_drep c bd (e_disk e) info n bs pb0 bf f op w1' _ b ls H0 Tn Th El Hbl R Hrun eq_refl Hls Hlen')
      as (Ea & _ & D1 & L1 & B1 & R1).
    fold s in Ea. inversion Ea as [[Eo En]].
    assert (Eaw : AWrite n (len (image info bs)) (len (batch_write info s b)) (pb_of ls w1') = aw).
    { unfold aw. rewrite <- En, Hlen, <- Hoff, Hpb. reflexivity. }
    fold s in D1, L1, B1, R1. rewrite Eaw in D1, L1. rewrite <- En, <- Hoff in D1, B1, R1.
    destruct Hcases as [(Hok & Ed)|[(Hf1 & Ed)|(Hf0 & Ed)]].
    + (* both succeed *)
      pose proof (wsync_drep c _ _ n D1) as D2.
      exists (bapply (bapply bd (BWrite n (ws_off tw) new)) (BSync n)). unfold werun. rewrite Ed, Hok.
      split; [exists [aw; ASync n]; econstructor; [exact H0|exact Hm|]; apply wlrun_one; [exact D1|reflexivity|exact D2]|].
      split; [apply NoDup_apply, NoDup_apply; exact Hnd|]. exists (bs ++ [b]). apply T'. intros f' Hf'.
      rewrite (apply_sync_files _ n _ L1), lookup_update_eq in Hf'. inversion Hf'; subst f'.
      exists (bsync_file (bwrite_file bf (ws_off tw) new)), None.
      split; [rewrite (bapply_sync _ n _ B1); apply blookup_bupdate_eq|apply (wfrep_sync _ _ _ _ _ R1)].
    + (* the fsync fails: the bytes stay, the writers are rolled back *)
      exists (bapply bd (BWrite n (ws_off tw) new)). unfold werun. rewrite Ed, Hf1. cbn [both_ok].
      split; [exists [aw]; apply wlrun_one; assumption|]. split; [apply NoDup_apply; exact Hnd|].
      constructor; auto. intros f' Hf'. fold n in Hf'. rewrite L1 in Hf'. inversion Hf'; subst f'.
      exists (bwrite_file bf (ws_off tw) new), (Some b). split; [exact B1|exact R1].
    + (* the write fails: nothing happens *)
      exists bd. unfold werun. rewrite Ed, Hf0. cbn [both_ok].
      split; [exists []; constructor; exact H0|]. split; [exact Hnd|exact T].
  - (* the file does not exist: the actions have no effect on either side *)
    assert (Ede : e_disk e' = e_disk e).
    { destruct Hcases as [(_ & Ed)|[(_ & Ed)|(_ & Ed)]]; rewrite Ed; cbn [aw apply_act]; rewrite ?El; cbn [apply_act]; rewrite ?El; reflexivity. }
    exists bd. unfold werun. rewrite Ede. split; [exists []; constructor; exact H0|]. split; [exact Hnd|].
    destruct (both_ok (e_fault e)); [|exact T].
    exists (bs ++ [b]). apply T'. intros f' Hf'. fold n in El. rewrite El in Hf'. discriminate.
Qed.

(* the size facts of the tail writer are kept *)
Lemma index_frame_size_ge8 n : n <> 0 -> 8 <= index_frame_size n.
Proof.
  intros Hn. unfold index_frame_size. destruct (n =? 0) eqn:E; [lia|]. unfold enc_frame_size. lia.
Qed.

Lemma small_after tw ls :
  small_tw tw -> ws_index_start tw = 0 -> frames_size ls < two30 -> ls <> [] -> small_tw (l2_after tw ls).
Proof.
  intros Hs Hz Hfs Hne. destruct (Hs Hz) as (S1 & S2 & S3). intros Hi.
  cbn [l2_after ws_index_start ws_limit ws_off ws_n] in *.
  pose proof (frames_size_ge8 ls) as Hk.
  pose proof (index_frame_size_le' (ws_n tw + llen ls)) as Hi2.
  assert (Hl : 0 < llen ls) by (destruct ls; [congruence|rewrite llen_cons; lia]).
  pose proof (index_frame_size_ge8 (ws_n tw + llen ls) ltac:(lia)) as Hi3.
  assert (Hh : hdr_len tw <= 32) by (unfold hdr_len; destruct (ws_hdr tw); lia).
  assert (Hseal : l2_seal tw ls = false).
  { unfold l2_istart in Hi. destruct (l2_seal tw ls); [lia|reflexivity]. }
  unfold l2_total. rewrite Hseal. unfold l2_seal in Hseal. apply N.ltb_ge in Hseal.
  unfold two30, two32 in *.
  rewrite (N.mod_small (_ + index_frame_size _)) in Hseal by lia.
  rewrite N.mod_small in Hseal by lia.
  rewrite N.mod_small by lia.
  split; [exact S1|lia].
Qed.

(* refused without touching anything, or one commit (the closed forms of AbsFacts1.v apply) *)
Lemma seg_append_wlink c tw ls bd e r tw' e' :
  WL0 c (Some tw) bd (e_disk e) -> consec ls -> logs_ok ls ->
  (ws_index_start tw = 0 -> ws_off tw + l2_total tw ls < two32) ->
  seg_append tw ls e = (r, tw', e') ->
  wop_link0 c bd e (Some tw') e' /\
  (tw' = tw \/ (r = ROk /\ ls <> [] /\ ws_index_start tw = 0 /\ tw' = l2_after tw ls)).
Proof.
  intros H Hc Hls Hg Hs.
  destruct (seg_append_cases _ _ _ _ _ _ Hs) as [(-> & ->)|(l0 & lr & -> & E1 & E2 & E3)].
  { split; [apply wop_link0_refl; exact H|auto]. }
  rewrite (seg_append_char tw l0 lr e E1 E2 E3) in Hs. inversion Hs; subst r tw' e'. clear Hs.
  destruct H as (H0 & Hnd & info & bs & T). set (ls := l0 :: lr) in *.
  pose proof (wt_w _ _ _ _ _ _ T) as Rw.
  destruct (append_l1_char _ tw l0 lr Rw Hc E1 E2 E3) as (w1' & new & Ea & Lnew & Rw'). fold ls in Ea, Lnew, Rw'.
  assert (Hz : ws_index_start tw = 0) by (apply N.ltb_ge in E1; lia).
  destruct (wcommit_link c tw info bs bd e (OpAppend (ents ls)) ls w1' new (l2_total tw ls) (l2_batch tw ls) (l2_after tw ls))
    as (bd' & E & Hnd' & Hl); try eassumption.
  - reflexivity.
  - cbn [op_batch]. unfold ls at 1. cbn [ents map]. fold (ents lr). change (ent l0 :: ents lr) with (ents ls).
    rewrite map_snd_ents. reflexivity.
  - rewrite (sealed_l2 _ _ _ Rw'). apply len_batch_write_l2; [exact Rw|discriminate].
  - reflexivity.
  - symmetry. apply pb_of_l2_batch. exact Rw'.
  - apply Hg. exact Hz.
  - destruct (both_ok (e_fault e)).
    + destruct Hl as (bs' & Hl). split; [eapply wop_link0_tail; eauto|].
      right. split; [reflexivity|]. split; [discriminate|]. auto.
    + split; [eapply wop_link0_tail; eauto|auto].
Qed.

Lemma seg_force_seal_wlink c tw bd e r tw' e' :
  WL0 c (Some tw) bd (e_disk e) ->
  (ws_index_start tw = 0 -> ws_off tw + fs_total tw < two32) ->
  seg_force_seal tw e = (r, tw', e') ->
  wop_link0 c bd e (Some tw') e' /\ ws_name tw' = ws_name tw /\ (tw' = tw \/ 0 < ws_index_start tw').
Proof.
  intros H Hg Hs.
  destruct (seg_force_seal_cases _ _ _ _ _ Hs) as [(-> & -> & _)|(E1 & E2)].
  { split; [apply wop_link0_refl; exact H|auto]. }
  rewrite (seg_force_seal_char tw e E1 E2) in Hs. inversion Hs; subst r tw' e'. clear Hs.
  destruct H as (H0 & Hnd & info & bs & T).
  pose proof (wt_w _ _ _ _ _ _ T) as Rw.
  destruct (force_seal_l1_char _ tw Rw E1 E2) as (w1' & new & Ea & Lnew & Rw').
  assert (Hz : ws_index_start tw = 0) by (apply N.ltb_ge in E1; lia).
  assert (Hns : sealed (wst info (cstate info bs)) = false).
  { unfold sealed. rewrite <- (rw_istart _ _ Rw), Hz. reflexivity. }
  assert (Hsl : sealed w1' = true).
  { unfold sealed. rewrite <- (rw_istart _ _ Rw'). cbn [fs_after ws_index_start]. unfold fs_istart. apply N.ltb_lt. lia. }
  destruct (wcommit_link c tw info bs bd e OpSeal [] w1' new (fs_total tw) (fs_batch tw) (fs_after tw))
    as (bd' & E & Hnd' & Hl); try eassumption.
  - constructor.
  - reflexivity.
  - cbn [op_batch]. rewrite Hns, Hsl. reflexivity.
  - rewrite Hsl. apply (len_batch_write_fs info bs tw Rw E2).
  - reflexivity.
  - symmetry. apply pb_of_fs_batch. exact Rw'.
  - apply Hg. exact Hz.
  - destruct (both_ok (e_fault e)).
    + destruct Hl as (bs' & Hl). split; [eapply wop_link0_tail; eauto|]. split; [reflexivity|].
      right. cbn [fs_after ws_index_start]. unfold fs_istart. lia.
    + split; [eapply wop_link0_tail; eauto|auto].
Qed.
