(* FaultLinkFacts1.v -- one step of a history with injected faults
   (Wal/FaultHist.v) at byte level.
     *_nid              a call allocates at most two segment ids
     step_wlink         a call (not Reopen) from a linked running WAL: its
                        effective actions are a weak lock-step run, the result is
                        linked
     closed_step        a call on a WAL that is not open touches nothing
     LInv_WG            the numeric guards of WL from the live invariant
     reopen_wlink       restart / reopen: byte-level recovery of every file
                        (brestart) gives back the STRONG relation to adopt_disk,
                        then Open runs in lock step, with whatever faults *)
From RW Require Import Base.Bytes Fmt.Codec Fmt.Frame Wal.Model Wal.Spec Wal.CrashInv Wal.CrashFacts0
     Wal.CrashFacts6 Wal.CrashCalls3 Wal.CrashCalls4 Wal.FaultInv Wal.FaultSim2 Wal.FaultFacts2 Wal.FaultThm Link.Disk
     Link.ComposeFacts3 Link.ComposeFacts5 Link.ComposeFacts6 Link.FaultDisk Link.FaultDiskFacts1
     Link.FaultDiskFacts2 Link.FaultDiskFacts3 Wal.ModelFacts.
From RW Require Import Base.LiaSetup.
Open Scope N_scope.

Definition nid_step (w w' : wal) : Prop :=
  st_next_id w' = st_next_id w \/ st_next_id w' = (st_next_id w + 1) mod two64.

Lemma mutate_nid w t e r w' e' : mutate w t e = (r, w', e') -> st_next_id w' = st_next_id w \/ st_next_id w' = tx_next_id t.
Proof.
  unfold mutate. destruct (mutate_gen false w t e) as [[[r0 w0] e0] d0] eqn:E. intros [= _ <- _].
  eapply mutate_gen_nid; eauto.
Qed.

Lemma reset_first_nid c w nb e r w' e' dels : reset_first c w nb e = (r, w', e', dels) -> nid_step w w'.
Proof.
  rewrite reset_first_eq. unfold nid_step. destruct (0 <? last_index _ _); [intros [= _ <- _ _]; auto|].
  intros H. destruct (mutate_gen_nid _ _ _ _ _ _ _ _ H) as [->| ->]; [auto|].
  unfold reset_txn, create_next. destruct (tail_info _) as [t|]; [destruct (_ =? _)|]; cbn; auto.
Qed.

Lemma store_go_nid last ls w e r w' e' : store_go last ls w e = (r, w', e') -> st_next_id w' = st_next_id w.
Proof.
  unfold store_go. destruct (check_logs last ls) as [res nb]. destruct (result_ok_dec res) as [->|N]; [|rewrite (match_not_ok res _ _ N); intros [= _ <- _]; reflexivity].
  destruct (st_tail w); [|intros [= _ <- _]; reflexivity].
  destruct (seg_append _ _ _) as [[r0 tw'] e1]. destruct r0; intros [= _ <- _]; reflexivity.
Qed.

Lemma store_logs_nid c w ls e r w' e' : store_logs c w ls e = (r, w', e') -> nid_step w w'.
Proof.
  rewrite store_logs_unfold. unfold nid_step. destruct (st_closed w); [intros [= _ <- _]; auto|].
  destruct ls as [|l0 lr]; [intros [= _ <- _]; auto|]. destruct (st_failed w); [intros [= _ <- _]; auto|].
  cbn zeta. destruct (tail_info (st_segs w)); [|intros [= _ <- _]; auto].
  destruct (_ && _).
  - destruct (reset_first c w (l_index l0) e) as [[[r1 w1] e1] dels] eqn:Er.
    pose proof (reset_first_nid _ _ _ _ _ _ _ _ Er) as H1.
    destruct (result_ok_dec r1) as [->|N]; [|rewrite (match_not_ok r1 _ _ N); intros [= _ <- _]; exact H1].
    destruct (store_go _ _ w1 e1) as [[r2 w2] e2] eqn:Eg. intros [= _ <- _]. rewrite (store_go_nid _ _ _ _ _ _ _ Eg). exact H1.
  - intros H. left. eapply store_go_nid; eauto.
Qed.

Lemma delete_range_nid c w mn mx e r w' e' : delete_range c w mn mx e = (r, w', e') -> nid_step w w'.
Proof.
  unfold delete_range, nid_step. destruct (st_closed w); [intros [= _ <- _]; auto|].
  destruct (mx <? mn); [intros [= _ <- _]; auto|]. destruct (st_failed w); [intros [= _ <- _]; auto|]. cbn zeta.
  destruct (_ || _); [intros [= _ <- _]; auto|].
  destruct (mn <=? _).
  { unfold truncate_head. destruct (head_scan _ _ _ _ _) as [[[rest del] ntr] head]. destruct head.
    - intros H. destruct (mutate_nid _ _ _ _ _ _ H) as [->| ->]; auto.
    - intros H. destruct (mutate_nid _ _ _ _ _ _ H) as [->| ->]; auto. }
  destruct (_ <=? mx); [|intros [= _ <- _]; auto].
  unfold truncate_tail. destruct (tail_scan _ _ _ _ _) as [[rrest del] ntr]. destruct rrest as [|t rr].
  - intros H. destruct (mutate_nid _ _ _ _ _ _ H) as [->| ->]; auto.
  - destruct (si_sealed t).
    + intros H. destruct (mutate_nid _ _ _ _ _ _ H) as [->| ->]; auto.
    + destruct (st_tail w); [|intros [= _ <- _]; auto].
      destruct (seg_force_seal _ _) as [[r0 tw'] e1]. destruct (result_ok_dec r0) as [->|N]; [|rewrite (match_not_ok r0 _ _ N); intros [= _ <- _]; auto].
      intros H. destruct (mutate_nid _ _ _ _ _ _ H) as [->| ->]; auto.
Qed.

Lemma nid_step_le w w' : nid_step w w' -> st_next_id w + 1 < two64 -> st_next_id w' <= st_next_id w + 1.
Proof. intros [->| ->] H; [lia|]. rewrite N.mod_small by exact H. lia. Qed.

Lemma settle_wlink c s bd :
  cfg_ok c -> WL c (ss_wal s) bd (e_disk (ss_env s)) -> st_next_id (ss_wal s) + 1 < two64 ->
  wop_link c bd (ss_env s) (ss_wal (settle c s)) (ss_env (settle c s)) /\
  st_next_id (ss_wal (settle c s)) <= st_next_id (ss_wal s) + 1.
Proof.
  intros Hc HW Hn. unfold settle. destruct (st_rotate (ss_wal s)).
  - destruct (rotate c (ss_wal s) (ss_env s)) as [w' e'] eqn:E. cbn [ss_wal ss_env]. eapply rotate_wlink; eauto.
  - split; [apply wop_link_same; exact HW|lia].
Qed.

Theorem step_wlink c s o bd r s' :
  cfg_ok c -> sop_ok o -> o <> OReopen -> WL c (ss_wal s) bd (e_disk (ss_env s)) ->
  st_next_id (ss_wal s) + 2 < two64 -> step_model c s o = (r, s') ->
  wop_link c bd (ss_env s) (ss_wal s') (ss_env s') /\ st_next_id (ss_wal s') <= st_next_id (ss_wal s) + 2.
Proof.
  intros Hc Ho Hne HW Hn H.
  destruct o; cbn [step_model] in H; try congruence.
  - destruct (settle_wlink c s bd Hc HW ltac:(lia)) as (HL1 & Hn1). set (s1 := settle c s) in *.
    destruct (store_logs c (ss_wal s1) ls (ss_env s1)) as [[r0 w'] e'] eqn:Es. inversion H; subst. cbn [ss_wal ss_env].
    destruct Ho as (Hls & Hfs).
    split; [eapply wop_link_trans; [exact HL1|]; intros bd1 W1; eapply store_logs_wlink; eauto; lia|].
    pose proof (nid_step_le _ _ (store_logs_nid _ _ _ _ _ _ _ Es) ltac:(lia)). lia.
  - destruct (settle_wlink c s bd Hc HW ltac:(lia)) as (HL1 & Hn1). set (s1 := settle c s) in *.
    destruct (delete_range c (ss_wal s1) mn mx (ss_env s1)) as [[r0 w'] e'] eqn:Es. inversion H; subst. cbn [ss_wal ss_env].
    split; [eapply wop_link_trans; [exact HL1|]; intros bd1 W1; eapply delete_range_wlink; eauto; lia|].
    pose proof (nid_step_le _ _ (delete_range_nid _ _ _ _ _ _ _ _ Es) ltac:(lia)). lia.
  - destruct (get_log (ss_wal s) i (ss_env s)) as [r0 e'] eqn:Eg. inversion H; subst. cbn [ss_wal ss_env].
    split; [|lia]. assert (Ed : e_disk e' = e_disk (ss_env s)).
    { unfold get_log in Eg. destruct (st_closed (ss_wal s)); [inversion Eg; reflexivity|].
      cbn zeta in Eg. unfold inc_read, add_m in Eg.
      repeat match type of Eg with context [match ?x with _ => _ end] => destruct x end; inversion Eg; reflexivity. }
    eapply wop_link_disk_r; [symmetry; exact Ed|]. apply wop_link_same. exact HW.
  - inversion H; subst. split; [apply wop_link_same; exact HW|lia].
  - inversion H; subst. split; [apply wop_link_same; exact HW|lia].
  - destruct (set_stable (ss_wal s) k v is_nil (ss_env s)) as [r0 e'] eqn:Eg. inversion H; subst. cbn [ss_wal ss_env].
    split; [|lia].
    unfold set_stable in Eg. destruct (st_closed (ss_wal s)); [inversion Eg; subst; apply wop_link_same; exact HW|].
    cbn zeta in Eg. destruct (negb (key_ok k)).
    + inversion Eg; subst. eapply wop_link_disk_r; [|apply wop_link_same; exact HW]. reflexivity.
    + destruct (io _ _) as [ok e1] eqn:Eio. destruct HW as (HL & HG).
      assert (W1 : wop_link c bd (ss_env s) (ss_wal s) e1)
        by (apply wop_link_intro; [exact (wop_link0_meta c bd _ _ ok e1 _ Eio I HL)|exact HG]).
      destruct ok; inversion Eg; subst; exact W1.
  - destruct (get_stable (ss_wal s) k (ss_env s)) as [r0 e'] eqn:Eg. inversion H; subst. cbn [ss_wal ss_env].
    split; [|lia].
    unfold get_stable in Eg. destruct (st_closed (ss_wal s)); inversion Eg; subst; [apply wop_link_same; exact HW|].
    eapply wop_link_disk_r; [|apply wop_link_same; exact HW]. reflexivity.
Qed.

(* a call on a WAL that is not open (an earlier Open failed) touches nothing *)
Lemma closed_step c s o r s' :
  st_closed (ss_wal s) = true -> st_rotate (ss_wal s) = None -> o <> OReopen -> step_model c s o = (r, s') ->
  e_disk (ss_env s') = e_disk (ss_env s) /\ st_closed (ss_wal s') = true.
Proof.
  intros Hcl Hro Hne H. destruct s as [w e].
  destruct (FaultFacts2.closed_step c w e o Hcl Hro) as (r0 & e0 & E & Ed & _); [destruct o; try exact I; congruence|].
  rewrite E in H. inversion H; subst. auto.
Qed.

(* the numeric guards from the live invariant *)
Lemma LInv_WG c nb w d : cfg_ok c -> LInv c nb w d -> nb < two64 -> WG w /\ st_next_id w <= nb.
Proof.
  intros Hc HL Hnb. pose proof (LInv_nid _ _ _ _ HL) as Hnid.
  split; [|exact Hnid]. split; [lia|]. split; [eapply LInv_small; eauto|].
  destruct (LInv_view _ _ _ _ HL) as (S & t & f & tw & V). unfold tail_id. rewrite (lv_tail _ _ _ _ _ _ _ _ V).
  pose proof (lv_tw _ _ _ _ _ _ _ _ V) as (Hn & _). pose proof (lv_twf V) as (_ & _ & _ & _ & _ & Hi).
  rewrite Hn. exact Hi.
Qed.

Lemma adopt_NoDup d : NoDup (map fst (dk_files d)) -> NoDup (map fst (dk_files (adopt_disk d))).
Proof. intros H. cbn [adopt_disk dk_files]. rewrite map_map. cbn [fst]. exact H. Qed.

Lemma adopt_no_pend d : NoDup (map fst (dk_files d)) -> no_pend (adopt_disk d).
Proof.
  intros ND n f Hl. apply lookup_In in Hl. cbn [adopt_disk dk_files] in Hl. apply in_map_iff in Hl.
  destruct Hl as ([m g] & E & _). cbn [fst snd] in E. inversion E; subst. unfold adopt_file.
  destruct (df_pend g) eqn:Ep; [reflexivity|exact Ep].
Qed.

Lemma RD_meta_small c nb d alts defer : RD c nb d alts defer -> nb < two64 -> meta_small (adopt_disk d).
Proof.
  intros (HD & _) Hnb. pose proof (DIs_meta_small _ _ _ HD Hnb) as H. unfold meta_small in *. exact H.
Qed.

Theorem reopen_wlink c nb d alts defer bd acts f fx m res e' :
  cfg_ok c -> nb < two64 -> wdrep c bd d -> NoDup (map fst (dk_files d)) -> stale_free bd d ->
  RD c nb d alts defer ->
  open_wal c {| e_acts := acts; e_disk := adopt_disk d; e_fault := f; e_fx := fx; e_m := m |} = (res, e') ->
  drep c (brestart c bd) (adopt_disk d) /\
  exists bd', werun c (brestart c bd) {| e_acts := acts; e_disk := adopt_disk d; e_fault := f; e_fx := fx; e_m := m |} bd' e' /\
              NoDup (map fst (dk_files (e_disk e'))) /\
              match res with OOk w => wtail_linked c (st_tail w) bd' (e_disk e') | OErr _ => True end.
Proof.
  intros Hc Hnb H0 Hnd Hsf HRD Ho. pose proof (wrestart c bd d H0 Hnd Hsf) as HD.
  split; [exact HD|].
  eapply (open_wal_wlink c (brestart c bd)); [exact Hc| | | | |exact Ho]; cbn [e_disk].
  - apply drep_wdrep. exact HD.
  - apply adopt_NoDup. exact Hnd.
  - apply adopt_no_pend. exact Hnd.
  - eapply RD_meta_small; eauto.
Qed.
