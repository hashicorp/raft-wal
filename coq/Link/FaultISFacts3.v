(* FaultISFacts3.v -- the IndexStart invariant along histories with injected
   faults, and the observable results of such histories computed from bytes.
     start_facts      what a call needs at its start, from the invariant FInv
                      of fault_safety (Live mode)
     fault_step_FJ    FJH is kept by every step
     fault_hist_bytes every history has a byte-level run at whose end the WAL
                      is linked (FHL) and FJH holds
     fault_get_log    GetLog of the running process = decoding of the bytes the
                      byte-level reader returns; with fault_safety: = the entry
                      of the nominal (specification) state *)
From RW Require Import Base.Bytes Fmt.Codec Wal.Model Wal.Spec Wal.Hist Wal.FaultHist Wal.ModelFacts Wal.CrashFacts0
     Wal.CrashFacts1 Wal.CrashFacts5 Wal.CrashFacts6 Wal.FaultInv Wal.FaultFacts2 Wal.FaultStore Wal.FaultThm
     Wal.FaultCor Link.ComposeFacts6 Link.ComposeFacts7 Link.FaultDisk Link.FaultDiskFacts2
     Link.FaultLink Link.FaultLinkFacts1 Link.FaultLinkFacts2 Link.FaultLinkFacts3 Link.FaultIS
     Link.FaultISFacts1 Link.FaultISFacts2.
From RW Require Import Base.LiaSetup.
Open Scope N_scope.

Definition FJH (h : fstate) : Prop :=
  if st_closed (ss_wal (fs_s h)) then ISs' (fdisk h) (meta_segs (fdisk h)) else FJ (ss_wal (fs_s h)) (fdisk h).

(* the facts at the start of a call *)
Lemma lview_start c nb w0 w d S t f0 tw :
  lview c nb w0 (sh d) S t f0 tw ->
  st_segs w = st_segs w0 -> st_tail w = st_tail w0 -> st_next_id w = st_next_id w0 ->
  (forall f, lookup (name_of t) (dk_files d) = Some f -> df_seal f <> 0 -> df_pend f = None) ->
  ids_ok w /\ trunc_facts w d /\
  (st_rotate w = (if 0 <? df_seal f0 then Some (df_seal f0) else None) -> rot_facts w d).
Proof.
  intros V Es Et En Hcl.
  pose proof (lv_tw _ _ _ _ _ _ _ _ V) as (Hn & _ & _ & _ & _ & _ & Hix & _).
  assert (Hf0 : forall f, lookup (name_of t) (dk_files d) = Some f -> f0 = sh_file f).
  { intros f Ef. pose proof (lv_file _ _ _ _ _ _ _ _ V) as K. rewrite lookup_sh, Ef in K. inversion K. reflexivity. }
  split; [|split].
  - unfold ids_ok. rewrite Es, En, (lv_segs _ _ _ _ _ _ _ _ V).
    eapply Forall_impl; [|apply (lv_wf _ _ _ _ _ _ _ _ V)]. intros s Hs. apply Hs.
  - intros tw0 Etw _. rewrite Et, (lv_tail _ _ _ _ _ _ _ _ V) in Etw. inversion Etw; subst tw0. split.
    + intros x Hx Hxs. rewrite Es, (lv_segs _ _ _ _ _ _ _ _ V) in Hx. apply in_app_or in Hx as [Hx|[<-|[]]]; [|symmetry; exact Hn].
      pose proof (lv_sealed _ _ _ _ _ _ _ _ V) as Hso. rewrite Forall_forall in Hso. destruct (Hso x Hx) as (K & _). congruence.
    + intros Hpos f Ef. rewrite Hn in Ef. apply (Hcl f Ef). rewrite (Hf0 f Ef) in Hix. cbn in Hix. lia.
  - intros Hrot i Hi. rewrite Hrot in Hi. destruct (0 <? df_seal f0) eqn:Z; [|discriminate]. inversion Hi; subst i.
    exists tw. split; [rewrite Et; apply (lv_tail _ _ _ _ _ _ _ _ V)|]. split; [exact Hix|]. split; [lia|]. split.
    + intros t0 Ht0. rewrite Es, (lv_segs _ _ _ _ _ _ _ _ V), tail_info_app in Ht0. inversion Ht0; subst t0. symmetry. exact Hn.
    + intros f Ef. rewrite Hn in Ef. apply (Hcl f Ef). rewrite (Hf0 f Ef) in Z. cbn in Z. lia.
Qed.

Lemma start_facts c nb w d nom defer :
  Mode c nb w d nom defer -> st_closed w = false -> st_failed w = false ->
  ids_ok w /\ rot_facts w d /\ trunc_facts w d.
Proof.
  intros [(A & _)|(_ & [((HL & Hst) & _)|(A & _)])] Hcl Hfa; try congruence.
  (* Live *)
  - destruct (LInv_view _ _ _ _ HL) as (S & t & f0 & tw & V).
    destruct (lview_start c nb w w d S t f0 tw V eq_refl eq_refl eq_refl) as (H1 & H2 & H3).
    + intros f Ef Hse. destruct (df_pend f) as [p|] eqn:Ep; [|reflexivity]. exfalso.
      destruct (Hst _ _ _ Ef Ep) as [(t2 & Ht2 & _ & (Hz & _))|K]; [congruence|].
      apply (K (persistent w) t (live_meta _ _ _ _ HL)); [|reflexivity].
      cbn [persistent ps_segs]. rewrite (lv_segs _ _ _ _ _ _ _ _ V). apply in_or_app. right. left. reflexivity.
    + split; [exact H1|]. split; [apply H3; apply (lv_rot _ _ _ _ _ _ _ _ V)|exact H2].
Qed.

(* the reopen hypotheses, from the structural invariant of the adopted disk *)
Lemma RD_open_facts c nb d alts defer :
  RD c nb d alts defer -> names_sep (meta_segs (adopt_disk d)) /\ dids_ok (adopt_disk d).
Proof.
  intros (HD & _). unfold meta_segs, dids_ok. change (dk_meta (adopt_disk d)) with (dk_meta (ad d)).
  destruct (dk_meta (ad d)) as [ps|] eqn:Hm; [|split; [intros s u []|exact I]].
  destruct (DIs_segs _ _ _ _ HD Hm) as (S & t & Hs).
  destruct (DIs_parts _ _ _ _ _ _ HD Hm Hs) as (_ & _ & _ & Hwf & _ & Hso & (Hu & _)).
  split.
  - intros s u Hin Hiu Hss Hus. rewrite Hs in Hin, Hiu.
    apply in_app_or in Hin as [Hin|[<-|[]]]; [|congruence].
    apply in_app_or in Hiu as [Hiu|[<-|[]]].
    + rewrite Forall_forall in Hso. destruct (Hso u Hiu) as (K & _). congruence.
    + eapply DIs_sealed_neq; eauto.
  - rewrite Hs. eapply Forall_impl; [|exact Hwf]. intros s Hsw. apply Hsw.
Qed.

Lemma failed_store_same c w ls e r w' e' :
  st_failed w = true -> store_logs c w ls e = (r, w', e') -> w' = w /\ e' = e.
Proof.
  intros Hf. unfold store_logs. destruct (st_closed w); [intros [= _ <- <-]; auto|].
  destruct ls; [intros [= _ <- <-]; auto|]. rewrite Hf. intros [= _ <- <-]; auto.
Qed.

Lemma failed_delete_same c w mn mx e r w' e' :
  st_failed w = true -> delete_range c w mn mx e = (r, w', e') -> w' = w /\ e' = e.
Proof.
  intros Hf. unfold delete_range. destruct (st_closed w); [intros [= _ <- <-]; auto|].
  destruct (mx <? mn); [intros [= _ <- <-]; auto|]. rewrite Hf. intros [= _ <- <-]; auto.
Qed.

Lemma FJ_files w d d' : dk_files d' = dk_files d -> dk_meta d' = dk_meta d -> FJ w d -> FJ w d'.
Proof. intros Ef Em H. unfold FJ in *. rewrite (meta_segs_files _ _ Em). eapply ISs'_files; eauto. Qed.

Lemma trunc_facts_files w d d' : dk_files d' = dk_files d -> trunc_facts w d -> trunc_facts w d'.
Proof. intros Ef H tw Et Hc. rewrite Ef. apply (H tw Et Hc). Qed.

Lemma trunc_facts_new w d si : st_tail w = Some (new_wseg si) -> trunc_facts w d.
Proof. intros Et tw Etw [K|K]; rewrite Et in Etw; inversion Etw; subst tw; cbn in K; [discriminate|lia]. Qed.

Theorem step_FJ c nb s o bd r s' nom defer :
  cfg_ok c -> sop_ok o -> o <> OReopen ->
  WL c (ss_wal s) bd (e_disk (ss_env s)) -> st_next_id (ss_wal s) + 2 < two64 ->
  Mode c nb (ss_wal s) (e_disk (ss_env s)) nom defer -> st_closed (ss_wal s) = false ->
  FJ (ss_wal s) (e_disk (ss_env s)) ->
  step_model c s o = (r, s') -> FJ (ss_wal s') (e_disk (ss_env s')).
Proof.
  intros Hc Ho Hne HW Hn HM Hcl HJ H.
  pose proof (WL_NoDup _ _ _ _ HW) as ND.
  (* both mutating calls first settle a pending rotation (awaitRotationLocked), which can fail: they
     start from a failed WAL and do nothing, or from a healthy one with the start facts re-established *)
  assert (Hmid : forall (k : wal -> env -> Prop),
            (* what the mutating operation k does from the settled state *)
            (forall w1 e1, st_failed w1 = true -> FJ w1 (e_disk e1) -> k w1 e1) ->
            (forall w1 bd1 e1, WL c w1 bd1 (e_disk e1) -> st_next_id w1 + 1 < two64 -> FJ w1 (e_disk e1) -> ids_ok w1 ->
                               trunc_facts w1 (e_disk e1) -> k w1 e1) ->
            k (ss_wal (settle c s)) (ss_env (settle c s))).
  { intros k Kfail Kok.
    destruct (st_failed (ss_wal s)) eqn:Efa.
    - assert (Hro : st_rotate (ss_wal s) = None).
      { destruct HM as [(A & _)|(_ & [((HL & _) & _)|(_ & A & _)])]; try congruence.
        destruct HL as (_ & K & _). congruence. }
      unfold settle. rewrite Hro. apply Kfail; assumption.
    - (* only a WAL that has not failed is Live and has the start facts; the memory of a failed one may
         lag behind the metadata, which is why FJ speaks of both lists *)
      destruct (start_facts c nb _ _ nom defer HM Hcl Efa) as (Hids & Hrf & Htf).
      destruct (settle_wlink c s bd Hc HW ltac:(lia)) as ((bd1 & _ & HW1) & Hn1).
      unfold settle in *. destruct (st_rotate (ss_wal s)) eqn:Er.
      + destruct (rotate c (ss_wal s) (ss_env s)) as [w1 e1] eqn:Erot. cbn [ss_wal ss_env] in *.
        destruct (rotate_FJ c _ _ w1 e1 ND HJ Hids Hrf (WL_tail_agree _ _ _ _ HW) ltac:(lia) Erot) as (HJ1 & ND1 & _ & Hcase).
        destruct Hcase as [(A & B & C & [D|(D1 & D2)])|(Hids1 & si & Et1)].
        * apply Kfail; assumption.
        * apply (Kok w1 bd1 e1 HW1 ltac:(lia) HJ1).
          -- unfold ids_ok in *. rewrite A, C. exact Hids.
          -- intros tw Etw Hc'. rewrite B in Etw. rewrite D1. rewrite A. apply (Htf tw Etw Hc').
        * apply (Kok w1 bd1 e1 HW1 ltac:(lia) HJ1 Hids1). eapply trunc_facts_new; eauto.
      + apply (Kok _ bd1 _ HW1 ltac:(lia) HJ Hids Htf). }
  destruct o; cbn [step_model] in H; try congruence.
  - set (s1 := settle c s) in *. destruct (store_logs c (ss_wal s1) ls (ss_env s1)) as [[r0 w'] e'] eqn:Es.
    inversion H; subst. cbn [ss_wal ss_env]. revert Es.
    apply (Hmid (fun w1 e1 => store_logs c w1 ls e1 = (r, w', e') -> FJ w' (e_disk e'))).
    + intros w1 e1 Hf1 HJ1 Es. destruct (failed_store_same _ _ _ _ _ _ _ Hf1 Es) as (-> & ->). exact HJ1.
    + intros w1 bd1 e1 HW1 Hn1 HJ1 Hids1 _ Es. eapply store_logs_FJ; eauto.
  - set (s1 := settle c s) in *. destruct (delete_range c (ss_wal s1) mn mx (ss_env s1)) as [[r0 w'] e'] eqn:Es.
    inversion H; subst. cbn [ss_wal ss_env]. revert Es.
    apply (Hmid (fun w1 e1 => delete_range c w1 mn mx e1 = (r, w', e') -> FJ w' (e_disk e'))).
    + intros w1 e1 Hf1 HJ1 Es. destruct (failed_delete_same _ _ _ _ _ _ _ _ Hf1 Es) as (-> & ->). exact HJ1.
    + intros w1 bd1 e1 HW1 Hn1 HJ1 Hids1 Htf1 Es. eapply delete_range_FJ; eauto.
  - destruct (get_log (ss_wal s) i (ss_env s)) as [r0 e'] eqn:Eg. inversion H; subst. cbn [ss_wal ss_env].
    destruct (get_log_env _ _ _ _ _ Eg) as [m ->]. exact HJ.
  - destruct (set_stable (ss_wal s) k v is_nil (ss_env s)) as [r0 e'] eqn:Eg. inversion H; subst. cbn [ss_wal ss_env].
    unfold set_stable in Eg. destruct (st_closed (ss_wal s)); [inversion Eg; subst; exact HJ|].
    cbn zeta in Eg. destruct (negb (key_ok k)); [inversion Eg; subst; exact HJ|].
    destruct (io _ _) as [ok e1] eqn:Eio.
    assert (Hx : FJ (ss_wal s) (e_disk e1)).
    { destruct (io_cases3 _ _ _ _ Eio) as [(_ & Ed)|[(_ & Ed)|(_ & _ & Ed)]]; rewrite Ed; [|exact HJ|];
        (eapply FJ_files; [| |exact HJ]; reflexivity). }
    destruct ok; inversion Eg; subst; exact Hx.
  - destruct (get_stable (ss_wal s) k (ss_env s)) as [r0 e'] eqn:Eg. inversion H; subst. cbn [ss_wal ss_env].
    unfold get_stable in Eg. destruct (st_closed (ss_wal s)); inversion Eg; subst; exact HJ.
Qed.

Lemma sop_eq_reopen o : {o = OReopen} + {o <> OReopen}.
Proof. destruct o; try (right; discriminate). left. reflexivity. Qed.

Lemma FJH_disk h : FJH h -> ISs' (fdisk h) (meta_segs (fdisk h)).
Proof. unfold FJH. destruct (st_closed _); [auto|]. intros H. apply ISs'_app in H. apply H. Qed.

Theorem fault_step_FJ c nb h st bd :
  cfg_ok c -> fstep_wf st -> nb + 2 < two64 -> FInv c nb h -> FHL c nb h bd -> FJH h ->
  FJH (fstep_run c h st).
Proof.
  intros Hc Hwf Hnb HF HL HJ.
  assert (Hre : forall f fx, FJH {| fs_s := snd (step_model c (reopen_in h f fx) OReopen); fs_nom := fs_nom h;
                                     fs_alts := fs_alts h; fs_defer := fs_defer h; fs_ok := true |}).
  { intros f fx. destruct (FHL_wdrep _ _ _ _ HL) as (_ & ND).
    pose proof HF as (_ & _ & _ & _ & _ & _ & HRD & _).
    destruct (RD_open_facts _ _ _ _ _ HRD) as (Hsep & Hdid).
    destruct (reopen_step c nb h f fx Hc Hnb HF) as (r & s1 & Hst & Hcase).
    change {| ss_wal := ss_wal (fs_s h); ss_env := _ |} with (reopen_in h f fx) in Hst. rewrite Hst. cbn [snd].
    cbn [step_model reopen_in ss_env ss_wal] in Hst.
    destruct (open_wal c (adopted_env h f fx)) as [res e'] eqn:Eo.
    destruct (open_wal_FJ c (adopted_env h f fx) res e') as (_ & Hres); cbn [adopted_env e_disk]; auto.
    - apply adopt_NoDup. exact ND.
    - apply adopt_no_pend. exact ND.
    - change (meta_segs (adopt_disk (fdisk h))) with (meta_segs (fdisk h)). apply ISs'_adopt; [exact ND|apply FJH_disk; exact HJ].
    - unfold FJH, fdisk; cbn [fs_s]. destruct res as [w'|x]; injection Hst as <- <-; cbn [ss_wal ss_env close st_closed]; [|exact Hres].
      destruct Hcase as [(_ & Hcl & _)|(Hr & _)]; [cbn [ss_wal] in Hcl; rewrite Hcl; exact Hres|congruence]. }
  destruct st as [f fx o|].
  - destruct (sop_eq_reopen o) as [->|Hne].
    + unfold FJH, fdisk. rewrite freopen_s. cbn [with_fault ss_wal ss_env e_disk]. apply (Hre f fx).
    + rewrite fstep_run_other by exact Hne. unfold FJH, fdisk in *. rewrite fop_run_s.
      destruct (step_model c (with_fault (fs_s h) f fx) o) as [r s1] eqn:Es. cbn [snd with_fault ss_wal ss_env e_disk].
      unfold FHL, fdisk in HL. pose proof HF as (_ & _ & _ & _ & _ & _ & _ & HM).
      destruct (st_closed (ss_wal (fs_s h))) eqn:Ecl.
      * assert (Hro : st_rotate (ss_wal (fs_s h)) = None).
        { destruct HM as [(_ & Hr)|(Hc' & _)]; [exact Hr|congruence]. }
        destruct (FaultLinkFacts1.closed_step c (with_fault (fs_s h) f fx) o r s1 Ecl Hro Hne Es) as (Ed & Hcl').
        rewrite Hcl'. cbn [with_fault ss_env e_disk] in Ed. rewrite Ed. exact HJ.
      * destruct HL as (HW & Hnid).
        pose proof (step_FJ c nb (with_fault (fs_s h) f fx) o bd r s1 (fs_nom h) (fs_defer h) Hc Hwf Hne HW
                      ltac:(cbn [with_fault ss_wal]; lia) HM Ecl HJ Es) as HJ1.
        destruct (st_closed (ss_wal s1)); [|exact HJ1]. apply ISs'_app in HJ1. apply HJ1.
  - unfold FJH, fdisk. rewrite frestart_s. apply (Hre None fx_none).
Qed.

Lemma FJH_init c s0 : initial c = Some s0 -> FJH (fault_init s0).
Proof.
  intros Hi. unfold initial in Hi. destruct (open_wal c fresh_env) as [res e'] eqn:Eo.
  destruct res as [w|x]; [|discriminate]. inversion Hi; subst s0. clear Hi.
  destruct (open_wal_FJ c fresh_env (OOk w) e') as (_ & Hres); cbn [fresh_env e_disk empty_disk dk_files dk_meta]; auto.
  - constructor.
  - intros n f H. discriminate.
  - constructor.
  - intros s u [].
  - exact I.
  - unfold FJH, fault_init, fdisk. cbn [fs_s ss_wal ss_env]. destruct (st_closed w); [|exact Hres].
    apply ISs'_app in Hres. apply Hres.
Qed.

(* Every history with injected faults, at byte level: a byte-level run exists
   (given restarts_clean); at its end the WAL is linked to the byte disk (FHL),
   the invariant of fault_safety holds (FInv), and every sealed segment records
   the index start of its file (FJH). *)
Theorem fault_hist_bytes c steps s0 :
  cfg_ok c -> Forall fstep_wf steps -> short_enough steps -> initial c = Some s0 ->
  exists bd0, FHL c 1 (fault_init s0) bd0 /\
    (restarts_clean c (fault_init s0) bd0 steps ->
     let h := fault_run c (fault_init s0) steps in
     let nb := 1 + 2 * N.of_nat (length steps) in
     exists bd, fbrun c (fault_init s0) bd0 steps h bd /\ FHL c nb h bd /\ FInv c nb h /\ FJH h).
Proof.
  intros Hc Hwf Hshort Hi. destruct (FHL_init c s0 Hi Hc) as (bd0 & HL0). exists bd0. split; [exact HL0|].
  intros Hrc h nb.
  apply (fault_hist_gen c FJH Hc (fun nb h st bd => fault_step_FJ c nb h st bd Hc) steps 1 (fault_init s0) bd0 Hwf); auto.
  - unfold short_enough in Hshort. unfold two64. lia.
  - apply FInv_init; assumption.
  - apply FJH_init with c. exact Hi.
Qed.

(* the observable results, from bytes *)
Lemma RV_seg_meta c nb w d nom : RV c nb w d nom -> FJ w d -> seg_meta_ok w d /\ (forall tw, st_tail w = Some tw -> 1 <= ws_base tw).
Proof.
  intros HRV HJ. destruct (RV_view _ _ _ _ _ HRV) as (wc & dc & S & t & f0 & tw & RVw & _ & _).
  pose proof (rv_view _ _ _ _ _ _ _ _ _ _ RVw) as V.
  pose proof (lv_tw _ _ _ _ _ _ _ _ V) as (Hn & Hb & _).
  pose proof (lv_twf V) as (_ & _ & Hb1 & _).
  split.
  - intros s Hin. rewrite (rv_segs _ _ _ _ _ _ _ _ _ _ RVw) in Hin.
    split; [eapply LInv_base_le_min; [apply (LInv_of_view V)|exact Hin]|].
    intros f Ef Hnt. rewrite (lv_segs _ _ _ _ _ _ _ _ V) in Hin. apply in_app_or in Hin as [Hin|[<-|[]]].
    + pose proof (lv_sealed _ _ _ _ _ _ _ _ V) as Hso. rewrite Forall_forall in Hso. destruct (Hso s Hin) as (Hse & _).
      apply FJ_mem in HJ. unfold ISs' in HJ. rewrite Forall_forall in HJ.
      assert (Hin' : In s (st_segs w)).
      { rewrite (rv_segs _ _ _ _ _ _ _ _ _ _ RVw), (lv_segs _ _ _ _ _ _ _ _ V). apply in_or_app. left. exact Hin. }
      destruct (HJ s Hin' Hse f Ef) as (A & B & C). unfold cur_seal. rewrite C. auto.
    + exfalso. apply (Hnt tw); [rewrite (rv_tail _ _ _ _ _ _ _ _ _ _ RVw); apply (lv_tail _ _ _ _ _ _ _ _ V)|exact Hn].
  - intros tw0 Et. rewrite (rv_tail _ _ _ _ _ _ _ _ _ _ RVw), (lv_tail _ _ _ _ _ _ _ _ V) in Et. inversion Et; subst tw0.
    rewrite Hb. exact Hb1.
Qed.

(* GetLog of the running process, from bytes, in any state of a history with
   injected faults that satisfies the invariants (every state of every history
   does: fault_hist_bytes) *)
Theorem fault_get_log c nb h bd idx l e' :
  FInv c nb h -> FHL c nb h bd -> FJH h -> st_closed (ss_wal (fs_s h)) = false ->
  get_log (ss_wal (fs_s h)) idx (ss_env (fs_s h)) = (RLog l, e') ->
  exists p, wbread c (ss_wal (fs_s h)) bd (fdisk h) idx p /\ decode_log p = Some l.
Proof.
  intros (_ & _ & _ & _ & _ & _ & _ & HM) HL HJ Hcl H. unfold FHL, FJH in *. rewrite Hcl in HL, HJ.
  destruct HL as (HW & _).
  destruct (RV_seg_meta c nb _ _ _ (Mode_RV _ _ _ _ _ _ HM Hcl) HJ) as (Hmeta & Hbase).
  eapply wget_log_link; eauto.
Qed.

(* ... and with fault_safety: whatever entry the NOMINAL state (the calls that
   returned nil applied, those that returned an error not) holds at index i is
   the decoding of the bytes the byte-level reader returns *)
Theorem fault_nominal_bytes c nb h bd i l :
  cfg_ok c -> nb + 2 < two64 -> FInv c nb h -> FHL c nb h bd -> FJH h -> st_closed (ss_wal (fs_s h)) = false ->
  i < two64 -> spec_get (sp_log (fs_nom h)) i = Some l ->
  exists p, wbread c (ss_wal (fs_s h)) bd (fdisk h) i p /\ decode_log p = Some l.
Proof.
  intros Hc Hnb HF HL HJ Hcl Hi Hsp.
  pose proof (FInv_getlog c nb h i Hc Hnb HF Hcl Hi) as Hres. cbn [step_spec] in Hres. rewrite Hsp in Hres. cbn [fst] in Hres.
  destruct (get_log (ss_wal (fs_s h)) i (ss_env (fs_s h))) as [r e'] eqn:Eg. cbn [fst] in Hres.
  apply res_class_log in Hres. subst r. eapply fault_get_log; eauto.
Qed.
