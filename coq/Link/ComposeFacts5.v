(* ComposeFacts5.v -- Open in lock step: open_segs (Filer.Open of the sealed
   segments, RecoverTail or re-creation of the tail), open_wal (metadata
   initialisation, completion of an interrupted rotation, garbage deletion).
   The byte-level RecoverTail of a file without a write in flight writes
   nothing (seg_recover_link), so there is no byte-level action to match. *)
From RW Require Import Base.Bytes Fmt.Frame Seg.RecoverFacts Wal.Model Wal.Spec Wal.CrashInv Wal.CrashFacts4
     Link.AbsFacts1 Link.AbsFacts2 Link.Disk Link.Compose Link.ComposeFacts1 Link.ComposeFacts2
     Link.ComposeFacts3 Gen.Constants Wal.ModelFacts.
From RW Require Import Base.LiaSetup.
Open Scope N_scope.

Definition name_small (s : seginfo) : Prop := si_base s < two64 /\ si_id s < two64.

(* the persisted metadata names files with 64-bit components *)
Definition meta_small (d : disk) : Prop :=
  match dk_meta d with
  | Some ps => ps_next_id ps < two64 /\ Forall name_small (ps_segs ps)
  | None => True
  end.

Lemma open_segs_link c segs acc bd e r segs' tail e1 :
  cfg_ok c -> L0 c None bd e -> no_pend (e_disk e) -> Forall name_small segs ->
  open_segs c segs acc e = (r, segs', tail, e1) -> op_link0 c bd e tail e1.
Proof.
  intros Hc HL Hnp Hsm H.
  destruct (open_segs_cases _ _ _ _ _ _ _ _ H)
    as (_ & [(-> & ->)|(si & Hin & _ & Ecod & [(f & El & -> & ->)|(El & sw & Es & ->)])]).
  - apply op_link0_refl. exact HL.
  - destruct (seg_recover_link c si bd e f (proj1 HL) Ecod El (Hnp _ _ El)) as (_ & bs & bf & T & _).
    apply op_link0_refl. destruct HL as (A & B & C & _). repeat split; try assumption. exists si, bs. exact T.
  - assert (Hh : hdr_wf (finfo c (name_of si))).
    { destruct Hc as (_ & Hcod & _). destruct (proj1 (Forall_forall _ _) Hsm si Hin) as (Hb & Hi).
      unfold hdr_wf, finfo, name_of, new_segment. cbn. auto. }
    pose proof (seg_create_link c si bd e sw e1 None HL Ecod Hh Es) as E2.
    destruct sw as [sw|]; [rewrite (seg_create_some _ _ _ _ Es)|]; exact E2.
Qed.

Lemma open_newtail_link c nid0 segs garbage bd e res e' :
  cfg_ok c -> L0 c None bd e -> nid0 < two64 ->
  open_newtail c nid0 segs garbage e = (res, e') ->
  match res with
  | OOk w => op_link c bd e w e' /\ small_tail (st_tail w)
  | OErr _ => op_link0 c bd e None e'
  end.
Proof.
  intros Hc HL Hid H. unfold open_newtail in H. cbn zeta in H.
  set (base := match tail_info segs with Some t => (si_max t + 1) mod two64 | None => 1 end) in *.
  set (si := new_segment c nid0 base) in *.
  rewrite (io_nofault _ _ (proj1 (proj2 (proj2 HL)))) in H. cbn [negb] in H.
  match type of H with context [io_ok e ?a] => set (e1 := io_ok e a) in * end.
  assert (Hbase : base < two64).
  { unfold base. destruct (tail_info segs); [apply N.mod_lt; unfold two64; lia|unfold two64; lia]. }
  assert (Hh : hdr_wf (finfo c (name_of si))).
  { destruct Hc as (_ & Hcod & _). unfold hdr_wf, finfo, name_of, si, new_segment. cbn. auto. }
  destruct (seg_create si e1) as [sw e2] eqn:Es.
  assert (E2 : op_link0 c bd e (match sw with Some _ => Some (new_wseg si) | None => None end) e2).
  { apply (op_link0_trans c bd e None e1); [apply op_link0_meta; [exact I|exact HL]|]. intros bd1 H1.
    eapply seg_create_link; eauto. }
  destruct sw as [sw|]; [|inversion H; subst; exact E2].
  pose proof (seg_create_some _ _ _ _ Es) as ->. inversion H; subst. split.
  - apply op_link_intro; [|cbn [st_next_id]; apply N.mod_lt; unfold two64; lia].
    eapply op_link0_trans; [exact E2|]. intros bd2. apply delete_files_link.
  - cbn [st_tail small_tail]. intros _. cbn [new_wseg si new_segment ws_limit ws_off ws_n si_size_limit].
    destruct Hc as (_ & _ & _ & Hsz).
    assert (c_seg_size c mod two32 < two30) by (rewrite N.mod_small; [exact Hsz|unfold two30, two32 in *; lia]).
    lia.
Qed.

Theorem open_wal_link c bd e res e' :
  cfg_ok c -> drep c bd (e_disk e) -> NoDup (map fst (dk_files (e_disk e))) -> e_fault e = None ->
  no_pend (e_disk e) -> meta_small (e_disk e) ->
  open_wal c e = (res, e') ->
  exists bd', erun c bd e bd' e' /\
              match res with OOk w => wlink c w bd' (e_disk e') | OErr _ => True end.
Proof.
  intros Hc H0 Hnd Hf Hnp Hms H. rewrite open_wal_unfold in H.
  assert (HL : L0 c None bd e) by (repeat split; assumption).
  (* what is to be shown, from either form of result *)
  assert (Hend : forall t, match res with OOk w => op_link c bd e w e' | OErr _ => op_link0 c bd e t e' end ->
            exists bd', erun c bd e bd' e' /\ match res with OOk w => wlink c w bd' (e_disk e') | OErr _ => True end).
  { intros t X. destruct res; destruct X as (bd' & E & W); exists bd'; auto. }
  destruct (negb (FirstExternalCodecID <=? c_codec c) && negb (c_codec c =? BinaryCodecID)).
  { inversion H; subst. apply (Hend None), op_link0_refl, HL. }
  (* after the (optional) initialisation of the metadata database *)
  assert (Hrest : forall e0,
            op_link0 c bd e None e0 -> no_pend (e_disk e0) -> meta_small (e_disk e0) -> open_rest c e0 = (res, e') ->
            exists bd', erun c bd e bd' e' /\
                        match res with OOk w => wlink c w bd' (e_disk e') | OErr _ => True end).
  { intros e0 E0 Hnp0 Hms0 Hr. unfold open_rest in Hr. cbn zeta in Hr.
    set (ps := match dk_meta (e_disk e0) with Some ps => ps | None => {| ps_next_id := 0; ps_segs := [] |} end) in *.
    assert (Hps : ps_next_id ps < two64 /\ Forall name_small (ps_segs ps)).
    { unfold ps, meta_small in *. destruct (dk_meta (e_disk e0)); [exact Hms0|]. cbn. split; [unfold two64; lia|constructor]. }
    destruct Hps as [Hpid Hpsm].
    destruct (open_segs c (ps_segs ps) [] e0) as [[[r segs] tail] e1] eqn:Eo.
    assert (E1 : op_link0 c bd e tail e1).
    { eapply op_link0_trans; [exact E0|]. intros bd0 HL0. eapply open_segs_link; eauto. }
    destruct (result_ok_dec r) as [->|N]; [|rewrite (match_not_ok r _ _ N) in Hr; inversion Hr; subst; apply (Hend tail); exact E1].
    destruct tail as [tw|].
    - inversion Hr; subst. apply (Hend None). apply op_link_intro; [|exact Hpid].
      eapply op_link0_trans; [exact E1|]. intros bd1. apply delete_files_link.
    - apply (Hend None). destruct E1 as (bd1 & E1 & HL1).
      pose proof (open_newtail_link c _ _ _ bd1 e1 res e' Hc HL1 Hpid Hr) as X.
      destruct res as [w|x]; [destruct X as ((bd2 & E2 & W) & _)|destruct X as (bd2 & E2 & W)];
        exists bd2; (split; [eapply erun_trans; eauto|exact W]). }
  destruct (dk_inited (e_disk e)).
  - cbn [negb] in H. unfold armed in H. rewrite Hf in H. cbn [andb] in H.
    apply (Hrest e); auto. apply op_link0_refl, HL.
  - rewrite (io_nofault _ _ Hf) in H. cbn [negb] in H.
    unfold armed in H. rewrite (io_ok_fault _ _ Hf) in H. cbn [andb] in H.
    apply (Hrest (io_ok e AInitMeta)); auto. apply op_link0_meta; [exact I|exact HL].
Qed.
