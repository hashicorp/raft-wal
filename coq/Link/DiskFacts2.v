(* DiskFacts2.v -- the directory level of the link, part 2: POWER LOSS.
   bcrash_sound: for every outcome of the byte-level crash adversary on a byte
     disk that is drep-related to an L2 disk d (every file independently: a
     non-durable directory entry kept or dropped, the write in flight torn per
     8-byte chunk) there is an L2 crash choice cc such that, after RecoverTail
     (recoverTailState + zeroStaleTail), the byte disk is drep-related to
     [crash_disk cc d];
   bcrash_tight: every L2 crash choice is realised by a byte-level outcome;
   bcrash_file_sound: the same per file with everything recovery returns (the
     recovered byte writer is represented by the writer L2's seg_recover
     builds; before zeroStaleTail the file is "image, then leftovers").
   Files without a write in flight are not changed by RecoverTail. *)
From RW Require Import Base.Bytes Base.BytesFacts Fmt.FrameFacts Seg.Writer Seg.Recover Seg.SegAbs
     Seg.WriterFacts Seg.RecoverFacts Wal.Model Wal.Spec Wal.CrashFacts0 Link.Abs Link.AbsFacts2
     Link.AbsFacts3 Link.Disk Link.DiskFacts1 Wal.ModelFacts.
From RW Require Import Base.LiaSetup.
Open Scope N_scope.

(* the file a power loss leaves when the directory entry survives *)
Definition bkept (s : bytes) : bfile := {| bf_data := s; bf_sync := s; bf_pend := []; bf_dir := true |}.

Lemma logs_ok_encs_ok' ls : Forall log_ok ls -> encs_ok ls.
Proof. apply logs_ok_encs_ok. Qed.

(* RecoverTail on "image, then anything" *)
(* bf: a file with nothing unsynced whose content is the image of bs, then x *)
Lemma bscrub_file_clean info bs x bf :
  bf_data bf = image info bs ++ x -> bf_sync bf = bf_data bf -> bf_pend bf = [] ->
  recover_state info (image info bs ++ x) = Some (wst info (cstate info bs)) ->
  let bf' := bscrub_file info bf in
  bf_data bf' = image info bs ++ zeros (length x) /\ bf_sync bf' = bf_data bf' /\
  bf_pend bf' = [] /\ bf_dir bf' = bf_dir bf.
Proof.
  intros Hd Hs Hp Hr. cbn zeta. unfold bscrub_file, recover_tail. rewrite Hd, Hr.
  change (w_off (wst info (cstate info bs))) with (len (image info bs)).
  pose proof (recover_leaves_zero_tail (image info bs) x) as Hz.
  destruct (scrub_actions (image info bs ++ x) (len (image info bs))) as [|a0 ar] eqn:Ea.
  - cbn in Hz. rewrite Hs, Hd. auto.
  - cbn [bf_data bf_sync bf_pend bf_dir]. auto.
Qed.

Lemma bscrub_file_char info bs x :
  recover_state info (image info bs ++ x) = Some (wst info (cstate info bs)) ->
  let bf' := bscrub_file info (bkept (image info bs ++ x)) in
  bf_data bf' = image info bs ++ zeros (length x) /\ bf_sync bf' = bf_data bf' /\
  bf_pend bf' = [] /\ bf_dir bf' = true.
Proof. apply (bscrub_file_clean info bs x (bkept _)); reflexivity. Qed.

Lemma frep_scrubbed info bs x f' :
  rep info bs f' -> Forall log_ok (cur_ents f') -> len (image info bs) < two32 -> df_dir f' = true ->
  recover_state info (image info bs ++ x) = Some (wst info (cstate info bs)) ->
  frep_at info bs None (bscrub_file info (bkept (image info bs ++ x))) f'.
Proof.
  intros R Hok Hlen Hd Hr. destruct (bscrub_file_char info bs x Hr) as (A & B & C & D).
  constructor; cbn [opt_batch].
  - exact R.
  - exact Hok.
  - rewrite app_nil_r. exact Hlen.
  - rewrite B, A. eexists. reflexivity.
  - exact C.
  - unfold bf_wf. rewrite C, B. reflexivity.
  - rewrite D, Hd. reflexivity.
Qed.

(* one file, nothing in flight *)
Lemma frep_chain info bs pb bf f :
  frep_at info bs pb bf f -> chain_wf info c0 (bs ++ opt_batch pb).
Proof.
  intros [A B C _ _ _ _]. destruct pb as [b|]; cbn [opt_batch] in *.
  - eapply chain_wf_cur; [apply rep_p_cur_rep; exact A|apply logs_ok_encs_ok'; exact B|exact C].
  - rewrite app_nil_r in *. eapply chain_wf_cur; [apply rep_cur_rep; exact A|apply logs_ok_encs_ok'; exact B|exact C].
Qed.

Lemma crashed_none keep f : df_pend f = None -> cur_ents (crashed keep f) = cur_ents f.
Proof. intros H. unfold crashed, cur_ents. rewrite H. reflexivity. Qed.

Lemma frep_crash_clean info bs bf f keep :
  hdr_wf info -> frep_at info bs None bf f ->
  frep_at info bs None (bscrub_file info (bkept (bf_sync bf))) (crashed keep f) /\
  recover_state info (bf_sync bf) = Some (wst info (cstate info bs)) /\
  bf_data (bscrub_file info (bkept (bf_sync bf))) = bf_sync bf.
Proof.
  intros Hh R. pose proof (frep_chain _ _ _ _ _ R) as Hwf. cbn [opt_batch] in Hwf. rewrite app_nil_r in Hwf.
  destruct R as [A B C [k D] E F G]. cbn [opt_batch] in *. rewrite app_nil_r in C.
  pose proof (recover_complete info bs k Hh Hwf) as Hr. rewrite D.
  pose proof (rep_pend _ _ _ A) as Hp.
  split; [|split; [exact Hr|]].
  - apply frep_scrubbed; auto.
    + apply rep_crashed_none. exact A.
    + rewrite (crashed_none _ _ Hp). exact B.
    + unfold crashed. rewrite Hp. reflexivity.
  - destruct (bscrub_file_char info bs (zeros k) Hr) as (A' & _). cbn zeta in A'. rewrite A', zeros_length. reflexivity.
Qed.

(* one file, a torn write in flight *)
Lemma frep_crash_torn info bs b bf f T :
  let new := batch_write info (cstate info bs) b in
  let keep := beq_bytes T new in
  let bs' := if keep then bs ++ [b] else bs in
  let s' := overwrite (bf_sync bf) (N.to_nat (len (image info bs))) T in
  hdr_wf info -> frep_at info bs (Some b) bf f -> torn new T -> no_torn_collision new T ->
  frep_at info bs' None (bscrub_file info (bkept s')) (crashed keep f) /\
  recover_state info s' = Some (wst info (cstate info bs')) /\
  (exists junk, s' = image info bs' ++ junk) /\
  rep_w (wst info (cstate info bs')) (recw info (crashed keep f)).
Proof.
  intros new keep bs' s' Hh R HT Hnc.
  pose proof (frep_chain _ _ _ _ _ R) as Hwf. cbn [opt_batch] in Hwf.
  destruct R as [A B C [k D] E F G]. cbn [opt_batch] in *.
  assert (Es : s' = image info bs ++ T ++ zeros (k - length T)).
  { unfold s'. rewrite D, to_nat_len, overwrite_app, skipn_zeros. reflexivity. }
  pose proof (seg_recover_torn info bs b T (k - length T) Hh Hwf HT Hnc) as Hr. cbn zeta in Hr.
  fold new keep in Hr. change (c_img (cstate info bs)) with (image info bs) in Hr. rewrite <- Es in Hr.
  replace (if keep then _ else _) with (wst info (cstate info bs')) in Hr
    by (unfold bs'; destruct keep; [rewrite cstate_snoc|]; reflexivity).
  (* what is left is the image of bs', then leftovers *)
  assert (Ex : exists x, s' = image info bs' ++ x).
  { unfold bs'. destruct keep eqn:Ek; [|eexists; exact Es]. apply beq_bytes_eq in Ek.
    exists (zeros (k - length T)). rewrite image_snoc, <- app_assoc. fold new. rewrite <- Ek. exact Es. }
  destruct Ex as (x & Ex).
  pose proof (rep_crashed info bs b f keep A) as R'. fold bs' in R'.
  assert (Hd : df_dir (crashed keep f) = true).
  { destruct A as (_ & pb & Hp & _). unfold crashed. rewrite Hp. destruct keep; reflexivity. }
  assert (Hok : Forall log_ok (cur_ents (crashed keep f))).
  { destruct A as (_ & pb & Hp & _). unfold crashed, cur_ents in *. rewrite Hp in *.
    destruct keep; cbn [synced df_pend df_ents]; [exact B|]. apply Forall_app in B. apply B. }
  assert (Hl : len (image info bs') < two32).
  { unfold bs'. destruct keep; [exact C|apply (len_image_snoc_lt _ _ _ C)]. }
  split; [rewrite Ex in Hr |- *; apply frep_scrubbed; auto|].
  split; [exact Hr|]. split; [exists x; exact Ex|].
  apply rep_w_recw, rep_cur_rep. exact R'.
Qed.

(* the outcomes of the adversary on a file that satisfies frep_at *)
Lemma torn_apply_one s off new s' :
  torn_apply s [(off, new)] s' ->
  exists T, torn_over (region s (N.to_nat off) (length new)) new T /\ no_torn_collision new T /\
            s' = overwrite s (N.to_nat off) T.
Proof.
  intros H. inversion H as [|? ? ? T ? ? HT Hnc Hr]; subst. inversion Hr; subst. exists T. auto.
Qed.

(* PER FILE.  Whatever the adversary leaves of a file (that survives), there is
   a decision keep such that: byte-level recovery of what is left returns the
   writer of bs' = the committed batches, plus the one in flight iff keep; L2's
   crashed file [crashed keep f] represents bs' and yields, by seg_recover, a
   writer representing the recovered byte writer; what is left is "image of
   bs', then leftovers", and RecoverTail re-establishes frep. *)
Theorem bcrash_file_sound info bs pb bf f s' :
  hdr_wf info -> frep_at info bs pb bf f -> torn_apply (bf_sync bf) (bf_pend bf) s' ->
  exists keep : bool,
    let bs' := if keep then bs ++ opt_batch pb else bs in
    (pb = None -> s' = bf_sync bf /\ bf_data (bscrub_file info (bkept s')) = s') /\
    frep_at info bs' None (bscrub_file info (bkept s')) (crashed keep f) /\
    recover_state info s' = Some (wst info (cstate info bs')) /\
    (exists junk, s' = image info bs' ++ junk) /\
    rep_w (wst info (cstate info bs')) (recw info (crashed keep f)).
Proof.
  intros Hh R Ht. destruct pb as [b|].
  - rewrite (fr_pend _ _ _ _ _ R) in Ht. destruct (torn_apply_one _ _ _ _ Ht) as (T & HT & Hnc & ->).
    destruct (fr_sync _ _ _ _ _ R) as [k D]. rewrite D, to_nat_len, region_zeros in HT. apply torn_over_zeros in HT.
    exists (beq_bytes T (batch_write info (cstate info bs) b)).
    destruct (frep_crash_torn info bs b bf f T Hh R HT Hnc) as (P1 & P2 & P3 & P4).
    cbn [opt_batch]. split; [discriminate|]. auto.
  - rewrite (fr_pend _ _ _ _ _ R) in Ht. inversion Ht; subst. exists true. cbn [opt_batch]. rewrite app_nil_r.
    destruct (frep_crash_clean info bs bf f true Hh R) as (P1 & P2 & P3).
    split; [auto|]. split; [exact P1|]. split; [exact P2|].
    split; [destruct (fr_sync _ _ _ _ _ R) as [k D]; eexists; exact D|].
    apply rep_w_recw, rep_cur_rep. apply (fr_rep _ _ _ _ _ P1).
Qed.

Lemma crash_file_cong cc cc' n f :
  mem_name n (cc_keep_file cc) = mem_name n (cc_keep_file cc') ->
  mem_name n (cc_keep_batch cc) = mem_name n (cc_keep_batch cc') ->
  crash_file cc (n, f) = crash_file cc' (n, f).
Proof. intros H1 H2. unfold crash_file. rewrite H1, H2. reflexivity. Qed.

Lemma flat_crash_cong cc cc' fs :
  (forall n, In n (map fst fs) -> mem_name n (cc_keep_file cc) = mem_name n (cc_keep_file cc') /\
                                  mem_name n (cc_keep_batch cc) = mem_name n (cc_keep_batch cc')) ->
  flat_map (crash_file cc) fs = flat_map (crash_file cc') fs.
Proof.
  induction fs as [|[n f] r IH]; intros H; [reflexivity|]. cbn [flat_map]. f_equal.
  - destruct (H n) as [H1 H2]; [left; reflexivity|]. apply crash_file_cong; assumption.
  - apply IH. intros m Hm. apply H. right. exact Hm.
Qed.

Lemma mem_name_cons m n l : mem_name m (n :: l) = fname_eqb m n || mem_name m l.
Proof. reflexivity. Qed.

Lemma frel_one c n bf f bs :
  hdr_wf (finfo c n) -> frep_at (finfo c n) bs None bf f -> frel c [(n, bf)] [(n, f)].
Proof.
  intros Hh R. constructor; [|constructor]. cbn [fst snd]. split; [reflexivity|]. split; [exact Hh|].
  exists bs, None. exact R.
Qed.

(* one entry of the directory: the crash choice bits that match a byte-level outcome *)
Lemma bcrash_entry c n bf f l :
  hdr_wf (finfo c n) -> frep (finfo c n) bf f -> bcrash_file (n, bf) l ->
  exists kf kb : bool, forall cc,
    mem_name n (cc_keep_file cc) = kf -> mem_name n (cc_keep_batch cc) = kb ->
    frel c (bscrub c l) (crash_file cc (n, f)).
Proof.
  intros Hh (bs & pb & R) Hc. inversion Hc as [? ? Hd|? ? s' Ht]; subst.
  - exists false, false. intros cc H1 _. unfold crash_file.
    rewrite <- (fr_dir _ _ _ _ _ R), Hd, H1. constructor.
  - destruct (bcrash_file_sound _ _ _ _ _ _ Hh R Ht) as (keep & _ & R' & _).
    exists true, keep. intros cc H1 H2. rewrite crash_file_char by (right; exact H1). rewrite H2.
    exact (frel_one _ _ _ _ _ Hh R').
Qed.

Lemma frel_app c a b x y : frel c a x -> frel c b y -> frel c (a ++ b) (x ++ y).
Proof. apply Forall2_app. Qed.

Lemma bscrub_app c a b : bscrub c (a ++ b) = bscrub c a ++ bscrub c b.
Proof. apply map_app. Qed.

Lemma bcrash_sound_gen c bd fs :
  frel c bd fs -> NoDup (map fst fs) -> forall bd', bcrash bd bd' ->
  exists cc,
    (forall m, ~ In m (map fst fs) -> mem_name m (cc_keep_file cc) = false /\ mem_name m (cc_keep_batch cc) = false) /\
    frel c (bscrub c bd') (flat_map (crash_file cc) fs).
Proof.
  intros H. induction H as [|[m bf] [n f] bd fs (Hn & Hh & Hf) Hr IH]; intros Hnd bd' Hc.
  - inversion Hc; subst. exists {| cc_keep_file := []; cc_keep_batch := [] |}. split; [auto|constructor].
  - cbn [fst snd] in *. subst m. inversion Hc as [|? l r r' Hc1 Hc2]; subst.
    cbn [map fst] in Hnd. inversion Hnd as [|? ? Hni Hnd']; subst.
    destruct (IH Hnd' _ Hc2) as (cc0 & Hout & Hrel).
    destruct (bcrash_entry c n bf f l Hh Hf Hc1) as (kf & kb & Hent).
    set (cc := {| cc_keep_file := if kf then n :: cc_keep_file cc0 else cc_keep_file cc0;
                  cc_keep_batch := if kb then n :: cc_keep_batch cc0 else cc_keep_batch cc0 |}).
    destruct (Hout n Hni) as [Hn1 Hn2].
    assert (Hm : forall m, m <> n -> mem_name m (cc_keep_file cc) = mem_name m (cc_keep_file cc0) /\
                                     mem_name m (cc_keep_batch cc) = mem_name m (cc_keep_batch cc0)).
    { intros m Hne. apply fname_eqb_neq in Hne. unfold cc. cbn [cc_keep_file cc_keep_batch].
      destruct kf, kb; rewrite ?mem_name_cons, ?Hne; auto. }
    exists cc. split.
    + intros m Hm'. cbn [map fst] in Hm'. assert (Hne : m <> n) by (intros ->; apply Hm'; left; reflexivity).
      destruct (Hm m Hne) as [-> ->]. apply Hout. intros Hi. apply Hm'. right. exact Hi.
    + cbn [flat_map]. rewrite bscrub_app. apply frel_app.
      * apply Hent; unfold cc; cbn [cc_keep_file cc_keep_batch].
        -- destruct kf; [rewrite mem_name_cons, fname_eqb_refl; reflexivity|exact Hn1].
        -- destruct kb; [rewrite mem_name_cons, fname_eqb_refl; reflexivity|exact Hn2].
      * rewrite (flat_crash_cong cc cc0); [exact Hrel|].
        intros m Hi. apply Hm. intros ->. contradiction.
Qed.

(* Disk-level crash soundness *)
Theorem bcrash_sound c bd d bd' :
  drep c bd d -> NoDup (map fst (dk_files d)) -> bcrash bd bd' ->
  exists cc, drep c (bscrub c bd') (crash_disk cc d).
Proof.
  intros H Hnd Hc. destruct (bcrash_sound_gen c bd (dk_files d) H Hnd bd' Hc) as (cc & _ & Hr).
  exists cc. exact Hr.
Qed.

(* ... and every L2 crash choice is the outcome of a byte-level crash *)
Lemma bcrash_entry_tight c cc n bf f :
  hdr_wf (finfo c n) -> frep (finfo c n) bf f ->
  exists l, bcrash_file (n, bf) l /\ frel c (bscrub c l) (crash_file cc (n, f)).
Proof.
  intros Hh (bs & pb & R).
  destruct (negb (df_dir f) && negb (mem_name n (cc_keep_file cc))) eqn:Ed.
  - exists []. split.
    + apply andb_true_iff in Ed as [Ed _]. apply negb_true_iff in Ed.
      apply bcf_drop. rewrite (fr_dir _ _ _ _ _ R). exact Ed.
    + unfold crash_file. rewrite Ed. constructor.
  - assert (Hs : df_dir f = true \/ mem_name n (cc_keep_file cc) = true).
    { apply andb_false_iff in Ed as [Ed|Ed]; apply negb_false_iff in Ed; auto. }
    rewrite (crash_file_char _ _ _ Hs). set (keep := mem_name n (cc_keep_batch cc)).
    destruct pb as [b|].
    + set (new := batch_write (finfo c n) (cstate (finfo c n) bs) b).
      destruct (crash_file_tight (finfo c n) (cstate (finfo c n) bs) b keep) as (T & HT & Hnc & Hk). fold new in HT, Hnc, Hk.
      destruct (fr_sync _ _ _ _ _ R) as [k D].
      exists [(n, bkept (overwrite (bf_sync bf) (N.to_nat (len (image (finfo c n) bs))) T))]. split.
      * apply bcf_keep. rewrite (fr_pend _ _ _ _ _ R). fold new. econstructor; [|exact Hnc|constructor].
        rewrite D, to_nat_len, region_zeros. apply torn_torn_over. exact HT.
      * destruct (frep_crash_torn _ bs b bf f T Hh R HT Hnc) as (P1 & _). fold new in P1. rewrite Hk in P1.
        exact (frel_one _ _ _ _ _ Hh P1).
    + exists [(n, bkept (bf_sync bf))]. split.
      * apply bcf_keep. rewrite (fr_pend _ _ _ _ _ R). constructor.
      * destruct (frep_crash_clean _ bs bf f keep Hh R) as (P1 & _).
        exact (frel_one _ _ _ _ _ Hh P1).
Qed.

Theorem bcrash_tight c bd d cc :
  drep c bd d -> exists bd', bcrash bd bd' /\ drep c (bscrub c bd') (crash_disk cc d).
Proof.
  unfold drep. cbn [crash_disk dk_files]. generalize (dk_files d). intros fs H.
  induction H as [|[m bf] [n f] bd fs (Hn & Hh & Hf) Hr IH].
  - exists []. split; constructor.
  - cbn [fst snd] in *. subst m. destruct IH as (r' & Hc & Hrel).
    destruct (bcrash_entry_tight c cc n bf f Hh Hf) as (l & Hl & Hlr).
    exists (l ++ r'). split; [constructor; assumption|].
    cbn [flat_map]. rewrite bscrub_app. apply frel_app; assumption.
Qed.

(* RecoverTail does not change a file that had no write in flight: after a
   crash only the files with a torn write are touched by bscrub *)
Theorem bscrub_clean info bs bf f :
  hdr_wf info -> frep_at info bs None bf f ->
  bf_data (bscrub_file info (bkept (bf_sync bf))) = bf_sync bf /\ bf_data bf = bf_sync bf.
Proof.
  intros Hh R. destruct (frep_crash_clean info bs bf f true Hh R) as (_ & _ & P). split; [exact P|].
  rewrite (fr_wf _ _ _ _ _ R), (fr_pend _ _ _ _ _ R). reflexivity.
Qed.
