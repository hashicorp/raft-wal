(* DiskFacts3.v -- the directory level of the link, part 3: what the per-file
   link left open about restarts without power loss and failed fsyncs.
   (a) adopt_disk (a process restart: what was written but never fsynced is
       still in the page cache and is adopted by the next recovery).  Its
       byte-level counterpart forgets that the bytes were not synced -- this is
       L2's modelling decision, mirrored, not a fact about disks.  frep/drep are
       preserved; byte-level recovery of the adopted file returns the writer
       seg_recover builds and RecoverTail writes nothing.  After adoption the
       next AWrite is an ordinary write at the synced end (bwrite_drep).
   (b) the branch of apply_act that EXTENDS a pending batch (write at pb_end of
       a batch that is still pending, i.e. without adopt_disk in between): the
       merged batch stands for two L1 batches; content and fsync agree with the
       bytes.  (The all-or-nothing crash of the merged batch is weaker than
       tearing: see Props/Link.v Link_ex_merged_crash.)
   (c) a FAILED fsync: the writers are rolled back (.._sim_faults), the bytes
       stay in the file and in L2's df_pend; frep_at still holds (with the batch
       pending).  The retry writes at the same offset: L2 replaces the pending
       batch, the bytes overwrite the old ones.  If the new write is at least as
       long, "image, then zeros" holds again; if it is shorter, the rest of the
       old write stays behind the image until it is overwritten or zeroed. *)
From RW Require Import Base.Bytes Fmt.FrameFacts Seg.Recover Seg.SegAbs Seg.WriterFacts Seg.RecoverFacts
     Wal.Model Wal.Spec Link.Abs Link.AbsFacts2 Link.Disk Link.DiskFacts1 Link.DiskFacts2.
From RW Require Import Base.LiaSetup.
Open Scope N_scope.

(* (a) restart without power loss *)
Definition badopt_file (bf : bfile) : bfile :=
  {| bf_data := bf_data bf; bf_sync := bf_data bf; bf_pend := []; bf_dir := bf_dir bf |}.
Definition badopt (bd : bdisk) : bdisk := map (fun nf => (fst nf, badopt_file (snd nf))) bd.

Lemma cur_ents_adopt f : cur_ents (adopt_file f) = cur_ents f.
Proof. unfold adopt_file. destruct (df_pend f) eqn:E; unfold cur_ents; cbn [df_pend df_ents]; rewrite ?E; reflexivity. Qed.

Lemma frep_adopt info bs pb bf f :
  frep_at info bs pb bf f -> frep_at info (bs ++ opt_batch pb) None (badopt_file bf) (adopt_file f).
Proof.
  intros R. pose proof (frep_sync _ _ _ _ _ R) as [A B C D E F G].
  pose proof (fr_dir _ _ _ _ _ R) as Hd.
  constructor; cbn [opt_batch badopt_file bf_sync bf_pend bf_dir bf_data] in *.
  - destruct R as [A' _ _ _ _ _ _]. destruct pb as [b|]; cbn [opt_batch] in *.
    + destruct A' as (R0 & p & Hp & Hb). unfold adopt_file. rewrite Hp.
      eapply rep_ext; [exact (rep_synced _ _ _ _ _ R0 Hb)|reflexivity..].
    + rewrite app_nil_r. unfold adopt_file. rewrite (rep_pend _ _ _ A'). exact A'.
  - rewrite cur_ents_adopt. rewrite cur_ents_crashed_true in B. exact B.
  - exact C.
  - exact D.
  - reflexivity.
  - reflexivity.
  - rewrite Hd. unfold adopt_file. destruct (df_pend f); reflexivity.
Qed.

Theorem drep_adopt c bd d : drep c bd d -> drep c (badopt bd) (adopt_disk d).
Proof.
  unfold drep. cbn [adopt_disk dk_files]. generalize (dk_files d). intros fs H.
  induction H as [|[m bf] [n f] bd fs (Hn & Hh & bs & pb & R) _ IH]; cbn [badopt map]; [constructor|].
  constructor; [|exact IH]. cbn [fst snd] in *. split; [exact Hn|]. split; [exact Hh|].
  eexists. exists None. apply frep_adopt. exact R.
Qed.

(* recovery after the restart: the byte-level writer recovered from the file
   (pending bytes included) is represented by the writer seg_recover builds,
   and zeroStaleTail has nothing to do *)
Theorem restart_recover info bs pb bf f e :
  hdr_wf info -> frep_at info bs pb bf f ->
  lookup (name_of info) (dk_files (e_disk e)) = Some (adopt_file f) ->
  let bs' := bs ++ opt_batch pb in
  recover_state info (bf_data bf) = Some (wst info (cstate info bs')) /\
  seg_recover info e = Some (Some (recw info (adopt_file f))) /\
  rep_w (wst info (cstate info bs')) (recw info (adopt_file f)) /\
  bf_data (bscrub_file info (bkept (bf_data bf))) = bf_data bf.
Proof.
  intros Hh R Hl bs'. pose proof (frep_adopt _ _ _ _ _ R) as Ra. fold bs' in Ra.
  destruct (frep_crash_clean info bs' (badopt_file bf) (adopt_file f) true Hh Ra) as (_ & P2 & P3).
  cbn [badopt_file bf_sync] in P2, P3.
  split; [exact P2|]. split; [apply seg_recover_char; exact Hl|]. split; [|exact P3].
  apply rep_w_recw, rep_cur_rep. apply (fr_rep _ _ _ _ _ Ra).
Qed.

(* (b) a write that extends a pending batch *)
Definition merged (p q : pbatch) : pbatch :=
  {| pb_ents := pb_ents p ++ pb_ents q; pb_end := pb_end q; pb_seal := pb_seal q |}.

Lemma apply_extend_files d n l p q f :
  lookup n (dk_files d) = Some f -> df_pend f = Some p ->
  dk_files (apply_act d (AWrite n (pb_end p) l q)) = update n (written f (merged p q)) (dk_files d).
Proof. intros H Hp. cbn [apply_act]. rewrite H, Hp, N.eqb_refl. reflexivity. Qed.

(* f has b1 pending (pbatch p); the batch b2 is written right behind it.  L2's
   merged pending batch stands for the two L1 batches: the content a reader or a
   restarted process sees is that of bs ++ [b1; b2], the bytes are its image
   followed by zeros, and an fsync commits both on both sides. *)
Theorem frep_extend info bs b1 b2 bf f p q :
  let s1 := cstate info (bs ++ [b1]) in
  let new2 := batch_write info s1 b2 in
  let bf2 := bwrite_file bf (len (image info (bs ++ [b1]))) new2 in
  let f2 := written f (merged p q) in
  frep_at info bs (Some b1) bf f -> df_pend f = Some p ->
  rep_b info (bs ++ [b1]) b2 q -> Forall log_ok (pb_ents q) ->
  len (image info (bs ++ [b1; b2])) < two32 ->
  cur_rep info (bs ++ [b1; b2]) f2 /\
  (exists k, bf_data bf2 = image info (bs ++ [b1; b2]) ++ zeros k) /\
  frep_at info (bs ++ [b1; b2]) None (bsync_file bf2) (crashed true f2).
Proof.
  intros s1 new2 bf2 f2 R Hp (Hq1 & Hq2 & Hq3) Hok Hlen.
  destruct (frep_at_data _ _ _ _ _ R) as [k1 D1]. cbn [opt_batch] in D1.
  destruct R as [A B C [k D] E F G]. cbn [opt_batch] in *.
  destruct A as (R0 & p' & Hp' & Hb1 & Hb2 & Hb3). rewrite Hp in Hp'. inversion Hp'; subst p'.
  destruct R0 as [R1 R2 R3 R4]. cbn [unpend df_ents df_end df_seal df_pend] in *.
  replace (bs ++ [b1; b2]) with ((bs ++ [b1]) ++ [b2]) in * by (rewrite <- app_assoc; reflexivity).
  assert (Hc : cur_rep info ((bs ++ [b1]) ++ [b2]) f2).
  { unfold cur_rep, cur_ents, cur_end, cur_seal, f2. cbn [written merged df_pend df_ents pb_ents pb_end pb_seal].
    split; [|split; assumption]. rewrite !pls_snoc, !map_app, Hb1, Hq1, R1, app_assoc. reflexivity. }
  assert (Hd : exists k', bf_data bf2 = image info ((bs ++ [b1]) ++ [b2]) ++ zeros k').
  { unfold bf2, bwrite_file, pwrite. cbn [bf_data fst snd]. rewrite D1, to_nat_len, overwrite_app, skipn_zeros, app_assoc.
    rewrite (image_snoc info (bs ++ [b1]) b2). fold s1 new2. eexists. reflexivity. }
  split; [exact Hc|]. split; [exact Hd|].
  destruct Hd as [k' Hd]. destruct Hc as (Hc1 & Hc2 & Hc3).
  constructor; cbn [opt_batch bsync_file bf_sync bf_pend bf_dir bf_data]; try reflexivity.
  - unfold f2, crashed. cbn [written df_pend synced merged pb_ents pb_end pb_seal df_ents df_size].
    constructor; cbn [df_ents df_end df_seal df_pend]; auto.
  - rewrite cur_ents_crashed_true. unfold f2, cur_ents. cbn [written df_pend merged pb_ents df_ents].
    rewrite app_assoc. apply Forall_app. split; [|exact Hok]. unfold cur_ents in B. rewrite Hp in B. exact B.
  - rewrite app_nil_r. exact Hlen.
  - exists k'. exact Hd.
Qed.

(* (c) a failed fsync, then the retry *)
(* after "write ok, fsync failed" both sides hold the batch as pending: this IS
   frep_at _ bs (Some b1) (bwrite_drep, first conjunct), and the writers are
   rolled back to the ones of bs (Link_append_sim_faults).  The next operation
   writes at the same offset. *)
Lemma apply_replace_files d n off l p q f :
  lookup n (dk_files d) = Some f -> df_pend f = Some p -> off <> pb_end p ->
  dk_files (apply_act d (AWrite n off l q)) = update n (written f q) (dk_files d).
Proof.
  intros H Hp Hne. cbn [apply_act]. rewrite H, Hp.
  replace (off =? pb_end p) with false by (symmetry; apply N.eqb_neq; exact Hne). reflexivity.
Qed.

Lemma batch_write_pos info s b : 0 < len (batch_write info s b).
Proof. rewrite len_batch_write. lia. Qed.

Theorem frep_retry info bs b1 b2 bf f p q :
  let s := cstate info bs in
  let off := len (image info bs) in
  let new1 := batch_write info s b1 in
  let new2 := batch_write info s b2 in
  let bf2 := bwrite_file bf off new2 in
  let f2 := written f q in
  frep_at info bs (Some b1) bf f -> df_pend f = Some p ->
  rep_b info bs b2 q -> Forall log_ok (pb_ents q) -> len (image info (bs ++ [b2])) < two32 ->
  (* L2 replaces the pending batch (the write is not at pb_end p) *)
  off <> pb_end p /\
  (* L2: the file represents bs with b2 pending; after the fsync bs ++ [b2] *)
  rep_p info bs b2 f2 /\ rep info (bs ++ [b2]) (crashed true f2) /\
  (* bytes: the image of bs ++ [b2], then what is left of the failed write, then zeros *)
  (exists k, bf_data bf2 = image info (bs ++ [b2]) ++ skipn (length new2) new1 ++ zeros k) /\
  (* a retry at least as long as the failed write re-establishes the link *)
  (len new1 <= len new2 ->
   exists k, bf_data bf2 = image info (bs ++ [b2]) ++ zeros k /\
             frep_at info (bs ++ [b2]) None (bsync_file bf2) (crashed true f2)).
Proof.
  intros s off new1 new2 bf2 f2 R Hp Hq Hok Hlen.
  destruct R as [A B C [k D] E F G]. cbn [opt_batch] in *.
  destruct A as (R0 & p' & Hp' & Hb1 & Hb2 & Hb3). rewrite Hp in Hp'. inversion Hp'; subst p'.
  assert (Hne : off <> pb_end p).
  { rewrite Hb2, image_snoc, len_app. pose proof (batch_write_pos info (cstate info bs) b1). unfold off. lia. }
  assert (Rp : rep_p info bs b2 f2).
  { split; [exact R0|]. exists q. split; [reflexivity|exact Hq]. }
  assert (Hdata : bf_data bf = image info bs ++ new1 ++ zeros (k - length new1)).
  { unfold bf_wf in F. rewrite F, D, E. cbn [pwrites fold_left]. unfold pwrite. cbn [fst snd].
    rewrite to_nat_len, overwrite_app, skipn_zeros. reflexivity. }
  assert (Hd2 : bf_data bf2 = image info (bs ++ [b2]) ++ skipn (length new2) (new1 ++ zeros (k - length new1))).
  { unfold bf2, bwrite_file, pwrite. cbn [bf_data fst snd]. rewrite Hdata. unfold off.
    rewrite to_nat_len, overwrite_app, app_assoc, image_snoc. reflexivity. }
  split; [exact Hne|]. split; [exact Rp|]. split; [apply (rep_crashed info bs b2 f2 true Rp)|]. split.
  - rewrite Hd2. rewrite skipn_app, skipn_zeros. eexists. reflexivity.
  - intros Hle. assert (Hz : exists k', skipn (length new2) (new1 ++ zeros (k - length new1)) = zeros k').
    { rewrite skipn_app. rewrite (skipn_all2 new1) by (unfold len in Hle; lia). rewrite skipn_zeros. eexists. reflexivity. }
    destruct Hz as [k' Hz]. rewrite Hz in Hd2. exists k'. split; [exact Hd2|].
    constructor; cbn [opt_batch bsync_file bf_sync bf_pend bf_dir bf_data]; try reflexivity.
    + apply (rep_crashed info bs b2 f2 true Rp).
    + rewrite cur_ents_crashed_true. unfold f2, cur_ents. cbn [written df_pend df_ents].
      apply Forall_app. split; [|exact Hok]. unfold cur_ents in B. rewrite Hp in B. apply Forall_app in B. apply B.
    + rewrite app_nil_r. exact Hlen.
    + exists k'. exact Hd2.
Qed.
