(* AbsFacts2.v -- files: the abstract file of Wal/Model.v represents the byte
   image of Seg/SegAbs.v
     - across one commit (write, then fsync) of the writer: commit_rep,
       append_sim_rep, force_seal_sim_rep;
     - across recovery of a cleanly synced file: recover_sim;
     - across a crash with a written-but-unsynced batch: crash_file_sound
       (every torn byte image is recovered as one of the two outcomes L2's
       crash_file offers) and crash_file_tight (both outcomes are produced by
       some torn byte image). *)
From RW Require Import Base.Bytes Base.BytesFacts Base.Crc32c Fmt.Frame Fmt.FrameFacts Seg.Writer
     Seg.Recover Seg.SegAbs Seg.WriterFacts Seg.ScanFacts Seg.RecoverFacts Seg.ChainFacts Seg.ReaderFacts
     Wal.Model Wal.CrashFacts0 Link.Abs Link.AbsFacts1 Gen.Constants Wal.ModelFacts.
From RW Require Import Base.LiaSetup.
Open Scope N_scope.

Lemma pls_payloads bs : pls bs = payloads bs.
Proof. reflexivity. Qed.

Lemma pls_snoc bs b : pls (bs ++ [b]) = pls bs ++ fst b.
Proof. apply payloads_snoc. Qed.

Lemma batches_wf_pls bs : batches_wf bs <-> Forall wf_bytes (pls bs).
Proof.
  unfold batches_wf, pls. induction bs as [|b r IH]; cbn [flat_map].
  - split; constructor.
  - rewrite Forall_app. split.
    + intros H. inversion H; subst. split; [assumption|apply IH; assumption].
    + intros [H1 H2]. constructor; [assumption|apply IH; assumption].
Qed.

Lemma encs_ok_wf ls : encs_ok ls -> Forall wf_bytes (map enc ls).
Proof. intros H. rewrite Forall_map. eapply Forall_impl; [|exact H]. intros l [Hl _]. exact Hl. Qed.

Lemma encs_ok_max ls : encs_ok ls -> Forall (fun p => len p <= MaxEntrySize) (map enc ls).
Proof. intros H. rewrite Forall_map. eapply Forall_impl; [|exact H]. intros l [_ Hl]. exact Hl. Qed.

Lemma image_snoc info bs b :
  image info (bs ++ [b]) = image info bs ++ batch_write info (cstate info bs) b.
Proof. unfold image. rewrite cstate_snoc. reflexivity. Qed.

Lemma len_image_snoc_lt info bs b : len (image info (bs ++ [b])) < two32 -> len (image info bs) < two32.
Proof. rewrite image_snoc, len_app. lia. Qed.

(* rep, from the fields it looks at *)
(* the file after the write of pb, and after its fsync *)
Definition written (f : dfile) (pb : pbatch) : dfile :=
  {| df_ents := df_ents f; df_end := df_end f; df_seal := df_seal f; df_pend := Some pb;
     df_dir := df_dir f; df_size := df_size f |}.
Definition synced (f : dfile) (pb : pbatch) : dfile :=
  {| df_ents := df_ents f ++ pb_ents pb; df_end := pb_end pb; df_seal := pb_seal pb; df_pend := None;
     df_dir := true; df_size := df_size f |}.

Lemma rep_ext info bs f f' :
  rep info bs f -> df_ents f' = df_ents f -> df_end f' = df_end f -> df_seal f' = df_seal f ->
  df_pend f' = None -> rep info bs f'.
Proof. intros [A B C _] E1 E2 E3 E4. constructor; congruence. Qed.

(* the fsync of the pending batch *)
Lemma rep_synced info bs b f pb :
  rep info bs (unpend f) -> rep_b info bs b pb -> rep info (bs ++ [b]) (synced f pb).
Proof.
  intros [A B C _] (H1 & H2 & H3). constructor; cbn [synced df_ents df_end df_seal df_pend]; auto.
  rewrite pls_snoc, map_app, H1. f_equal. exact A.
Qed.

(* representation of the current content *)
(* what a reader / a restarted process sees: pending batch included *)
Definition cur_rep (info : seginfo) (bs : list batch) (f : dfile) : Prop :=
  pls bs = map enc (cur_ents f) /\ cur_end f = len (image info bs) /\
  cur_seal f = c_istart (cstate info bs).

Lemma rep_cur_rep info bs f : rep info bs f -> cur_rep info bs f.
Proof.
  intros R. unfold cur_rep, cur_ents, cur_end, cur_seal. rewrite (rep_pend _ _ _ R).
  split; [apply R|]. split; apply R.
Qed.

Lemma rep_p_cur_rep info bs b f : rep_p info bs b f -> cur_rep info (bs ++ [b]) f.
Proof.
  intros (R & pb & Hp & Hb1 & Hb2 & Hb3). unfold cur_rep, cur_ents, cur_end, cur_seal. rewrite Hp.
  split; [|split; assumption].
  rewrite pls_snoc, map_app, Hb1. f_equal. apply (rep_ents _ _ _ R).
Qed.

(* the writer seg_recover builds from a file *)
Definition recw (info : seginfo) (f : dfile) : wseg :=
  {| ws_name := name_of info; ws_base := si_base info; ws_min := si_min info;
     ws_limit := si_size_limit info; ws_n := llen (cur_ents f); ws_off := cur_end f;
     ws_hdr := (cur_end f =? 0); ws_index_start := cur_seal f;
     ws_commit_idx := if llen (cur_ents f) =? 0 then 0 else si_base info + llen (cur_ents f) - 1 |}.

Lemma seg_recover_char info e f :
  lookup (name_of info) (dk_files (e_disk e)) = Some f -> seg_recover info e = Some (Some (recw info f)).
Proof. intros H. unfold seg_recover. rewrite H. reflexivity. Qed.

Lemma seg_recover_missing info e :
  lookup (name_of info) (dk_files (e_disk e)) = None -> seg_recover info e = None.
Proof. intros H. unfold seg_recover. rewrite H. reflexivity. Qed.

(* open_segs reads the listed files; it touches the disk only to re-create a missing
   file of the last, unsealed segment.  The list it returns holds segments it was
   given and, for an interrupted rotation, the sealed successor of the last. *)
Lemma open_segs_cases c segs : forall acc e r segs' tail e1,
  open_segs c segs acc e = (r, segs', tail, e1) ->
  (r = ROk -> forall x, In x segs' -> In x acc \/ In x segs \/
     exists si f, In si segs /\ si_sealed si = false /\ lookup (name_of si) (dk_files (e_disk e)) = Some f /\
       0 < cur_seal f /\ e1 = e /\ name_of x = name_of si /\ si_id x = si_id si /\ si_index_start x = cur_seal f) /\
  ((e1 = e /\ tail = None) \/
   exists si, In si segs /\ si_sealed si = false /\ si_codec si = c_codec c /\
     ((exists f, lookup (name_of si) (dk_files (e_disk e)) = Some f /\ e1 = e /\ tail = Some (recw si f)) \/
      (lookup (name_of si) (dk_files (e_disk e)) = None /\ exists sw, seg_create si e = (sw, e1) /\ tail = sw))).
Proof.
  induction segs as [|si rest IH]; intros acc e r segs' tail e1; cbn [open_segs].
  { intros [= _ <- <- <-]. split; [|auto]. intros _ x Hx. rewrite rev_append_rev, app_nil_r in Hx. left. apply in_rev, Hx. }
  assert (Hlast : forall x s, In x (rev_append acc [s]) -> In x acc \/ x = s).
  { intros x s Hx. rewrite rev_append_rev in Hx. apply in_app_or in Hx as [Hx|[<-|[]]]; [left; apply in_rev, Hx|auto]. }
  match goal with |- _ -> ?C =>
    assert (Hstop : forall r0 l, r0 <> ROk -> (r0, l, @None wseg, e) = (r, segs', tail, e1) -> C) end.
  { intros r0 l Hr [= <- _ <- <-]. split; [congruence|auto]. }
  destruct (si_codec si =? c_codec c) eqn:Ecod; cbn [negb]; [|apply Hstop; discriminate].
  apply N.eqb_eq in Ecod. destruct (si_sealed si) eqn:Ese; cbn [negb].
  - destruct (lookup (name_of si) (dk_files (e_disk e))) as [f|]; [|apply Hstop; discriminate].
    destruct (cur_end f =? 0); [apply Hstop; discriminate|].
    intros Ho. destruct (IH _ _ _ _ _ _ Ho) as (Hs & Hc). split.
    + intros Hr x Hx. destruct (Hs Hr x Hx) as [[<-|Hx1]|[Hx1|(s2 & f2 & Hin & K)]];
        [right; left; left; reflexivity|left; exact Hx1|right; left; right; exact Hx1|].
      right; right. exists s2, f2. split; [right; exact Hin|exact K].
    + destruct Hc as [Hc|(s2 & Hin & K)]; [left; exact Hc|right; exists s2; split; [right; exact Hin|exact K]].
  - destruct rest as [|s2 rest']; [|apply Hstop; discriminate].
    destruct (lookup (name_of si) (dk_files (e_disk e))) as [f|] eqn:El.
    + rewrite (seg_recover_char _ _ _ El). destruct (0 <? ws_index_start (recw si f)) eqn:Es; intros [= _ <- <- <-].
      * split; [|auto]. intros _ x Hx. destruct (Hlast _ _ Hx) as [Hx1| ->]; [auto|]. right; right.
        exists si, f. apply N.ltb_lt in Es. cbn. repeat split; auto.
      * split; [intros _ x Hx; destruct (Hlast _ _ Hx) as [Hx1| ->]; cbn; auto|].
        right. exists si. repeat split; cbn; auto. left. exists f. auto.
    + rewrite (seg_recover_missing si e El). destruct (seg_create si e) as [[sw|] e2] eqn:Ecr.
      * pose proof (seg_create_some _ _ _ _ Ecr); subst sw. change (0 <? ws_index_start (new_wseg si)) with false.
        intros [= _ <- <- <-]. split; [intros _ x Hx; destruct (Hlast _ _ Hx) as [Hx1| ->]; cbn; auto|].
        right. exists si. repeat split; cbn; auto. right. split; [exact El|]. eauto.
      * intros [= <- _ <- <-]. split; [congruence|]. right. exists si. repeat split; cbn; auto. right. split; [exact El|]. eauto.
Qed.

Lemma cur_rep_offs info bs f : cur_rep info bs f -> len (c_offs (cstate info bs)) = llen (cur_ents f).
Proof.
  intros (H & _). unfold len, llen. rewrite c_offs_length, <- pls_payloads, H, map_length. reflexivity.
Qed.

Lemma rep_w_recw info bs f : cur_rep info bs f -> rep_w (wst info (cstate info bs)) (recw info f).
Proof.
  intros C. pose proof (cur_rep_offs _ _ _ C) as Ln. destruct C as (He & Hend & Hseal).
  set (s := cstate info bs) in *.
  constructor; cbn [wst recw w_info w_buf w_crc w_off w_index_start w_offsets w_commit_idx
                    ws_name ws_base ws_min ws_limit ws_n ws_off ws_hdr ws_index_start ws_commit_idx];
    try reflexivity.
  - symmetry. exact Ln.
  - exact Hend.
  - rewrite Hend. unfold image. fold s. unfold c_pend. destruct (c_img s) as [|x r]; [reflexivity|].
    rewrite len_cons. replace (1 + len r =? 0) with false by (symmetry; apply N.eqb_neq; lia). reflexivity.
  - exact Hseal.
  - unfold commit_idx_of. cbn [w_offsets w_info]. rewrite <- Ln.
    destruct (c_offs s) as [|o r]; [reflexivity|].
    rewrite len_cons. replace (1 + len r =? 0) with false by (symmetry; apply N.eqb_neq; lia). reflexivity.
Qed.

(* well-formed chains from abstract files *)
Lemma chain_wf_cur info bs f :
  cur_rep info bs f -> encs_ok (cur_ents f) -> len (image info bs) < two32 -> chain_wf info c0 bs.
Proof.
  intros (He & _) Hok Hl. apply chain_wf_of; [|exact Hl].
  apply batches_wf_pls. rewrite He. apply encs_ok_wf. exact Hok.
Qed.

(* one commit: write, then fsync *)

Lemma apply_write d n off l pb f :
  lookup n (dk_files d) = Some f -> df_pend f = None ->
  lookup n (dk_files (apply_act d (AWrite n off l pb))) = Some (written f pb).
Proof.
  intros H Hp. cbn [apply_act]. rewrite H, Hp. cbn [dk_files]. apply lookup_update_eq.
Qed.

Lemma apply_write_sync d n off l pb f :
  lookup n (dk_files d) = Some f -> df_pend f = None ->
  lookup n (dk_files (apply_act (apply_act d (AWrite n off l pb)) (ASync n))) = Some (synced f pb).
Proof.
  intros H Hp. pose proof (apply_write d n off l pb f H Hp) as Hw.
  set (d1 := apply_act d (AWrite n off l pb)) in *.
  cbn [apply_act]. rewrite Hw. cbn [written df_pend dk_files]. apply lookup_update_eq.
Qed.

Lemma do_write_sync e n off l pb :
  e_fault e = None ->
  e_disk (do_acts e [AWrite n off l pb; ASync n]) =
  apply_act (apply_act (e_disk e) (AWrite n off l pb)) (ASync n).
Proof.
  intros Hf. cbn [do_acts]. rewrite (io_char _ e) by reflexivity. rewrite Hf.
  rewrite io_char by reflexivity. rewrite e_fault_io_ok, Hf. reflexivity.
Qed.

(* One successful L1 operation [op] on the writer of the image of bs commits
   the batch b with the bytes [batch_write]; the L2 actions that abstract its
   I/O turn a file representing bs into one representing bs with b pending
   (after the write) and into one representing bs ++ [b] (after the fsync). *)
Theorem commit_rep info bs f op w1' acts b ls d :
  let s := cstate info bs in
  let n := name_of info in
  rep info bs f -> lookup n (dk_files d) = Some f ->
  wrun (wst info s) [op] = Some (w1', acts, [b]) ->
  fst b = map enc ls ->
  len (image info (bs ++ [b])) < two32 ->
  let new := batch_write info s b in
  let pb := pb_of ls w1' in
  let aw := AWrite n (len (image info bs)) (len new) pb in
  acts = [WWrite (len (image info bs)) new; WSync] /\
  w1' = wst info (cstate info (bs ++ [b])) /\
  abs_acts n pb acts = [aw; ASync n] /\
  lookup n (dk_files (apply_act d aw)) = Some (written f pb) /\ rep_p info bs b (written f pb) /\
  lookup n (dk_files (apply_act (apply_act d aw) (ASync n))) = Some (synced f pb) /\
  rep info (bs ++ [b]) (synced f pb).
Proof.
  intros s n R Hl Hrun Hb Hlen new pb aw.
  assert (Hl2 : len (c_img (fold_left (cstep info) [b] s)) < two32).
  { cbn [fold_left]. unfold image in Hlen. rewrite cstate_snoc in Hlen. exact Hlen. }
  destruct (wrun_char info [op] s w1' acts [b] Hrun Hl2) as (Ew & Hcont & Himg).
  cbn [fold_left] in Ew, Himg.
  (* shape of the actions *)
  assert (Hacts : exists off buf, acts = [WWrite off buf; WSync]).
  { cbn [wrun] in Hrun. destruct (do_op (wst info s) op) as [[r w'] acts0] eqn:Eop.
    destruct r; try discriminate. inversion Hrun; subst w' acts. rewrite app_nil_r in *.
    destruct op as [es|]; cbn [do_op op_batch] in *.
    - destruct es as [|e0 er]; [discriminate|].
      rewrite append_ne in Eop by discriminate.
      destruct (0 <? w_index_start (wst info s)); [discriminate|].
      destruct (too_big (e0 :: er)); [discriminate|].
      destruct (append_entries (wst info s) (e0 :: er)) as [wa|]; [|discriminate].
      destruct (if needs_seal wa then append_index wa else Some wa) as [wb|]; [|discriminate].
      unfold append_commit in Eop. inversion Eop. eexists; eexists; reflexivity.
    - unfold force_seal in Eop. destruct (sealed (wst info s)) eqn:Es; [discriminate|].
      unfold sealed in Es. rewrite Es in Eop.
      destruct (append_index (wst info s)) as [wb|]; [|discriminate].
      unfold append_commit in Eop. inversion Eop. eexists; eexists; reflexivity. }
  destruct Hacts as (off & buf & ->).
  cbn [writes_contiguous] in Hcont. destruct Hcont as [Eoff _].
  cbn [writes_concat cstep c_img] in Himg. rewrite app_nil_r in Himg. apply app_inv_head in Himg.
  subst off buf. fold new. fold (image info bs).
  assert (Ecs : cstate info (bs ++ [b]) = cstep info s b) by apply cstate_snoc.
  split; [reflexivity|]. split; [rewrite Ecs; exact Ew|]. split; [reflexivity|].
  pose proof (rep_pend _ _ _ R) as Hp.
  assert (Hrb : rep_b info bs b pb).
  { unfold rep_b, pb, pb_of. cbn [pb_ents pb_end pb_seal]. split; [exact Hb|].
    unfold image. rewrite Ew, Ecs. split; reflexivity. }
  split; [apply apply_write; assumption|].
  split; [split; [eapply rep_ext; [exact R|reflexivity..]|exists pb; auto]|].
  split; [apply apply_write_sync; assumption|].
  apply rep_synced; [eapply rep_ext; [exact R|reflexivity..]|exact Hrb].
Qed.

(* Append: the L1 and L2 writers of a file representing bs, run side by side *)
Theorem append_sim_rep info bs f w2 ls e w1' acts w2' e' :
  let s := cstate info bs in
  let n := name_of info in
  rep info bs f -> lookup n (dk_files (e_disk e)) = Some f ->
  rep_w (wst info s) w2 -> consec ls -> ls <> [] -> e_fault e = None ->
  append (wst info s) (ents ls) FNone = (WOk, w1', acts) ->
  seg_append w2 ls e = (Model.ROk, w2', e') ->
  let b := (map enc ls, sealed w1') in
  len (image info (bs ++ [b])) < two32 ->
  acts = [WWrite (len (image info bs)) (batch_write info s b); WSync] /\
  w1' = wst info (cstate info (bs ++ [b])) /\ rep_w w1' w2' /\
  lookup n (dk_files (e_disk e')) = Some (synced f (pb_of ls w1')) /\
  rep info (bs ++ [b]) (synced f (pb_of ls w1')).
Proof.
  intros s n R Hl Rw Hc Hne Hf Ha H2 b Hlen.
  assert (Hrun : wrun (wst info s) [OpAppend (ents ls)] = Some (w1', acts, [b])).
  { cbn [wrun do_op]. rewrite Ha. rewrite !app_nil_r. unfold b. cbn [op_batch].
    destruct ls as [|l0 lr]; [congruence|]. cbn [ents map]. fold (ents lr).
    change (ent l0 :: ents lr) with (ents (l0 :: lr)). rewrite map_snd_ents. reflexivity. }
  destruct (commit_rep info bs f _ w1' acts b ls (e_disk e) R Hl Hrun eq_refl Hlen)
    as (Eacts & Ew & Eabs & _ & _ & Hl' & R').
  fold s n in Eacts, Ew, Eabs, Hl', R'.
  destruct (append_sim _ _ ls e Rw Hc Hf) as (r & w1x & actsx & w2x & Ea & E2 & Rw' & _).
  rewrite Ha in Ea. inversion Ea; subst r w1x actsx. rewrite H2 in E2.
  inversion E2 as [[Ew2 Ee]]. subst w2x.
  split; [exact Eacts|]. split; [exact Ew|]. split; [exact Rw'|].
  split; [|exact R'].
  rewrite (rw_name _ _ Rw). cbn [wst w_info]. fold n. rewrite Eabs.
  rewrite do_write_sync by exact Hf. exact Hl'.
Qed.

(* ForceSeal likewise *)
Theorem force_seal_sim_rep info bs f w2 e w1' acts w2' e' :
  let s := cstate info bs in
  let n := name_of info in
  rep info bs f -> lookup n (dk_files (e_disk e)) = Some f ->
  rep_w (wst info s) w2 -> e_fault e = None -> ws_index_start w2 = 0 ->
  force_seal (wst info s) FNone = (WOk, w1', acts) ->
  seg_force_seal w2 e = (Model.ROk, w2', e') ->
  let b := (@nil bytes, true) in
  len (image info (bs ++ [b])) < two32 ->
  acts = [WWrite (len (image info bs)) (batch_write info s b); WSync] /\
  w1' = wst info (cstate info (bs ++ [b])) /\ rep_w w1' w2' /\
  lookup n (dk_files (e_disk e')) = Some (synced f (pb_of [] w1')) /\
  rep info (bs ++ [b]) (synced f (pb_of [] w1')).
Proof.
  intros s n R Hl Rw Hf Hu Ha H2 b Hlen.
  assert (Hns : sealed (wst info s) = false).
  { unfold sealed. rewrite <- (rw_istart _ _ Rw), Hu. reflexivity. }
  assert (Hrun : wrun (wst info s) [OpSeal] = Some (w1', acts, [b])).
  { cbn [wrun do_op]. rewrite Ha. rewrite !app_nil_r. cbn [op_batch]. rewrite Hns. reflexivity. }
  destruct (commit_rep info bs f _ w1' acts b [] (e_disk e) R Hl Hrun eq_refl Hlen)
    as (Eacts & Ew & Eabs & _ & _ & Hl' & R').
  fold s n in Eacts, Ew, Eabs, Hl', R'.
  destruct (force_seal_sim _ _ e Rw Hf) as (r & w1x & actsx & w2x & Ea & E2 & Rw').
  rewrite Ha in Ea. inversion Ea; subst r w1x actsx. rewrite H2 in E2.
  inversion E2 as [[Ew2 Ee]]. subst w2x.
  split; [exact Eacts|]. split; [exact Ew|]. split; [exact Rw'|].
  split; [|exact R'].
  rewrite (rw_name _ _ Rw). cbn [wst w_info]. fold n. rewrite Eabs.
  rewrite do_write_sync by exact Hf. exact Hl'.
Qed.

(* recovery of a cleanly written file *)
Lemma scan_zeros k : scan (zeros k) = [].
Proof.
  rewrite scan_is_scanF. destruct (Nat.lt_ge_cases k 32) as [H|H].
  - rewrite scanF_unfold. rewrite read_at_beyond by (rewrite len_zeros; lia). reflexivity.
  - replace k with (32 + (k - 32))%nat by lia. rewrite zeros_app.
    change 32 with (len (zeros 32)). apply scanF_stop_zeros.
Qed.

Lemma recover_zeros info k : hdr_wf info -> recover_state info (zeros k) = Some (init_empty info).
Proof.
  intros Hhw. rewrite <- wst_c0.
  apply (recover_no_commit info c0 (zeros k)
           {| ra_offsets := []; ra_pending := 0; ra_commits := [] |} []).
  - exact Hhw.
  - apply hdr_inv_c0.
  - reflexivity.
  - unfold acc_inv. cbn. auto.
  - constructor.
  - cbn [c0 c_img app]. rewrite scan_zeros. reflexivity.
Qed.

Lemma mod8_len8 (x : bytes) : len x mod 8 = 0 -> exists k, length x = (8 * k)%nat.
Proof.
  intros H. exists (length x / 8)%nat. unfold len in H.
  pose proof (Nat.div_mod (length x) 8 ltac:(lia)).
  assert ((length x mod 8 = 0)%nat); lia.
Qed.

Lemma batch_write_len8 info s b : exists k, length (batch_write info s b) = (8 * k)%nat.
Proof.
  apply mod8_len8. rewrite len_batch_write, len_batch_body, len_c_pend.
  pose proof (len_entries_bytes_aligned (fst b)).
  pose proof (enc_frame_size_aligned (4 * len (c_offs' info s b))).
  destruct (len (c_img s) =? 0); destruct (snd b); lia.
Qed.

Lemma torn_batch_refl info s b : torn (batch_write info s b) (batch_write info s b).
Proof. destruct (batch_write_len8 info s b) as [k Hk]. exact (torn_refl k _ Hk). Qed.

Lemma torn_batch_zeros info s b :
  torn (batch_write info s b) (zeros (length (batch_write info s b))).
Proof. destruct (batch_write_len8 info s b) as [k Hk]. exact (torn_all_zero k _ Hk). Qed.

(* a file that holds exactly the image of a well-formed chain, then zeros *)
Theorem recover_complete info bs k :
  hdr_wf info -> chain_wf info c0 bs ->
  recover_state info (image info bs ++ zeros k) = Some (wst info (cstate info bs)).
Proof.
  intros Hhw Hwf. destruct bs as [|b bs] using rev_ind.
  - cbn [image cstate fold_left c0 c_img app]. rewrite wst_c0. apply recover_zeros. exact Hhw.
  - clear IHbs. pose proof (seg_recover_torn info bs b (batch_write info (cstate info bs) b) k Hhw Hwf
                              (torn_batch_refl _ _ _) (or_introl eq_refl)) as H.
    cbn zeta in H. rewrite beq_bytes_refl in H. rewrite image_snoc, cstate_snoc, <- app_assoc. exact H.
Qed.

(* Recovery simulation, no pending batch (or a pending batch that is complete
   in the page cache: process restart without power loss).  L1 recovery of the
   byte image returns the byte writer that L2's recovered writer represents. *)
Theorem recover_sim_cur info bs f e k :
  hdr_wf info -> cur_rep info bs f -> encs_ok (cur_ents f) -> len (image info bs) < two32 ->
  lookup (name_of info) (dk_files (e_disk e)) = Some f ->
  recover_state info (image info bs ++ zeros k) = Some (wst info (cstate info bs)) /\
  seg_recover info e = Some (Some (recw info f)) /\
  rep_w (wst info (cstate info bs)) (recw info f).
Proof.
  intros Hhw C Hok Hlen Hl. split; [|split].
  - apply recover_complete; [exact Hhw|]. eapply chain_wf_cur; eassumption.
  - apply seg_recover_char. exact Hl.
  - apply rep_w_recw. exact C.
Qed.

Theorem recover_sim info bs f e k :
  hdr_wf info -> rep info bs f -> encs_ok (df_ents f) -> len (image info bs) < two32 ->
  lookup (name_of info) (dk_files (e_disk e)) = Some f ->
  exists w1 w2,
    recover_state info (image info bs ++ zeros k) = Some w1 /\
    seg_recover info e = Some (Some w2) /\ rep_w w1 w2 /\
    w1 = wst info (cstate info bs).
Proof.
  intros Hhw R Hok Hlen Hl.
  assert (Hok' : encs_ok (cur_ents f)) by (unfold cur_ents; rewrite (rep_pend _ _ _ R); exact Hok).
  destruct (recover_sim_cur info bs f e k Hhw (rep_cur_rep _ _ _ R) Hok' Hlen Hl) as (A & B & C).
  exists (wst info (cstate info bs)), (recw info f). auto.
Qed.

(* crash with a written, unsynced batch *)
Lemma torn_tail_commit x c : torn_tail (x ++ commit_frame c) = commit_frame c.
Proof.
  unfold torn_tail. rewrite app_length.
  replace (length x + length (commit_frame c) - 8)%nat with (length x) by (cbn; lia).
  apply skipn_app_exact.
Qed.

Lemma torn_tail_batch info s b :
  torn_tail (batch_write info s b) = commit_frame (crc32c (c_pend info s ++ batch_body info s b)).
Proof. unfold batch_write. apply torn_tail_commit. Qed.

Lemma torn_tail_zeros n : (8 <= n)%nat -> torn_tail (zeros n) = zeros 8.
Proof.
  intros H. unfold torn_tail. rewrite zeros_length, skipn_zeros. f_equal. lia.
Qed.

Lemma batch_write_ge8 info s b : (8 <= length (batch_write info s b))%nat.
Proof. pose proof (len_batch_write info s b). unfold len in *. lia. Qed.

Lemma zeros_not_batch info s b :
  torn_tail (zeros (length (batch_write info s b))) <> torn_tail (batch_write info s b).
Proof.
  rewrite torn_tail_zeros by apply batch_write_ge8. rewrite torn_tail_batch.
  unfold commit_frame, frame_header. cbn [zeros repeat app]. unfold FrameCommit. discriminate.
Qed.

(* the file L2's crash_file leaves for a durable (or surviving) file *)
Definition crashed (keep : bool) (f : dfile) : dfile :=
  match df_pend f with
  | Some pb => if keep then synced f pb
               else {| df_ents := df_ents f; df_end := df_end f; df_seal := df_seal f;
                       df_pend := None; df_dir := true; df_size := df_size f |}
  | None => {| df_ents := df_ents f; df_end := df_end f; df_seal := df_seal f;
               df_pend := None; df_dir := true; df_size := df_size f |}
  end.

Lemma crash_file_char c n f :
  (df_dir f = true \/ mem_name n (cc_keep_file c) = true) ->
  crash_file c (n, f) = [(n, crashed (mem_name n (cc_keep_batch c)) f)].
Proof.
  intros H. unfold crash_file, crashed.
  replace (negb (df_dir f) && negb (mem_name n (cc_keep_file c))) with false.
  2:{ symmetry. apply andb_false_iff. destruct H as [H|H]; rewrite H; auto. }
  destruct (df_pend f); [destruct (mem_name n (cc_keep_batch c))|]; reflexivity.
Qed.

Lemma rep_crashed info bs b f (keep : bool) :
  rep_p info bs b f -> rep info (if keep then bs ++ [b] else bs) (crashed keep f).
Proof.
  intros (R & pb & Hp & Hb). unfold crashed. rewrite Hp.
  destruct keep; [apply rep_synced; assumption|eapply rep_ext; [exact R|reflexivity..]].
Qed.

Lemma rep_crashed_none info bs f keep : rep info bs f -> rep info bs (crashed keep f).
Proof.
  intros R. unfold crashed. rewrite (rep_pend _ _ _ R). eapply rep_ext; [exact R|reflexivity..].
Qed.

(* Crash simulation.  f represents the image of bs with one more batch b
   written at its end but not known to be durable.  Whatever torn image T of
   the bytes of b is on the disk after the power loss (over zeros, no CRC
   collision): byte-level recovery succeeds and returns the writer of
     bs ++ [b]  if T is complete,   bs  otherwise,
   zeroStaleTail restores "image followed by zeros", and this is exactly what
   L2 gets from crash_file with the pending batch KEPT resp. DROPPED followed
   by seg_recover: the recovered L2 file represents the recovered byte image
   and the recovered L2 writer represents the recovered byte writer. *)
Theorem crash_file_sound info bs b f c T k :
  let s := cstate info bs in
  let n := name_of info in
  let new := batch_write info s b in
  hdr_wf info -> rep_p info bs b f -> encs_ok (cur_ents f) ->
  len (image info (bs ++ [b])) < two32 ->
  torn new T -> no_torn_collision new T ->
  (df_dir f = true \/ mem_name n (cc_keep_file c) = true) ->
  mem_name n (cc_keep_batch c) = beq_bytes T new ->
  let file := image info bs ++ T ++ zeros k in
  let bs' := if beq_bytes T new then bs ++ [b] else bs in
  let w1 := wst info (cstate info bs') in
  exists f',
    crash_file c (n, f) = [(n, f')] /\ rep info bs' f' /\ df_dir f' = true /\
    recover_state info file = Some w1 /\
    (exists acts, recover_tail info file = Some (w1, acts) /\
                  apply_wactions file acts = image info bs' ++ zeros (length file - length (image info bs'))) /\
    rep_w w1 (recw info f') /\
    forall e, lookup n (dk_files (e_disk e)) = Some f' -> seg_recover info e = Some (Some (recw info f')).
Proof.
  intros s n new Hhw Rp Hok Hlen HT Hnc Hsurv Hkeep file bs' w1.
  pose proof (rep_p_cur_rep _ _ _ _ Rp) as C.
  pose proof (chain_wf_cur _ _ _ C Hok Hlen) as Hwf.
  pose proof (seg_recover_torn info bs b T k Hhw Hwf HT Hnc) as Hrs.
  destruct (seg_recover_round info bs b T k Hhw Hwf HT Hnc) as (acts & Hrt & Happ).
  cbn zeta in Hrs, Hrt, Happ. fold s new file in Hrs, Hrt, Happ.
  exists (crashed (beq_bytes T new) f).
  pose proof (rep_crashed info bs b f (beq_bytes T new) Rp) as R'. fold bs' in R'.
  assert (Ecs : (if beq_bytes T new then cstep info s b else s) = cstate info bs').
  { unfold bs'. destruct (beq_bytes T new); [symmetry; apply cstate_snoc|reflexivity]. }
  split; [rewrite <- Hkeep; apply crash_file_char; exact Hsurv|].
  split; [exact R'|]. split.
  { unfold crashed. destruct Rp as (_ & pb & Hp & _). rewrite Hp. destruct (beq_bytes T new); reflexivity. }
  split.
  { change (recover_state info file) with (recover_state info (c_img s ++ T ++ zeros k)).
    rewrite Hrs. unfold w1. rewrite <- Ecs. destruct (beq_bytes T new); reflexivity. }
  split.
  { exists acts. rewrite Ecs in Hrt, Happ. split; [exact Hrt|exact Happ]. }
  split; [apply rep_w_recw, rep_cur_rep; exact R'|].
  intros e He. apply seg_recover_char. exact He.
Qed.

(* ... and both outcomes of crash_file are produced by some byte-level torn
   write: the complete image keeps the batch, the image of which no chunk
   reached the disk drops it.  So L2's adversary is neither weaker nor
   stronger than torn writes of the batch's bytes. *)
Theorem crash_file_tight info s b (keep : bool) :
  let new := batch_write info s b in
  exists T, torn new T /\ no_torn_collision new T /\ beq_bytes T new = keep.
Proof.
  cbn zeta. destruct keep.
  - exists (batch_write info s b). split; [apply torn_batch_refl|]. split; [left; reflexivity|apply beq_bytes_refl].
  - exists (zeros (length (batch_write info s b))). split; [apply torn_batch_zeros|].
    pose proof (zeros_not_batch info s b) as Hne. split; [right; left; exact Hne|].
    destruct (beq_bytes _ _) eqn:E; [|reflexivity]. apply beq_bytes_eq in E. rewrite E in Hne. congruence.
Qed.
