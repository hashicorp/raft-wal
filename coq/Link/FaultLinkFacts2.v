(* FaultLinkFacts2.v -- histories with injected faults at byte level:
   the invariant FHL is kept by every step, every step has a byte-level step,
   and whole histories (fbrun). *)
From RW Require Import Base.Bytes Wal.Model Wal.Spec Wal.Hist Wal.FaultHist Wal.CrashFacts4
     Wal.CrashCalls1 Wal.FaultInv Wal.FaultThm Link.Disk Link.ComposeFacts5 Link.FaultDisk
     Link.FaultDiskFacts1 Link.FaultDiskFacts2 Link.FaultLink Link.FaultLinkFacts1.
From RW Require Import Base.LiaSetup.
Open Scope N_scope.

Lemma fop_run_s c h f fx o :
  fs_s (fop_run c h f fx o) = with_fault (snd (step_model c (with_fault (fs_s h) f fx) o)) None fx_none.
Proof.
  unfold fop_run. destruct (step_model c (with_fault (fs_s h) f fx) o) as [r s1]. cbn [snd].
  destruct (st_closed (ss_wal (fs_s h))); [reflexivity|].
  destruct (is_mutating o).
  - destruct r; try reflexivity. destruct (spec_accepts (fs_nom h) o); reflexivity.
  - destruct (step_spec (fs_nom h) o). reflexivity.
Qed.

Definition reopen_in (h : fstate) (f : option nat) (fx : fxmode) : sstate :=
  {| ss_wal := ss_wal (fs_s h); ss_env := adopted_env h f fx |}.

Lemma freopen_s c h f fx :
  fs_s (fstep_run c h (FOp f fx OReopen)) = with_fault (snd (step_model c (reopen_in h f fx) OReopen)) None fx_none.
Proof.
  cbn [fstep_run]. change (with_fault _ f fx) with (reopen_in h f fx).
  destruct (step_model c (reopen_in h f fx) OReopen) as [r s1]. cbn [snd].
  destruct r; try reflexivity. destruct (matches _ _); reflexivity.
Qed.

Lemma frestart_s c h :
  fs_s (fstep_run c h FRestart) = snd (step_model c (reopen_in h None fx_none) OReopen).
Proof.
  cbn [fstep_run]. change {| ss_wal := ss_wal (fs_s h); ss_env := _ |} with (reopen_in h None fx_none).
  destruct (step_model c (reopen_in h None fx_none) OReopen) as [r s1]. cbn [snd].
  destruct r; try reflexivity. destruct (matches _ _); reflexivity.
Qed.

Lemma FHL_wdrep c nb h bd : FHL c nb h bd -> wdrep c bd (fdisk h) /\ NoDup (map fst (dk_files (fdisk h))).
Proof.
  unfold FHL. destruct (st_closed _); [auto|]. intros (((A & B & _) & _) & _). auto.
Qed.

Lemma FHL_mono c nb nb' h bd : nb <= nb' -> FHL c nb h bd -> FHL c nb' h bd.
Proof. unfold FHL. destruct (st_closed _); [auto|]. intros Hle (A & B). split; [exact A|lia]. Qed.

(* a linked state, seen as FHL whatever its closed flag *)
Lemma FHL_of_WL c nb h bd :
  WL c (ss_wal (fs_s h)) bd (fdisk h) -> st_next_id (ss_wal (fs_s h)) <= nb -> FHL c nb h bd.
Proof.
  intros HW Hn. unfold FHL. destruct (st_closed _); [|auto]. destruct HW as ((A & B & _) & _). auto.
Qed.

Lemma call_step_link c nb h f fx o bd :
  cfg_ok c -> sop_ok o -> o <> OReopen -> nb + 2 < two64 -> FInv c nb h -> FHL c nb h bd ->
  exists bd', werun c bd (ss_env (fs_s h)) bd' (ss_env (fs_s (fop_run c h f fx o))) /\
              FHL c (nb + 2) (fop_run c h f fx o) bd'.
Proof.
  intros Hc Ho Hne Hnb HF HL. rewrite !fop_run_s.
  destruct (step_model c (with_fault (fs_s h) f fx) o) as [r s1] eqn:Es. cbn [snd].
  unfold FHL, fdisk in *. rewrite fop_run_s, Es. cbn [snd with_fault ss_wal ss_env e_disk].
  destruct (st_closed (ss_wal (fs_s h))) eqn:Ecl.
  - destruct HF as (_ & _ & _ & _ & _ & _ & _ & HM).
    assert (Hro : st_rotate (ss_wal (fs_s h)) = None).
    { destruct HM as [(_ & Hr)|(Hc' & _)]; [exact Hr|congruence]. }
    destruct (closed_step c (with_fault (fs_s h) f fx) o r s1 Ecl Hro Hne Es) as (Ed & Hcl').
    cbn [with_fault ss_env e_disk] in Ed. rewrite Hcl'. exists bd. rewrite Ed.
    split; [|exact HL]. exists []. cbn [e_disk]. constructor. apply HL.
  - destruct HL as (HW & Hnid).
    destruct (step_wlink c (with_fault (fs_s h) f fx) o bd r s1 Hc Ho Hne HW ltac:(cbn [with_fault ss_wal]; lia) Es)
      as ((bd' & E & HW') & Hn').
    exists bd'. split; [eapply werun_disk_l; [|eapply werun_disk; [|exact E]]; reflexivity|].
    cbn [with_fault ss_wal] in Hn'.
    destruct (st_closed (ss_wal s1)); [destruct HW' as ((A & B & _) & _); auto|]. split; [exact HW'|lia].
Qed.

Lemma reopen_step_link c nb h f fx bd :
  cfg_ok c -> nb + 2 < two64 -> FInv c nb h -> FHL c nb h bd -> stale_free bd (fdisk h) ->
  let s1 := snd (step_model c (reopen_in h f fx) OReopen) in
  drep c (brestart c bd) (adopt_disk (fdisk h)) /\
  exists bd', werun c (brestart c bd) (adopted_env h f fx) bd' (ss_env s1) /\
    (if st_closed (ss_wal s1)
     then wdrep c bd' (e_disk (ss_env s1)) /\ NoDup (map fst (dk_files (e_disk (ss_env s1))))
     else WL c (ss_wal s1) bd' (e_disk (ss_env s1)) /\ st_next_id (ss_wal s1) <= nb + 2).
Proof.
  intros Hc Hnb HF HL Hsf s1. destruct (FHL_wdrep _ _ _ _ HL) as (H0 & Hnd).
  pose proof HF as (_ & _ & _ & _ & _ & _ & HRD & _).
  destruct (reopen_step c nb h f fx Hc Hnb HF) as (r & s1' & Hst & Hcase).
  change {| ss_wal := ss_wal (fs_s h); ss_env := _ |} with (reopen_in h f fx) in Hst.
  assert (Es1 : s1 = s1') by (unfold s1; rewrite Hst; reflexivity). clearbody s1. subst s1'.
  cbn [step_model reopen_in ss_env ss_wal] in Hst.
  destruct (open_wal c (adopted_env h f fx)) as [res e'] eqn:Eo.
  destruct (reopen_wlink c nb (fdisk h) (fs_alts h) (fs_defer h) bd (e_acts (ss_env (fs_s h))) f fx (e_m (ss_env (fs_s h)))
              res e' Hc ltac:(lia) H0 Hnd Hsf HRD Eo) as (HD & bd' & E & Hnd' & Hres).
  split; [exact HD|]. exists bd'.
  destruct res as [w'|x]; inversion Hst; subst r s1; cbn [ss_wal ss_env].
  - split; [exact E|].
    destruct Hcase as [(_ & Hcl & HLi & _)|(Hr & _)]; [|congruence]. cbn [ss_wal ss_env] in Hcl, HLi. rewrite Hcl.
    destruct (LInv_WG c (nb + 1) w' _ Hc HLi ltac:(lia)) as (HG & Hn).
    split; [|lia]. split; [|exact HG]. split; [apply (werun_end _ _ _ _ _ E)|]. split; [exact Hnd'|exact Hres].
  - split; [exact E|]. cbn [close st_closed]. split; [apply (werun_end _ _ _ _ _ E)|exact Hnd'].
Qed.

Theorem fault_step_link c nb h st bd :
  cfg_ok c -> fstep_wf st -> nb + 2 < two64 -> FInv c nb h -> FHL c nb h bd ->
  (is_restart st = true -> stale_free bd (fdisk h)) ->
  exists bd', fbstep c h bd st bd' /\ FHL c (nb + 2) (fstep_run c h st) bd'.
Proof.
  intros Hc Hwf Hnb HF HL Hsf. destruct st as [f fx o|].
  - destruct o; try solve [
      rewrite fstep_run_other by discriminate;
      destruct (call_step_link c nb h f fx _ bd Hc Hwf ltac:(discriminate) Hnb HF HL) as (bd' & E & HL');
      exists bd'; split; [unfold fbstep; cbn [is_reopen]; rewrite fstep_run_other by discriminate; exact E|exact HL'] ].
    (* Reopen *)
    specialize (Hsf eq_refl).
    destruct (reopen_step_link c nb h f fx bd Hc Hnb HF HL Hsf) as (_ & bd' & E & Hres).
    exists bd'. unfold fbstep. cbn [is_reopen]. rewrite freopen_s. cbn [with_fault ss_env].
    split; [split; [exact Hsf|eapply werun_disk; [|exact E]; reflexivity]|].
    unfold FHL, fdisk. rewrite freopen_s. cbn [with_fault ss_wal ss_env e_disk]. exact Hres.
  - specialize (Hsf eq_refl).
    destruct (reopen_step_link c nb h None fx_none bd Hc Hnb HF HL Hsf) as (_ & bd' & E & Hres).
    exists bd'. unfold fbstep. rewrite frestart_s.
    split; [split; [exact Hsf|exact E]|].
    unfold FHL, fdisk. rewrite frestart_s. exact Hres.
Qed.

(* a byte-level step ends weakly related to L2's disk, whichever lock-step run it is *)
Lemma fbstep_end c h st bd bd1 : fbstep c h bd st bd1 -> wdrep c bd1 (fdisk (fstep_run c h st)).
Proof.
  unfold fbstep. destruct st as [f fx o|]; [destruct (is_reopen o)|]; intros Hs;
    [destruct Hs as (_ & E)|rename Hs into E|destruct Hs as (_ & E)]; apply (werun_end _ _ _ _ _ E).
Qed.

Theorem fbstep_sound c nb h st bd bd1 :
  cfg_ok c -> fstep_wf st -> nb + 2 < two64 -> FInv c nb h -> FHL c nb h bd ->
  fbstep c h bd st bd1 -> wdrep c bd1 (fdisk (fstep_run c h st)).
Proof. intros _ _ _ _ _. apply fbstep_end. Qed.

Lemma FHL_init c s0 : initial c = Some s0 -> cfg_ok c -> exists bd, FHL c 1 (fault_init s0) bd.
Proof.
  intros Hi Hc. unfold initial in Hi.
  destruct (open_wal c fresh_env) as [res e'] eqn:Eo. destruct res as [w|x]; [|discriminate]. inversion Hi; subst s0. clear Hi.
  destruct (open_wal_link c [] fresh_env (OOk w) e' Hc) with (6 := Eo) as (bd & E & HW).
  - constructor.
  - constructor.
  - reflexivity.
  - intros n f H. discriminate.
  - exact I.
  - destruct (open_wal_ok c 0 fresh_env Hc eq_refl) as (w2 & e2 & Ho2 & _ & HLi & _).
    + split; [constructor|reflexivity].
    + intros n f H. discriminate.
    + unfold two64. lia.
    + rewrite Eo in Ho2. inversion Ho2; subst w2 e2.
      destruct (LInv_WG c 1 w _ Hc HLi ltac:(unfold two64; lia)) as (HG & Hn).
      exists bd. unfold FHL, fault_init, fdisk. cbn [fs_s ss_wal ss_env].
      rewrite (LInv_closed _ _ _ _ HLi). split; [|exact Hn]. split; [|exact HG].
      destruct HW as (A & B & _ & D). split; [apply drep_wdrep; exact A|]. split; [exact B|]. apply tail_linked_wtail. exact D.
Qed.

(* Every history with injected faults has a byte-level run, provided no commit
   frame in the leftovers verifies at the restarts (restarts_clean); the
   invariants FHL and FInv hold at its end, and so does every J that the steps
   keep under them. *)
Lemma fault_hist_gen c (J : fstate -> Prop) :
  cfg_ok c ->
  (forall nb h st bd, fstep_wf st -> nb + 2 < two64 -> FInv c nb h -> FHL c nb h bd -> J h -> J (fstep_run c h st)) ->
  forall steps nb h bd,
  Forall fstep_wf steps -> nb + 2 * N.of_nat (length steps) < two64 ->
  FInv c nb h -> FHL c nb h bd -> J h -> restarts_clean c h bd steps ->
  exists bd', fbrun c h bd steps (fault_run c h steps) bd' /\
              FHL c (nb + 2 * N.of_nat (length steps)) (fault_run c h steps) bd' /\
              FInv c (nb + 2 * N.of_nat (length steps)) (fault_run c h steps) /\
              J (fault_run c h steps).
Proof.
  intros Hc HJstep. induction steps as [|st steps IH]; intros nb h bd Hwf Hnb HF HL HJ Hrc.
  - exists bd. cbn [length fault_run fold_left]. replace (nb + 2 * N.of_nat 0) with nb by lia.
    split; [constructor|]. auto.
  - inversion Hwf as [|? ? Hw1 Hw2]; subst. cbn [length] in Hnb.
    destruct (fault_step_link c nb h st bd Hc Hw1 ltac:(lia) HF HL) as (bd1 & Hs1 & HL1).
    { intros Hr. apply (Hrc [] st steps h bd eq_refl Hr). constructor. }
    pose proof (FInv_step c nb h st Hc Hw1 ltac:(lia) HF) as HF1.
    pose proof (HJstep nb h st bd Hw1 ltac:(lia) HF HL HJ) as HJ1.
    destruct (IH (nb + 2) (fstep_run c h st) bd1 Hw2 ltac:(lia) HF1 HL1 HJ1) as (bd' & Hrun & HL' & HF' & HJ').
    { intros pre st' post h1 bd2 E Hr Hpre. apply (Hrc (st :: pre) st' post h1 bd2); [cbn [app]; rewrite E; reflexivity|exact Hr|].
      econstructor; eauto. }
    exists bd'. cbn [fault_run fold_left length].
    replace (nb + 2 * N.of_nat (S (length steps))) with ((nb + 2) + 2 * N.of_nat (length steps)) by lia.
    split; [econstructor; eauto|]. auto.
Qed.

Theorem fault_hist_link c steps s0 :
  cfg_ok c -> Forall fstep_wf steps -> short_enough steps -> initial c = Some s0 ->
  exists bd0, FHL c 1 (fault_init s0) bd0 /\
    (restarts_clean c (fault_init s0) bd0 steps ->
     exists bd', fbrun c (fault_init s0) bd0 steps (fault_run c (fault_init s0) steps) bd' /\
                 FHL c (1 + 2 * N.of_nat (length steps)) (fault_run c (fault_init s0) steps) bd').
Proof.
  intros Hc Hwf Hshort Hi. destruct (FHL_init c s0 Hi Hc) as (bd0 & HL0). exists bd0. split; [exact HL0|].
  intros Hrc.
  destruct (fault_hist_gen c (fun _ => True) Hc ltac:(auto) steps 1 (fault_init s0) bd0 Hwf) as (bd' & Hrun & HL' & _); auto.
  - unfold short_enough in Hshort. unfold two64. lia.
  - apply FInv_init; assumption.
  - exists bd'. auto.
Qed.

(* every byte-level run of a history (whatever lock-step runs it consists of)
   follows the history and ends in a byte disk weakly related to L2's.  The premise wdrep
   is needed for the empty run only: every step re-establishes it by itself (fbstep_end) *)
Lemma fbrun_end c steps : forall h bd h' bd',
  fbrun c h bd steps h' bd' -> h' = fault_run c h steps /\ (wdrep c bd (fdisk h) -> wdrep c bd' (fdisk h')).
Proof.
  induction steps as [|st steps IH]; intros h bd h' bd' Hrun; inversion Hrun as [|? ? ? bd1 ? ? ? Hs Hr]; subst; [auto|].
  destruct (IH _ _ _ _ Hr) as (E & H'). split; [exact E|]. intros _. apply H'. apply (fbstep_end _ _ _ _ _ Hs).
Qed.

Theorem fbrun_sound c steps : forall nb h bd h' bd',
  cfg_ok c -> Forall fstep_wf steps -> nb + 2 * N.of_nat (length steps) < two64 ->
  FInv c nb h -> wdrep c bd (fdisk h) ->
  fbrun c h bd steps h' bd' -> h' = fault_run c h steps /\ wdrep c bd' (fdisk h').
Proof. intros nb h bd h' bd' _ _ _ _ H0 Hrun. destruct (fbrun_end _ _ _ _ _ _ Hrun) as (E & H'). auto. Qed.
