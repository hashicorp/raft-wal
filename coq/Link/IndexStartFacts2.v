(* IndexStartFacts2.v -- the IndexStart invariant: every operation of the WAL
   (fault-free, as in the histories of crash_refinement) performs a justified
   trace: each metadata commit installs segments whose recorded IndexStart is
   the index start of the file on the disk of that moment.
     rotate           the sealed tail gets st_rotate = df_seal of its file
     truncate_tail    the force-sealed tail gets the writer's index start,
                      which is the seal offset of the batch just synced
     open_wal         the interrupted rotation is completed with cur_seal of
                      the recovered file
     everything else  re-lists segments it found listed (or a new, unsealed one) *)
From RW Require Import Base.Bytes Fmt.Codec Fmt.Frame Wal.Model Wal.Spec Wal.CrashInv Wal.CrashFacts0
     Wal.CrashFacts1 Wal.CrashFacts2 Wal.CrashFacts3 Wal.CrashFacts4 Wal.CrashFacts6 Wal.CrashCalls4
     Link.IndexStart Link.IndexStartFacts1 Wal.ModelFacts.
From RW Require Import Base.LiaSetup.
Open Scope N_scope.

Lemma new_segment_IS c d id base : ISseg d (new_segment c id base).
Proof. apply ISseg_unsealed. reflexivity. Qed.

Definition rot_ok (w : wal) (d : disk) : Prop :=
  forall i t, st_rotate w = Some i -> tail_info (st_segs w) = Some t ->
    forall f, lookup (name_of t) (dk_files d) = Some f -> i = cur_seal f /\ cur_seal f <> 0.

Lemma rotate_ctr c w e w' e' :
  e_fault e = None -> ISs (e_disk e) (st_segs w) -> rot_ok w (e_disk e) ->
  rotate c w e = (w', e') -> ctr e e'.
Proof.
  intros Hf HI Hr. unfold rotate. destruct (st_rotate w) as [istart|] eqn:Er; [|apply ctr_ret; exact Hf].
  destruct (st_closed w); [apply ctr_ret; exact Hf|].
  destruct (tail_info (st_segs w)) as [t|] eqn:Et; [|intros [= <- <-]; apply ctr_add_m, ctr_refl; exact Hf].
  unfold create_next, mutate.
  match goal with |- context [mutate_gen false ?w0 ?tx ?e0] => destruct (mutate_gen false w0 tx e0) as [[[r w1] e1] dels] eqn:Em end.
  intros [= <- <-]. unfold add_m in Em. eapply ctr_from_m.
  eapply mutate_gen_ctr; [| |exact Em]; [exact Hf|]. cbn [tx_segs with_m e_disk].
  eapply ISs_incl; [|exact HI]. intros x Hx.
  apply in_seg_set in Hx as [->|Hx]; [right; apply new_segment_IS|].
  apply in_seg_set in Hx as [->|Hx]; [right|left; exact Hx].
  intros _ f Hfl. change (name_of _) with (name_of t) in Hfl. cbn [si_index_start]. apply (Hr istart t Er Et f Hfl).
Qed.

Lemma reset_first_ctr c w nb e r w' e' dels :
  e_fault e = None -> ISs (e_disk e) (st_segs w) ->
  reset_first c w nb e = (r, w', e', dels) ->
  ctr e e' /\ (r = ROk -> forall s, In s (st_segs w') -> In s (st_segs w) \/ si_sealed s = false).
Proof.
  intros Hf HI. unfold reset_first. destruct (0 <? last_index _ _); [intros [= <- <- <- <-]; split; [apply ctr_refl; exact Hf|discriminate]|].
  assert (Hgen : forall w0 tx, ISs (e_disk e) (tx_segs tx) ->
            (forall s, In s (tx_segs tx) -> In s (st_segs w) \/ si_sealed s = false) ->
            mutate_gen true w0 tx e = (r, w', e', dels) -> st_segs w0 = st_segs w ->
            ctr e e' /\ (r = ROk -> forall s, In s (st_segs w') -> In s (st_segs w) \/ si_sealed s = false)).
  { intros w0 tx H1 H2 Hm Hw0. split; [eapply mutate_gen_ctr; eauto|]. intros -> s Hs.
    unfold mutate_gen in Hm. rewrite (io_ok _ e Hf) in Hm. cbn [negb] in Hm.
    destruct (tx_create tx) as [si|].
    - destruct (seg_create si _) as [[sw|] e2]; [|discriminate]. inversion Hm; subst. cbn [st_segs] in Hs. apply H2. exact Hs.
    - inversion Hm; subst. cbn [st_segs] in Hs. apply H2. exact Hs. }
  destruct (tail_info (st_segs w)) as [t|].
  - destruct (si_base t =? nb).
    + intros Hm. eapply Hgen; [| |exact Hm|reflexivity]; cbn [tx_segs]; [exact HI|auto].
    + unfold create_next. intros Hm. eapply Hgen; [| |exact Hm|reflexivity]; cbn [tx_segs].
      * eapply ISs_incl; [|exact HI]. intros x Hx. apply in_seg_set in Hx as [->|Hx]; [right; apply new_segment_IS|].
        left. eapply in_seg_del; eauto.
      * intros x Hx. apply in_seg_set in Hx as [->|Hx]; [right; reflexivity|left; eapply in_seg_del; eauto].
  - unfold create_next. intros Hm. eapply Hgen; [| |exact Hm|reflexivity]; cbn [tx_segs].
    + eapply ISs_incl; [|exact HI]. intros x Hx. apply in_seg_set in Hx as [->|Hx]; [right; apply new_segment_IS|auto].
    + intros x Hx. apply in_seg_set in Hx as [->|Hx]; [right; reflexivity|auto].
Qed.

Lemma store_go_ctr last ls w e r w' e' :
  e_fault e = None -> store_go last ls w e = (r, w', e') -> ctr e e'.
Proof.
  intros Hf. unfold store_go. destruct (check_logs last ls) as [res nbytes].
  destruct (result_ok_dec res) as [->|N]; [|rewrite (match_not_ok res _ _ N); apply ctr_ret; exact Hf].
  destruct (st_tail w) as [tw|]; [|apply ctr_ret; exact Hf].
  destruct (seg_append tw ls e) as [[r1 tw'] e1] eqn:Ea. pose proof (seg_append_ctr _ _ _ _ _ _ Hf Ea) as C.
  destruct r1; intros [= <- <- <-]; exact C.
Qed.

Lemma store_logs_ctr c w ls e r w' e' :
  e_fault e = None -> ISs (e_disk e) (st_segs w) ->
  store_logs c w ls e = (r, w', e') -> ctr e e'.
Proof.
  intros Hf HI. rewrite store_logs_unfold. destruct (st_closed w); [apply ctr_ret; exact Hf|].
  destruct ls as [|l0 ls']; [apply ctr_ret; exact Hf|].
  destruct (st_failed w); [apply ctr_ret; exact Hf|]. cbn zeta.
  destruct (tail_info (st_segs w)) as [ti|]; [|apply ctr_ret; exact Hf].
  destruct (_ && _).
  - destruct (reset_first c w (l_index l0) e) as [[[r1 w1] e1] dels] eqn:Er.
    destruct (reset_first_ctr _ _ _ _ _ _ _ _ Hf HI Er) as (C1 & _).
    destruct (result_ok_dec r1) as [->|N]; [|rewrite (match_not_ok r1 _ _ N); intros [= <- <- <-]; exact C1].
    destruct (store_go _ _ w1 e1) as [[r2 w2] e2] eqn:Eg. intros [= <- <- <-].
    pose proof (store_go_ctr _ _ _ _ _ _ _ (ctr_fault _ _ C1) Eg) as C2.
    eapply ctr_trans; [exact C1|]. eapply ctr_trans; [exact C2|]. apply delete_files_ctr. apply (ctr_fault _ _ C2).
  - apply store_go_ctr. exact Hf.
Qed.

Lemma head_scan_in nm tl : forall segs del ntr rest del' ntr' head,
  head_scan nm tl segs del ntr = (rest, del', ntr', head) ->
  (forall x, In x rest -> In x segs) /\ (forall h, head = Some h -> In h segs).
Proof.
  induction segs as [|s r IH]; intros del ntr rest del' ntr' head; cbn [head_scan].
  - intros [= <- _ _ <-]. split; [auto|discriminate].
  - destruct (nm <=? _).
    + intros [= <- _ _ <-]. split; [auto|]. intros h [= <-]. left. reflexivity.
    + intros H. destruct (IH _ _ _ _ _ _ H) as (A & B). split; [intros x Hx; right; apply A; exact Hx|intros h Hh; right; apply B; exact Hh].
Qed.

Lemma truncate_head_ctr c w nm e r w' e' :
  e_fault e = None -> ISs (e_disk e) (st_segs w) ->
  truncate_head c w nm e = (r, w', e') -> ctr e e'.
Proof.
  intros Hf HI. unfold truncate_head.
  destruct (head_scan nm (tail_last (st_tail w)) (st_segs w) [] 0) as [[[rest del] ntr] head] eqn:Eh.
  destruct (head_scan_in _ _ _ _ _ _ _ _ _ Eh) as (Hrest & Hhead).
  destruct head as [h|].
  - unfold mutate. match goal with |- context [mutate_gen false w ?tx ?e0] => destruct (mutate_gen false w tx e0) as [[[r1 w1] e1] dels] eqn:Em end.
    intros [= <- <- <-]. unfold add_m in Em. eapply ctr_from_m. eapply mutate_gen_ctr; [| |exact Em]; [exact Hf|].
    cbn [tx_segs with_m e_disk]. eapply ISs_incl; [|exact HI]. intros x Hx.
    apply in_seg_set in Hx as [->|Hx]; [right|left; apply Hrest; exact Hx].
    unfold ISs in HI. rewrite Forall_forall in HI. eapply ISseg_same; [| | |apply (HI h (Hhead h eq_refl))]; reflexivity.
  - unfold create_next, mutate. match goal with |- context [mutate_gen false w ?tx ?e0] => destruct (mutate_gen false w tx e0) as [[[r1 w1] e1] dels] eqn:Em end.
    intros [= <- <- <-]. unfold add_m in Em. eapply ctr_from_m. eapply mutate_gen_ctr; [| |exact Em]; [exact Hf|].
    cbn [tx_segs]. constructor; [apply new_segment_IS|constructor].
Qed.

Lemma tail_scan_in nm li : forall rsegs del ntr rrest del' ntr',
  tail_scan nm li rsegs del ntr = (rrest, del', ntr') -> forall x, In x rrest -> In x rsegs.
Proof.
  induction rsegs as [|s r IH]; intros del ntr rrest del' ntr'; cbn [tail_scan].
  - intros [= <- _ _]. auto.
  - destruct (si_base s <=? nm).
    + intros [= <- _ _]. auto.
    + intros H x Hx. right. eapply IH; eauto.
Qed.

(* what the tail truncation needs of the state: the unsealed listed segment is
   the tail writer's; sealed segments have other files; a sealed tail writer
   carries the index start of its file *)
Definition tail_facts (w : wal) (d : disk) : Prop :=
  forall tw, st_tail w = Some tw ->
    (forall x, In x (st_segs w) -> si_sealed x = false -> name_of x = ws_name tw) /\
    (forall x, In x (st_segs w) -> si_sealed x = true -> name_of x <> ws_name tw) /\
    (forall f, lookup (ws_name tw) (dk_files d) = Some f -> 0 < ws_index_start tw -> cur_seal f = ws_index_start tw).

Lemma truncate_tail_ctr c w nm e r w' e' :
  e_fault e = None -> ISs (e_disk e) (st_segs w) -> tail_facts w (e_disk e) ->
  truncate_tail c w nm e = (r, w', e') -> ctr e e'.
Proof.
  intros Hf HI HT. unfold truncate_tail.
  destruct (tail_scan nm _ (rev (st_segs w)) [] 0) as [[rrest del] ntr] eqn:Et.
  pose proof (tail_scan_in _ _ _ _ _ _ _ _ Et) as Hin.
  assert (Hin' : forall x, In x rrest -> In x (st_segs w)) by (intros x Hx; apply in_rev; apply Hin; exact Hx).
  destruct rrest as [|t rr].
  - unfold create_next, mutate. match goal with |- context [mutate_gen false w ?tx ?e0] => destruct (mutate_gen false w tx e0) as [[[r1 w1] e1] dels] eqn:Em end.
    intros [= <- <- <-]. eapply mutate_gen_ctr; [| |exact Em]; [exact Hf|]. cbn [tx_segs]. constructor; [apply new_segment_IS|constructor].
  - assert (Hfin : forall t' w0 e0 ntr', ctr e e0 -> ISs (e_disk e0) (st_segs w) -> ISseg (e_disk e0) t' ->
              (let segs1 := seg_set t' (rev (t :: rr)) in
               let '(nid, segs2, si) := create_next c (st_next_id w) segs1 0 in
               mutate w0 {| tx_next_id := nid; tx_segs := segs2; tx_delete := del; tx_create := Some si; tx_tail := None |}
                      (add_m e0 ntr')) = (r, w', e') -> ctr e e').
    { intros t' w0 e0 ntr' C0 HI0 Ht'. cbn zeta. unfold create_next, mutate.
      match goal with |- context [mutate_gen false w0 ?tx ?e1] => destruct (mutate_gen false w0 tx e1) as [[[r1 w1] e1'] dels] eqn:Em end.
      intros [= <- <- <-]. eapply ctr_trans; [exact C0|]. unfold add_m in Em. eapply ctr_from_m.
      eapply mutate_gen_ctr; [| |exact Em]; [apply (ctr_fault _ _ C0)|].
      cbn [tx_segs with_m e_disk]. eapply ISs_incl; [|exact HI0]. intros x Hx.
      apply in_seg_set in Hx as [->|Hx]; [right; apply new_segment_IS|].
      apply in_seg_set in Hx as [->|Hx]; [right; exact Ht'|]. left. apply Hin'. apply in_rev. exact Hx. }
    destruct (si_sealed t) eqn:Ets.
    + intros H. eapply (Hfin _ _ e _ (ctr_refl _ Hf) HI); [|exact H].
      unfold ISs in HI. rewrite Forall_forall in HI.
      eapply ISseg_same; [| | |apply (HI t (Hin' t (or_introl eq_refl)))]; [reflexivity|reflexivity|cbn; symmetry; exact Ets].
    + destruct (st_tail w) as [tw|] eqn:Etw; [|apply ctr_ret; exact Hf].
      destruct (HT tw Etw) as (Hun & Hse & Hix).
      pose proof (Hun t (Hin' t (or_introl eq_refl)) Ets) as Hname.
      destruct (seg_force_seal tw e) as [[r1 tw'] e1] eqn:Efs.
      destruct (seg_force_seal_ctr _ _ _ _ _ Hf Efs) as (C1 & Hcase).
      destruct (result_ok_dec r1) as [->|N]; [|rewrite (match_not_ok r1 _ _ N); intros [= <- <- <-]; exact C1].
      specialize (Hcase eq_refl).
      intros H. eapply (Hfin _ _ e1 _ C1); [| |exact H].
      * destruct Hcase as [(_ & -> & _)|(_ & Hoth & _)]; [exact HI|].
        unfold ISs in *. rewrite Forall_forall in *. intros x Hx Hxs. eapply ISseg_ext; [|apply (HI x Hx)|exact Hxs].
        apply Hoth. apply Hse; assumption.
      * intros _ f1 Hf1. change (name_of _) with (name_of t) in Hf1. cbn [si_index_start]. rewrite Hname in Hf1.
        destruct Hcase as [(-> & -> & Hpos)|(Hpos & _ & Hfile)].
        -- rewrite (Hix f1 Hf1 Hpos). split; [reflexivity|lia].
        -- rewrite (Hfile f1 Hf1). split; [reflexivity|lia].
Qed.

Lemma delete_range_ctr c w mn mx e r w' e' :
  e_fault e = None -> ISs (e_disk e) (st_segs w) -> tail_facts w (e_disk e) ->
  delete_range c w mn mx e = (r, w', e') -> ctr e e'.
Proof.
  intros Hf HI HT. unfold delete_range.
  destruct (st_closed w); [apply ctr_ret; exact Hf|].
  destruct (mx <? mn); [apply ctr_ret; exact Hf|].
  destruct (st_failed w); [apply ctr_ret; exact Hf|]. cbn zeta.
  destruct (_ || _); [apply ctr_ret; exact Hf|].
  destruct (mn <=? _); [apply truncate_head_ctr; assumption|].
  destruct (_ <=? mx); [apply truncate_tail_ctr; assumption|].
  apply ctr_ret; exact Hf.
Qed.

(* the hypotheses, from the live invariant *)
Lemma LInv_ISs c nb w d : LInv c nb w d -> ISd d -> ISs d (st_segs w).
Proof. intros (_ & _ & _ & _ & Hm & _) H. unfold ISd in H. rewrite Hm in H. exact H. Qed.

Lemma LInv_rot_ok c nb w d : LInv c nb w d -> rot_ok w d.
Proof.
  intros HL. destruct (LInv_view _ _ _ _ HL) as (S & t & f & tw & V).
  intros i t0 Hr Ht f0 Hf0. rewrite (lv_segs _ _ _ _ _ _ _ _ V), tail_info_app in Ht. inversion Ht; subst t0.
  rewrite (lv_file _ _ _ _ _ _ _ _ V) in Hf0. inversion Hf0; subst f0.
  rewrite (lv_rot _ _ _ _ _ _ _ _ V) in Hr. unfold cur_seal. rewrite (lv_pend _ _ _ _ _ _ _ _ V).
  destruct (0 <? df_seal f) eqn:E; [|discriminate]. inversion Hr. split; [reflexivity|lia].
Qed.

Lemma LInv_tail_facts c nb w d : LInv c nb w d -> tail_facts w d.
Proof.
  intros HL. destruct (LInv_view _ _ _ _ HL) as (S & t & f & tw & V).
  intros tw0 Ht. rewrite (lv_tail _ _ _ _ _ _ _ _ V) in Ht. inversion Ht; subst tw0.
  pose proof (lv_tw _ _ _ _ _ _ _ _ V) as (Hn & _ & _ & _ & _ & _ & Hix & _).
  pose proof (lv_tok _ _ _ _ _ _ _ _ V) as (Hu & _).
  pose proof (lv_sealed _ _ _ _ _ _ _ _ V) as Hso. rewrite Forall_forall in Hso.
  rewrite (lv_segs _ _ _ _ _ _ _ _ V). rewrite Hn.
  split; [|split].
  - intros x Hx Hxs. apply in_app_or in Hx as [Hx|[<-|[]]]; [|reflexivity].
    destruct (Hso x Hx) as (K & _). congruence.
  - intros x Hx Hxs. apply in_app_or in Hx as [Hx|[<-|[]]]; [|congruence].
    eapply DIs_sealed_neq; [apply (lv_dis _ _ _ _ _ _ _ _ V)|apply (lv_meta _ _ _ _ _ _ _ _ V)|reflexivity|exact Hx].
  - intros f0 Hf0 _. rewrite (lv_file _ _ _ _ _ _ _ _ V) in Hf0. inversion Hf0; subst f0.
    unfold cur_seal. rewrite (lv_pend _ _ _ _ _ _ _ _ V). symmetry. exact Hix.
Qed.

Lemma open_newtail_ctr c nid0 segs garbage e1 res e' :
  e_fault e1 = None -> ISs (e_disk e1) segs ->
  open_newtail c nid0 segs garbage e1 = (res, e') -> ctr e1 e'.
Proof.
  intros Hf HI. unfold open_newtail. cbn zeta. rewrite (io_ok _ e1 Hf). cbn [negb].
  match goal with |- context [io_env (ACommit ?ps) e1] => assert (C1 : ctr e1 (io_env (ACommit ps) e1)) end.
  { apply ctr_commit; [exact Hf|]. cbn [ps_segs]. eapply ISs_incl; [|exact HI]. intros x Hx.
    apply in_seg_set in Hx as [->|Hx]; [right; apply new_segment_IS|left; exact Hx]. }
  destruct (seg_create _ _) as [sw e3] eqn:Ec. pose proof (seg_create_ctr _ _ _ _ (ctr_fault _ _ C1) Ec) as C2.
  destruct sw as [sw|]; intros [= <- <-].
  - eapply ctr_trans; [exact C1|]. eapply ctr_trans; [exact C2|]. apply delete_files_ctr. apply (ctr_fault _ _ C2).
  - eapply ctr_trans; eauto.
Qed.

Lemma open_rest_ctr c nb e0 res e' :
  e_fault e0 = None -> DIs c nb (e_disk e0) -> ISd (e_disk e0) ->
  open_rest c e0 = (res, e') -> ctr e0 e'.
Proof.
  intros Hf HD HI. unfold open_rest. destruct (dk_meta (e_disk e0)) as [ps|] eqn:Hm.
  - destruct (DIs_segs _ _ _ _ HD Hm) as (S & t & Hs).
    destruct (DIs_parts _ _ _ _ _ _ HD Hm Hs) as (_ & _ & _ & Hwf & _ & Hso & Ht).
    pose proof (tail_wf _ _ _ _ _ _ HD Hm Hs) as (_ & _ & Hwb1 & _).
    assert (Hcod : Forall (fun s => si_codec s = c_codec c) (S ++ [t])).
    { eapply Forall_impl; [|exact Hwf]. intros s Hsw. apply Hsw. }
    destruct Ht as (Hu & _).
    unfold ISd in HI. rewrite Hm, Hs in HI.
    rewrite Hs. rewrite (open_segs_tail c S t e0 Hso Hcod Hu Hf Hwb1).
    destruct (lookup (name_of t) (dk_files (e_disk e0))) as [f|] eqn:Ef.
    + destruct (0 <? cur_seal f) eqn:Eseal.
      * apply open_newtail_ctr; [exact Hf|]. unfold ISs in *. apply Forall_app in HI as (HI1 & _).
        apply Forall_app. split; [exact HI1|]. constructor; [|constructor].
        intros _ f0 Hf0. change (name_of _) with (name_of t) in Hf0. rewrite Ef in Hf0. inversion Hf0; subst f0.
        cbn [seal_info si_index_start]. split; [reflexivity|lia].
      * intros [= <- <-]. apply delete_files_ctr. exact Hf.
    + intros [= <- <-]. eapply ctr_trans; [|apply delete_files_ctr; reflexivity].
      apply ctr_io; [exact Hf|exact I].
  - cbn [ps_segs open_segs rev_append]. apply open_newtail_ctr; [exact Hf|constructor].
Qed.

Lemma open_wal_ctr c nb e res e' :
  e_fault e = None -> DIs c nb (e_disk e) -> ISd (e_disk e) ->
  open_wal c e = (res, e') -> ctr e e'.
Proof.
  intros Hf HD HI. rewrite open_wal_unfold. destruct (_ && _); [apply ctr_ret; exact Hf|].
  destruct (dk_inited (e_disk e)).
  - cbn [negb]. unfold armed. rewrite Hf. cbn [andb]. eapply open_rest_ctr; eauto.
  - rewrite (io_ok _ e Hf). cbn [negb]. unfold armed. cbn [io_env e_fault andb].
    intros H. eapply ctr_trans; [apply (ctr_io AInitMeta); [exact Hf|exact I]|].
    eapply (open_rest_ctr c nb); [reflexivity| | |exact H]; cbn [io_env e_disk].
    + apply DIs_initmeta. exact HD.
    + exact HI.
Qed.

Lemma settle_ctr c s :
  e_fault (ss_env s) = None -> ISs (e_disk (ss_env s)) (st_segs (ss_wal s)) -> rot_ok (ss_wal s) (e_disk (ss_env s)) ->
  ctr (ss_env s) (ss_env (settle c s)).
Proof.
  intros Hf HI Hr. unfold settle. destruct (st_rotate (ss_wal s)); [|apply ctr_refl; exact Hf].
  destruct (rotate c (ss_wal s) (ss_env s)) as [w' e'] eqn:E. cbn [ss_env]. eapply rotate_ctr; eauto.
Qed.
