(* IndexStartFacts3.v -- the IndexStart invariant along the histories of
   crash_refinement (Wal/Hist.v), and GetLog down to bytes without the
   hypothesis seg_meta_ok.
     step_ctr        every call performs a justified trace
     ext_ctr_prefix  ... so ISd holds on every disk the call passes through
     GIS_step/_run   GI /\ ISd is an invariant of histories
     LInv_seg_meta   LInv /\ ISd gives seg_meta_ok (Link/ComposeFacts7.v)
     get_log_bytes   Link_get_log_stmt *)
From RW Require Import Base.Bytes Fmt.Codec Wal.Model Wal.Spec Wal.Hist Wal.CrashInv Wal.CrashFacts3
     Wal.CrashFacts4 Wal.CrashFacts6 Wal.CrashGlue Wal.CrashCalls5 Wal.CrashCalls10 Link.Compose
     Link.ComposeFacts1 Link.ComposeFacts6 Link.ComposeFacts7 Link.IndexStart Link.IndexStartFacts1
     Link.IndexStartFacts2.
From RW Require Import Base.LiaSetup.
Open Scope N_scope.

(* justified trace + structural invariant on every disk *)
Lemma ext_ctr_prefix c nb (P : disk -> Prop) e e' :
  (forall d, P d -> DIs c nb d) -> ext P e e' -> ctr e e' -> ISd (e_disk e) ->
  forall j, ISd (fold_left apply_act (firstn j (new_acts e e')) (e_disk e)).
Proof.
  intros HP Hext (_ & acts2 & A2 & D2 & C2) HI.
  destruct (ext_acts _ _ _ Hext) as (acts & Ea & _ & _ & Hpre). rewrite Ea.
  rewrite (new_acts_rev _ _ _ A2) in Ea. subst acts2.
  apply (ISd_prefix c nb acts); [intros k; apply HP; apply Hpre|exact C2|exact HI].
Qed.

Lemma ext_ctr_final c nb (P : disk -> Prop) e e' :
  (forall d, P d -> DIs c nb d) -> ext P e e' -> ctr e e' -> ISd (e_disk e) -> ISd (e_disk e').
Proof.
  intros HP Hext Hc HI. pose proof (ext_ctr_prefix c nb P e e' HP Hext Hc HI (length (new_acts e e'))) as H.
  rewrite firstn_all in H. destruct (ext_acts _ _ _ Hext) as (acts & Ea & _ & Hd & _). rewrite Ea in H. rewrite Hd. exact H.
Qed.

Lemma DP_DIs c nb A d : DP c nb A d -> DIs c nb d.
Proof. intros (H & _). exact H. Qed.

Lemma step_ctr c nb s o r s' a :
  cfg_ok c -> nb + 2 < two64 -> LInv c nb (ss_wal s) (e_disk (ss_env s)) -> e_fault (ss_env s) = None ->
  sp_of (e_disk (ss_env s)) = a ->
  ISd (e_disk (ss_env s)) -> step_model c s o = (r, s') -> ctr (ss_env s) (ss_env s').
Proof.
  intros Hc Hnb HL Hf Hsp HI H.
  pose proof (LInv_ISs _ _ _ _ HL HI) as HIs. pose proof (LInv_rot_ok _ _ _ _ HL) as Hro.
  assert (Hset : ctr (ss_env s) (ss_env (settle c s)) /\
                 ISs (e_disk (ss_env (settle c s))) (st_segs (ss_wal (settle c s))) /\
                 tail_facts (ss_wal (settle c s)) (e_disk (ss_env (settle c s)))).
  { pose proof (settle_ctr c s Hf HIs Hro) as C1.
    destruct (settle_ok c nb s a Hc HL Hf Hsp ltac:(lia)) as (HL1 & _ & _ & He1).
    split; [exact C1|]. split; [|eapply LInv_tail_facts; eauto].
    eapply LInv_ISs; [exact HL1|]. eapply (ext_ctr_final c (nb + 1)); [|exact He1|exact C1|exact HI]. apply DP_DIs. }
  destruct (step_cases _ _ _ _ _ H) as [ls r w' e' E|mn mx r w' e' E|o r|o r m|k v n r m|res e' Eo]; cbn [ss_env].
  - destruct Hset as (C1 & HI1 & _).
    eapply ctr_trans; [exact C1|]. eapply store_logs_ctr; [apply (ctr_fault _ _ C1)|exact HI1|exact E].
  - destruct Hset as (C1 & HI1 & HT1).
    eapply ctr_trans; [exact C1|]. eapply delete_range_ctr; [apply (ctr_fault _ _ C1)|exact HI1|exact HT1|exact E].
  - apply ctr_refl. exact Hf.
  - apply ctr_with_m, ctr_refl. exact Hf.
  - rewrite io_ok by exact Hf. eapply ctr_from_m. apply ctr_io; [exact Hf|exact I].
  - destruct HL as (_ & _ & HD & _). eapply open_wal_ctr; eauto.
Qed.

Lemma GIS_mono c nb nb' h : nb <= nb' -> GIS c nb h -> GIS c nb' h.
Proof. intros Hle (H1 & H2). split; [eapply GI_mono; eauto|exact H2]. Qed.

Lemma GIS_init c : GIS c 0 hist_init.
Proof. split; [apply GI_init|exact I]. Qed.

Lemma OQ_DIs c nb s0 d : OQ c nb s0 d -> DIs c nb d.
Proof. intros (H & _). exact H. Qed.

Theorem GIS_step c nb h st :
  cfg_ok c -> hstep_wf st -> nb + 2 < two64 -> GIS c nb h -> GIS c (nb + 2) (hstep_run c h st).
Proof.
  intros Hc Hwf Hnb (HG & HI).
  assert (HG' : GI c (nb + 2) (hstep_run c h st)).
  { exact (GI_step c nb h st Hc (call_ok_all c) Hnb Hwf HG). }
  split; [exact HG'|]. clear HG'.
  destruct HG as (Hok & Hga & Hgm & HM). unfold hdisk in *. rewrite hs_mode_hstep_run.
  destruct (hs_mode h) as [s|d] eqn:Emode.
  - destruct HM as (Hma & HL & Hf & Hsp & Hnofail).
    destruct st as [o|o j cc| |j cc]; cbn [hstep_mode]; try exact HI.
    + destruct (call_ok_all c o nb s (hs_acked h) Hc Hwf Hnb HL Hf Hsp Hga) as (r & s' & Hst & _ & _ & _ & Hext).
      rewrite Hst. cbn [snd].
      eapply (ext_ctr_final c (nb + 2)); [|exact Hext| |exact HI]; [apply DP_DIs|].
      eapply step_ctr; eauto.
    + destruct (call_ok_all c o nb s (hs_acked h) Hc Hwf Hnb HL Hf Hsp Hga) as (r & s' & Hst & _ & _ & _ & Hext).
      rewrite Hst. cbn [snd].
      assert (C : ctr (ss_env s) (ss_env s')) by (eapply step_ctr; eauto).
      pose proof (ext_ctr_prefix c (nb + 2) _ _ _ (DP_DIs c (nb + 2) _) Hext C HI j) as HIj.
      destruct (ext_acts _ _ _ Hext) as (acts & Ea & _ & _ & Hpre). rewrite Ea in *.
      destruct (Hpre j) as (HDj & _). eapply ISd_crash; eauto.
  - destruct HM as (HD & HN & Hsp).
    destruct st as [o|o j cc| |j cc]; cbn [hstep_mode]; try exact HI.
    + destruct (open_wal_ok c nb (env_of d) Hc eq_refl HD HN) as (w & e' & Ho & Hext & _); [lia|].
      rewrite Ho. cbn [ss_env].
      eapply (ext_ctr_final c (nb + 1)); [|exact Hext| |exact HI]; [apply OQ_DIs|].
      eapply open_wal_ctr; eauto.
    + destruct (open_wal_ok c nb (env_of d) Hc eq_refl HD HN) as (w & e' & Ho & Hext & _); [lia|].
      rewrite Ho. cbn [snd].
      assert (C : ctr (env_of d) e') by (eapply open_wal_ctr; eauto; reflexivity).
      pose proof (ext_ctr_prefix c (nb + 1) _ _ _ (OQ_DIs c (nb + 1) _) Hext C HI j) as HIj.
      destruct (ext_acts _ _ _ Hext) as (acts & Ea & _ & _ & Hpre).
      assert (Eacts : rev_append (e_acts e') [] = acts).
      { rewrite <- Ea. unfold new_acts. rewrite env_of_acts. cbn [length]. rewrite Nat.sub_0_r, firstn_all. reflexivity. }
      rewrite Eacts. rewrite Ea in HIj. cbn [env_of e_disk] in HIj, Hpre.
      destruct (Hpre j) as (HDj & _). eapply ISd_crash; eauto.
Qed.

Lemma GIS_run c steps : forall nb h,
  cfg_ok c -> nb + 2 * N.of_nat (length steps) < two64 -> Forall hstep_wf steps -> GIS c nb h ->
  GIS c (nb + 2 * N.of_nat (length steps)) (hist_run c h steps).
Proof.
  unfold hist_run. induction steps as [|st steps IH]; intros nb h Hc Hnb Hwf HG.
  - cbn [length fold_left]. replace (nb + 2 * N.of_nat 0) with nb by lia. exact HG.
  - inversion Hwf as [|? ? Hw1 Hw2]; subst. cbn [fold_left length]. cbn [length] in Hnb.
    replace (nb + 2 * N.of_nat (S (length steps))) with ((nb + 2) + 2 * N.of_nat (length steps)) by lia.
    apply IH; auto; [lia|]. apply GIS_step; auto. lia.
Qed.

(* The index start invariant holds after every accepted history *)
Theorem hist_GIS c steps :
  cfg_ok c -> Forall hstep_wf steps -> short_enough steps ->
  GIS c (2 * N.of_nat (length steps)) (hist_run c hist_init steps).
Proof.
  intros Hc Hwf Hshort. apply (GIS_run c steps 0 hist_init Hc); auto.
  - unfold short_enough in Hshort. unfold two64. lia.
  - apply GIS_init.
Qed.

(* GetLog down to bytes *)
Lemma LInv_seg_meta c nb w d : LInv c nb w d -> ISd d -> seg_meta_ok w d.
Proof.
  intros HL HI s Hin. split; [eapply LInv_base_le_min; eauto|]. intros f Hf Hnt.
  pose proof (LInv_ISs _ _ _ _ HL HI) as HIs. unfold ISs in HIs. rewrite Forall_forall in HIs.
  destruct (LInv_view _ _ _ _ HL) as (S & t & f0 & tw & V).
  rewrite (lv_segs _ _ _ _ _ _ _ _ V) in Hin. apply in_app_or in Hin as [Hin|[<-|[]]].
  - pose proof (lv_sealed _ _ _ _ _ _ _ _ V) as Hso. rewrite Forall_forall in Hso. destruct (Hso s Hin) as (Hse & _).
    apply (HIs s); [rewrite (lv_segs _ _ _ _ _ _ _ _ V); apply in_or_app; left; exact Hin|exact Hse|exact Hf].
  - exfalso. pose proof (lv_tw _ _ _ _ _ _ _ _ V) as (Hn & _). apply (Hnt tw (lv_tail _ _ _ _ _ _ _ _ V)). exact Hn.
Qed.

Theorem get_log_bytes c nb w bd e idx l e' :
  LInv c nb w (e_disk e) -> ISd (e_disk e) -> wlink c w bd (e_disk e) ->
  get_log w idx e = (RLog l, e') ->
  exists p, bread c w bd (e_disk e) idx p /\ decode_log p = Some l.
Proof.
  intros HL HI HW H. eapply get_log_link; eauto. eapply LInv_seg_meta; eauto.
Qed.

(* ... for every state of every accepted history *)
Theorem hist_get_log c steps s :
  cfg_ok c -> Forall hstep_wf steps -> short_enough steps ->
  hs_mode (hist_run c hist_init steps) = Up s ->
  exists bd, wlink c (ss_wal s) bd (e_disk (ss_env s)) /\
    forall idx l e', get_log (ss_wal s) idx (ss_env s) = (RLog l, e') ->
      exists p, bread c (ss_wal s) bd (e_disk (ss_env s)) idx p /\ decode_log p = Some l.
Proof.
  intros Hc Hwf Hshort Emode.
  destruct (hist_link c steps Hc Hwf Hshort) as (bd & HLk). unfold HL in HLk. rewrite Emode in HLk.
  destruct (hist_GIS c steps Hc Hwf Hshort) as ((_ & _ & _ & HM) & HI). unfold hdisk in HI. rewrite Emode in HM, HI.
  destruct HM as (_ & HLi & _).
  exists bd. split; [exact HLk|]. intros idx l e' H. eapply get_log_bytes; eauto.
Qed.
