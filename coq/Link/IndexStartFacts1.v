(* IndexStartFacts1.v -- the IndexStart invariant (Link/IndexStart.v):
   generic facts.
     ISd_step      a single action between two DIs disks keeps ISd, provided a
                   metadata commit installs justified segments
     ISd_prefix    ... hence every prefix of a list of actions whose
                   intermediate disks all satisfy DIs and whose commits are
                   justified
     ISd_crash     a power loss keeps ISd (sealed files are durable and have
                   nothing pending)
     ctr_*         the calculus of justified traces and the primitives of the
                   WAL (delete_files, seg_create, seg_append, seg_force_seal,
                   mutate_gen) *)
From RW Require Import Base.Bytes Fmt.Frame Wal.Model Wal.CrashInv Wal.CrashFacts0 Wal.CrashFacts1
     Wal.CrashFacts2 Wal.CrashFacts3 Link.IndexStart Wal.ModelFacts.
From RW Require Import Base.LiaSetup.
Open Scope N_scope.

(* ISseg depends on the file of the segment only *)
Lemma ISseg_ext d d' s :
  lookup (name_of s) (dk_files d') = lookup (name_of s) (dk_files d) -> ISseg d s -> ISseg d' s.
Proof. unfold ISseg. intros ->. auto. Qed.

Lemma ISs_ext d d' segs :
  (forall s, In s segs -> lookup (name_of s) (dk_files d') = lookup (name_of s) (dk_files d)) ->
  ISs d segs -> ISs d' segs.
Proof.
  unfold ISs. rewrite !Forall_forall. intros H H0 s Hin. eapply ISseg_ext; [apply H; exact Hin|apply H0; exact Hin].
Qed.

Lemma ISs_files d d' segs : dk_files d' = dk_files d -> ISs d segs -> ISs d' segs.
Proof. intros E. apply ISs_ext. intros s _. rewrite E. reflexivity. Qed.

Lemma ISseg_unsealed d s : si_sealed s = false -> ISseg d s.
Proof. unfold ISseg. intros -> H. discriminate. Qed.

Lemma ISseg_same d s s' :
  name_of s' = name_of s -> si_index_start s' = si_index_start s -> si_sealed s' = si_sealed s ->
  ISseg d s -> ISseg d s'.
Proof. unfold ISseg. intros -> -> ->. auto. Qed.

Lemma ISs_incl d l l' : (forall s, In s l' -> In s l \/ ISseg d s) -> ISs d l -> ISs d l'.
Proof.
  unfold ISs. rewrite !Forall_forall. intros H H0 s Hin. destruct (H s Hin) as [K|K]; [apply H0; exact K|exact K].
Qed.

Lemma in_seg_set si l x : In x (seg_set si l) -> x = si \/ In x l.
Proof.
  induction l as [|y r IH]; cbn [seg_set]; [intros [<-|[]]; auto|].
  destruct (si_base si <? si_base y); [intros [<-|H]; auto|].
  destruct (si_base si =? si_base y).
  - intros [<-|H]; [auto|right; right; exact H].
  - intros [<-|H]; [right; left; reflexivity|]. destruct (IH H) as [->|K]; [auto|right; right; exact K].
Qed.

Lemma in_seg_del b l x : In x (seg_del b l) -> In x l.
Proof.
  induction l as [|y r IH]; cbn [seg_del]; [auto|].
  destruct (si_base y =? b); [intros H; right; exact H|intros [<-|H]; [left; reflexivity|right; apply IH; exact H]].
Qed.

Lemma DIs_sealed_member c nb d ps s :
  DIs c nb d -> dk_meta d = Some ps -> In s (ps_segs ps) -> si_sealed s = true -> sealed_ok d s.
Proof.
  intros HD Hm Hin Hse. destruct (DIs_segs _ _ _ _ HD Hm) as (S & t & Hs).
  destruct (DIs_parts _ _ _ _ _ _ HD Hm Hs) as (_ & _ & _ & _ & _ & Hso & (Hu & _)).
  rewrite Hs in Hin. apply in_app_or in Hin as [Hin|[<-|[]]].
  - rewrite Forall_forall in Hso. apply Hso. exact Hin.
  - congruence.
Qed.

(* the file an action touches *)
Definition act_name (a : act) : option fname :=
  match a with ACreate n _ | AWrite n _ _ _ | ASync n | ADelete n => Some n | _ => None end.

Lemma apply_act_other d a m :
  act_name a <> Some m -> lookup m (dk_files (apply_act d a)) = lookup m (dk_files d).
Proof.
  intros Hn. destruct a; cbn [apply_act act_name] in *; try reflexivity;
    assert (Hmn : m <> n) by congruence; try destruct (lookup n (dk_files d)); cbn [dk_files];
    try reflexivity; try (apply lookup_update_neq; exact Hmn); apply lookup_remove_neq; exact Hmn.
Qed.

Lemma ISd_step c nb nb' d a :
  DIs c nb d -> DIs c nb' (apply_act d a) -> ISd d ->
  (forall ps, a = ACommit ps -> ISs d (ps_segs ps)) ->
  ISd (apply_act d a).
Proof.
  intros HD HD' HI Hc.
  assert (Em : (exists ps, a = ACommit ps) \/ dk_meta (apply_act d a) = dk_meta d).
  { destruct a; cbn [apply_act]; eauto; destruct (lookup _ _); auto. }
  destruct Em as [[ps ->]|Em].
  { unfold ISd. cbn [apply_act dk_meta]. eapply ISs_files; [|apply (Hc ps eq_refl)]. reflexivity. }
  unfold ISd in *. rewrite Em. destruct (dk_meta d) as [ps|] eqn:Hm; [|exact I].
  unfold ISs in *. rewrite Forall_forall in *. intros s Hin Hse f' Hf'.
  destruct (DIs_sealed_member _ _ _ _ _ HD Hm Hin Hse) as (_ & _ & f & Hf & _ & Hp & _).
  destruct (DIs_sealed_member _ _ _ _ _ HD' Em Hin Hse) as (_ & _ & f2 & Hf2 & _ & Hp2 & He2 & _).
  rewrite Hf' in Hf2. inversion Hf2; subst f2.
  replace (cur_seal f') with (cur_seal f); [exact (HI s Hin Hse f Hf)|].
  (* the file of a sealed segment: untouched, or fsynced with nothing pending *)
  destruct (act_name a) as [n|] eqn:Ea.
  2:{ rewrite apply_act_other in Hf' by (rewrite Ea; discriminate). rewrite Hf in Hf'. inversion Hf'; reflexivity. }
  destruct (fname_eqb (name_of s) n) eqn:E.
  2:{ apply fname_eqb_neq in E. rewrite apply_act_other in Hf' by (rewrite Ea; congruence).
      rewrite Hf in Hf'. inversion Hf'; reflexivity. }
  apply fname_eqb_eq in E. subst n.
  destruct a; try discriminate; injection Ea as ->; cbn [apply_act] in Hf'; rewrite ?Hf in Hf'; cbn [dk_files] in Hf'.
  - rewrite lookup_update_eq in Hf'. inversion Hf'; subst f'. cbn in He2. congruence.
  - rewrite lookup_update_eq in Hf'. inversion Hf'; subst f'. rewrite Hp in Hp2. cbn in Hp2. discriminate.
  - rewrite lookup_update_eq, Hp in Hf'. inversion Hf'; subst f'. unfold cur_seal. cbn. rewrite Hp. reflexivity.
  - rewrite lookup_remove_eq in Hf' by exact (DIs_NoDup _ _ _ HD). discriminate.
Qed.

(* every prefix of a justified trace *)
Lemma commits_ok_app d a1 a2 :
  commits_ok d (a1 ++ a2) <-> commits_ok d a1 /\ commits_ok (fold_left apply_act a1 d) a2.
Proof.
  revert d. induction a1 as [|a r IH]; intros d; cbn [app commits_ok fold_left]; [tauto|].
  rewrite IH. tauto.
Qed.

Lemma ISd_prefix c nb acts : forall d,
  (forall j, DIs c nb (fold_left apply_act (firstn j acts) d)) -> commits_ok d acts -> ISd d ->
  forall j, ISd (fold_left apply_act (firstn j acts) d).
Proof.
  induction acts as [|a r IH]; intros d HD Hc HI j.
  - rewrite firstn_nil. exact HI.
  - destruct j as [|j]; [exact HI|]. cbn [firstn fold_left]. destruct Hc as (Hc1 & Hc2).
    apply IH; [intros k; apply (HD (S k))|exact Hc2|].
    apply (ISd_step c nb nb d a); [apply (HD O)|apply (HD 1%nat)|exact HI|].
    intros ps ->. exact Hc1.
Qed.

Lemma ISd_crash c nb cc d : DIs c nb d -> ISd d -> ISd (crash_disk cc d).
Proof.
  intros HD HI. unfold ISd in *. cbn [crash_disk dk_meta]. destruct (dk_meta d) as [ps|] eqn:Hm; [|exact I].
  unfold ISs in *. rewrite Forall_forall in *. intros s Hin Hse f' Hf'.
  destruct (DIs_sealed_member _ _ _ _ _ HD Hm Hin Hse) as (_ & _ & f & Hf & Hd & Hp & _).
  cbn [crash_disk dk_files] in Hf'. rewrite (lookup_crash cc _ _ (DIs_NoDup _ _ _ HD)), Hf in Hf'.
  rewrite Hd in Hf'. cbn [negb andb] in Hf'. inversion Hf'; subst f'.
  replace (cur_seal (crashed_file _ f)) with (cur_seal f); [apply (HI s Hin Hse f Hf)|].
  unfold crashed_file, cur_seal. rewrite Hp. reflexivity.
Qed.

Lemma ctr_refl e : e_fault e = None -> ctr e e.
Proof. intros Hf. split; [exact Hf|]. exists []. cbn. auto. Qed.

(* a branch in which a call returns the environment it got *)
Lemma ctr_ret {A} (x y : A) e e' : e_fault e = None -> (x, e) = (y, e') -> ctr e e'.
Proof. intros Hf [= _ <-]. apply ctr_refl. exact Hf. Qed.

Lemma ctr_trans e0 e1 e2 : ctr e0 e1 -> ctr e1 e2 -> ctr e0 e2.
Proof.
  intros (_ & a1 & A1 & D1 & C1) (F2 & a2 & A2 & D2 & C2). split; [exact F2|].
  exists (a1 ++ a2). split; [rewrite A2, A1, rev_app_distr, app_assoc; reflexivity|].
  split; [rewrite fold_left_app, <- D1; exact D2|]. apply commits_ok_app. split; [exact C1|rewrite <- D1; exact C2].
Qed.

Lemma ctr_fault e e' : ctr e e' -> e_fault e' = None.
Proof. intros (H & _). exact H. Qed.

Lemma ctr_with_m e e' m : ctr e e' -> ctr e (with_m e' m).
Proof. intros (F & acts & A & D & C). split; [exact F|]. exists acts. cbn. auto. Qed.
Lemma ctr_add_m e e' f : ctr e e' -> ctr e (add_m e' f).
Proof. apply ctr_with_m. Qed.
Lemma ctr_from_m e m e' : ctr (with_m e m) e' -> ctr e e'.
Proof. intros (F & acts & A & D & C). split; [exact F|]. exists acts. cbn in *. auto. Qed.

Definition not_commit (a : act) : Prop := match a with ACommit _ => False | _ => True end.

Lemma ctr_io a e : e_fault e = None -> not_commit a -> ctr e (io_env a e).
Proof.
  intros Hf Hn. split; [reflexivity|]. exists [a]. cbn [io_env e_acts e_disk rev app fold_left commits_ok].
  split; [reflexivity|]. split; [reflexivity|]. split; [destruct a; try exact I; destruct Hn|exact I].
Qed.

Lemma ctr_commit ps e : e_fault e = None -> ISs (e_disk e) (ps_segs ps) -> ctr e (io_env (ACommit ps) e).
Proof.
  intros Hf H. split; [reflexivity|]. exists [ACommit ps]. cbn [io_env e_acts e_disk rev app fold_left commits_ok]. auto.
Qed.

Lemma lookup_write_eq d n off l b f :
  lookup n (dk_files d) = Some f ->
  exists f', lookup n (dk_files (apply_act d (AWrite n off l b))) = Some f' /\ cur_seal f' = pb_seal b.
Proof.
  intros Hf. cbn [apply_act]. rewrite Hf. cbn [dk_files]. rewrite lookup_update_eq. eexists. split; [reflexivity|].
  unfold cur_seal. cbn. destruct (df_pend f) as [p|]; [destruct (off =? pb_end p)|]; reflexivity.
Qed.

Lemma lookup_sync_eq d n f :
  lookup n (dk_files d) = Some f -> lookup n (dk_files (apply_act d (ASync n))) = Some (synced_file f).
Proof. intros Hf. rewrite (apply_sync d n f Hf). cbn [dk_files]. apply lookup_update_eq. Qed.
Lemma delete_files_ctr ns : forall e, e_fault e = None -> ctr e (delete_files ns e).
Proof.
  unfold delete_files. induction ns as [|n ns IH]; intros e Hf; cbn [fold_left]; [apply ctr_refl; exact Hf|].
  rewrite (io_ok _ e Hf). cbn [snd]. eapply ctr_trans; [apply (ctr_io (ADelete n)); [exact Hf|exact I]|]. apply IH. reflexivity.
Qed.

Lemma seg_create_ctr si e sw e' : e_fault e = None -> seg_create si e = (sw, e') -> ctr e e'.
Proof.
  intros Hf. unfold seg_create. destruct (si_base si =? 0); [apply ctr_ret; exact Hf|].
  destruct (lookup (name_of si) (dk_files (e_disk e))).
  - rewrite (io_ok _ e Hf). intros [= <- <-]. apply (ctr_io (AFail _)); [exact Hf|exact I].
  - rewrite (io_ok _ e Hf). intros [= <- <-]. apply (ctr_io (ACreate _ _)); [exact Hf|exact I].
Qed.

(* what seg_create does to the files: nothing, or one new empty file under a
   name that did not exist *)
Lemma seg_create_files si e sw e' :
  e_fault e = None -> seg_create si e = (sw, e') ->
  forall n, lookup n (dk_files (e_disk e')) = lookup n (dk_files (e_disk e)) \/
            (n = name_of si /\ lookup n (dk_files (e_disk e)) = None /\
             lookup n (dk_files (e_disk e')) = Some (fresh_file (si_size_limit si))).
Proof.
  intros Hf. unfold seg_create. destruct (si_base si =? 0); [intros [= <- <-]; auto|].
  destruct (lookup (name_of si) (dk_files (e_disk e))) eqn:El.
  - rewrite (io_ok _ e Hf). intros [= <- <-]. auto.
  - rewrite (io_ok _ e Hf). intros [= <- <-] n. cbn [io_env e_disk apply_act dk_files].
    rewrite lookup_update. destruct (fname_eqb n (name_of si)) eqn:E; [|auto].
    apply fname_eqb_eq in E. subst n. right. auto.
Qed.

Lemma seg_append_ctr tw ls e r tw' e' : e_fault e = None -> seg_append tw ls e = (r, tw', e') -> ctr e e'.
Proof.
  intros Hf. unfold seg_append. destruct ls as [|l0 ls']; [apply ctr_ret; exact Hf|].
  destruct (0 <? ws_index_start tw); [apply ctr_ret; exact Hf|].
  destruct (existsb _ _); [apply ctr_ret; exact Hf|].
  destruct (negb _); [apply ctr_ret; exact Hf|].
  cbn zeta. rewrite (io_ok _ e Hf). cbn [negb]. rewrite (io_ok _ (io_env _ e) eq_refl). cbn [negb].
  intros [= <- <- <-]. eapply ctr_trans; [|apply ctr_io; [reflexivity|exact I]]; apply ctr_io; [exact Hf|exact I].
Qed.

(* ForceSeal: nothing (already sealed, or refused), or a write and an fsync
   after which the file of the writer, if it exists, is sealed at the writer's
   index start *)
Lemma seg_force_seal_ctr tw e r tw' e' :
  e_fault e = None -> seg_force_seal tw e = (r, tw', e') ->
  ctr e e' /\
  (r = ROk ->
   (tw' = tw /\ e' = e /\ 0 < ws_index_start tw) \/
   (0 < ws_index_start tw' /\
    (forall n, n <> ws_name tw -> lookup n (dk_files (e_disk e')) = lookup n (dk_files (e_disk e))) /\
    (forall f', lookup (ws_name tw) (dk_files (e_disk e')) = Some f' -> cur_seal f' = ws_index_start tw'))).
Proof.
  intros Hf. unfold seg_force_seal. destruct (0 <? ws_index_start tw) eqn:Es.
  { intros [= <- <- <-]. split; [apply ctr_refl; exact Hf|]. intros _. left. split; [reflexivity|]. split; [reflexivity|lia]. }
  destruct (ws_n tw =? 0); [intros [= <- <- <-]; split; [apply ctr_refl; exact Hf|discriminate]|].
  cbn zeta. rewrite (io_ok _ e Hf). cbn [negb]. rewrite (io_ok _ (io_env _ e) eq_refl). cbn [negb].
  intros [= <- <- <-]. split; [eapply ctr_trans; [|apply ctr_io; [reflexivity|exact I]]; apply ctr_io; [exact Hf|exact I]|].
  intros _. right. cbn [ws_index_start ws_name io_env e_disk]. split; [destruct (ws_hdr tw); lia|].
  set (b := {| pb_ents := []; pb_end := _; pb_seal := _ |}).
  split.
  - intros n Hn. rewrite !apply_act_other by (cbn [act_name]; congruence). reflexivity.
  - intros f' Ef'. destruct (lookup (ws_name tw) (dk_files (e_disk e))) as [f|] eqn:Ef.
    + destruct (lookup_write_eq (e_disk e) (ws_name tw) (ws_off tw) ((if ws_hdr tw then 32 else 0) + index_frame_size (ws_n tw) + 8) b f Ef)
        as (f1 & Ef1 & Hs1).
      rewrite (lookup_sync_eq _ _ _ Ef1) in Ef'. inversion Ef'; subst f'. unfold synced_file, cur_seal at 1. cbn. exact Hs1.
    + exfalso. cbn [apply_act] in Ef'. rewrite Ef in Ef'. cbn [apply_act] in Ef'. rewrite Ef in Ef'. rewrite Ef in Ef'. discriminate.
Qed.

Lemma mutate_gen_ctr defer w t e r w' e' dels :
  e_fault e = None -> ISs (e_disk e) (tx_segs t) ->
  mutate_gen defer w t e = (r, w', e', dels) -> ctr e e'.
Proof.
  intros Hf HI. unfold mutate_gen. rewrite (io_ok _ e Hf). cbn [negb].
  assert (C1 : ctr e (io_env (ACommit {| ps_next_id := tx_next_id t; ps_segs := tx_segs t |}) e))
    by (apply ctr_commit; assumption).
  destruct (tx_create t) as [si|].
  - destruct (seg_create si _) as [sw e2] eqn:Ec.
    pose proof (seg_create_ctr _ _ _ _ (ctr_fault _ _ C1) Ec) as C2.
    destruct sw as [sw|]; intros [= <- <- <- <-].
    + destruct defer; [eapply ctr_trans; eauto|].
      eapply ctr_trans; [exact C1|]. eapply ctr_trans; [exact C2|]. apply delete_files_ctr. apply (ctr_fault _ _ C2).
    + eapply ctr_trans; eauto.
  - intros [= <- <- <- <-]. destruct defer; [exact C1|].
    eapply ctr_trans; [exact C1|]. apply delete_files_ctr. reflexivity.
Qed.
