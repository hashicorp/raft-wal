(* AbsFacts4.v -- the link as an invariant of the life of a segment file:
   [linked info bs f w1 w2 file] (Link/Abs.v) is established by Create and
   preserved by every successful Append / ForceSeal, by a power loss in the
   middle of one (any torn image of the bytes in flight) followed by recovery,
   and by a restart with nothing in flight.  So along any such history the L2
   file, the L2 writer and the bytes on the disk stay in correspondence. *)
From RW Require Import Base.Bytes Fmt.Frame Fmt.FrameFacts Seg.Writer Seg.Recover Seg.SegAbs Seg.WriterFacts
     Seg.RecoverFacts Wal.Model Wal.CrashFacts0 Link.Abs Link.AbsFacts1 Link.AbsFacts2 Wal.ModelFacts.
From RW Require Import Base.LiaSetup.
Open Scope N_scope.

Theorem linked_create info size k :
  linked info [] (created size) (init_empty info) (new_wseg info) (zeros k).
Proof.
  constructor.
  - constructor; reflexivity.
  - apply Forall_nil.
  - change (len (image info [])) with 0. unfold two32. lia.
  - change (cstate info []) with c0. symmetry. apply wst_c0.
  - apply rep_w_init.
  - exists k. reflexivity.
Qed.

(* the file ACreate puts into the directory *)
Lemma create_lookup d n size :
  lookup n (dk_files (apply_act d (ACreate n size))) = Some (created size).
Proof. cbn [apply_act dk_files]. apply lookup_update_eq. Qed.

Lemma sealed_l2 w1' w2 ls : rep_w w1' (l2_after w2 ls) -> sealed w1' = l2_seal w2 ls.
Proof.
  intros R. unfold sealed. rewrite <- (rw_istart _ _ R). cbn [l2_after ws_index_start]. unfold l2_istart.
  destruct (l2_seal w2 ls); [apply N.ltb_lt; lia|reflexivity].
Qed.

Lemma len_c_offs' info s b : len (c_offs' info s b) = len (c_offs s) + N.of_nat (length (fst b)).
Proof. unfold c_offs'. rewrite len_app. unfold len. rewrite entry_offsets_length. reflexivity. Qed.

(* the number of bytes L2 accounts for an append is the length of the bytes
   of the L1 batch *)
Lemma len_batch_write_l2 info bs w2 ls (s := cstate info bs) :
  rep_w (wst info s) w2 -> ls <> [] ->
  len (batch_write info s (map enc ls, l2_seal w2 ls)) = l2_total w2 ls.
Proof.
  intros R Hne. pose proof (len_rw_buf _ _ R) as Lb. cbn [wst w_buf] in Lb.
  pose proof (rw_n _ _ R) as Ln. cbn [wst w_offsets] in Ln.
  rewrite len_batch_write, len_batch_body, len_c_offs'. cbn [fst snd]. rewrite map_length.
  unfold l2_total. rewrite Lb, <- frames_size_eq, Ln.
  destruct (l2_seal w2 ls); [|lia].
  unfold index_frame_size, llen.
  replace (len (c_offs s) + N.of_nat (length ls) =? 0) with false.
  2:{ symmetry. apply N.eqb_neq. destruct ls; [congruence|]. cbn [length]. lia. }
  replace (4 * (len (c_offs s) + N.of_nat (length ls))) with ((len (c_offs s) + N.of_nat (length ls)) * 4) by lia.
  lia.
Qed.

Lemma len_batch_write_fs info bs w2 (s := cstate info bs) :
  rep_w (wst info s) w2 -> (ws_n w2 =? 0) = false ->
  len (batch_write info s ([], true)) = fs_total w2.
Proof.
  intros R Hn. pose proof (len_rw_buf _ _ R) as Lb. cbn [wst w_buf] in Lb.
  pose proof (rw_n _ _ R) as Ln. cbn [wst w_offsets] in Ln.
  rewrite len_batch_write, len_batch_body, len_c_offs'. cbn [fst snd length].
  change (len (entries_bytes [])) with 0.
  unfold fs_total, index_frame_size. rewrite Lb, Hn, Ln.
  replace (4 * (len (c_offs s) + N.of_nat 0)) with (len (c_offs s) * 4) by lia. lia.
Qed.

Lemma apply_write_file a k off new :
  off = len a ->
  apply_wactions (a ++ zeros k) [WWrite off new; WSync] = (a ++ new) ++ zeros (k - length new).
Proof.
  intros ->. unfold apply_wactions. cbn [fold_left apply_waction].
  rewrite to_nat_len, overwrite_app, skipn_zeros, app_assoc. reflexivity.
Qed.

Lemma encs_ok_app a b : encs_ok a -> encs_ok b -> encs_ok (a ++ b).
Proof. intros Ha Hb. apply Forall_app. auto. Qed.

(* an acknowledged L2 append whose write ends below 4 GiB: the L1 writer
   acknowledges it too, writes exactly the bytes of one more batch at the
   offset and of the length L2 recorded, and the link holds again *)
Theorem linked_append info bs f w1 w2 file ls e w2' e' :
  let n := name_of info in
  linked info bs f w1 w2 file -> lookup n (dk_files (e_disk e)) = Some f ->
  consec ls -> ls <> [] -> encs_ok ls -> e_fault e = None ->
  ws_off w2 + l2_total w2 ls < two32 ->
  seg_append w2 ls e = (Model.ROk, w2', e') ->
  exists w1' new f',
    append w1 (ents ls) FNone = (WOk, w1', [WWrite (ws_off w2) new; WSync]) /\
    len new = l2_total w2 ls /\ sealed w1' = l2_seal w2 ls /\
    lookup n (dk_files (e_disk e')) = Some f' /\
    linked info (bs ++ [(map enc ls, sealed w1')]) f' w1' w2'
           (apply_wactions file [WWrite (ws_off w2) new; WSync]).
Proof.
  intros n [R Hok Hlen Ew1 Rw [k Ef]] Hl Hc Hne Hls Hf Hguard H2.
  destruct (append_cases w1 w2 ls e Rw) as [(r & _ & E2 & Hr)|(l0 & lr & -> & Hs & Hb & Hi)].
  { rewrite H2 in E2. destruct r; try discriminate. tauto. }
  set (ls := l0 :: lr) in *.
  destruct (append_l1_char w1 w2 l0 lr Rw Hc Hs Hb Hi) as (w1' & new & Ea & Lnew & Rw').
  fold ls in Ea, Lnew, Rw'.
  pose proof (sealed_l2 _ _ _ Rw') as Hsl.
  set (s := cstate info bs) in *. subst w1.
  set (b := (map enc ls, sealed w1')).
  assert (Hoff : ws_off w2 = len (image info bs)) by (rewrite (rw_off _ _ Rw); reflexivity).
  assert (Hlen' : len (image info (bs ++ [b])) < two32).
  { rewrite image_snoc, len_app. fold s. unfold b. rewrite Hsl.
    pose proof (len_batch_write_l2 info bs w2 ls Rw Hne) as Lb. cbn zeta in Lb. fold s in Lb.
    rewrite Lb. lia. }
  destruct (append_sim_rep info bs f w2 ls e w1' _ w2' e' R Hl Rw Hc Hne Hf Ea H2 Hlen')
    as (Eacts & Ew1' & Rw2 & Hl' & R').
  fold s b in Eacts, Ew1', R'. fold n in Hl'.
  exists w1', new, (synced f (pb_of ls w1')).
  split; [exact Ea|]. split; [exact Lnew|]. split; [exact Hsl|]. split; [exact Hl'|].
  inversion Eacts as [[Eo En]].
  constructor; try assumption.
  - cbn [synced df_ents pb_of pb_ents]. apply encs_ok_app; assumption.
  - rewrite Ef. rewrite apply_write_file by exact Hoff. rewrite image_snoc. fold s b. rewrite <- En.
    eexists. reflexivity.
Qed.

Theorem linked_force_seal info bs f w1 w2 file e w2' e' :
  let n := name_of info in
  linked info bs f w1 w2 file -> lookup n (dk_files (e_disk e)) = Some f ->
  e_fault e = None -> ws_index_start w2 = 0 ->
  ws_off w2 + fs_total w2 < two32 ->
  seg_force_seal w2 e = (Model.ROk, w2', e') ->
  exists w1' new f',
    force_seal w1 FNone = (WOk, w1', [WWrite (ws_off w2) new; WSync]) /\
    len new = fs_total w2 /\ sealed w1' = true /\
    lookup n (dk_files (e_disk e')) = Some f' /\
    linked info (bs ++ [([], true)]) f' w1' w2'
           (apply_wactions file [WWrite (ws_off w2) new; WSync]).
Proof.
  intros n [R Hok Hlen Ew1 Rw [k Ef]] Hl Hf Hu Hguard H2.
  destruct (force_seal_cases w1 w2 e Rw) as [(r & _ & E2 & Hr)|(Hs & Hn)].
  { rewrite H2, Hu in *. destruct r; try discriminate. discriminate Hr. reflexivity. }
  destruct (force_seal_l1_char w1 w2 Rw Hs Hn) as (w1' & new & Ea & Lnew & Rw').
  set (s := cstate info bs) in *. subst w1.
  set (b := (@nil bytes, true)).
  assert (Hoff : ws_off w2 = len (image info bs)) by (rewrite (rw_off _ _ Rw); reflexivity).
  assert (Hlen' : len (image info (bs ++ [b])) < two32).
  { rewrite image_snoc, len_app. fold s. unfold b.
    pose proof (len_batch_write_fs info bs w2 Rw Hn) as Lb. cbn zeta in Lb. fold s in Lb.
    rewrite Lb. lia. }
  destruct (force_seal_sim_rep info bs f w2 e w1' _ w2' e' R Hl Rw Hf Hu Ea H2 Hlen')
    as (Eacts & Ew1' & Rw2 & Hl' & R').
  fold s b in Eacts, Ew1', R'. fold n in Hl'.
  exists w1', new, (synced f (pb_of [] w1')).
  split; [exact Ea|]. split; [exact Lnew|]. split.
  { unfold sealed. rewrite <- (rw_istart _ _ Rw'). cbn [fs_after ws_index_start]. unfold fs_istart.
    apply N.ltb_lt. lia. }
  split; [exact Hl'|].
  inversion Eacts as [[Eo En]].
  constructor; try assumption.
  - cbn [synced df_ents pb_of pb_ents]. rewrite app_nil_r. exact Hok.
  - rewrite Ef. rewrite apply_write_file by exact Hoff. rewrite image_snoc. fold s b. rewrite <- En.
    eexists. reflexivity.
Qed.

(* power loss during a commit, then recovery *)
(* The L1 operation [op] (an append of the records ls, or a force-seal with
   ls = []) is in flight: L2 has performed the AWrite (its file is
   [written f pb]), the bytes [new] are on their way to offset [off].  The
   machine loses power; of [new] the torn image T reached the disk.  L2's
   adversary picks keep = "T is complete".  Then byte-level recovery
   (RecoverTail incl. zeroStaleTail) and L2's crash + seg_recover end in
   linked states again: with the batch if T is complete, without it
   otherwise. *)
Theorem linked_crash info bs f w1 w2 file op w1' off new b ls c T :
  let n := name_of info in
  hdr_wf info ->
  linked info bs f w1 w2 file -> encs_ok ls ->
  wrun w1 [op] = Some (w1', [WWrite off new; WSync], [b]) -> fst b = map enc ls ->
  len (image info (bs ++ [b])) < two32 ->
  torn new T -> no_torn_collision new T ->
  let fm := written f (pb_of ls w1') in
  (df_dir f = true \/ mem_name n (cc_keep_file c) = true) ->
  mem_name n (cc_keep_batch c) = beq_bytes T new ->
  let file1 := overwrite file (N.to_nat off) T in
  let bs' := if beq_bytes T new then bs ++ [b] else bs in
  exists f' w1r acts,
    crash_file c (n, fm) = [(n, f')] /\
    recover_tail info file1 = Some (w1r, acts) /\
    linked info bs' f' w1r (recw info f') (apply_wactions file1 acts).
Proof.
  intros n Hhw [R Hok Hlen Ew1 Rw [k Ef]] Hls Hrun Hb Hlen' HT Hnc fm Hsurv Hkeep file1 bs'. subst n. set (n := name_of info) in *.
  set (s := cstate info bs) in *. subst w1.
  pose proof (rep_pend _ _ _ R) as Hp.
  assert (Hl0 : lookup n (dk_files {| dk_files := [(n, f)]; dk_meta := None; dk_stable := []; dk_inited := false |}) = Some f).
  { cbn [dk_files lookup]. rewrite fname_eqb_refl. reflexivity. }
  destruct (commit_rep info bs f op w1' _ b ls _ R Hl0 Hrun Hb Hlen')
    as (Eacts & Ew1' & _ & _ & Rp & _ & _).
  fold s in Eacts. inversion Eacts as [[Eo En]]. fold fm in Rp.
  assert (Hokm : encs_ok (cur_ents fm)).
  { unfold cur_ents, fm. cbn [written df_pend df_ents pb_of pb_ents]. apply encs_ok_app; assumption. }
  assert (Ef1 : file1 = image info bs ++ T ++ zeros (k - length T)).
  { unfold file1. rewrite Ef, Eo, to_nat_len, overwrite_app, skipn_zeros. reflexivity. }
  assert (Hsurv' : df_dir fm = true \/ mem_name n (cc_keep_file c) = true) by exact Hsurv.
  rewrite En in HT, Hnc, Hkeep. 
  destruct (crash_file_sound info bs b fm c T (k - length T) Hhw Rp Hokm Hlen' HT Hnc Hsurv' Hkeep)
    as (f' & Hcf & R' & Hdir & _ & (acts & Hrt & Happ) & Rw' & _).
  fold s in R', Hrt, Happ, Rw'. rewrite <- En in R', Hrt, Happ, Rw'. fold bs' in R', Hrt, Happ, Rw'.
  rewrite <- Ef1 in Hrt, Happ.
  exists f', (wst info (cstate info bs')), acts. split; [exact Hcf|]. split; [exact Hrt|].
  constructor.
  - exact R'.
  - (* entries of the surviving file *)
    fold n in Hcf. rewrite (crash_file_char c n fm Hsurv') in Hcf. inversion Hcf as [Ef'].
    unfold crashed, fm. cbn [written df_pend]. rewrite Hkeep. rewrite <- En.
    destruct (beq_bytes T new); cbn [synced written df_ents pb_of pb_ents]; [apply encs_ok_app; assumption|exact Hok].
  - unfold bs'. destruct (beq_bytes T new); assumption.
  - reflexivity.
  - exact Rw'.
  - rewrite Happ. eexists. reflexivity.
Qed.

(* restart with nothing in flight *)
Theorem linked_restart info bs f w1 w2 file c :
  let n := name_of info in
  hdr_wf info -> linked info bs f w1 w2 file ->
  (df_dir f = true \/ mem_name n (cc_keep_file c) = true) ->
  exists f' acts,
    crash_file c (n, f) = [(n, f')] /\
    recover_tail info file = Some (w1, acts) /\
    linked info bs f' w1 (recw info f') (apply_wactions file acts).
Proof.
  intros n Hhw [R Hok Hlen Ew1 Rw [k Ef]] Hsurv.
  set (s := cstate info bs) in *.
  pose proof (rep_pend _ _ _ R) as Hp.
  assert (Hwf : chain_wf info c0 bs).
  { eapply chain_wf_cur; [apply rep_cur_rep; exact R| |exact Hlen].
    unfold cur_ents. rewrite Hp. exact Hok. }
  pose proof (recover_complete info bs k Hhw Hwf) as Hrs. fold s in Hrs.
  set (f' := crashed (mem_name n (cc_keep_batch c)) f).
  pose proof (rep_crashed_none info bs f (mem_name n (cc_keep_batch c)) R) as R'. fold f' in R'.
  exists f', (scrub_actions file (w_off w1)).
  split; [apply crash_file_char; exact Hsurv|]. split.
  { unfold recover_tail. rewrite Ef, Hrs, Ew1. reflexivity. }
  constructor.
  - exact R'.
  - unfold f', crashed. rewrite Hp. exact Hok.
  - exact Hlen.
  - exact Ew1.
  - rewrite Ew1. apply rep_w_recw, rep_cur_rep. exact R'.
  - rewrite Ew1, Ef. change (w_off (wst info s)) with (len (image info bs)).
    rewrite recover_leaves_zero_tail. eexists. reflexivity.
Qed.

(* the 2^32 guards from L2's own size invariants *)
(* The hypotheses are those of Wal/CrashCalls4.v append_sizes, i.e. what
   cfg_ok / sop_ok / CrashInv.fsz_ok give for the tail segment: limit and batch
   below 2^30, write offset at most limit + 8 while unsealed, at least 8 bytes
   per entry. *)
Lemma frames_size_ge8 ls : 8 * llen ls <= frames_size ls.
Proof.
  rewrite frames_size_eq. unfold llen. induction ls as [|l r IH].
  - cbn. lia.
  - cbn [map length]. rewrite len_entries_bytes_cons.
    pose proof (enc_frame_size_ge (len (enc l))). lia.
Qed.

Lemma index_frame_size_le' n : index_frame_size n <= 4 * n + 15.
Proof.
  unfold index_frame_size. destruct (n =? 0); [lia|]. unfold enc_frame_size.
  pose proof (pad_len_lt (n * 4)). lia.
Qed.

Theorem l2_append_guard w2 ls :
  ws_limit w2 < 1073741824 -> ws_off w2 <= ws_limit w2 + 8 -> 8 * ws_n w2 <= ws_off w2 ->
  frames_size ls < 1073741824 ->
  ws_off w2 + l2_total w2 ls < two32.
Proof.
  intros HL Hoff Hn HF. pose proof (frames_size_ge8 ls) as Hk.
  pose proof (index_frame_size_le' (ws_n w2 + llen ls)) as Hi.
  unfold l2_total, hdr_len, two32. destruct (l2_seal w2 ls); destruct (ws_hdr w2); lia.
Qed.

Theorem l2_force_seal_guard w2 :
  ws_limit w2 < 1073741824 -> ws_off w2 <= ws_limit w2 + 8 -> 8 * ws_n w2 <= ws_off w2 ->
  ws_off w2 + fs_total w2 < two32.
Proof.
  intros HL Hoff Hn. pose proof (index_frame_size_le' (ws_n w2)) as Hi.
  unfold fs_total, hdr_len, two32. destruct (ws_hdr w2); lia.
Qed.
