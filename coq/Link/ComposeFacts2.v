(* ComposeFacts2.v -- the primitives that write: seg_append, seg_force_seal
   (in lock step with the byte-level writer), and seg_recover. *)
From RW Require Import Base.Bytes Fmt.Frame Fmt.FrameFacts Seg.Writer Seg.Recover Seg.SegAbs Seg.WriterFacts
     Seg.RecoverFacts Wal.Model Wal.Spec Wal.CrashFacts0 Link.Abs Link.AbsFacts1 Link.AbsFacts2
     Link.AbsFacts4 Link.Disk Link.DiskFacts1 Link.DiskFacts2 Link.Compose Link.ComposeFacts1 Wal.ModelFacts.
From RW Require Import Base.LiaSetup.
Open Scope N_scope.

Lemma do_acts2_nofault e a1 a2 :
  e_fault e = None -> do_acts e [a1; a2] = io_ok (io_ok e a1) a2.
Proof.
  intros Hf. cbn [do_acts]. rewrite (io_nofault _ _ Hf). rewrite (io_nofault _ _ (io_ok_fault _ _ Hf)). reflexivity.
Qed.

(* one commit of the tail writer (append or force-seal) in lock step.
   op / pb: the L1 operation and the L2 batch; the L1 run is given in closed
   form (append_l1_char / force_seal_l1_char) *)
Lemma commit_link c tw info bs bd e op ls w1' new tot pb tw' :
  let n := ws_name tw in
  let aw := AWrite n (ws_off tw) tot pb in
  drep c bd (e_disk e) -> NoDup (map fst (dk_files (e_disk e))) -> e_fault e = None ->
  tail_link c tw info bs bd (e_disk e) -> logs_ok ls ->
  do_op (wst info (cstate info bs)) op = (WOk, w1', [WWrite (ws_off tw) new; WSync]) ->
  wop_of pb = op -> op_batch (wst info (cstate info bs)) w1' op = [(map enc ls, sealed w1')] ->
  len new = tot -> len (batch_write info (cstate info bs) (map enc ls, sealed w1')) = tot ->
  rep_w w1' tw' -> ws_name tw' = n -> pb = pb_of ls w1' ->
  ws_off tw + tot < two32 ->
  exists bd' bs',
    erun c bd e bd' (io_ok (io_ok e aw) (ASync n)) /\
    NoDup (map fst (dk_files (e_disk (io_ok (io_ok e aw) (ASync n))))) /\
    tail_link c tw' info bs' bd' (e_disk (io_ok (io_ok e aw) (ASync n))).
Proof.
  intros n aw H0 Hnd Hf [Tn Th Tw Tf] Hls Hop Hwop Hob Hlen Hlb Rw' Hn' Hpb Hguard.
  set (s := cstate info bs) in *. set (b := (map enc ls, sealed w1')) in *.
  assert (Hrun : wrun (wst info s) [op] = Some (w1', [WWrite (ws_off tw) new; WSync], [b])).
  { cbn [wrun]. rewrite Hop, Hob. rewrite !app_nil_r. reflexivity. }
  assert (Hoff : ws_off tw = len (image info bs)) by (rewrite (rw_off _ _ Tw); reflexivity).
  assert (Hlen' : len (image info (bs ++ [b])) < two32).
  { rewrite image_snoc, len_app. fold s. rewrite Hlb, <- Hoff. exact Hguard. }
  (* the writer equation does not depend on the file: wrun_char needs the length guard only *)
  assert (Ew : w1' = wst info (cstate info (bs ++ [b]))).
  { destruct (wrun_char info [op] s w1' _ [b] Hrun) as (Ew & _); [|rewrite cstate_snoc; exact Ew].
    cbn [fold_left]. unfold s. rewrite <- cstate_snoc. exact Hlen'. }
  assert (Hm : bmatch aw (BWrite n (ws_off tw) new)).
  { cbn [aw bmatch]. exists new. split; [reflexivity|]. split; [exact Hlen|].
    exists (wst info s), w1'. rewrite Hwop. exact Hop. }
  set (bd1 := bapply bd (BWrite n (ws_off tw) new)). set (d1 := apply_act (e_disk e) aw).
  (* the disks after the write, and the file after the fsync (if there is a file) *)
  assert (HD : drep c bd1 d1 /\
               forall f', lookup n (dk_files (apply_act d1 (ASync n))) = Some f' ->
                 exists bf', blookup n (bapply bd1 (BSync n)) = Some bf' /\ frep_at info (bs ++ [b]) None bf' f').
  { destruct (lookup n (dk_files (e_disk e))) as [f|] eqn:El.
    - destruct (Tf f El) as (bf & Hbl & R).
      destruct (bwrite_drep c bd (e_disk e) info n bs bf f op w1' _ b ls H0 Tn Th El Hbl R Hrun eq_refl Hls Hlen')
        as (Ea & _ & D1 & _ & _ & R2).
      fold s in Ea. inversion Ea as [[Eo En]].
      assert (Eaw : AWrite n (len (image info bs)) (len (batch_write info s b)) (pb_of ls w1') = aw).
      { unfold aw. rewrite <- En, Hlen, <- Hoff, Hpb. reflexivity. }
      fold s in D1, R2. rewrite Eaw in D1. rewrite <- En, <- Hoff in D1, R2.
      split; [exact D1|]. intros f' Hf'. unfold d1 in Hf'.
      rewrite (apply_sync_files _ n (written f pb)) in Hf'.
      2:{ unfold aw. rewrite (apply_write_files _ _ _ _ _ _ El (rep_pend _ _ _ (fr_rep _ _ _ _ _ R))).
          apply lookup_update_eq. }
      rewrite lookup_update_eq in Hf'. inversion Hf'; subst f'.
      exists (bsync_file (bwrite_file bf (ws_off tw) new)). split; [|rewrite Hpb; exact R2].
      unfold bd1. rewrite (bapply_sync _ n (bwrite_file bf (ws_off tw) new)); [apply blookup_bupdate_eq|].
      rewrite (bapply_write _ _ _ _ _ Hbl). apply blookup_bupdate_eq.
    - split; [apply bwrite_missing_drep; assumption|]. intros f' Hf'. exfalso.
      assert (Ed1 : d1 = e_disk e) by (unfold d1; cbn [aw apply_act]; rewrite El; reflexivity).
      rewrite Ed1 in Hf'. cbn [apply_act] in Hf'. rewrite El in Hf'. rewrite El in Hf'. discriminate. }
  destruct HD as (D1 & Tf').
  exists (bapply bd1 (BSync n)), (bs ++ [b]). split; [|split].
  - eapply erun_trans.
    + apply erun_io; [exact Hf|exact H0|exact Hm|exact D1].
    + apply erun_io; [apply io_ok_fault; exact Hf|exact D1|reflexivity|apply bsync_drep; exact D1].
  - cbn [io_ok e_disk]. apply NoDup_apply, NoDup_apply. exact Hnd.
  - rewrite Ew in Rw'. constructor; rewrite ?Hn'; [exact Tn|exact Th|exact Rw'|exact Tf'].
Qed.

Lemma op_link0_tail c bd e bd' e' tw info bs :
  erun c bd e bd' e' -> NoDup (map fst (dk_files (e_disk e'))) -> tail_link c tw info bs bd' (e_disk e') ->
  op_link0 c bd e (Some tw) e'.
Proof.
  intros E Hnd T. exists bd'. split; [exact E|]. split; [exact (erun_end _ _ _ _ _ E)|]. split; [exact Hnd|].
  split; [exact (erun_fault _ _ _ _ _ E)|]. exists info, bs. exact T.
Qed.

(* without a fault, a refused call changes nothing *)
Lemma seg_append_link c tw ls bd e r tw' e' :
  L0 c (Some tw) bd e -> consec ls -> logs_ok ls ->
  (ws_index_start tw = 0 -> ws_off tw + l2_total tw ls < two32) ->
  seg_append tw ls e = (r, tw', e') ->
  op_link0 c bd e (Some tw') e' /\ (r = ROk \/ (tw' = tw /\ e' = e)).
Proof.
  intros H Hc Hls Hg Hs. pose proof H as (H0 & Hnd & Hf & info & bs & T).
  destruct (seg_append_cases _ _ _ _ _ _ Hs) as [(-> & ->)|(l0 & lr & -> & E1 & E2 & E3)].
  { split; [apply op_link0_refl; exact H|auto]. }
  rewrite (seg_append_char tw l0 lr e E1 E2 E3), Hf in Hs. cbn [both_ok] in Hs.
  rewrite do_acts2_nofault in Hs by exact Hf. inversion Hs; subst r tw' e'. clear Hs. split; [|auto].
  set (ls := l0 :: lr) in *. pose proof (tl_w _ _ _ _ _ _ T) as Rw.
  destruct (append_l1_char _ tw l0 lr Rw Hc E1 E2 E3) as (w1' & new & Ea & Lnew & Rw'). fold ls in Ea, Lnew, Rw'.
  assert (Hz : ws_index_start tw = 0) by (apply N.ltb_ge in E1; lia).
  destruct (commit_link c tw info bs bd e (OpAppend (ents ls)) ls w1' new (l2_total tw ls) (l2_batch tw ls) (l2_after tw ls))
    as (bd' & bs' & E & Hnd' & T'); try assumption.
  - reflexivity.
  - cbn [op_batch]. unfold ls at 1. cbn [ents map]. fold (ents lr). change (ent l0 :: ents lr) with (ents ls).
    rewrite map_snd_ents. reflexivity.
  - rewrite (sealed_l2 _ _ _ Rw'). apply len_batch_write_l2; [exact Rw|discriminate].
  - reflexivity.
  - symmetry. apply pb_of_l2_batch. exact Rw'.
  - apply Hg. exact Hz.
  - exact (op_link0_tail _ _ _ _ _ _ _ _ E Hnd' T').
Qed.

Lemma seg_force_seal_link c tw bd e r tw' e' :
  L0 c (Some tw) bd e ->
  (ws_index_start tw = 0 -> ws_off tw + fs_total tw < two32) ->
  seg_force_seal tw e = (r, tw', e') -> op_link0 c bd e (Some tw') e'.
Proof.
  intros H Hg Hs. pose proof H as (H0 & Hnd & Hf & info & bs & T).
  destruct (seg_force_seal_cases _ _ _ _ _ Hs) as [(-> & -> & _)|(E1 & E2)]; [apply op_link0_refl; exact H|].
  rewrite (seg_force_seal_char tw e E1 E2), Hf in Hs. cbn [both_ok] in Hs.
  rewrite do_acts2_nofault in Hs by exact Hf. inversion Hs; subst r tw' e'. clear Hs.
  pose proof (tl_w _ _ _ _ _ _ T) as Rw.
  destruct (force_seal_l1_char _ tw Rw E1 E2) as (w1' & new & Ea & Lnew & Rw').
  assert (Hz : ws_index_start tw = 0) by (apply N.ltb_ge in E1; lia).
  assert (Hns : sealed (wst info (cstate info bs)) = false).
  { unfold sealed. rewrite <- (rw_istart _ _ Rw), Hz. reflexivity. }
  assert (Hsl : sealed w1' = true).
  { unfold sealed. rewrite <- (rw_istart _ _ Rw'). cbn [fs_after ws_index_start]. unfold fs_istart. apply N.ltb_lt. lia. }
  destruct (commit_link c tw info bs bd e OpSeal [] w1' new (fs_total tw) (fs_batch tw) (fs_after tw))
    as (bd' & bs' & E & Hnd' & T'); try assumption.
  - constructor.
  - reflexivity.
  - cbn [op_batch]. rewrite Hns, Hsl. reflexivity.
  - rewrite Hsl. apply (len_batch_write_fs info bs tw Rw E2).
  - reflexivity.
  - symmetry. apply pb_of_fs_batch. exact Rw'.
  - apply Hg. exact Hz.
  - exact (op_link0_tail _ _ _ _ _ _ _ _ E Hnd' T').
Qed.

(* Filer.RecoverTail on a file without a write in flight: the L2 writer is
   linked to the file; the byte-level RecoverTail returns the byte writer it
   represents and writes nothing (so there is no byte-level action to match) *)
Lemma seg_recover_link c si bd e f :
  drep c bd (e_disk e) -> si_codec si = c_codec c ->
  lookup (name_of si) (dk_files (e_disk e)) = Some f -> df_pend f = None ->
  seg_recover si e = Some (Some (recw si f)) /\
  exists bs bf,
    tail_link c (recw si f) si bs bd (e_disk e) /\
    blookup (name_of si) bd = Some bf /\
    recover_state si (bf_data bf) = Some (wst si (cstate si bs)) /\
    bf_data (bscrub_file si (bkept (bf_data bf))) = bf_data bf.
Proof.
  intros H0 Hc El Hp. split; [apply seg_recover_char; exact El|].
  destruct (frel_lookup _ _ _ _ _ H0 El) as (bf & Hb & Hh & bs & pb & R).
  assert (He : hdr_eq (finfo c (name_of si)) si).
  { unfold hdr_eq, finfo, name_of. cbn. auto. }
  assert (Hpb : pb = None).
  { destruct pb as [b|]; [|reflexivity]. destruct (fr_rep _ _ _ _ _ R) as (_ & p & Hp' & _). congruence. }
  subst pb. pose proof (frep_at_hdr_eq _ _ _ _ _ _ He R) as R'.
  assert (Hh' : hdr_wf si).
  { destruct Hh as (A & B & C). unfold hdr_wf. cbn in A, B, C. rewrite <- Hc in C. auto. }
  exists bs, bf. split; [|split; [exact Hb|]].
  - constructor.
    + reflexivity.
    + cbn [recw ws_name]. apply hdr_eq_sym. exact He.
    + apply rep_w_recw, rep_cur_rep. apply (fr_rep _ _ _ _ _ R').
    + cbn [recw ws_name]. intros f' Hf'. rewrite El in Hf'. inversion Hf'; subst f'. exists bf. auto.
  - destruct (frep_crash_clean si bs bf f true Hh' R') as (_ & P2 & P3).
    destruct (bscrub_clean si bs bf f Hh' R') as (_ & Ed). rewrite Ed. auto.
Qed.
