(* ComposeFacts1.v -- lock-step runs and the primitives of the WAL:
   metadata io, seg_create, delete_files, seg_append, seg_force_seal,
   seg_recover.  Each primitive, started with a byte disk that is
   drep-related (and a linked tail writer), performs its L2 actions in lock
   step with byte-level actions and re-establishes the link. *)
From RW Require Import Base.Bytes Fmt.Frame Seg.SegAbs Seg.WriterFacts Seg.RecoverFacts Wal.Model Wal.Hist
     Wal.CrashFacts0 Link.AbsFacts1 Link.Disk Link.DiskFacts1 Link.Compose Wal.ModelFacts.
From RW Require Import Base.LiaSetup.
Open Scope N_scope.

Lemma lrun_start c bd d acts bd' d' : lrun c bd d acts bd' d' -> drep c bd d.
Proof. destruct 1; assumption. Qed.

Lemma lrun_end c bd d acts bd' d' : lrun c bd d acts bd' d' -> drep c bd' d'.
Proof. induction 1; assumption. Qed.

Lemma lrun_disk c bd d acts bd' d' : lrun c bd d acts bd' d' -> d' = fold_left apply_act acts d.
Proof. induction 1; [reflexivity|]. cbn [fold_left]. assumption. Qed.

Lemma lrun_app c bd d a1 bd1 d1 a2 bd2 d2 :
  lrun c bd d a1 bd1 d1 -> lrun c bd1 d1 a2 bd2 d2 -> lrun c bd d (a1 ++ a2) bd2 d2.
Proof.
  induction 1 as [|bd d a ba acts bd' d' H0 Hm _ IH]; intros H2; [exact H2|].
  cbn [app]. econstructor; eauto.
Qed.

Lemma lrun_one c bd d a ba :
  drep c bd d -> bmatch a ba -> drep c (bapply bd ba) (apply_act d a) ->
  lrun c bd d [a] (bapply bd ba) (apply_act d a).
Proof. intros H0 Hm H1. econstructor; eauto. constructor. exact H1. Qed.

(* every point of a lock-step run is a lock-step run: the byte disk reached
   after any number j of actions is drep-related to L2's disk at that point *)
Lemma lrun_prefix c bd d acts bd' d' j :
  lrun c bd d acts bd' d' ->
  exists bdj, lrun c bd d (firstn j acts) bdj (fold_left apply_act (firstn j acts) d).
Proof.
  intros H. revert j. induction H as [bd d H0|bd d a ba acts bd' d' H0 Hm _ IH]; intros j.
  - rewrite firstn_nil. exists bd. constructor. exact H0.
  - destruct j as [|j]; cbn [firstn fold_left].
    + exists bd. constructor. exact H0.
    + destruct (IH j) as [bdj Hj]. exists bdj. econstructor; eauto.
Qed.

Lemma new_acts_rev e e' acts : e_acts e' = rev acts ++ e_acts e -> new_acts e e' = acts.
Proof.
  intros Ha. unfold new_acts. rewrite Ha, app_length, Nat.add_sub, firstn_app, firstn_all.
  rewrite Nat.sub_diag. cbn [firstn]. rewrite app_nil_r, rev_append_rev, app_nil_r. apply rev_involutive.
Qed.

Lemma erun_refl c bd e : drep c bd (e_disk e) -> e_fault e = None -> erun c bd e bd e.
Proof. intros H Hf. split; [exact Hf|]. exists []. split; [reflexivity|constructor; exact H]. Qed.

Lemma erun_trans c bd e bd1 e1 bd2 e2 : erun c bd e bd1 e1 -> erun c bd1 e1 bd2 e2 -> erun c bd e bd2 e2.
Proof.
  intros (_ & a1 & E1 & L1) (F2 & a2 & E2 & L2). split; [exact F2|].
  exists (a1 ++ a2). split; [rewrite E2, E1, rev_app_distr, app_assoc; reflexivity|].
  eapply lrun_app; eauto.
Qed.

Lemma erun_start c bd e bd' e' : erun c bd e bd' e' -> drep c bd (e_disk e).
Proof. intros (_ & acts & _ & L). eapply lrun_start; eauto. Qed.
Lemma erun_end c bd e bd' e' : erun c bd e bd' e' -> drep c bd' (e_disk e').
Proof. intros (_ & acts & _ & L). eapply lrun_end; eauto. Qed.
Lemma erun_fault c bd e bd' e' : erun c bd e bd' e' -> e_fault e' = None.
Proof. intros (F & _). exact F. Qed.

(* metrics are not part of the run *)
Lemma erun_with_m_l c bd e m bd' e' : erun c bd (with_m e m) bd' e' <-> erun c bd e bd' e'.
Proof. unfold erun. cbn [with_m e_acts e_disk]. tauto. Qed.
Lemma erun_with_m_r c bd e m bd' e' : erun c bd e bd' (with_m e' m) <-> erun c bd e bd' e'.
Proof. unfold erun. cbn [with_m e_acts e_disk e_fault]. tauto. Qed.

Lemma io_nofault a e : e_fault e = None -> io a e = (true, io_ok e a).
Proof.
  intros Hf. unfold io, io_ok, armed. rewrite Hf. destruct (is_delete a); reflexivity.
Qed.

Lemma erun_io c bd e a ba :
  e_fault e = None -> drep c bd (e_disk e) -> bmatch a ba ->
  drep c (bapply bd ba) (apply_act (e_disk e) a) ->
  erun c bd e (bapply bd ba) (io_ok e a).
Proof.
  intros Hf H0 Hm H1. split; [cbn [io_ok e_fault]; rewrite Hf; reflexivity|].
  exists [a]. split; [reflexivity|]. cbn [io_ok e_disk]. apply lrun_one; assumption.
Qed.

Lemma io_ok_fault e a : e_fault e = None -> e_fault (io_ok e a) = None.
Proof. intros Hf. cbn [io_ok e_fault]. rewrite Hf. reflexivity. Qed.

(* the tail link across actions on other files *)
Lemma tail_link_frame c tw info bs bd d bd' d' :
  tail_link c tw info bs bd d ->
  (forall f, lookup (ws_name tw) (dk_files d') = Some f ->
             lookup (ws_name tw) (dk_files d) = Some f /\ blookup (ws_name tw) bd' = blookup (ws_name tw) bd) ->
  tail_link c tw info bs bd' d'.
Proof.
  intros [A B C D] H. constructor; auto. intros f Hf. destruct (H f Hf) as [H1 H2]. rewrite H2. apply D. exact H1.
Qed.

Lemma NoDup_apply d a : NoDup (map fst (dk_files d)) -> NoDup (map fst (dk_files (apply_act d a))).
Proof.
  intros H. destruct a; cbn [apply_act dk_files]; auto.
  - apply update_NoDup. exact H.
  - destruct (lookup n (dk_files d)); [|exact H]. cbn [dk_files]. apply update_NoDup. exact H.
  - destruct (lookup n (dk_files d)); [|exact H]. cbn [dk_files]. apply update_NoDup. exact H.
  - apply remove_NoDup. exact H.
Qed.

Lemma blookup_bremove_neq n m bd : n <> m -> blookup n (bremove m bd) = blookup n bd.
Proof.
  intros Hne. induction bd as [|[k g] r IH]; cbn [bremove blookup]; [reflexivity|].
  destruct (fname_eqb m k) eqn:E.
  - apply fname_eqb_eq in E. subst k.
    replace (fname_eqb n m) with false by (symmetry; apply fname_eqb_neq; exact Hne). reflexivity.
  - cbn [blookup]. rewrite IH. reflexivity.
Qed.

Lemma tail_link_delete c tw info bs bd d m :
  NoDup (map fst (dk_files d)) -> tail_link c tw info bs bd d ->
  tail_link c tw info bs (bapply bd (BDelete m)) (apply_act d (ADelete m)).
Proof.
  intros Hnd H. eapply tail_link_frame; [exact H|]. cbn [apply_act dk_files bapply]. intros f Hf.
  destruct (fname_eqb (ws_name tw) m) eqn:E.
  - apply fname_eqb_eq in E. subst m. rewrite lookup_remove_eq in Hf by exact Hnd. discriminate.
  - apply fname_eqb_neq in E. rewrite lookup_remove_neq in Hf by exact E. split; [exact Hf|].
    apply blookup_bremove_neq. exact E.
Qed.

Lemma tail_link_create_other c tw info bs bd d m size :
  ws_name tw <> m -> tail_link c tw info bs bd d ->
  tail_link c tw info bs (bapply bd (BCreate m size)) (apply_act d (ACreate m size)).
Proof.
  intros Hne H. eapply tail_link_frame; [exact H|]. cbn [apply_act dk_files bapply]. intros f Hf.
  rewrite lookup_update_neq in Hf by exact Hne. split; [exact Hf|]. apply blookup_bupdate_neq. exact Hne.
Qed.

(* runs that end linked *)
(* the byte-level part of the invariant of a running WAL with tail writer t, on
   an environment in which no fault is armed *)
Definition L0 (c : cfg) (t : option wseg) (bd : bdisk) (e : env) : Prop :=
  drep c bd (e_disk e) /\ NoDup (map fst (dk_files (e_disk e))) /\ e_fault e = None /\
  tail_linked c t bd (e_disk e).

(* what every primitive below establishes: its actions are a lock-step run at
   whose end the tail writer t is linked *)
Definition op_link0 (c : cfg) (bd : bdisk) (e : env) (t : option wseg) (e' : env) : Prop :=
  exists bd', erun c bd e bd' e' /\ L0 c t bd' e'.

Lemma op_link0_refl c bd e t : L0 c t bd e -> op_link0 c bd e t e.
Proof. intros H. exists bd. split; [apply erun_refl; apply H|exact H]. Qed.

Lemma op_link0_trans c bd e t1 e1 t2 e2 :
  op_link0 c bd e t1 e1 -> (forall bd1, L0 c t1 bd1 e1 -> op_link0 c bd1 e1 t2 e2) -> op_link0 c bd e t2 e2.
Proof.
  intros (bd1 & E1 & W1) H. destruct (H bd1 W1) as (bd2 & E2 & W2). exists bd2. split; [eapply erun_trans; eauto|exact W2].
Qed.

(* one action: it is enough to say what is linked afterwards *)
Lemma op_link0_io c bd e a ba t t' :
  L0 c t bd e -> bmatch a ba -> L0 c t' (bapply bd ba) (io_ok e a) -> op_link0 c bd e t' (io_ok e a).
Proof. intros H Hm H'. eexists. split; [|exact H']. apply erun_io; [apply H|apply H|exact Hm|apply H']. Qed.

Lemma L0_files c t bd e e' :
  dk_files (e_disk e') = dk_files (e_disk e) -> e_fault e' = None -> L0 c t bd e -> L0 c t bd e'.
Proof.
  intros E Hf (H0 & Hnd & _ & Ht). unfold L0, drep. rewrite E. repeat split; auto.
  destruct t as [tw|]; [|exact I]. destruct Ht as (info & bs & Ht). exists info, bs.
  eapply tail_link_frame; [exact Ht|]. intros f. rewrite E. auto.
Qed.

(* an action that touches no segment file *)
Lemma op_link0_meta c bd e a t : meta_act a -> L0 c t bd e -> op_link0 c bd e t (io_ok e a).
Proof.
  intros Hm H. apply (op_link0_io c bd e a BNone t); [exact H|destruct a; try contradiction; reflexivity|].
  apply (L0_files c t bd e); [apply (meta_act_files _ _ Hm)|apply io_ok_fault; apply H|exact H].
Qed.

Lemma op_link0_with_m c bd e t e' m : op_link0 c bd e t e' -> op_link0 c bd e t (with_m e' m).
Proof.
  intros (bd' & E & H). exists bd'. split; [apply erun_with_m_r; exact E|].
  apply (L0_files c t bd' e'); [reflexivity|apply H|exact H].
Qed.

Lemma L0_delete c t bd e m : L0 c t bd e -> L0 c t (bapply bd (BDelete m)) (io_ok e (ADelete m)).
Proof.
  intros (H0 & Hnd & Hf & Ht). split; [apply bdelete_drep; exact H0|]. split; [apply NoDup_apply; exact Hnd|].
  split; [apply io_ok_fault; exact Hf|]. destruct t as [tw|]; [|exact I]. destruct Ht as (info & bs & Ht).
  exists info, bs. apply tail_link_delete; assumption.
Qed.

Lemma delete_files_link c t ns : forall bd e, L0 c t bd e -> op_link0 c bd e t (delete_files ns e).
Proof.
  induction ns as [|n ns IH]; intros bd e H; [apply op_link0_refl; exact H|].
  unfold delete_files. cbn [fold_left]. fold (delete_files ns (snd (io (ADelete n) e))).
  replace (io (ADelete n) e) with (true, io_ok e (ADelete n)) by (symmetry; apply io_nofault; apply H). cbn [snd].
  eapply op_link0_trans; [|intros bd1; apply IH].
  apply (op_link0_io c bd e _ (BDelete n) t); [exact H|reflexivity|apply L0_delete; exact H].
Qed.

Lemma hdr_eq_new_segment c id base : hdr_eq (new_segment c id base) (finfo c (base, id)).
Proof. apply hdr_eq_refl. Qed.

Lemma tail_link_created c si bd d :
  si_codec si = c_codec c ->
  tail_link c (new_wseg si) si [] (bapply bd (BCreate (name_of si) (si_size_limit si)))
            (apply_act d (ACreate (name_of si) (si_size_limit si))).
Proof.
  intros Hc. constructor.
  - reflexivity.
  - cbn [new_wseg ws_name]. unfold hdr_eq, finfo, name_of. cbn. auto.
  - change (cstate si []) with c0. rewrite wst_c0. apply rep_w_init.
  - cbn [new_wseg ws_name apply_act dk_files bapply]. intros f Hf. rewrite lookup_update_eq in Hf. inversion Hf; subst f.
    exists (bcreated (si_size_limit si)). split; [apply blookup_bupdate_eq|]. apply frep_create.
Qed.

(* the writer of the created file, linked; or nothing happened to the files *)
Lemma seg_create_link c si bd e sw e' t :
  L0 c t bd e -> si_codec si = c_codec c -> hdr_wf (finfo c (name_of si)) ->
  seg_create si e = (sw, e') ->
  op_link0 c bd e (match sw with Some _ => Some (new_wseg si) | None => t end) e'.
Proof.
  intros H Hc Hh. pose proof H as (H0 & Hnd & Hf & Ht).
  unfold seg_create. destruct (si_base si =? 0); [intros [= <- <-]; apply op_link0_refl; exact H|].
  rewrite !(io_nofault _ _ Hf).
  destruct (lookup (name_of si) (dk_files (e_disk e))) as [f|]; intros [= <- <-].
  - apply op_link0_meta; [exact I|exact H].
  - apply (op_link0_io c bd e _ (BCreate (name_of si) (si_size_limit si)) t); [exact H|reflexivity|].
    split; [apply bcreate_drep; assumption|]. split; [apply NoDup_apply; exact Hnd|].
    split; [apply io_ok_fault; exact Hf|]. exists si, []. apply tail_link_created. exact Hc.
Qed.

Lemma lrun_prefix_drep c bd d acts bd' d' j :
  lrun c bd d acts bd' d' ->
  exists bdj, lrun c bd d (firstn j acts) bdj (fold_left apply_act (firstn j acts) d) /\
              drep c bdj (fold_left apply_act (firstn j acts) d).
Proof.
  intros L. destruct (lrun_prefix c bd d acts bd' d' j L) as [bdj Lj].
  exists bdj. split; [exact Lj|exact (lrun_end _ _ _ _ _ _ Lj)].
Qed.
