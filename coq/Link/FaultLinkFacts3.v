(* FaultLinkFacts3.v -- the observable results of a history with injected faults,
   computed from BYTES.
     wtail_read     GetLog served by the tail writer of the RUNNING process: the
                    byte-level tail reader (offsets of the rolled-back writer)
                    on the byte-level file -- image, then whatever failed writes
                    left -- returns the encoding of what L2 returns; nothing of
                    a failed batch is visible
     wsealed_read   GetLog served by a sealed segment (given the recorded
                    IndexStart: seg_meta_ok)
     wget_log_link  GetLog of a linked WAL
     restart_recovered   after a restart: the writer the byte-level recovery
                    returns for a file represents the writer L2's Open builds on
                    the adopted file, hence LastIndex / FirstIndex computed from
                    the recovered bytes are L2's *)
From RW Require Import Base.Bytes Fmt.Codec Fmt.Frame Seg.Writer Seg.Recover Seg.Reader Seg.SegAbs
     Seg.RecoverFacts Seg.FailFacts Wal.Model Wal.ModelFacts Wal.CrashFacts0 Wal.CrashCalls2 Wal.FaultInv Link.Abs
     Link.AbsFacts2 Link.AbsFacts3 Link.Disk Link.DiskFacts1 Link.ComposeFacts7 Link.FaultDisk
     Link.FaultDiskFacts1.
From RW Require Import Base.LiaSetup.
Open Scope N_scope.

(* the byte-level read behind a GetLog of a WAL linked by the weak relation *)
Definition wbread (c : cfg) (w : wal) (bd : bdisk) (d : disk) (idx : N) (p : bytes) : Prop :=
  (exists tw info bs bf, st_tail w = Some tw /\ wtail_link c tw info bs bd d /\
      blookup (ws_name tw) bd = Some bf /\
      tail_get (wst info (cstate info bs)) (bf_data bf) idx = Reader.ROk p) \/
  (exists s bf, In s (st_segs w) /\ blookup (name_of s) bd = Some bf /\
      sealed_get s (bf_data bf) idx = Reader.ROk p).

Lemma tail_lookup_unpend tw info bs f d idx l0 :
  rep_w (wst info (cstate info bs)) tw -> rep info bs (Abs.unpend f) -> 1 <= ws_base tw ->
  lookup (ws_name tw) (dk_files d) = Some f ->
  tail_lookup tw idx d = Some l0 ->
  tail_lookup tw idx (one_file (ws_name tw) (Abs.unpend f)) = Some l0 /\ In l0 (df_ents f).
Proof.
  intros Rw Ru Hb El H. unfold tail_lookup in *.
  destruct ((idx <? ws_base tw) || (idx <? ws_min tw) || (ws_commit_idx tw <? idx)) eqn:G; [discriminate|].
  unfold seg_read in *. rewrite lookup_one_file. rewrite El in H.
  change (cur_ents (Abs.unpend f)) with (df_ents f).
  pose proof (cur_rep_offs _ _ _ (rep_cur_rep _ _ _ Ru)) as Ln. change (cur_ents (Abs.unpend f)) with (df_ents f) in Ln.
  assert (Hi : (N.to_nat (idx - ws_base tw) < length (df_ents f))%nat).
  { rewrite (rw_cidx _ _ Rw), (rw_base _ _ Rw) in G. cbn [wst w_commit_idx w_info] in G. unfold commit_idx_of in G.
    cbn [w_offsets w_info] in G. rewrite (rw_base _ _ Rw) in Hb. cbn [wst w_info] in Hb.
    unfold len, llen in Ln. rewrite (rw_base _ _ Rw). cbn [wst w_info].
    destruct (c_offs (cstate info bs)) as [|o0 or] eqn:Eo; unfold len in G; cbn [length] in *; lia. }
  assert (E : nth_error (cur_ents f) (N.to_nat (idx - ws_base tw)) = nth_error (df_ents f) (N.to_nat (idx - ws_base tw))).
  { unfold cur_ents. destruct (df_pend f); [apply nth_error_app1; exact Hi|reflexivity]. }
  rewrite E in H. split; [exact H|eapply nth_error_In; eauto].
Qed.

(* GetLog from the tail of the running process, with leftovers in the file *)
Lemma wtail_read c tw info bs bd d idx l0 :
  wtail_link c tw info bs bd d -> 1 <= ws_base tw -> tail_lookup tw idx d = Some l0 ->
  exists bf p, blookup (ws_name tw) bd = Some bf /\
               tail_get (wst info (cstate info bs)) (bf_data bf) idx = Reader.ROk p /\
               decode_log p = Some (codec_view l0).
Proof.
  intros [Tn Th Tw Tf] Hb Hl.
  assert (Hr : seg_read (ws_name tw) (ws_base tw) idx d = Some l0).
  { unfold tail_lookup in Hl. destruct (_ || _); [discriminate|exact Hl]. }
  destruct (seg_read_lookup _ _ _ _ _ Hr) as (f & Ef & _).
  destruct (Tf f Ef) as (bf & pb & Hbl & R).
  pose proof (wfrep_unpend _ _ _ _ _ R) as Ru.
  destruct (tail_lookup_unpend tw info bs f d idx l0 Tw Ru Hb Ef Hl) as (Hl0 & Hin).
  pose proof (wfrep_ents_ok _ _ _ _ _ R) as Hok0.
  assert (Hwf : wf_log l0). { rewrite Forall_forall in Hok0. apply (Hok0 l0 Hin). }
  destruct (wfrep_prefix _ _ _ _ _ R) as [X Dx].
  destruct (get_sim_tail info bs (Abs.unpend f) (one_file (ws_name tw) (Abs.unpend f)) tw idx l0 X (rep_cur_rep _ _ _ Ru)
              (logs_ok_encs_ok _ Hok0) ltac:(rewrite Tn; apply lookup_one_file) Tw Hl0 Hwf) as (p & Hp & Hdec & _).
  exists bf, p. rewrite Dx. auto.
Qed.

(* GetLog from a sealed segment: any bytes may follow the image *)
Lemma wsealed_read c bd d s idx l0 f :
  wdrep c bd d -> lookup (name_of s) (dk_files d) = Some f ->
  seg_read (name_of s) (si_base s) idx d = Some l0 ->
  si_index_start s = cur_seal f -> cur_seal f <> 0 ->
  si_base s <= idx -> si_min s <= idx -> (si_max s = 0 \/ idx <= si_max s) ->
  exists bf p, blookup (name_of s) bd = Some bf /\
               sealed_get s (bf_data bf) idx = Reader.ROk p /\ decode_log p = Some (codec_view l0).
Proof.
  intros H0 El Hr Hist Hnz Hb Hmin Hmax.
  destruct (rel_lookup wfrep _ _ _ _ _ H0 El) as (bf & Hbl & Hh & bs & pb & R).
  set (info := finfo c (name_of s)) in *.
  destruct (wr_data _ _ _ _ _ R) as [R0 D].
  pose proof (wfrep_cur_rep _ _ _ _ _ R) as Hcr.
  pose proof (wr_ok _ _ _ _ _ R) as Hok.
  destruct (seg_read_lookup _ _ _ _ _ Hr) as (f' & Ef' & Hin). rewrite El in Ef'. inversion Ef'; subst f'.
  assert (Hwf : wf_log l0). { rewrite Forall_forall in Hok. apply (Hok l0 Hin). }
  assert (En : name_of info = name_of s) by apply finfo_name.
  assert (Eb : si_base info = si_base s) by reflexivity.
  assert (El' : lookup (name_of info) (dk_files d) = Some f) by (rewrite En; exact El).
  assert (Hb' : si_base info <= idx) by (rewrite Eb; exact Hb).
  assert (Hr' : seg_read (name_of info) (si_base info) idx d = Some l0) by (rewrite En, Eb; exact Hr).
  destruct (get_sim_sealed info s (bs ++ opt_batch pb) f d idx l0 R0 Hcr (logs_ok_encs_ok _ Hok)
              (wr_len _ _ _ _ _ R) El' Hnz (eq_sym Eb) Hist Hb' Hmin Hmax Hr' Hwf) as (p & Hp & Hdec & _).
  exists bf, p. rewrite D. auto.
Qed.

(* GetLog down to bytes for a WAL linked by the weak relation (a running
   process of a history with injected faults) *)
Theorem wget_log_link c w bd e idx l e' :
  WL c w bd (e_disk e) -> seg_meta_ok w (e_disk e) ->
  (forall tw, st_tail w = Some tw -> 1 <= ws_base tw) ->
  get_log w idx e = (RLog l, e') ->
  exists p, wbread c w bd (e_disk e) idx p /\ decode_log p = Some l.
Proof.
  intros ((H0 & Hnd & Ht) & _) Hmeta Hbase H. unfold get_log in H.
  destruct (st_closed w); [discriminate|]. cbn zeta in H.
  assert (Htail : forall tw l0, st_tail w = Some tw -> tail_lookup tw idx (e_disk e) = Some l0 ->
            exists p, wbread c w bd (e_disk e) idx p /\ decode_log p = Some (codec_view l0)).
  { intros tw l0 Et Hl. rewrite Et in Ht. destruct Ht as (info & bs & T).
    destruct (wtail_read c tw info bs bd _ idx l0 T (Hbase tw Et) Hl) as (bf & p & Hb & Hp & Hd).
    exists p. split; [|exact Hd]. left. exists tw, info, bs, bf. auto. }
  match type of H with context [match ?ft with Some _ => _ | None => _ end] =>
    destruct ft as [l0|] eqn:Eft end.
  - inversion H; subst l.
    destruct (st_tail w) as [tw|] eqn:Et; [|discriminate].
    assert (Hl : tail_lookup tw idx (e_disk e) = Some l0).
    { destruct (tail_info (st_segs w)) as [ti|]; [|exact Eft]. destruct (si_min ti <=? idx); [exact Eft|discriminate]. }
    eapply Htail; eauto.
  - destruct (find_segment (st_segs w) idx) as [s|] eqn:Efs; [|discriminate].
    destruct (find_segment_sound _ _ _ Efs) as (Hin & Hmin & Hmax).
    destruct (Hmeta s Hin) as (Hbs & Hist).
    match type of H with context [if ?b then _ else _] => destruct b eqn:Eis end.
    + destruct (st_tail w) as [tw|] eqn:Et; [|discriminate].
      destruct (tail_lookup tw idx (e_disk e)) as [l0|] eqn:Hl; [|discriminate].
      inversion H; subst l. eapply Htail; eauto.
    + destruct (seg_read (name_of s) (si_base s) idx (e_disk e)) as [l0|] eqn:Hr; [|discriminate].
      inversion H; subst l.
      destruct (seg_read_lookup _ _ _ _ _ Hr) as (f & Ef & _).
      destruct (Hist f Ef) as (Hi1 & Hi2).
      { intros tw Et. rewrite Et in Eis. apply fname_eqb_neq in Eis. exact Eis. }
      destruct (wsealed_read c bd _ s idx l0 f H0 Ef Hr Hi1 Hi2) as (bf & p & Hb & Hp & Hd); auto; [lia|].
      exists p. split; [|exact Hd]. right. exists s, bf. auto.
Qed.

(* After a restart: what the byte-level recovery of a file returns.  bd is the
   byte disk BEFORE the restart, d the L2 disk before adopt_disk.  For every
   file: recover_state of the bytes (page cache) is the writer of the committed
   batches plus the batch of the last failed fsync, and it represents the
   writer seg_recover builds on L2's adopted file -- so the entry count, the
   write offset, the index start and the commit index (LastIndex) that Open
   installs are the ones read off the bytes. *)
Theorem restart_recovered c bd d n f e si :
  wdrep c bd d -> stale_free bd d -> lookup n (dk_files d) = Some f ->
  name_of si = n -> si_codec si = c_codec c ->
  e_disk e = adopt_disk d ->
  exists bf bs', blookup n bd = Some bf /\
    recover_state si (bf_data bf) = Some (wst si (cstate si bs')) /\
    seg_recover si e = Some (Some (recw si (adopt_file f))) /\
    rep_w (wst si (cstate si bs')) (recw si (adopt_file f)).
Proof.
  intros H0 Hsf El Hn Hc He.
  destruct (rel_lookup wfrep _ _ _ _ _ H0 El) as (bf & Hb & Hh & bs & pb & R).
  assert (Heq : hdr_eq (finfo c n) si).
  { subst n. unfold hdr_eq, finfo, name_of. cbn. auto. }
  pose proof (wfrep_at_hdr_eq _ _ _ _ _ _ Heq R) as R'.
  assert (Hh' : hdr_wf si).
  { destruct Hh as (A & B & C). unfold hdr_wf. subst n. cbn in A, B, C. rewrite <- Hc in C. auto. }
  destruct (wfrep_restart si bs pb bf f Hh' R' (Hsf n bf f Hb El)) as (Hrec & Rf).
  exists bf, (bs ++ opt_batch pb). split; [exact Hb|]. split; [exact Hrec|]. split.
  - apply seg_recover_char. rewrite He, adopt_is_map, lookup_map_files, Hn, El. reflexivity.
  - apply rep_w_recw, rep_cur_rep. apply (fr_rep _ _ _ _ _ Rf).
Qed.

(* the "extend a pending batch" branch of apply_act *)
(* A write of a linked tail writer goes to the SYNCED end of its file; a batch
   that is still pending there (its fsync failed) ends strictly behind it.  So
   the branch of apply_act that extends a pending batch (off = pb_end p, Link/
   DiskFacts3.v frep_extend, Props/Link.v Link_ex_merged_crash) is never taken
   by a write of a history with injected faults: the pending batch is REPLACED
   (apply_write_over).  Restarts clear pending batches (adopt_disk). *)
Theorem write_never_extends c tw info bs bd d f p :
  wtail_link c tw info bs bd d -> lookup (ws_name tw) (dk_files d) = Some f -> df_pend f = Some p ->
  ws_off tw < pb_end p.
Proof.
  intros [Tn Th Tw Tf] El Ep. destruct (Tf f El) as (bf & pb & _ & R).
  rewrite (rw_off _ _ Tw). apply (wfrep_pend_end _ _ _ _ _ _ R Ep).
Qed.

(* the decidable form of the side condition, for examples *)
Lemma stale_freeb_spec bd d : NoDup (map fst bd) -> stale_freeb bd d = true -> stale_free bd d.
Proof.
  induction bd as [|[m g] r IH]; intros ND H n bf f Hb Hl; cbn [blookup] in Hb; [discriminate|].
  cbn [stale_freeb] in H. apply andb_true_iff in H as [H1 H2]. inversion ND as [|? ? Hni ND']; subst.
  destruct (fname_eqb n m) eqn:E.
  - apply fname_eqb_eq in E. subst m. inversion Hb; subst g. rewrite Hl in H1. apply no_stale_commitb_spec. exact H1.
  - apply (IH ND' H2 n bf f Hb Hl).
Qed.
