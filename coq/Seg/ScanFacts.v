(* ScanFacts.v -- readThroughSegment (Recover.scan): the fuel is never the
   reason the scan stops; scanning a sequence of well-shaped frames yields
   exactly their headers and continues behind them. *)
From RW Require Import Base.Bytes Base.BytesFacts Base.Crc32c Fmt.Frame Fmt.FrameFacts
     Seg.Writer Seg.Recover Seg.SegAbs Seg.WriterFacts Gen.Constants.
From RW Require Import Base.LiaSetup.
Open Scope N_scope.

Lemma read_at_app a r n : read_at (a ++ r) (len a) n = firstn (N.to_nat n) r.
Proof.
  unfold read_at. rewrite len_app.
  destruct (len a + len r <=? len a) eqn:E.
  - apply N.leb_le in E. destruct r; [rewrite firstn_nil; reflexivity|rewrite len_cons in E; lia].
  - unfold sub. rewrite to_nat_len, skipn_app_exact.
    replace (len a + len r - len a) with (len r) by lia.
    destruct (N.le_ge_cases n (len r)) as [H|H].
    + rewrite N.min_l by exact H. reflexivity.
    + rewrite N.min_r by exact H. rewrite to_nat_len.
      rewrite firstn_all. symmetry. apply firstn_all2. unfold len in H. lia.
Qed.

Lemma read_at_mid a x r n : n = len a + len x -> read_at (a ++ x ++ r) (len a) (n - len a) = x.
Proof.
  intros ->. rewrite read_at_app. replace (len a + len x - len a) with (len x) by lia.
  rewrite to_nat_len. apply firstn_app_exact.
Qed.

Lemma read_at_len f off n : len (read_at f off n) <= n.
Proof.
  unfold read_at. destruct (len f <=? off); [cbn; lia|].
  unfold sub, len. rewrite firstn_length. lia.
Qed.

Lemma read_at_len_file f off n : off + len (read_at f off n) <= N.max off (len f).
Proof.
  unfold read_at. destruct (len f <=? off) eqn:E; [cbn; lia|].
  apply N.leb_gt in E. unfold sub, len in *. rewrite firstn_length, skipn_length. lia.
Qed.

Lemma read_at_beyond f off n : len f <= off -> read_at f off n = [].
Proof. intros H. unfold read_at. replace (len f <=? off) with true; [reflexivity|]. symmetry. apply N.leb_le. exact H. Qed.

Lemma frame_header_in_file f off typ v :
  read_frame_header (read_at f off 8) = FH typ v -> off + 8 <= len f.
Proof.
  intros E. destruct (N.lt_ge_cases (len (read_at f off 8)) 8) as [Hs|Hs].
  - rewrite read_frame_header_short in E by exact Hs. discriminate.
  - pose proof (read_at_len_file f off 8). lia.
Qed.

(* every frame advances the offset by at least 8 bytes, so once the remaining
   file is shorter than 8 * fuel the result no longer depends on the fuel *)
Lemma scan_from_fuel_enough fuel : forall f off fuel',
  len f < off + 8 * N.of_nat fuel -> (fuel <= fuel')%nat ->
  scan_from fuel' f off = scan_from fuel f off.
Proof.
  induction fuel as [|k IH]; intros f off fuel' Hlen Hle.
  - cbn [scan_from]. destruct fuel' as [|k']; [reflexivity|]. cbn [scan_from].
    rewrite read_at_beyond by lia. reflexivity.
  - destruct fuel' as [|k']; [lia|]. cbn [scan_from].
    destruct (read_frame_header (read_at f off 8)) as [typ v| | |] eqn:E; try reflexivity.
    f_equal. apply IH; [|lia].
    pose proof (frame_header_in_file _ _ _ _ E). pose proof (enc_frame_size_ge (fh_len typ v)). lia.
Qed.

Lemma scan_fuel_bound f off : len f < off + 8 * N.of_nat (scan_fuel f).
Proof.
  unfold scan_fuel, len.
  pose proof (Nat.div_mod (length f) 8 ltac:(lia)).
  pose proof (Nat.mod_upper_bound (length f) 8 ltac:(lia)). lia.
Qed.

Theorem scan_fuel_suffices f fuel :
  (scan_fuel f <= fuel)%nat -> scan_from fuel f 32 = scan f.
Proof. intros H. apply scan_from_fuel_enough; [apply scan_fuel_bound|exact H]. Qed.

(* fuel-free scan from any offset, with its unfolding equation *)
Definition scanF (f : bytes) (off : N) : list frame_ev := scan_from (scan_fuel f) f off.

Lemma scan_is_scanF f : scan f = scanF f 32.
Proof. reflexivity. Qed.

Lemma scanF_unfold f off :
  scanF f off =
  match read_frame_header (read_at f off 8) with
  | FH typ v => {| fe_typ := typ; fe_val := v; fe_off := off |}
                :: scanF f (off + enc_frame_size (fh_len typ v))
  | _ => []
  end.
Proof.
  unfold scanF at 1. unfold scan_fuel at 1. cbn [scan_from].
  destruct (read_frame_header (read_at f off 8)) as [typ v| | |] eqn:E; try reflexivity.
  f_equal. symmetry. apply scan_from_fuel_enough; [|unfold scan_fuel; lia].
  pose proof (frame_header_in_file _ _ _ _ E). pose proof (enc_frame_size_ge (fh_len typ v)).
  pose proof (scan_fuel_bound f 0). unfold scan_fuel in *. lia.
Qed.

(* the scan moves forward: every frame starts at or behind the offset the scan
   was started at, and at least 8 bytes behind the previous frame *)
Fixpoint scan_sorted (off : N) (evs : list frame_ev) : Prop :=
  match evs with
  | [] => True
  | e :: r => off <= fe_off e /\ scan_sorted (fe_off e + 8) r
  end.

Lemma scan_sorted_weaken evs off off' : off' <= off -> scan_sorted off evs -> scan_sorted off' evs.
Proof. destruct evs as [|e r]; [auto|]. cbn [scan_sorted]. intros H [H1 H2]. split; [lia|exact H2]. Qed.

Lemma scan_from_sorted fuel : forall f off, scan_sorted off (scan_from fuel f off).
Proof.
  induction fuel as [|k IH]; intros f off; [exact I|]. cbn [scan_from].
  destruct (read_frame_header (read_at f off 8)) as [typ v| | |]; try exact I.
  cbn [scan_sorted fe_off]. split; [lia|].
  eapply scan_sorted_weaken; [|apply IH]. pose proof (enc_frame_size_ge (fh_len typ v)). lia.
Qed.

Lemma scan_sorted_ge evs : forall off, scan_sorted off evs -> Forall (fun e => off <= fe_off e) evs.
Proof.
  induction evs as [|e r IH]; intros off H; [constructor|]. cbn [scan_sorted] in H. destruct H as [H1 H2].
  constructor; [exact H1|]. eapply Forall_impl; [|apply (IH _ H2)]. intros x Hx. cbn beta in Hx. lia.
Qed.

(* a frame as the scanner sees it: an intact 8-byte header followed by a body
   of the right length whose content does not matter *)
Record fshape := { fs_typ : N; fs_val : N; fs_body : bytes }.

Definition fs_bytes (s : fshape) : bytes := frame_header (fs_typ s) (fs_val s) ++ fs_body s.

Definition fs_ok (s : fshape) : Prop :=
  (fs_typ s = FrameEntry \/ fs_typ s = FrameIndex \/ fs_typ s = FrameCommit) /\
  fs_val s < two32 /\ 8 + len (fs_body s) = enc_frame_size (fh_len (fs_typ s) (fs_val s)).

Definition sh_entry (p : bytes) : fshape :=
  {| fs_typ := FrameEntry; fs_val := len p; fs_body := p ++ zeros (N.to_nat (pad_len (len p))) |}.
Definition sh_index (offs : list N) : fshape :=
  {| fs_typ := FrameIndex; fs_val := 4 * len offs;
     fs_body := index_payload offs ++ (if N.odd (len offs) then le32 0 else []) |}.
Definition sh_commit (crc : N) : fshape := {| fs_typ := FrameCommit; fs_val := crc; fs_body := [] |}.

Definition frames_bytes (l : list fshape) : bytes := flat_map fs_bytes l.

Fixpoint fs_events (off : N) (l : list fshape) : list frame_ev :=
  match l with
  | [] => []
  | s :: r => {| fe_typ := fs_typ s; fe_val := fs_val s; fe_off := off |}
              :: fs_events (off + 8 + len (fs_body s)) r
  end.

Lemma fs_bytes_entry p : fs_bytes (sh_entry p) = enc_frame FrameEntry p.
Proof. reflexivity. Qed.
Lemma fs_bytes_index offs : fs_bytes (sh_index offs) = index_frame offs.
Proof. reflexivity. Qed.
Lemma fs_bytes_commit c : fs_bytes (sh_commit c) = commit_frame c.
Proof. reflexivity. Qed.

Lemma len_fs_bytes s : len (fs_bytes s) = 8 + len (fs_body s).
Proof. unfold fs_bytes. rewrite len_app, len_frame_header. reflexivity. Qed.

Lemma frames_bytes_app a b : frames_bytes (a ++ b) = frames_bytes a ++ frames_bytes b.
Proof. unfold frames_bytes. apply flat_map_app. Qed.

Lemma frames_bytes_entries ps : frames_bytes (map sh_entry ps) = entries_bytes ps.
Proof.
  unfold frames_bytes, entries_bytes. induction ps as [|p r IH]; [reflexivity|].
  cbn [map flat_map]. rewrite IH. reflexivity.
Qed.

Lemma fs_events_app off a b :
  fs_events off (a ++ b) = fs_events off a ++ fs_events (off + len (frames_bytes a)) b.
Proof.
  revert off; induction a as [|s a IH]; intros off.
  - cbn. rewrite N.add_0_r. reflexivity.
  - cbn [app fs_events]. rewrite IH. f_equal. f_equal. f_equal.
    unfold frames_bytes. cbn [flat_map]. rewrite len_app, len_fs_bytes. fold (frames_bytes a). lia.
Qed.

Lemma fs_ok_entry p : len p < two32 -> fs_ok (sh_entry p).
Proof.
  intros H. unfold fs_ok, sh_entry. cbn [fs_typ fs_val fs_body]. split; [auto|]. split; [exact H|].
  rewrite len_app, len_zeros. unfold fh_len.
  replace (FrameEntry =? FrameCommit) with false by reflexivity.
  unfold enc_frame_size. lia.
Qed.
Lemma fs_ok_index offs : 4 * len offs < two32 -> fs_ok (sh_index offs).
Proof.
  intros H. unfold fs_ok. cbn [sh_index fs_typ fs_val fs_body]. split; [auto|]. split; [exact H|].
  unfold fh_len. replace (FrameIndex =? FrameCommit) with false by reflexivity.
  pose proof (len_index_frame offs) as L. unfold index_frame in L.
  rewrite len_app, len_frame_header in L. exact L.
Qed.
Lemma fs_ok_commit c : c < two32 -> fs_ok (sh_commit c).
Proof.
  intros H. unfold fs_ok. cbn [sh_commit fs_typ fs_val fs_body]. split; [auto|]. split; [exact H|].
  reflexivity.
Qed.

(* scanning across well-shaped frames *)
Lemma scanF_frames l : forall a r,
  Forall fs_ok l ->
  scanF (a ++ frames_bytes l ++ r) (len a) =
  fs_events (len a) l ++ scanF (a ++ frames_bytes l ++ r) (len a + len (frames_bytes l)).
Proof.
  induction l as [|s l IH]; intros a r Hok.
  - cbn. rewrite N.add_0_r. reflexivity.
  - inversion Hok as [|? ? Hs Hl]; subst.
    destruct Hs as (Ht & Hv & Hb).
    assert (E : a ++ frames_bytes (s :: l) ++ r = (a ++ fs_bytes s) ++ frames_bytes l ++ r).
    { unfold frames_bytes. cbn [flat_map]. rewrite <- !app_assoc. reflexivity. }
    assert (L : len (frames_bytes (s :: l)) = 8 + len (fs_body s) + len (frames_bytes l)).
    { unfold frames_bytes. cbn [flat_map]. rewrite len_app, len_fs_bytes. reflexivity. }
    rewrite scanF_unfold. rewrite read_at_app.
    assert (R : firstn (N.to_nat 8) (frames_bytes (s :: l) ++ r) = frame_header (fs_typ s) (fs_val s)).
    { unfold frames_bytes. cbn [flat_map]. unfold fs_bytes at 1. rewrite <- !app_assoc.
      change (N.to_nat 8) with (length (frame_header (fs_typ s) (fs_val s))).
      apply firstn_app_exact. }
    rewrite R. rewrite <- (app_nil_r (frame_header (fs_typ s) (fs_val s))).
    rewrite read_frame_header_hdr by assumption.
    cbn [fs_events app]. f_equal.
    replace (len a + enc_frame_size (fh_len (fs_typ s) (fs_val s))) with (len (a ++ fs_bytes s))
      by (rewrite len_app, len_fs_bytes; lia).
    rewrite E. rewrite IH by exact Hl.
    rewrite len_app, len_fs_bytes. f_equal.
    + f_equal. lia.
    + f_equal. lia.
Qed.

(* where the scan stops: an all-zero header chunk, or fewer than 8 bytes left *)
Lemma scanF_stop_zero a r : scanF (a ++ zeros 8 ++ r) (len a) = [].
Proof.
  rewrite scanF_unfold, read_at_app.
  change (N.to_nat 8) with (length (zeros 8)). rewrite firstn_app_exact.
  rewrite <- (app_nil_r (zeros 8)). rewrite read_frame_header_zero. reflexivity.
Qed.

Lemma scanF_stop_short a r : len r < 8 -> scanF (a ++ r) (len a) = [].
Proof.
  intros H. rewrite scanF_unfold, read_at_app.
  rewrite read_frame_header_short; [reflexivity|].
  pose proof (len_firstn_le (N.to_nat 8) r). lia.
Qed.

Lemma scanF_stop_zeros a k : scanF (a ++ zeros k) (len a) = [].
Proof.
  destruct (Nat.lt_ge_cases k 8) as [H|H].
  - apply scanF_stop_short. rewrite len_zeros. lia.
  - replace k with (8 + (k - 8))%nat by lia. rewrite zeros_app. apply scanF_stop_zero.
Qed.
