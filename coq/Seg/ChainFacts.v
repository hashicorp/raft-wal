(* ChainFacts.v -- the L1 recovery law stated on the writer model itself
   (seg_recover_committed) and over chains of append / crash / recover rounds
   (seg_recover_chain). *)
From RW Require Import Base.Bytes Base.BytesFacts Base.Crc32c Base.Crc32cFacts Fmt.Frame Fmt.FrameFacts
     Seg.Writer Seg.Recover Seg.SegAbs Seg.WriterFacts Seg.ScanFacts Seg.RecoverFacts Gen.Constants.
From RW Require Import Base.LiaSetup.
Open Scope N_scope.

(* payload bytes are bytes *)
Definition op_wf (op : wop) : Prop :=
  match op with
  | OpAppend es => Forall (fun e => wf_bytes (snd e)) es
  | OpSeal => True
  end.
Definition ops_wf (ops : list wop) : Prop := Forall op_wf ops.

Definition batches_wf (bs : list batch) : Prop := Forall (fun b => Forall wf_bytes (fst b)) bs.

Lemma op_batch_wf w w' op : op_wf op -> batches_wf (op_batch w w' op).
Proof.
  intros H. destruct op as [es|]; cbn [op_batch].
  - destruct es as [|e r]; [constructor|]. constructor; [|constructor]. cbn [fst].
    cbn [op_wf] in H. rewrite Forall_map. exact H.
  - destruct (sealed w); [constructor|]. constructor; [constructor|constructor].
Qed.

Lemma wrun_batches_wf ops : forall w w' acts bs,
  ops_wf ops -> wrun w ops = Some (w', acts, bs) -> batches_wf bs.
Proof.
  induction ops as [|op r IH]; intros w w' acts bs Hw H.
  - cbn in H. inversion H; subst. constructor.
  - inversion Hw as [|? ? Hop Hr]; subst. cbn [wrun] in H.
    destruct (do_op w op) as [[res w1] acts0]. destruct res; try discriminate.
    destruct (wrun w1 r) as [[[w2 acts2] bs2]|] eqn:E; [|discriminate].
    inversion H; subst. apply Forall_app; split; [apply op_batch_wf; exact Hop|].
    eapply IH; eassumption.
Qed.

Lemma wrun_app a : forall w b w1 acts1 bs1 w2 acts2 bs2,
  wrun w a = Some (w1, acts1, bs1) -> wrun w1 b = Some (w2, acts2, bs2) ->
  wrun w (a ++ b) = Some (w2, acts1 ++ acts2, bs1 ++ bs2).
Proof.
  induction a as [|op r IH]; intros w b w1 acts1 bs1 w2 acts2 bs2 H1 H2.
  - cbn in H1. inversion H1; subst. exact H2.
  - cbn [app wrun] in *. destruct (do_op w op) as [[res w0] acts0]. destruct res; try discriminate.
    destruct (wrun w0 r) as [[[w3 acts3] bs3]|] eqn:E; [|discriminate].
    inversion H1; subst. rewrite (IH _ _ _ _ _ _ _ _ E H2). rewrite <- !app_assoc. reflexivity.
Qed.

Lemma chain_wf_of info bs : forall s,
  batches_wf bs -> len (c_img (fold_left (cstep info) bs s)) < two32 -> chain_wf info s bs.
Proof.
  induction bs as [|b r IH]; intros s Hw Hl; [exact I|].
  inversion Hw; subst. cbn [chain_wf fold_left] in *. split.
  - split; [assumption|]. pose proof (len_img_fold_mono info r (cstep info s b)). lia.
  - apply IH; assumption.
Qed.

(* one more operation that writes, after a run from the empty writer: both writer states, the
   write and the chain are those of the batches *)
Lemma one_more_op info sv op w acts bs w' off new b :
  ops_wf (sv ++ [op]) -> wrun (init_empty info) sv = Some (w, acts, bs) ->
  wrun w [op] = Some (w', [WWrite off new; WSync], [b]) -> len (image info (bs ++ [b])) < two32 ->
  let s := cstate info bs in
  w = wst info s /\ w' = wst info (cstep info s b) /\ off = len (c_img s) /\
  new = batch_write info s b /\ writes_concat acts = c_img s /\ chain_wf info c0 (bs ++ [b]).
Proof.
  intros Hwf H1 H2 Hlen s. unfold image in Hlen. rewrite cstate_snoc in Hlen. fold s in Hlen.
  assert (Hl1 : len (image info bs) < two32).
  { pose proof (len_img_cstep info s b). unfold image, c_pos in *. fold s. lia. }
  destruct (wrun_image info sv w acts bs H1 Hl1) as (Ew & _ & Ec). fold s in Ew. subst w.
  destruct (wrun_char info [op] s w' _ [b] H2 Hlen) as (Ew' & [Eoff _] & Himg).
  cbn [fold_left writes_concat cstep c_img] in Ew', Himg. rewrite app_nil_r in Himg.
  apply app_inv_head in Himg. repeat split; try assumption.
  apply Forall_app in Hwf as [Hw1 Hw2]. apply chain_wf_of.
  - apply Forall_app; split; [exact (wrun_batches_wf sv _ _ _ _ Hw1 H1)|exact (wrun_batches_wf [op] _ _ _ _ Hw2 H2)].
  - fold (cstate info (bs ++ [b])). rewrite cstate_snoc. exact Hlen.
Qed.

(* THE L1 LAW on the writer model.  After any successful run [ops], one more
   operation [op] whose bytes [new] (written at [off]) reach the disk only as
   the torn image T: recovery returns the state before op (T incomplete) or
   after it (T complete) -- exactly, all fields. *)
Theorem seg_recover_committed info ops op w acts bs w' off new b T k :
  hdr_wf info -> ops_wf (ops ++ [op]) ->
  wrun (init_empty info) ops = Some (w, acts, bs) ->
  wrun w [op] = Some (w', [WWrite off new; WSync], [b]) ->
  len (image info (bs ++ [b])) < two32 ->
  torn new T -> no_torn_collision new T ->
  off = len (writes_concat acts) /\
  recover_state info (writes_concat acts ++ T ++ zeros k) = Some (if beq_bytes T new then w' else w).
Proof.
  intros Hhw Hwf H1 H2 Hlen HT Hnc.
  destruct (one_more_op info ops op w acts bs w' off new b Hwf H1 H2 Hlen) as (-> & -> & -> & -> & Ec & Hcw).
  rewrite Ec. split; [reflexivity|]. apply (seg_recover_torn info bs b T k Hhw Hcw HT Hnc).
Qed.

(* chain info k0 sv bs w f: after some history of successful operations and
   crash/recover rounds on a file of k0 zero bytes, the writer state is w, the
   file is f, and sv / bs are the operations / batches that survived. *)
Inductive chain (info : seginfo) (k0 : nat) : list wop -> list batch -> wstate -> bytes -> Prop :=
| chain_start : chain info k0 [] [] (init_empty info) (zeros k0)
| chain_ops sv bs w f ops w1 acts bs1 :
    chain info k0 sv bs w f ->
    ops_wf ops -> wrun w ops = Some (w1, acts, bs1) ->
    len (image info (bs ++ bs1)) < two32 ->
    chain info k0 (sv ++ ops) (bs ++ bs1) w1 (apply_wactions f acts)
| chain_crash sv bs w f op w2 off new b T w3 acts3 :
    chain info k0 sv bs w f ->
    op_wf op -> wrun w [op] = Some (w2, [WWrite off new; WSync], [b]) ->
    len (image info (bs ++ [b])) < two32 ->
    torn new T -> no_torn_collision new T ->
    recover_tail info (overwrite f (N.to_nat off) T) = Some (w3, acts3) ->
    chain info k0 (sv ++ (if beq_bytes T new then [op] else []))
          (bs ++ (if beq_bytes T new then [b] else []))
          w3 (apply_wactions (overwrite f (N.to_nat off) T) acts3).

Definition chain_inv (info : seginfo) (sv : list wop) (bs : list batch) (w : wstate) (f : bytes) : Prop :=
  ops_wf sv /\ len (image info bs) < two32 /\
  (exists acts, wrun (init_empty info) sv = Some (w, acts, bs)) /\
  exists k, f = image info bs ++ zeros k.

(* whatever the history of crashes, the writer state is the state of a writer
   that executed exactly the surviving operations without any crash, and the
   file is their image followed by zeros *)
Theorem seg_recover_chain info k0 sv bs w f :
  hdr_wf info -> chain info k0 sv bs w f -> chain_inv info sv bs w f.
Proof.
  intros Hhw H. induction H as
    [|sv bs w f ops w1 acts bs1 Hch IH Hwf Hrun Hlen
     |sv bs w f op w2 off new b T w3 acts3 Hch IH Hwf Hrun Hlen HT Hnc Hrec].
  - split; [constructor|]. split; [reflexivity|]. split; [exists []; reflexivity|exists k0; reflexivity].
  - destruct IH as (Hsv & Hl & (acts0 & Hrun0) & (k & Ef)).
    pose proof (wrun_app _ _ _ _ _ _ _ _ _ Hrun0 Hrun) as Hall.
    split; [|split; [|split]].
    + apply Forall_app; split; assumption.
    + exact Hlen.
    + eexists. exact Hall.
    + destruct (wrun_image info sv w acts0 bs Hrun0 Hl) as (Ew & _ & _). subst w.
      assert (Hl2 : len (c_img (fold_left (cstep info) bs1 (cstate info bs))) < two32).
      { unfold image in Hlen. rewrite cstate_app in Hlen. exact Hlen. }
      destruct (wrun_char info ops _ _ _ _ Hrun Hl2) as (_ & Hcont & Himg).
      rewrite Ef. unfold image at 1.
      rewrite (apply_wactions_contiguous acts (c_img (cstate info bs)) (zeros k) Hcont).
      rewrite app_assoc, Himg. unfold image. rewrite cstate_app.
      rewrite skipn_zeros. eexists. reflexivity.
  - destruct IH as (Hsv & Hl & (acts0 & Hrun0) & (k & Ef)).
    assert (Hwf' : ops_wf (sv ++ [op])) by (apply Forall_app; split; [assumption|constructor; [assumption|constructor]]).
    destruct (one_more_op info sv op w acts0 bs w2 off new b Hwf' Hrun0 Hrun Hlen)
      as (Ew & Ew2 & -> & -> & _ & Hcw).
    set (s := cstate info bs) in *.
    assert (Ef2 : overwrite f (N.to_nat (len (c_img s))) T = c_img s ++ T ++ zeros (k - length T)).
    { rewrite Ef, to_nat_len. unfold image. fold s. rewrite overwrite_app, skipn_zeros. reflexivity. }
    destruct (seg_recover_round info bs b T (k - length T) Hhw Hcw HT Hnc) as (acts & Hrt & Happ).
    fold s in Hrt, Happ. rewrite <- Ef2 in Hrt, Happ. rewrite Hrec in Hrt. injection Hrt as -> ->.
    rewrite Happ.
    destruct (beq_bytes T (batch_write info s b)) eqn:Eb.
    + split; [|split; [|split]].
      * exact Hwf'.
      * exact Hlen.
      * eexists. rewrite <- Ew2. eapply wrun_app; [exact Hrun0|exact Hrun].
      * unfold image. rewrite cstate_snoc. fold s. eexists. reflexivity.
    + rewrite !app_nil_r. split; [|split; [|split]].
      * exact Hsv.
      * exact Hl.
      * eexists. rewrite <- Ew. exact Hrun0.
      * unfold image. fold s. eexists. reflexivity.
Qed.

(* in such a round recovery never fails *)
Corollary seg_recover_round_total info k0 sv bs w f op w2 off new b T :
  hdr_wf info -> chain info k0 sv bs w f ->
  op_wf op -> wrun w [op] = Some (w2, [WWrite off new; WSync], [b]) ->
  len (image info (bs ++ [b])) < two32 ->
  torn new T -> no_torn_collision new T ->
  exists w3 acts3, recover_tail info (overwrite f (N.to_nat off) T) = Some (w3, acts3) /\
                   w3 = (if beq_bytes T new then w2 else w).
Proof.
  intros Hhw Hch Hwf Hrun Hlen HT Hnc.
  destruct (seg_recover_chain info k0 sv bs w f Hhw Hch) as (Hsv & Hl & (acts0 & Hrun0) & (k & Ef)).
  assert (Hwf' : ops_wf (sv ++ [op])) by (apply Forall_app; split; [assumption|constructor; [assumption|constructor]]).
  destruct (seg_recover_committed info sv op w acts0 bs w2 off new b T (k - length T)
              Hhw Hwf' Hrun0 Hrun Hlen HT Hnc) as (Eoff & Hrs).
  destruct (wrun_image info sv w acts0 bs Hrun0 Hl) as (_ & _ & Ec).
  assert (Ef2 : overwrite f (N.to_nat off) T = writes_concat acts0 ++ T ++ zeros (k - length T)).
  { rewrite Ef, Eoff, <- Ec, to_nat_len. rewrite overwrite_app. rewrite skipn_zeros. reflexivity. }
  unfold recover_tail. rewrite Ef2, Hrs. eexists. eexists. split; reflexivity.
Qed.
