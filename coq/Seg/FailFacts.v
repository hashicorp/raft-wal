(* FailFacts.v -- byte-level recovery after FAILED appends.

   A batch whose write or fsync failed is rolled back in the writer only; its
   bytes stay in the file.  A shorter batch written over its start leaves the
   rest of it -- entry frames and its commit frame -- behind the valid chain.
   This file proves, for the repaired recovery (Seg/Recover.v: walk back over
   ALL commit frames of the scan to the most recent one whose CRC verifies):

     recover_behind      image of a chain followed by ANY bytes in which no
                         commit frame verifies: recovery returns the chain
     fail_recover        every history of successful and failed appends /
                         force-seals: recovery of the file returns the writer of
                         the acknowledged batches, or of those plus the LAST
                         failed write (whose bytes are then completely in the
                         file) -- never an entry of an earlier failed batch,
                         never a part of a batch, never a mix of two
     fail_recover_crash  the same for every durable image a power loss can
                         leave (unsynced writes torn per 8-byte chunk over the
                         last synced image)
     recover_old_refuted the algorithm before the repair (Seg/RecoverOld.v)
                         serves an entry of a failed, overwritten batch on a
                         concrete history of honest batches

   Assumed (in the spirit of no_torn_collision): no_stale_commit f p -- no
   commit frame that the scan of f meets at or behind offset p stores the CRC
   of its apparent range (the bytes between the preceding commit frame of the
   scan and itself).  Decidable: no_stale_commitb. *)
From RW Require Import Base.Bytes Base.BytesFacts Base.Crc32c Base.Crc32cFacts Fmt.Frame Fmt.FrameFacts
     Seg.Writer Seg.Recover Seg.RecoverOld Seg.Reader Seg.SegAbs Seg.WriterFacts Seg.ScanFacts
     Seg.RecoverFacts Seg.ChainFacts Gen.Constants.
From RW Require Import Base.LiaSetup.
Open Scope N_scope.

Definition no_stale_commit (f : bytes) (p : N) : Prop :=
  forall c, In c (ra_commits (rec_fold (scan f))) -> p <= c_off c ->
    crc32c (read_at f (c_crc_start c) (c_off c - c_crc_start c)) <> c_crc c.

Definition no_stale_commitb (f : bytes) (p : N) : bool :=
  forallb (fun c => (c_off c <? p) || negb (commit_good f c)) (ra_commits (rec_fold (scan f))).

Lemma no_stale_commitb_spec f p : no_stale_commitb f p = true <-> no_stale_commit f p.
Proof.
  unfold no_stale_commitb, no_stale_commit. rewrite forallb_forall. split; intros H c Hin.
  - intros Hp. specialize (H c Hin). apply orb_true_iff in H as [H|H]; [lia|].
    apply negb_true_iff in H. unfold commit_good in H. apply N.eqb_neq in H. exact H.
  - destruct (c_off c <? p) eqn:E; [reflexivity|]. cbn [orb]. apply negb_true_iff.
    unfold commit_good. apply N.eqb_neq. apply H; [exact Hin|lia].
Qed.

Lemma recover_stale_sorted info s r a evs2 (f := c_img s ++ r) :
  hdr_wf info -> hdr_inv info s -> len (c_img s) < two32 ->
  acc_inv info s a ->
  rec_fold (scan f) = fold_left rec_step evs2 a ->
  Forall (fun e => len (c_img s) <= fe_off e) evs2 ->
  no_stale_commit f (len (c_img s)) ->
  recover_state info f = Some (wst info s).
Proof.
  intros Hhw Hh Hl Hacc Hfold Hge Hns.
  destruct (fold_any evs2 a) as ((new & Hc & Hnew) & _). cbn zeta in Hc.
  apply (recover_stale info s r a evs2 new); try assumption.
  apply Forall_forall. intros c Hin.
  assert (Hoff : len (c_img s) <= c_off c).
  { rewrite Forall_forall in Hnew. destruct (Hnew c Hin) as (e & He & ->).
    rewrite Forall_forall in Hge. apply Hge. exact He. }
  unfold commit_good. apply N.eqb_neq. apply Hns; [|exact Hoff].
  fold f. rewrite Hfold, Hc. apply in_or_app. left. exact Hin.
Qed.

Lemma chain_wf_len info bs : chain_wf info c0 bs -> len (c_img (cstate info bs)) < two32.
Proof.
  destruct bs as [|b bs _] using rev_ind; intros H; [reflexivity|].
  apply chain_wf_app in H as [_ H]. cbn [chain_wf] in H. destruct H as [[_ H] _].
  rewrite cstate_snoc. exact H.
Qed.

(* THE LAW FOR LEFTOVERS.  The file holds the image of the chain bs followed by
   any bytes R at all (remains of failed writes, torn or not, one over the
   other).  If no commit frame the scan meets in R verifies, recovery returns
   exactly the writer of bs. *)
Theorem recover_behind info bs R :
  hdr_wf info -> chain_wf info c0 bs ->
  let s := cstate info bs in
  no_stale_commit (c_img s ++ R) (len (c_img s)) ->
  recover_state info (c_img s ++ R) = Some (wst info s).
Proof.
  intros Hhw Hwf s Hns.
  pose proof (chain_wf_len info bs Hwf) as Hl. fold s in Hl.
  destruct (chain_scan info bs Hwf) as (Hh & evs & Hacc & Hscan). fold s in Hh, Hacc, Hscan.
  destruct bs as [|b bs _] using rev_ind.
  - (* empty chain: the whole scan is leftovers *)
    apply (recover_stale_sorted info s R
             {| ra_offsets := []; ra_pending := 0; ra_commits := [] |} (scan (c_img s ++ R))); try assumption.
    + unfold acc_inv. cbn. auto.
    + reflexivity.
    + eapply Forall_impl; [|apply scan_sorted_ge, scan_from_sorted]. intros e _. apply N.le_0_l.
  - assert (Hn : c_img s <> []) by (unfold s; rewrite cstate_snoc; apply c_img_cstep_nonnil).
    assert (Hpend : c_pend info s = []) by (unfold c_pend; destruct (c_img s); congruence).
    assert (Hpos : c_pos info s = len (c_img s)) by (unfold c_pos; rewrite Hpend; cbn; lia).
    specialize (Hscan [] R). rewrite Hpend in Hscan. specialize (Hscan eq_refl). cbn [app] in Hscan.
    apply (recover_stale_sorted info s R (rec_fold evs) (scanF (c_img s ++ R) (c_pos info s))); try assumption.
    + rewrite scan_is_scanF, Hscan. unfold rec_fold. apply fold_left_app.
    + rewrite <- Hpos. apply scan_sorted_ge. apply scan_from_sorted.
Qed.

Definition fop := (wop * wfault)%type.

Definition do_fop (w : wstate) (o : fop) : wres * wstate * list waction :=
  match fst o with
  | OpAppend es => append w es (snd o)
  | OpSeal => force_seal w (snd o)
  end.

Lemma do_fop_none w op : do_fop w (op, FNone) = do_op w op.
Proof. destruct op; reflexivity. Qed.

(* An operation is refused whatever the fault, or it comes down to the commit of some buffered
   state, which is where the fault acts. *)
Lemma do_fop_cases w op :
  (exists r, forall flt, do_fop w (op, flt) = (r, w, [])) \/
  (exists w2, forall flt, do_fop w (op, flt) =
     match append_commit w2 flt with
     | (Some w3, acts) => (WOk, w3, acts)
     | (None, acts) => (WErrIO, w, acts)
     end).
Proof.
  unfold do_fop. cbn [fst snd]. destruct op as [es|].
  - unfold append. destruct es as [|e0 es0]; [left; eexists; reflexivity|].
    destruct (0 <? w_index_start w); [left; eexists; reflexivity|].
    destruct (too_big (e0 :: es0)); [left; eexists; reflexivity|].
    destruct (append_entries w (e0 :: es0)) as [w1|]; [|left; eexists; reflexivity].
    destruct (if needs_seal w1 then append_index w1 else Some w1) as [w2|]; [|left; eexists; reflexivity].
    right. exists w2. reflexivity.
  - unfold force_seal. destruct (0 <? w_index_start w); [left; eexists; reflexivity|].
    destruct (append_index w) as [w1|]; [|left; eexists; reflexivity].
    right. exists w1. reflexivity.
Qed.

(* an operation does nothing at all, or succeeds with one write and one fsync *)
Lemma do_op_acts w op r w' acts :
  do_op w op = (r, w', acts) ->
  (acts = [] /\ w' = w) \/ (r = WOk /\ exists off buf, acts = [WWrite off buf; WSync]).
Proof.
  intros E. rewrite <- do_fop_none in E.
  destruct (do_fop_cases w op) as [[r0 H]|[w2 H]]; rewrite H in E.
  - injection E as _ <- <-. auto.
  - cbn [append_commit] in E. injection E as <- _ <-. right. eauto.
Qed.

(* what a short write puts into the file: the first half of the buffer *)
Definition short_acts (acts : list waction) : list waction :=
  match acts with
  | WWrite off buf :: _ => [WWrite off (firstn (length buf / 2) buf)]
  | _ => []
  end.

(* the same operation with a fault: an operation that does nothing is not
   affected; otherwise the result is an I/O error, the writer is rolled back,
   and the write has happened completely (fsync fails), to its first half
   (short write) or not at all (write fails) *)
Lemma do_fop_fault w op flt r w' acts :
  do_op w op = (r, w', acts) -> flt <> FNone ->
  do_fop w (op, flt) =
  match acts with
  | [] => (r, w', [])
  | _ => (WErrIO, w, match flt with FSync => acts | FWriteShort => short_acts acts | FWrite | FNone => [] end)
  end.
Proof.
  intros E Hf. rewrite <- do_fop_none in E.
  destruct (do_fop_cases w op) as [[r0 H]|[w2 H]]; rewrite H in E |- *.
  - injection E as <- <- <-. reflexivity.
  - cbn [append_commit] in E. injection E as <- <- <-. destruct flt; [congruence| | |]; reflexivity.
Qed.

(* an operation that writes commits exactly one batch *)
Lemma op_batch_single w op w' off buf :
  do_op w op = (WOk, w', [WWrite off buf; WSync]) -> exists b, op_batch w w' op = [b].
Proof.
  destruct op as [es|]; cbn [do_op op_batch].
  - destruct es as [|e0 es0]; [cbn; intros H; inversion H|]. intros _. eexists. reflexivity.
  - unfold force_seal, sealed. destruct (0 <? w_index_start w); [intros H; inversion H|].
    intros _. eexists. reflexivity.
Qed.

(* ... and from the state of a chain it is the append of that batch to the chain *)
Lemma do_op_wst info s op w' off buf b :
  do_op (wst info s) op = (WOk, w', [WWrite off buf; WSync]) ->
  op_batch (wst info s) w' op = [b] ->
  len (c_img (cstep info s b)) < two32 ->
  w' = wst info (cstep info s b) /\ off = len (c_img s) /\ buf = batch_write info s b.
Proof.
  intros Hop Hb Hlen.
  destruct (do_op_char info s op w' _ Hop) as (Ew & Hacts); cbn zeta; rewrite Hb in *; [exact Hlen|].
  destruct Hacts as [[E _]|(b' & Eb & E)]; [discriminate|].
  injection Eb as <-. injection E as -> ->. auto.
Qed.

(* The run is instrumented.  Operational part: the writer, the file as the
   process sees it, the file as of the last successful fsync, the writes
   issued since.  Ghost part: the batches of the operations that succeeded
   (fs_bs); the batches whose COMPLETE write was issued and whose fsync failed
   since the last success (fs_pend; a failed operation that wrote nothing --
   refused, or its write failed outright -- leaves no trace anywhere, a SHORT
   write leaves the first half of its bytes in the file and can never be
   complete there); the batch of fs_pend, if any, that is complete in the file
   right behind the acknowledged batches (fs_last: the last failed complete
   write, unless a later short write damaged it); and whether every write
   belonged to a batch that ends below 2^32 (fs_ok).
   From here on [fs_ok] is this field; the frame-shape predicate is [ScanFacts.fs_ok]. *)
Record fstate := {
  fs_w : wstate; fs_file : bytes; fs_sync : bytes; fs_pw : list (N * bytes);
  fs_bs : list batch; fs_pend : list batch; fs_last : list batch; fs_ok : bool }.

Definition fstart (info : seginfo) (k0 : nat) : fstate :=
  {| fs_w := init_empty info; fs_file := zeros k0; fs_sync := zeros k0; fs_pw := [];
     fs_bs := []; fs_pend := []; fs_last := []; fs_ok := true |}.

Fixpoint writes_of (acts : list waction) : list (N * bytes) :=
  match acts with
  | [] => []
  | WWrite off bs :: r => (off, bs) :: writes_of r
  | WSync :: r => writes_of r
  end.

Definition batch_fits (info : seginfo) (bs : list batch) (b : list batch) : bool :=
  len (image info (bs ++ b)) <? two32.

(* the bytes w are in the image at offset p *)
Definition on_disk (T : bytes) (p : N) (w : bytes) : Prop := sub (N.to_nat p) (length w) T = w.
Definition on_diskb (T : bytes) (p : N) (w : bytes) : bool := beq_bytes (sub (N.to_nat p) (length w) T) w.

Lemma on_diskb_spec T p w : on_diskb T p w = true <-> on_disk T p w.
Proof. apply beq_bytes_eq. Qed.

Lemma on_disk_app a X w : on_disk (a ++ X) (len a) w -> X = w ++ skipn (length w) X.
Proof.
  unfold on_disk, sub. rewrite to_nat_len, skipn_app_exact. intros H.
  rewrite <- H at 1. symmetry. apply firstn_skipn.
Qed.

Definition fstep (st : fstate) (o : fop) : fstate :=
  let '(r, w', acts) := do_fop (fs_w st) o in
  let '(_, w1, _) := do_op (fs_w st) (fst o) in
  let b := op_batch (fs_w st) w1 (fst o) in       (* the batch the operation commits if it succeeds *)
  let info := w_info (fs_w st) in
  let file' := apply_wactions (fs_file st) acts in
  match acts with
  | [] => {| fs_w := w'; fs_file := fs_file st; fs_sync := fs_sync st; fs_pw := fs_pw st;
             fs_bs := fs_bs st; fs_pend := fs_pend st; fs_last := fs_last st; fs_ok := fs_ok st |}
  | _ =>
      let ok := fs_ok st && batch_fits info (fs_bs st) b in
      match r with
      | WOk => {| fs_w := w'; fs_file := file'; fs_sync := file'; fs_pw := [];
                  fs_bs := fs_bs st ++ b; fs_pend := []; fs_last := []; fs_ok := ok |}
      | _ =>
          match snd o with
          | FWriteShort =>
              (* half of the bytes are in the file: the batch is not a candidate; a
                 complete failed batch underneath survives only if the half write
                 did not touch it *)
              {| fs_w := w'; fs_file := file'; fs_sync := fs_sync st; fs_pw := fs_pw st ++ writes_of acts;
                 fs_bs := fs_bs st; fs_pend := fs_pend st;
                 fs_last := filter (fun d => on_diskb file' (len (image info (fs_bs st)))
                                                      (batch_write info (cstate info (fs_bs st)) d))
                                   (fs_last st);
                 fs_ok := ok |}
          | _ =>
              {| fs_w := w'; fs_file := file'; fs_sync := fs_sync st; fs_pw := fs_pw st ++ writes_of acts;
                 fs_bs := fs_bs st; fs_pend := fs_pend st ++ b; fs_last := b; fs_ok := ok |}
          end
      end
  end.

Definition frun_from (st : fstate) (ops : list fop) : fstate := fold_left fstep ops st.
Definition frun (info : seginfo) (k0 : nat) (ops : list fop) : fstate := frun_from (fstart info k0) ops.

Record finv (info : seginfo) (st : fstate) : Prop := {
  fi_w : fs_w st = wst info (cstate info (fs_bs st));
  fi_wf : chain_wf info c0 (fs_bs st);
  fi_pend : Forall (bwf info (cstate info (fs_bs st))) (fs_pend st);
  fi_last : Forall (bwf info (cstate info (fs_bs st))) (fs_last st);
  fi_last1 : (length (fs_last st) <= 1)%nat;
  fi_file : exists R, fs_file st =
                      c_img (cstate info (fs_bs st)) ++
                      match fs_last st with
                      | [] => R
                      | d :: _ => batch_write info (cstate info (fs_bs st)) d ++ R
                      end;
  fi_sync : exists R0, fs_sync st = c_img (cstate info (fs_bs st)) ++ R0;
  fi_pw : Forall (fun w => fst w = len (c_img (cstate info (fs_bs st)))) (fs_pw st) }.

Lemma finv_start info k0 : finv info (fstart info k0).
Proof.
  constructor; cbn [fstart fs_w fs_file fs_sync fs_pw fs_bs fs_pend fs_last]; change (cstate info []) with c0.
  - symmetry. apply wst_c0.
  - exact I.
  - constructor.
  - constructor.
  - cbn. lia.
  - exists (zeros k0). reflexivity.
  - exists (zeros k0). reflexivity.
  - constructor.
Qed.

Lemma fs_ok_step st o : fs_ok (fstep st o) = true -> fs_ok st = true.
Proof.
  unfold fstep. destruct (do_fop (fs_w st) o) as [[r w'] acts].
  destruct (do_op (fs_w st) (fst o)) as [[r1 w1] acts1].
  destruct acts as [|a0 ar]; [cbn; auto|].
  destruct r; try destruct (snd o); cbn [fs_ok]; intros H; apply andb_true_iff in H; tauto.
Qed.

Lemma fs_ok_run ops : forall st, fs_ok (frun_from st ops) = true -> fs_ok st = true.
Proof.
  induction ops as [|o r IH]; intros st H; [exact H|]. cbn [frun_from fold_left] in H.
  apply fs_ok_step with o. apply IH. exact H.
Qed.

Lemma chain_wf_snoc info bs b :
  chain_wf info c0 bs -> bwf info (cstate info bs) b -> chain_wf info c0 (bs ++ [b]).
Proof. intros H1 H2. apply chain_wf_app. split; [exact H1|]. cbn [chain_wf]. auto. Qed.

Lemma filter_len_le {A} (f : A -> bool) l : (length (filter f l) <= length l)%nat.
Proof. induction l as [|x l IH]; [reflexivity|]. cbn. destruct (f x); cbn; lia. Qed.

Lemma fault_eq_dec (a b : wfault) : {a = b} + {a <> b}.
Proof. decide equality. Qed.

Lemma finv_step info st op flt :
  finv info st -> op_wf op -> fs_ok (fstep st (op, flt)) = true -> finv info (fstep st (op, flt)).
Proof.
  intros I0 Hwf Hok. pose proof I0 as [Iw Iwf Ipend Ilast Il1 (R & Ifile) (R0 & Isync) Ipw].
  set (s := cstate info (fs_bs st)) in *.
  unfold fstep in Hok |- *. change (fst (op, flt)) with op in Hok |- *. change (snd (op, flt)) with flt in Hok |- *.
  destruct (do_op (fs_w st) op) as [[r1 w1] acts1] eqn:Eop.
  assert (Efop : do_fop (fs_w st) (op, flt) =
                 match flt with
                 | FNone => (r1, w1, acts1)
                 | _ => match acts1 with
                        | [] => (r1, w1, [])
                        | _ => (WErrIO, fs_w st,
                                match flt with FSync => acts1 | FWriteShort => short_acts acts1 | _ => [] end)
                        end
                 end).
  { destruct flt; [rewrite do_fop_none; exact Eop| | |];
      (rewrite (do_fop_fault _ _ _ _ _ _ Eop) by discriminate; reflexivity). }
  destruct (do_op_acts _ _ _ _ _ Eop) as [[-> ->]|(-> & off & buf & ->)].
  - (* nothing happens, whatever the fault *)
    assert (E : do_fop (fs_w st) (op, flt) = (r1, fs_w st, [])) by (rewrite Efop; destruct flt; reflexivity).
    rewrite E. destruct st; exact I0.
  - (* the operation writes one batch b *)
    destruct (fault_eq_dec flt FWrite) as [->|Hnw].
    { (* the write fails outright: nothing reaches the file, the writer is rolled back *)
      rewrite Efop. destruct st; exact I0. }
    rewrite Iw in Eop. destruct (op_batch_single _ _ _ _ _ Eop) as [b Hb].
    rewrite Iw in Hok, Efop |- *. rewrite Hb in *. cbn [wst w_info] in Hok |- *.
    assert (Hbwf : Forall wf_bytes (fst b)).
    { pose proof (op_batch_wf (wst info s) w1 op Hwf) as H. rewrite Hb in H. inversion H; assumption. }
    assert (Hfit : len (c_img (cstep info s b)) < two32).
    { (* under each of the other faults the step puts [batch_fits] of the batches with [b] into fs_ok *)
      destruct flt; [| congruence | |]; rewrite Efop in Hok; cbn [short_acts fs_ok] in Hok.
      all: apply andb_true_iff in Hok as [_ Hok].
      all: unfold batch_fits, image in Hok; rewrite cstate_snoc in Hok; fold s in Hok; lia. }
    destruct (do_op_wst info s op w1 off buf b Eop Hb Hfit) as (-> & -> & ->).
    assert (Hfile : forall x, exists R', apply_wactions (fs_file st) [WWrite (len (c_img s)) x; WSync]
                               = c_img s ++ x ++ R' /\
                               apply_wactions (fs_file st) [WWrite (len (c_img s)) x] = c_img s ++ x ++ R').
    { intros x. unfold apply_wactions. cbn [fold_left apply_waction]. rewrite Ifile, to_nat_len, overwrite_app.
      eexists. split; reflexivity. }
    destruct flt; [| congruence | |]; rewrite Efop; clear Efop.
    + (* success *)
      destruct (Hfile (batch_write info s b)) as (R' & HR' & _).
      constructor; cbn [fs_w fs_file fs_sync fs_pw fs_bs fs_pend fs_last]; rewrite ?cstate_snoc; fold s.
      * reflexivity.
      * apply chain_wf_snoc; [exact Iwf|]. split; assumption.
      * constructor.
      * constructor.
      * cbn. lia.
      * exists R'. rewrite HR'. cbn [cstep c_img]. rewrite <- app_assoc. reflexivity.
      * exists R'. rewrite HR'. cbn [cstep c_img]. rewrite <- app_assoc. reflexivity.
      * constructor.
    + (* short write: the first half of the bytes is in the file, the writer is rolled back *)
      cbn [short_acts]. set (half := firstn (length (batch_write info s b) / 2) (batch_write info s b)).
      destruct (Hfile half) as (R' & _ & HR').
      constructor; cbn [fs_w fs_file fs_sync fs_pw fs_bs fs_pend fs_last writes_of]; fold s.
      * reflexivity.
      * exact Iwf.
      * exact Ipend.
      * apply Forall_forall. intros d Hd. apply filter_In in Hd as [Hd _].
        rewrite Forall_forall in Ilast. apply Ilast. exact Hd.
      * etransitivity; [apply filter_len_le|exact Il1].
      * rewrite HR'. unfold image. fold s.
        destruct (filter _ (fs_last st)) as [|d l] eqn:Efl.
        -- eexists. reflexivity.
        -- assert (Hin : In d (filter (fun d0 => on_diskb (c_img s ++ half ++ R') (len (c_img s)) (batch_write info s d0))
                                      (fs_last st))) by (rewrite Efl; left; reflexivity).
           apply filter_In in Hin as [_ Hon]. apply on_diskb_spec, on_disk_app in Hon.
           eexists. f_equal. exact Hon.
      * exists R0. exact Isync.
      * apply Forall_app. split; [exact Ipw|]. constructor; [reflexivity|constructor].
    + (* the fsync fails: the bytes are in the file, the writer is rolled back *)
      destruct (Hfile (batch_write info s b)) as (R' & HR' & _).
      constructor; cbn [fs_w fs_file fs_sync fs_pw fs_bs fs_pend fs_last writes_of]; fold s.
      * reflexivity.
      * exact Iwf.
      * apply Forall_app. split; [exact Ipend|]. constructor; [split; assumption|constructor].
      * constructor; [split; assumption|constructor].
      * cbn. lia.
      * exists R'. rewrite HR'. reflexivity.
      * exists R0. exact Isync.
      * apply Forall_app. split; [exact Ipw|]. constructor; [reflexivity|constructor].
Qed.

Definition fops_wf (ops : list fop) : Prop := Forall (fun o => op_wf (fst o)) ops.

Lemma finv_run info ops : forall st,
  finv info st -> fops_wf ops -> fs_ok (frun_from st ops) = true -> finv info (frun_from st ops).
Proof.
  induction ops as [|[op flt] r IH]; intros st I Hwf Hok; [exact I|].
  inversion Hwf as [|? ? Hop Hr]; subst. cbn [frun_from fold_left] in *.
  apply IH; [|exact Hr|exact Hok]. apply finv_step; [exact I|exact Hop|].
  apply fs_ok_run with r. exact Hok.
Qed.

Lemma finv_recover info st :
  hdr_wf info -> finv info st ->
  let bs' := fs_bs st ++ fs_last st in
  no_stale_commit (fs_file st) (len (image info bs')) ->
  recover_state info (fs_file st) = Some (wst info (cstate info bs')).
Proof.
  intros Hhw [Iw Iwf Ipend Ilast Il1 (R & Ifile) _ _] bs' Hns.
  assert (Hl : fs_last st = [] \/ exists d, fs_last st = [d]).
  { destruct (fs_last st) as [|d [|d' l]]; [left; reflexivity|right; exists d; reflexivity|cbn in Il1; lia]. }
  assert (Hwf' : chain_wf info c0 bs').
  { unfold bs'. destruct Hl as [->|[d Hd]]; [rewrite app_nil_r; exact Iwf|]. rewrite Hd in *.
    apply chain_wf_snoc; [exact Iwf|]. inversion Ilast; assumption. }
  assert (Ef : fs_file st = c_img (cstate info bs') ++ R).
  { rewrite Ifile. unfold bs'. destruct Hl as [->|[d ->]]; [rewrite app_nil_r; reflexivity|].
    rewrite cstate_snoc. cbn [cstep c_img]. rewrite <- app_assoc. reflexivity. }
  rewrite Ef in Hns |- *. apply recover_behind; assumption.
Qed.

(* Recovery after a history that starts in any state of such a run (e.g. after a
   recovery: the file is then "image, then zeros", Seg/ChainFacts.v). *)
Theorem fail_recover_from info st0 ops :
  hdr_wf info -> finv info st0 -> fops_wf ops ->
  let st := frun_from st0 ops in
  fs_ok st = true ->
  let bs' := fs_bs st ++ fs_last st in
  fs_w st = wst info (cstate info (fs_bs st)) /\
  (no_stale_commit (fs_file st) (len (image info bs')) ->
   recover_state info (fs_file st) = Some (wst info (cstate info bs'))).
Proof.
  intros Hhw I0 Hwf st Hok bs'.
  assert (I : finv info st) by (apply finv_run; assumption).
  split; [apply (fi_w _ _ I)|]. apply finv_recover; assumption.
Qed.

(* THE THEOREM (restart without power loss).  After EVERY history of appends and
   force-seals, each succeeding, refused, or failing in its write or its fsync,
   on a file that was all zeros: the running writer is the writer of the
   acknowledged batches bs, and recovery of the file returns exactly
     - the writer of bs, or
     - the writer of bs ++ [d], where d = fs_last is the batch of the LAST
       COMPLETE write whose fsync failed after the last success, provided no
       later short write damaged its bytes (they are then completely in the file),
   all fields.  A batch of which a short write left only the first half in the
   file is never recovered: it is leftovers like any other.  So recovery never returns an entry of a failed batch that was
   followed by another write, never a part of a batch, never a mix of two. *)
Theorem fail_recover info k0 ops :
  hdr_wf info -> fops_wf ops ->
  let st := frun info k0 ops in
  fs_ok st = true ->
  let bs' := fs_bs st ++ fs_last st in
  fs_w st = wst info (cstate info (fs_bs st)) /\
  (no_stale_commit (fs_file st) (len (image info bs')) ->
   recover_state info (fs_file st) = Some (wst info (cstate info bs'))).
Proof.
  intros Hhw Hwf. apply fail_recover_from; [exact Hhw|apply finv_start|exact Hwf].
Qed.

(* an operation that succeeds leaves no candidate behind *)
Lemma fstep_ok_last st o :
  fst (fst (do_fop (fs_w st) o)) = WOk -> snd (do_fop (fs_w st) o) <> [] -> fs_last (fstep st o) = [].
Proof.
  unfold fstep. destruct (do_fop (fs_w st) o) as [[r w'] acts]. cbn [fst snd]. intros -> Hne.
  destruct (do_op (fs_w st) (fst o)) as [[r1 w1] acts1]. destruct acts; [congruence|reflexivity].
Qed.

(* when no failed batch is complete in the file -- in particular right after an
   ACKNOWLEDGED write (fstep_ok_last), whatever failed before -- a restart is
   invisible: recovery returns the running writer itself *)
Corollary fail_recover_acked info k0 ops :
  hdr_wf info -> fops_wf ops ->
  let st := frun info k0 ops in
  fs_ok st = true -> fs_last st = [] ->
  no_stale_commit (fs_file st) (len (image info (fs_bs st))) ->
  recover_state info (fs_file st) = Some (fs_w st).
Proof.
  intros Hhw Hwf st Hok Hp Hns.
  destruct (fail_recover info k0 ops Hhw Hwf Hok) as [Ew Hr]. fold st in Ew, Hr.
  rewrite Hp in Hr. rewrite app_nil_r in Hr. rewrite Ew. apply Hr. exact Hns.
Qed.

(* a clean file -- the image of a chain followed by zeros, all of it durable,
   as Create leaves it (bs = []) and as every RecoverTail leaves it
   (RecoverFacts.seg_recover_round) -- is a state of such a run *)
Definition fclean (info : seginfo) (bs : list batch) (k : nat) : fstate :=
  {| fs_w := wst info (cstate info bs); fs_file := image info bs ++ zeros k;
     fs_sync := image info bs ++ zeros k; fs_pw := []; fs_bs := bs; fs_pend := []; fs_last := []; fs_ok := true |}.

Lemma finv_clean info bs k : chain_wf info c0 bs -> finv info (fclean info bs k).
Proof.
  intros H. constructor; cbn [fclean fs_w fs_file fs_sync fs_pw fs_bs fs_pend fs_last].
  - reflexivity.
  - exact H.
  - constructor.
  - constructor.
  - cbn. lia.
  - exists (zeros k). reflexivity.
  - exists (zeros k). reflexivity.
  - constructor.
Qed.

(* a torn write whose length need not be a multiple of 8 (a short write stops
   anywhere): whole chunks as torn_over, then the last partial chunk new or old *)
Inductive torn_part : bytes -> bytes -> bytes -> Prop :=
| tp_full old new T : torn_over old new T -> torn_part old new T
| tp_tail o1 n1 t1 o2 n2 t2 :
    torn_over o1 n1 t1 -> length o2 = length n2 -> (length n2 < 8)%nat -> t2 = n2 \/ t2 = o2 ->
    torn_part (o1 ++ o2) (n1 ++ n2) (t1 ++ t2).

(* the unsynced writes reach the durable image one after the other, each torn
   per 8-byte chunk over what is there (Disk.torn_apply without its collision
   clause: here the collision condition is no_stale_commit on the image) *)
Inductive torn_writes : bytes -> list (N * bytes) -> bytes -> Prop :=
| tw_nil s : torn_writes s [] s
| tw_cons s off new T r s' :
    torn_part (region s (N.to_nat off) (length new)) new T ->
    torn_writes (overwrite s (N.to_nat off) T) r s' ->
    torn_writes s ((off, new) :: r) s'.

Lemma torn_writes_prefix a pw : forall R0 T,
  Forall (fun w => fst w = len a) pw -> torn_writes (a ++ R0) pw T -> exists R', T = a ++ R'.
Proof.
  induction pw as [|[off new] r IH]; intros R0 T Hoff H.
  - inversion H; subst. exists R0. reflexivity.
  - inversion Hoff as [|? ? Ho Hr]; subst. cbn [fst] in Ho. subst off.
    inversion H as [|? ? ? T1 ? ? Ht Hrest]; subst.
    rewrite to_nat_len, overwrite_app in Hrest. eapply IH; [exact Hr|exact Hrest].
Qed.

(* all chunks / no chunk / the first k1 chunks of a write reach the disk *)
Lemma torn_over_app o1 n1 t1 o2 n2 t2 :
  torn_over o1 n1 t1 -> torn_over o2 n2 t2 -> torn_over (o1 ++ o2) (n1 ++ n2) (t1 ++ t2).
Proof.
  induction 1 as [|co cn old new T Hco Hcn _ IH|co cn old new T Hco Hcn _ IH]; intros H2; [exact H2| |];
    rewrite <- !app_assoc; [apply tov_new|apply tov_old]; auto.
Qed.

Lemma torn_over_all_new k : forall old new,
  length old = (8 * k)%nat -> length new = (8 * k)%nat -> torn_over old new new.
Proof.
  apply (chunk_ind2 (fun o n => torn_over o n n)); [constructor|].
  intros c d a b Hc Hd H. apply tov_new; assumption.
Qed.

Lemma torn_over_all_old k : forall old new,
  length old = (8 * k)%nat -> length new = (8 * k)%nat -> torn_over old new old.
Proof.
  apply (chunk_ind2 (fun o n => torn_over o n o)); [constructor|].
  intros c d a b Hc Hd H. apply tov_old; assumption.
Qed.

Lemma torn_over_first k1 k2 old new :
  length old = (8 * (k1 + k2))%nat -> length new = (8 * (k1 + k2))%nat ->
  torn_over old new (firstn (8 * k1) new ++ skipn (8 * k1) old).
Proof.
  intros Ho Hn.
  rewrite <- (firstn_skipn (8 * k1) old) at 1. rewrite <- (firstn_skipn (8 * k1) new) at 1.
  apply torn_over_app.
  - apply (torn_over_all_new k1); rewrite firstn_length; lia.
  - apply (torn_over_all_old k2); rewrite skipn_length; lia.
Qed.

Lemma tw_nil_eq s s' : s = s' -> torn_writes s [] s'.
Proof. intros ->. constructor. Qed.

Lemma finv_recover_crash info st T :
  hdr_wf info -> finv info st -> torn_writes (fs_sync st) (fs_pw st) T ->
  let s := cstate info (fs_bs st) in
  let p := len (c_img s) in
  (no_stale_commit T p -> recover_state info T = Some (wst info s)) /\
  (forall d, In d (fs_pend st) -> on_disk T p (batch_write info s d) ->
     no_stale_commit T (p + len (batch_write info s d)) ->
     recover_state info T = Some (wst info (cstate info (fs_bs st ++ [d])))).
Proof.
  intros Hhw [Iw Iwf Ipend _ _ _ (R0 & Isync) Hoffs] HT s p. fold s in Ipend, Isync, Hoffs.
  rewrite Isync in HT. destruct (torn_writes_prefix _ _ _ _ Hoffs HT) as [R' ET].
  split.
  - intros Hns. rewrite ET in Hns |- *. apply recover_behind; assumption.
  - intros d Hd Hon Hns.
    assert (Hwf' : chain_wf info c0 (fs_bs st ++ [d])).
    { apply chain_wf_snoc; [exact Iwf|]. rewrite Forall_forall in Ipend. apply Ipend. exact Hd. }
    unfold p in Hon. rewrite ET in Hon. apply on_disk_app in Hon as ER.
    assert (ET' : T = c_img (cstate info (fs_bs st ++ [d])) ++ skipn (length (batch_write info s d)) R').
    { rewrite cstate_snoc. fold s. cbn [cstep c_img]. rewrite <- app_assoc, <- ER. exact ET. }
    assert (Ep : p + len (batch_write info s d) = len (c_img (cstate info (fs_bs st ++ [d])))).
    { rewrite cstate_snoc. fold s. cbn [cstep c_img]. rewrite len_app. reflexivity. }
    rewrite Ep in Hns. rewrite ET' in Hns |- *. apply recover_behind; assumption.
Qed.

Theorem fail_recover_crash_from info st0 ops T :
  hdr_wf info -> finv info st0 -> fops_wf ops ->
  let st := frun_from st0 ops in
  fs_ok st = true -> torn_writes (fs_sync st) (fs_pw st) T ->
  let s := cstate info (fs_bs st) in
  let p := len (c_img s) in
  (no_stale_commit T p -> recover_state info T = Some (wst info s)) /\
  (forall d, In d (fs_pend st) -> on_disk T p (batch_write info s d) ->
     no_stale_commit T (p + len (batch_write info s d)) ->
     recover_state info T = Some (wst info (cstate info (fs_bs st ++ [d])))).
Proof.
  intros Hhw I0 Hwf st Hok HT.
  apply finv_recover_crash; [exact Hhw| |exact HT]. apply finv_run; assumption.
Qed.

(* THE THEOREM (power loss).  After every such history the power fails: the
   durable image T is the image of the last successful fsync with every write
   issued since torn per 8-byte chunk.  Recovery of T returns the writer of
   the acknowledged batches bs, or of bs ++ [d] for a batch d whose write
   failed after the last successful fsync and whose bytes are COMPLETELY on
   the disk -- nothing of any batch that failed before the last successful
   fsync, no part of a batch, no mix.  (d need not be the last failed write: a
   power loss can keep an earlier unsynced write and lose a later one.) *)
Theorem fail_recover_crash info k0 ops T :
  hdr_wf info -> fops_wf ops ->
  let st := frun info k0 ops in
  fs_ok st = true -> torn_writes (fs_sync st) (fs_pw st) T ->
  let s := cstate info (fs_bs st) in
  let p := len (c_img s) in
  (no_stale_commit T p -> recover_state info T = Some (wst info s)) /\
  (forall d, In d (fs_pend st) -> on_disk T p (batch_write info s d) ->
     no_stale_commit T (p + len (batch_write info s d)) ->
     recover_state info T = Some (wst info (cstate info (fs_bs st ++ [d])))).
Proof.
  intros Hhw Hwf. apply fail_recover_crash_from; [exact Hhw|apply finv_start|exact Hwf].
Qed.

(* one decidable hypothesis, one conclusion by cases *)
Definition crash_okb (info : seginfo) (st : fstate) (T : bytes) : bool :=
  let s := cstate info (fs_bs st) in
  let p := len (c_img s) in
  no_stale_commitb T p ||
  existsb (fun d => on_diskb T p (batch_write info s d) &&
                    no_stale_commitb T (p + len (batch_write info s d))) (fs_pend st).

Corollary fail_recover_crash_cases info k0 ops T :
  hdr_wf info -> fops_wf ops ->
  let st := frun info k0 ops in
  fs_ok st = true -> torn_writes (fs_sync st) (fs_pw st) T ->
  crash_okb info st T = true ->
  recover_state info T = Some (wst info (cstate info (fs_bs st))) \/
  exists d, In d (fs_pend st) /\
            on_disk T (len (image info (fs_bs st))) (batch_write info (cstate info (fs_bs st)) d) /\
            recover_state info T = Some (wst info (cstate info (fs_bs st ++ [d]))).
Proof.
  intros Hhw Hwf st Hok HT Hc.
  destruct (fail_recover_crash info k0 ops T Hhw Hwf Hok HT) as [H1 H2]. fold st in H1, H2.
  unfold crash_okb in Hc. apply orb_true_iff in Hc as [Hc|Hc].
  - left. apply H1. apply no_stale_commitb_spec. exact Hc.
  - right. apply existsb_exists in Hc as (d & Hd & Hc). apply andb_true_iff in Hc as [Hon Hns].
    exists d. split; [exact Hd|]. apply on_diskb_spec in Hon. split; [exact Hon|].
    apply H2; [exact Hd|exact Hon|]. apply no_stale_commitb_spec. exact Hns.
Qed.

(* a write that is completely on the disk is found by recovery: the first case
   of the theorem and the second exclude each other *)
Lemma on_disk_commit_verifies info st T d :
  hdr_wf info -> finv info st -> torn_writes (fs_sync st) (fs_pw st) T ->
  In d (fs_pend st) ->
  on_disk T (len (image info (fs_bs st))) (batch_write info (cstate info (fs_bs st)) d) ->
  no_stale_commit T (len (image info (fs_bs st)) + len (batch_write info (cstate info (fs_bs st)) d)) ->
  ~ no_stale_commit T (len (image info (fs_bs st))).
Proof.
  intros Hhw I HT Hd Hon Hns Hns0.
  destruct (finv_recover_crash info st T Hhw I HT) as [H1 H2].
  specialize (H1 Hns0). specialize (H2 d Hd Hon Hns). rewrite H1 in H2.
  apply (f_equal (fun o => match o with Some w => w_off w | None => 0 end)) in H2.
  rewrite cstate_snoc in H2. cbn [wst w_off cstep c_img] in H2. rewrite len_app in H2.
  pose proof (len_batch_write info (cstate info (fs_bs st)) d). lia.
Qed.

(* batch 1 = [e1] succeeds; a = [a2; a3; a4] -- fsync fails; b = [b2; b3] --
   fsync fails; c = [c2] succeeds.  Sizes (payload bytes): a 16,16,8; b 16,8;
   c 8: c's commit frame ends where b's second frame begins, and b's commit
   frame ends where a's third frame begins, so behind the commit of c lie
   [b3][commit b][a4][commit a], all on frame boundaries. *)
Definition fx_info : seginfo :=
  {| si_id := 7; si_base := 1; si_min := 1; si_max := 0; si_codec := 1;
     si_index_start := 0; si_sealed := false; si_size_limit := 4096 |}.
Definition fx_e1 : bytes := [1; 1; 1; 1; 1; 1; 1; 1].
Definition fx_a2 : bytes := repeat 162 16.
Definition fx_a3 : bytes := repeat 163 16.
Definition fx_a4 : bytes := repeat 164 8.
Definition fx_b2 : bytes := repeat 178 16.
Definition fx_b3 : bytes := repeat 179 8.
Definition fx_c2 : bytes := repeat 194 8.
Definition fx_ops : list fop :=
  [ (OpAppend [(1, fx_e1)], FNone);
    (OpAppend [(2, fx_a2); (3, fx_a3); (4, fx_a4)], FSync);
    (OpAppend [(2, fx_b2); (3, fx_b3)], FSync);
    (OpAppend [(2, fx_c2)], FNone) ].
Definition fx_st : fstate := frun fx_info 256 fx_ops.

Lemma fx_hyps : hdr_wf fx_info /\ fops_wf fx_ops.
Proof.
  split; [unfold hdr_wf; repeat split; reflexivity|].
  unfold fops_wf, fx_ops.
  repeat (apply Forall_cons; [cbn [fst op_wf]; repeat (apply Forall_cons; [apply wf_bytesb_spec; reflexivity|]); apply Forall_nil|]).
  apply Forall_nil.
Qed.

(* the hypotheses of fail_recover hold, the acknowledged batches are 1 and c,
   nothing is pending, and the new recovery returns exactly the running writer
   (2 entries: e1, c2) *)
Lemma fx_new :
  fs_ok fx_st = true /\
  fs_bs fx_st = [([fx_e1], false); ([fx_c2], false)] /\ fs_pend fx_st = [] /\ fs_last fx_st = [] /\
  no_stale_commitb (fs_file fx_st) (len (image fx_info (fs_bs fx_st))) = true /\
  recover_state fx_info (fs_file fx_st) = Some (fs_w fx_st) /\
  length (w_offsets (fs_w fx_st)) = 2%nat /\
  tail_get (fs_w fx_st) (fs_file fx_st) 2 = ROk fx_c2 /\
  tail_get (fs_w fx_st) (fs_file fx_st) 3 = RNotFound.
Proof. vm_compute. repeat split; reflexivity. Qed.

(* THE DEFECT.  On the same file the algorithm before the repair returns a
   writer with 3 entries whose third entry is b3 -- the second entry of batch
   b, a batch that failed, was rolled back and was overwritten by c. *)
Lemma recover_old_refuted :
  exists w, recover_state_old fx_info (fs_file fx_st) = Some w /\
            length (w_offsets w) = 3%nat /\ w_commit_idx w = 3 /\
            tail_get w (fs_file fx_st) 2 = ROk fx_c2 /\
            tail_get w (fs_file fx_st) 3 = ROk fx_b3 /\
            recover_state_old fx_info (fs_file fx_st) <> recover_state fx_info (fs_file fx_st).
Proof.
  eexists. split; [vm_compute; reflexivity|]. vm_compute. repeat split; try reflexivity. discriminate.
Qed.

(* power loss after the two failed fsyncs (history 1, a, b; nothing of a or b is
   durable).  Three durable images:
     T_b    both writes complete           -> recovery returns 1, b (the last failed write)
     T_a    a complete, nothing of b       -> recovery returns 1, a (an earlier unsynced write, whole)
     T_mix  b's first two chunks over a    -> recovery returns 1 only: no mix of a and b *)
Definition fx_st3 : fstate := frun fx_info 256 (firstn 3 fx_ops).
Definition fx_p : N := len (image fx_info (fs_bs fx_st3)).
Definition fx_wa : bytes := match fs_pw fx_st3 with (_, w) :: _ => w | _ => [] end.
Definition fx_wb : bytes := match fs_pw fx_st3 with _ :: (_, w) :: _ => w | _ => [] end.
Definition fx_T_b : bytes := fs_file fx_st3.
Definition fx_T_a : bytes := overwrite (fs_sync fx_st3) (N.to_nat fx_p) fx_wa.
Definition fx_T_mix : bytes := overwrite fx_T_a (N.to_nat fx_p) (firstn 16 fx_wb).

Lemma fx_crash_values :
  fs_ok fx_st3 = true /\ fs_bs fx_st3 = [([fx_e1], false)] /\
  fs_pend fx_st3 = [([fx_a2; fx_a3; fx_a4], false); ([fx_b2; fx_b3], false)] /\
  crash_okb fx_info fx_st3 fx_T_b = true /\ crash_okb fx_info fx_st3 fx_T_a = true /\
  crash_okb fx_info fx_st3 fx_T_mix = true /\
  recover_state fx_info fx_T_b = Some (wst fx_info (cstate fx_info [([fx_e1], false); ([fx_b2; fx_b3], false)])) /\
  recover_state fx_info fx_T_a = Some (wst fx_info (cstate fx_info [([fx_e1], false); ([fx_a2; fx_a3; fx_a4], false)])) /\
  recover_state fx_info fx_T_mix = Some (wst fx_info (cstate fx_info [([fx_e1], false)])).
Proof. vm_compute. repeat split; reflexivity. Qed.

(* ... and they are images a power loss can leave *)
Lemma fx_crash_torn :
  torn_writes (fs_sync fx_st3) (fs_pw fx_st3) fx_T_b /\
  torn_writes (fs_sync fx_st3) (fs_pw fx_st3) fx_T_a /\
  torn_writes (fs_sync fx_st3) (fs_pw fx_st3) fx_T_mix.
Proof.
  assert (Epw : fs_pw fx_st3 = [(fx_p, fx_wa); (fx_p, fx_wb)]) by (vm_compute; reflexivity).
  rewrite Epw. split; [|split].
  - eapply tw_cons; [apply tp_full, (torn_over_all_new 9); reflexivity|].
    eapply tw_cons; [apply tp_full, (torn_over_all_new 6); reflexivity|].
    apply tw_nil_eq. vm_compute. reflexivity.
  - eapply tw_cons; [apply tp_full, (torn_over_all_new 9); reflexivity|].
    eapply tw_cons; [apply tp_full, (torn_over_all_old 6); reflexivity|].
    apply tw_nil_eq. vm_compute. reflexivity.
  - eapply tw_cons; [apply tp_full, (torn_over_all_new 9); reflexivity|].
    eapply tw_cons; [apply tp_full, (torn_over_first 2 4); reflexivity|].
    apply tw_nil_eq. vm_compute. reflexivity.
Qed.

(* SHORT WRITES.  History 1, a (fsync fails: complete in the file), then
     fx_ops_pb   b fails with a short write: its first half (24 of 48 bytes = the
                 frame of b2) replaces the frame of a2: a is no longer complete,
                 nothing of b can be; recovery returns 1 alone;
     fx_ops_pa   the retry of a itself fails with a short write: the half written
                 equals what is there, a is still complete; recovery returns 1, a;
     fx_ops_pc   after the short write of b, c succeeds over it: recovery returns
                 1, c -- the running writer. *)
Definition fx_ops_pb : list fop := firstn 2 fx_ops ++ [(OpAppend [(2, fx_b2); (3, fx_b3)], FWriteShort)].
Definition fx_ops_pa : list fop := firstn 2 fx_ops ++ [(OpAppend [(2, fx_a2); (3, fx_a3); (4, fx_a4)], FWriteShort)].
Definition fx_ops_pc : list fop := fx_ops_pb ++ [(OpAppend [(2, fx_c2)], FNone)].

Lemma fx_short_hyps : fops_wf fx_ops_pb /\ fops_wf fx_ops_pa /\ fops_wf fx_ops_pc.
Proof.
  unfold fops_wf, fx_ops_pb, fx_ops_pa, fx_ops_pc, fx_ops. cbn [firstn app].
  repeat split;
    repeat (apply Forall_cons; [cbn [fst op_wf]; repeat (apply Forall_cons; [apply wf_bytesb_spec; reflexivity|]); apply Forall_nil|]);
    apply Forall_nil.
Qed.

Lemma fx_short :
  let sb := frun fx_info 256 fx_ops_pb in
  let sa := frun fx_info 256 fx_ops_pa in
  let sc := frun fx_info 256 fx_ops_pc in
  (fs_ok sb, fs_bs sb, fs_pend sb, fs_last sb) =
    (true, [([fx_e1], false)], [([fx_a2; fx_a3; fx_a4], false)], []) /\
  length (fs_pw sb) = 2%nat /\
  no_stale_commitb (fs_file sb) (len (image fx_info (fs_bs sb))) = true /\
  recover_state fx_info (fs_file sb) = Some (fs_w sb) /\
  (fs_ok sa, fs_bs sa, fs_last sa) = (true, [([fx_e1], false)], [([fx_a2; fx_a3; fx_a4], false)]) /\
  no_stale_commitb (fs_file sa) (len (image fx_info (fs_bs sa ++ fs_last sa))) = true /\
  recover_state fx_info (fs_file sa) = Some (wst fx_info (cstate fx_info (fs_bs sa ++ fs_last sa))) /\
  (fs_ok sc, fs_bs sc, fs_last sc) = (true, [([fx_e1], false); ([fx_c2], false)], []) /\
  no_stale_commitb (fs_file sc) (len (image fx_info (fs_bs sc))) = true /\
  recover_state fx_info (fs_file sc) = Some (fs_w sc).
Proof. vm_compute. repeat split; reflexivity. Qed.
