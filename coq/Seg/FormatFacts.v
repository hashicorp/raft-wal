(* FormatFacts.v -- C09: what the writer model writes is, byte for byte, the
   layout the README describes (Fmt/ReadmeSpec.v), with aligned zero-padded
   frames, commit CRCs over exactly the bytes since the previous commit, and an
   index frame that addresses the entry frames. *)
From RW Require Import Base.Bytes Base.BytesFacts Base.Crc32c Base.Crc32cFacts Fmt.Frame Fmt.FrameFacts
     Fmt.ReadmeSpec Fmt.ReadmeSpecFacts
     Seg.Writer Seg.Recover Seg.Reader Seg.SegAbs Seg.WriterFacts Seg.ScanFacts Seg.ReaderFacts Gen.Constants.
From RW Require Import Base.LiaSetup.
Open Scope N_scope.

Definition hdr_of (info : seginfo) : rs_header :=
  {| h_base := si_base info; h_id := si_id info; h_codec := si_codec info |}.

(* ---------------- the model's encoders are the README's ---------------- *)
Lemma file_header_readme info : file_header info = rs_file_header (hdr_of info).
Proof. reflexivity. Qed.
Lemma enc_frame_readme p : enc_frame FrameEntry p = rs_frame rs_t_entry p.
Proof. reflexivity. Qed.
Lemma commit_frame_readme c : commit_frame c = rs_commit c.
Proof. reflexivity. Qed.
Lemma index_frame_readme offs : index_frame offs = rs_index offs.
Proof. rewrite index_frame_is_frame. reflexivity. Qed.
Lemma entries_bytes_readme ps : entries_bytes ps = rs_entries ps.
Proof. reflexivity. Qed.
Lemma entry_offsets_readme ps : forall pos, entry_offsets pos ps = rs_offsets pos ps.
Proof. induction ps as [|p r IH]; intros pos; [reflexivity|]. cbn [entry_offsets rs_offsets]. rewrite IH. reflexivity. Qed.

Lemma fold_image_readme info bs : forall s,
  c_img (fold_left (cstep info) bs s) =
  c_img s ++ match bs with
             | [] => []
             | _ => c_pend info s ++ rs_batches (c_pos info s) (c_pend info s) (c_offs s) bs
             end.
Proof.
  induction bs as [|[ps seal] bs IH]; intros s; [cbn; rewrite app_nil_r; reflexivity|].
  cbn [fold_left]. rewrite IH. cbn [rs_batches].
  set (b := (ps, seal)).
  assert (M : match bs with
              | [] => []
              | _ :: _ => c_pend info (cstep info s b) ++
                          rs_batches (c_pos info (cstep info s b)) (c_pend info (cstep info s b))
                                     (c_offs (cstep info s b)) bs
              end = rs_batches (c_pos info (cstep info s b)) [] (c_offs (cstep info s b)) bs).
  { rewrite c_pend_cstep. destruct bs; reflexivity. }
  rewrite M. clear M. rewrite c_pos_cstep. cbn [cstep c_img c_offs].
  unfold batch_write, batch_body, c_offs'. cbn [b fst snd].
  rewrite entries_bytes_readme, entry_offsets_readme, commit_frame_readme.
  rewrite !index_frame_readme.
  set (body := rs_entries ps ++ (if seal then rs_index (c_offs s ++ rs_offsets (c_pos info s) ps) else [])).
  replace (len (c_img s ++ (c_pend info s ++ body) ++ rs_commit (crc32c (c_pend info s ++ body))))
    with (c_pos info s + len body + 8)
    by (unfold c_pos; rewrite !len_app; change (len (rs_commit (crc32c (c_pend info s ++ body)))) with 8; lia).
  rewrite <- !app_assoc. reflexivity.
Qed.

Theorem image_is_layout info bs : image info bs = layout (hdr_of info) bs.
Proof.
  unfold image, cstate. rewrite fold_image_readme. cbn [c0 c_img app]. unfold layout.
  destruct bs; reflexivity.
Qed.

Theorem writer_matches_readme info ops w acts bs :
  wrun (init_empty info) ops = Some (w, acts, bs) ->
  len (layout (hdr_of info) bs) < two32 ->
  writes_contiguous 0 acts /\ writes_concat acts = layout (hdr_of info) bs.
Proof.
  intros H Hl. rewrite <- image_is_layout in *.
  destruct (wrun_image info ops w acts bs H Hl) as (_ & A & B). auto.
Qed.

Lemma cstate_aligned info bs :
  len (c_img (cstate info bs)) mod 8 = 0 /\ Forall (fun o => o mod 8 = 0) (c_offs (cstate info bs)).
Proof.
  induction bs as [|b bs IH] using rev_ind; [split; [reflexivity|constructor]|].
  destruct IH as [Hi Ho]. rewrite cstate_snoc. set (s := cstate info bs) in *.
  assert (Hpos : c_pos info s mod 8 = 0).
  { apply add_aligned; [exact Hi|]. unfold c_pend. destruct (c_img s); reflexivity. }
  split.
  - rewrite len_img_cstep, len_batch_body.
    apply add_aligned; [apply add_aligned; [exact Hpos|apply add_aligned]|reflexivity];
      [apply len_entries_bytes_aligned|].
    destruct (snd b); [apply enc_frame_size_aligned|reflexivity].
  - cbn [cstep c_offs]. unfold c_offs'. apply Forall_app; split; [exact Ho|].
    apply entry_offsets_aligned. exact Hpos.
Qed.

Theorem frames_aligned info ops w acts bs :
  wrun (init_empty info) ops = Some (w, acts, bs) -> len (layout (hdr_of info) bs) < two32 ->
  w_off w mod 8 = 0 /\ Forall (fun o => o mod 8 = 0) (w_offsets w) /\
  (* every entry frame sits at its recorded offset, payload followed by zero padding *)
  forall i off p, nth_error (w_offsets w) i = Some off -> nth_error (payloads bs) i = Some p ->
    exists a r, layout (hdr_of info) bs =
                a ++ frame_header FrameEntry (len p) ++ p ++ zeros (N.to_nat (pad_len (len p))) ++ r
                /\ len a = off /\ (len p + pad_len (len p)) mod 8 = 0.
Proof.
  intros H Hl. rewrite <- image_is_layout in *.
  destruct (wrun_image info ops w acts bs H Hl) as (-> & _ & _).
  destruct (cstate_aligned info bs) as [A B]. cbn [wst w_off w_offsets].
  split; [exact A|]. split; [exact B|].
  intros i off p Ho Hp. destruct (image_entry info bs i off p Ho Hp) as (a & r & E & L).
  exists a, r. split; [|split; [exact L|apply pad_len_aligned]].
  rewrite E. unfold enc_frame. rewrite <- !app_assoc. reflexivity.
Qed.

(* the bytes a batch adds are X ++ commit frame, and the commit frame's CRC is
   the CRC-32C of exactly X: everything since the previous commit (for the first
   batch since offset 0, i.e. including the file header) *)
Theorem commit_crc_range info bs b :
  exists X, image info (bs ++ [b]) = image info bs ++ X ++ commit_frame (crc32c X) /\
            (bs <> [] -> X = batch_body info (cstate info bs) b) /\
            (bs = [] -> X = file_header info ++ batch_body info c0 b).
Proof.
  unfold image. rewrite cstate_snoc. cbn [cstep c_img]. unfold batch_write.
  exists (c_pend info (cstate info bs) ++ batch_body info (cstate info bs) b).
  rewrite <- !app_assoc. split; [reflexivity|]. split.
  - intros Hne. destruct bs as [|x l] using rev_ind; [congruence|].
    rewrite cstate_snoc, c_pend_cstep. reflexivity.
  - intros ->. reflexivity.
Qed.

(* committed bytes are never rewritten: the image of a prefix is a prefix *)
Theorem image_prefix info bs1 bs2 : exists r, image info (bs1 ++ bs2) = image info bs1 ++ r.
Proof.
  unfold image. rewrite cstate_app. generalize (cstate info bs1) as s.
  induction bs2 as [|b r IH]; intros s; [exists []; cbn; rewrite app_nil_r; reflexivity|].
  cbn [fold_left]. destruct (IH (cstep info s b)) as [x E]. rewrite E. cbn [cstep c_img].
  rewrite <- app_assoc. eexists. reflexivity.
Qed.

Theorem index_frame_ok info ops w acts bs :
  wrun (init_empty info) ops = Some (w, acts, bs) -> len (layout (hdr_of info) bs) < two32 ->
  sealed w = true ->
  (* IndexStart is the file offset of the index array, which is the le32 array
     of exactly the entry-frame offsets, preceded by an Index frame header *)
  (exists a r, layout (hdr_of info) bs =
               a ++ frame_header FrameIndex (4 * len (w_offsets w)) ++ flat_map le32 (w_offsets w) ++ r
               /\ len a + 8 = w_index_start w) /\
  length (w_offsets w) = length (payloads bs) /\
  (* and each offset is where the layout put that entry's frame *)
  forall i off p, nth_error (w_offsets w) i = Some off -> nth_error (payloads bs) i = Some p ->
    exists a r, layout (hdr_of info) bs = a ++ rs_frame rs_t_entry p ++ r /\ len a = off.
Proof.
  intros H Hl Hs. rewrite <- image_is_layout in *.
  destruct (wrun_image info ops w acts bs H Hl) as (-> & _ & _).
  unfold sealed in Hs. cbn [wst w_index_start w_offsets] in *. apply N.ltb_lt in Hs.
  split; [|split].
  - apply image_index_frame. lia.
  - apply c_offs_length.
  - intros i off p Ho Hp. rewrite <- enc_frame_readme. apply (image_entry info bs i off p Ho Hp).
Qed.

Lemma dec_digits_readme fuel : forall v acc, dec_digits fuel v acc = rs_digits 10 fuel v ++ acc.
Proof.
  induction fuel as [|f IH]; intros v acc; [reflexivity|].
  cbn [dec_digits rs_digits]. rewrite IH, <- app_assoc. cbn [app]. do 2 f_equal.
  unfold rs_digit. replace (v mod 10 <? 10) with true; [reflexivity|].
  symmetry. apply N.ltb_lt. apply N.mod_lt. lia.
Qed.

Lemma hex_digits_readme fuel : forall v acc, hex_digits fuel v acc = rs_digits 16 fuel v ++ acc.
Proof.
  induction fuel as [|f IH]; intros v acc; [reflexivity|].
  cbn [hex_digits rs_digits]. rewrite IH, <- app_assoc. cbn [app]. do 2 f_equal.
  unfold rs_digit, hexd. destruct (v mod 16 <? 10) eqn:E; [reflexivity|]. apply N.ltb_ge in E. lia.
Qed.

Theorem file_name_readme base id : file_name base id = rs_file_name base id.
Proof.
  unfold file_name, rs_file_name. rewrite dec_digits_readme, hex_digits_readme, !app_nil_r. reflexivity.
Qed.

Theorem header_name_meta info ops w acts bs k :
  wrun (init_empty info) ops = Some (w, acts, bs) -> len (layout (hdr_of info) bs) < two32 ->
  bs <> [] -> si_base info < two64 -> si_id info < two64 -> si_codec info < two64 ->
  (* the 32 header bytes carry exactly BaseIndex, ID and Codec of the metadata *)
  rs_parse_header (writes_concat acts ++ zeros k) = Some (hdr_of info) /\
  read_file_header (writes_concat acts ++ zeros k) = Some (si_base info, si_id info, si_codec info) /\
  file_name (si_base info) (si_id info) = rs_file_name (h_base (hdr_of info)) (h_id (hdr_of info)).
Proof.
  intros H Hl Hne Hb Hi Hc.
  destruct (writer_matches_readme info ops w acts bs H Hl) as [_ E]. rewrite E.
  unfold layout. destruct bs; [congruence|]. rewrite <- !app_assoc. split; [|split].
  - apply parse_header_layout. repeat split; assumption.
  - rewrite <- file_header_readme. apply read_file_header_hdr; assumption.
  - apply file_name_readme.
Qed.

Lemma wrun_batches_wf_readme ops : forall w w' acts bs,
  Forall (fun op => match op with OpAppend es => Forall (fun e => wf_bytes (snd e)) es | OpSeal => True end) ops ->
  wrun w ops = Some (w', acts, bs) -> Forall rs_batch_wf bs.
Proof.
  induction ops as [|op r IH]; intros w w' acts bs Hw H.
  - cbn in H. inversion H; subst. constructor.
  - inversion Hw as [|? ? Hop Hr]; subst. cbn [wrun] in H.
    destruct (do_op w op) as [[res w1] acts0] eqn:Eop. destruct res; try discriminate.
    destruct (wrun w1 r) as [[[w2 acts2] bs2]|] eqn:E; [|discriminate].
    inversion H; subst. apply Forall_app; split; [|eapply IH; eassumption].
    destruct op as [es|]; cbn [op_batch do_op] in *.
    + destruct es as [|e0 r0] eqn:Ees; [constructor|]. rewrite <- Ees in *.
      constructor; [|constructor]. unfold rs_batch_wf. cbn [fst]. rewrite Forall_map.
      apply append_ok_not_too_big in Eop. apply too_big_false in Eop.
      rewrite Forall_forall in *. intros e He. split; [apply Hop; exact He|].
      specialize (Eop e He). exact Eop.
    + destruct (sealed w); constructor; [constructor|constructor].
Qed.

(* the independent decoder reads back header and batches (payloads and seal
   flags) from everything the writer model writes *)
Theorem spec_decodes info ops w acts bs k :
  Forall (fun op => match op with OpAppend es => Forall (fun e => wf_bytes (snd e)) es | OpSeal => True end) ops ->
  wrun (init_empty info) ops = Some (w, acts, bs) -> len (layout (hdr_of info) bs) < two32 ->
  bs <> [] -> si_base info < two64 -> si_id info < two64 -> si_codec info < two64 ->
  parse (writes_concat acts ++ zeros k) = Some (hdr_of info, bs).
Proof.
  intros Hw H Hl Hne Hb Hi Hc.
  destruct (writer_matches_readme info ops w acts bs H Hl) as [_ E]. rewrite E.
  apply parse_layout; try assumption.
  - repeat split; assumption.
  - eapply wrun_batches_wf_readme; eassumption.
Qed.

(* Gen/Constants.v is regenerated from /repo on every check; magic,
   fileHeaderLen, frameHeaderLen are unexported in the code and live in
   Fmt/Frame.v, where the `format` stream observes them in every file. *)
Theorem constants_match_readme :
  MaxEntrySize = 67108864 /\ MaxEntrySize = rs_max_entry /\
  FrameInvalid = 0 /\ FrameEntry = 1 /\ FrameIndex = 2 /\ FrameCommit = 3 /\
  FrameInvalid = rs_t_invalid /\ FrameEntry = rs_t_entry /\ FrameIndex = rs_t_index /\ FrameCommit = rs_t_commit /\
  magic = 1491823373 /\ magic = rs_magic /\ file_header_len = 32 /\ frame_header_len = 8 /\
  FileNameProbe = rs_file_name 1234567 11259375.
Proof. repeat split; reflexivity. Qed.

(* ---------------- only the last batch can seal ---------------- *)
Fixpoint only_last_sealed (bs : list batch) : Prop :=
  match bs with
  | [] => True
  | b :: r => match r with [] => True | _ => snd b = false /\ only_last_sealed r end
  end.

Lemma wrun_after_sealed info ops : forall s w acts bs,
  c_istart s <> 0 -> wrun (wst info s) ops = Some (w, acts, bs) -> bs = [].
Proof.
  induction ops as [|op r IH]; intros s w acts bs Hs H.
  - cbn in H. inversion H. reflexivity.
  - cbn [wrun] in H.
    assert (Hsealed : (0 <? w_index_start (wst info s)) = true)
      by (cbn [wst w_index_start]; apply N.ltb_lt; lia).
    destruct op as [es|]; cbn [do_op] in H.
    + destruct es as [|e0 r0].
      * cbn [append] in H. destruct (wrun (wst info s) r) as [[[w2 a2] b2]|] eqn:E; [|discriminate].
        inversion H; subst. cbn [op_batch app]. eapply IH; eassumption.
      * unfold append in H. rewrite Hsealed in H. discriminate.
    + unfold force_seal in H. rewrite Hsealed in H.
      destruct (wrun (wst info s) r) as [[[w2 a2] b2]|] eqn:E; [|discriminate].
      inversion H; subst. cbn [op_batch]. unfold sealed. rewrite Hsealed. cbn [app]. eapply IH; eassumption.
Qed.

Lemma op_batch_shape w w' op : op_batch w w' op = [] \/ exists b, op_batch w w' op = [b].
Proof.
  destruct op as [es|]; cbn [op_batch].
  - destruct es; [left; reflexivity|right; eexists; reflexivity].
  - destruct (sealed w); [left; reflexivity|right; eexists; reflexivity].
Qed.

Lemma wrun_seal_shape info ops : forall s w acts bs,
  wrun (wst info s) ops = Some (w, acts, bs) ->
  len (c_img (fold_left (cstep info) bs s)) < two32 ->
  c_istart s = 0 -> only_last_sealed bs.
Proof.
  induction ops as [|op r IH]; intros s w acts bs H Hlen Hs.
  - cbn in H. inversion H. exact I.
  - pose proof H as H0. cbn [wrun] in H.
    destruct (do_op (wst info s) op) as [[res w'] acts0] eqn:Eop. destruct res; try discriminate.
    destruct (wrun w' r) as [[[w2 acts2] bs2]|] eqn:Er; [|discriminate].
    inversion H; subst w2 acts bs. clear H.
    set (bs1 := op_batch (wst info s) w' op) in *.
    assert (H1 : wrun (wst info s) [op] = Some (w', acts0 ++ [], bs1 ++ [])).
    { cbn [wrun]. rewrite Eop. reflexivity. }
    rewrite !app_nil_r in H1.
    assert (Hl1 : len (c_img (fold_left (cstep info) bs1 s)) < two32).
    { rewrite fold_left_app in Hlen.
      pose proof (len_img_fold_mono info bs2 (fold_left (cstep info) bs1 s)). lia. }
    destruct (wrun_char info [op] s w' acts0 bs1 H1 Hl1) as (Ew' & _ & _).
    rewrite Ew' in Er. rewrite fold_left_app in Hlen.
    destruct (op_batch_shape (wst info s) w' op) as [E|[b E]]; fold bs1 in E; rewrite E in *.
    + cbn [fold_left app] in *. eapply IH; eassumption.
    + cbn [fold_left app] in *. destruct (snd b) eqn:Eb.
      * assert (Hne : c_istart (cstep info s b) <> 0).
        { cbn [cstep c_istart]. rewrite Eb. lia. }
        rewrite (wrun_after_sealed info r _ _ _ _ Hne Er). exact I.
      * assert (Hz : c_istart (cstep info s b) = 0) by (cbn [cstep c_istart]; rewrite Eb; reflexivity).
        specialize (IH _ _ _ _ Er Hlen Hz). cbn [only_last_sealed].
        destruct bs2; [exact I|]. split; assumption.
Qed.

Lemma istart_readme info bs : forall s,
  only_last_sealed bs -> bs <> [] ->
  c_istart (fold_left (cstep info) bs s) = rs_index_start_from (c_pos info s) bs.
Proof.
  induction bs as [|[ps seal] bs IH]; intros s Ho Hne; [congruence|].
  cbn [fold_left rs_index_start_from]. destruct bs as [|b2 bs'].
  - cbn [fold_left cstep c_istart fst snd]. destruct seal; reflexivity.
  - cbn [only_last_sealed] in Ho. destruct Ho as [Hs Ho]. cbn [snd] in Hs. subst seal.
    rewrite IH by (assumption || discriminate).
    rewrite c_pos_cstep, len_img_cstep, len_batch_body. cbn [fst snd].
    rewrite entries_bytes_readme. f_equal. lia.
Qed.

(* the IndexStart the writer reports is the README's: the offset of the index
   array of the (only, last) sealing batch, 0 when unsealed *)
Theorem index_start_readme info ops w acts bs :
  wrun (init_empty info) ops = Some (w, acts, bs) -> len (layout (hdr_of info) bs) < two32 ->
  only_last_sealed bs /\ w_index_start w = rs_index_start bs.
Proof.
  intros H Hl. rewrite <- image_is_layout in Hl.
  destruct (wrun_image info ops w acts bs H Hl) as (Ew & _ & _).
  rewrite <- wst_c0 in H.
  pose proof (wrun_seal_shape info ops c0 w acts bs H Hl eq_refl) as Hshape.
  split; [exact Hshape|]. subst w. cbn [wst w_index_start]. unfold rs_index_start.
  destruct bs as [|b0 bs0] eqn:Eb; [reflexivity|]. rewrite <- Eb in *.
  unfold cstate. rewrite istart_readme by (assumption || (rewrite Eb; discriminate)). reflexivity.
Qed.
