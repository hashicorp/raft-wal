(* RecoverFacts.v -- the L1 recovery law: recover_state on a file that holds n
   committed batches followed by a torn image of one more batch returns exactly
   the writer state after n (torn) or n+1 (complete) batches; zeroStaleTail
   re-establishes the "zeros behind the write offset" shape, so that a further round can
   start from the recovered file (the chains of rounds are in ChainFacts.v).  The crash
   adversary ([torn], [torn_over], [region], [no_torn_collision]) is defined here. *)
From RW Require Import Base.Bytes Base.BytesFacts Base.Crc32c Base.Crc32cFacts Fmt.Frame Fmt.FrameFacts
     Seg.Writer Seg.Recover Seg.SegAbs Seg.WriterFacts Seg.ScanFacts Gen.Constants.
From RW Require Import Base.LiaSetup.
Open Scope N_scope.

Definition body_shapes (info : seginfo) (s : cst) (b : batch) : list fshape :=
  map sh_entry (fst b) ++ (if snd b then [sh_index (c_offs' info s b)] else []).

Definition batch_crc (info : seginfo) (s : cst) (b : batch) : N :=
  crc32c (c_pend info s ++ batch_body info s b).

Definition batch_shapes (info : seginfo) (s : cst) (b : batch) : list fshape :=
  body_shapes info s b ++ [sh_commit (batch_crc info s b)].

Lemma frames_bytes_body info s b : frames_bytes (body_shapes info s b) = batch_body info s b.
Proof.
  unfold body_shapes, batch_body. rewrite frames_bytes_app, frames_bytes_entries.
  destruct (snd b); [|reflexivity]. unfold frames_bytes. cbn [flat_map]. rewrite app_nil_r. reflexivity.
Qed.

Lemma batch_write_shapes info s b :
  batch_write info s b = c_pend info s ++ frames_bytes (batch_shapes info s b).
Proof.
  unfold batch_write, batch_shapes. rewrite frames_bytes_app, frames_bytes_body.
  unfold frames_bytes. cbn [flat_map]. rewrite app_nil_r, <- app_assoc. reflexivity.
Qed.

(* well-formed batch at a chain state: payload bytes are bytes, no 32-bit wrap *)
Definition bwf (info : seginfo) (s : cst) (b : batch) : Prop :=
  Forall wf_bytes (fst b) /\ len (c_img (cstep info s b)) < two32.

Definition hdr_wf (info : seginfo) : Prop :=
  si_base info < two64 /\ si_id info < two64 /\ si_codec info < two64.

Lemma wf_c_pend info s : wf_bytes (c_pend info s).
Proof. unfold c_pend. destruct (c_img s); [apply wf_file_header|constructor]. Qed.

Lemma wf_entries_bytes ps : Forall wf_bytes ps -> wf_bytes (entries_bytes ps).
Proof.
  induction 1 as [|p r Hp _ IH]; [constructor|].
  unfold entries_bytes. cbn [flat_map]. apply wf_bytes_app; split; [|exact IH].
  apply wf_enc_frame; [reflexivity|exact Hp].
Qed.

Lemma wf_batch_body info s b : Forall wf_bytes (fst b) -> wf_bytes (batch_body info s b).
Proof.
  intros H. unfold batch_body. apply wf_bytes_app; split; [apply wf_entries_bytes; exact H|].
  destruct (snd b); [apply wf_index_frame|constructor].
Qed.

Lemma batch_crc_lt info s b : Forall wf_bytes (fst b) -> batch_crc info s b < two32.
Proof.
  intros H. apply crc32c_lt. apply wf_bytes_app; split; [apply wf_c_pend|apply wf_batch_body; exact H].
Qed.

Lemma entries_len_bound ps :
  Forall (fun p => 8 + len p <= len (entries_bytes ps)) ps.
Proof.
  induction ps as [|p r IH]; constructor.
  - rewrite len_entries_bytes_cons. unfold enc_frame_size. lia.
  - eapply Forall_impl; [|exact IH]. intros q Hq. cbn beta in Hq. rewrite len_entries_bytes_cons. lia.
Qed.

Lemma batch_shapes_ok info s b : bwf info s b -> Forall fs_ok (batch_shapes info s b).
Proof.
  intros [Hw Hlen]. rewrite len_img_cstep, len_batch_body in Hlen.
  unfold batch_shapes, body_shapes. apply Forall_app; split; [apply Forall_app; split|].
  - apply Forall_forall. intros x Hx. apply in_map_iff in Hx as (p & <- & Hp).
    apply fs_ok_entry. pose proof (entries_len_bound (fst b)) as Hb.
    rewrite Forall_forall in Hb. specialize (Hb p Hp). lia.
  - destruct (snd b); constructor; [|constructor]. apply fs_ok_index. unfold enc_frame_size in Hlen. lia.
  - constructor; [|constructor]. apply fs_ok_commit. apply batch_crc_lt. exact Hw.
Qed.

Lemma rec_step_entry a off v :
  rec_step a {| fe_typ := FrameEntry; fe_val := v; fe_off := off |} =
  {| ra_offsets := ra_offsets a ++ [off mod two32]; ra_pending := ra_pending a;
     ra_commits := ra_commits a |}.
Proof. reflexivity. Qed.

Lemma fold_entry_events ps : forall pos a,
  fold_left rec_step (fs_events pos (map sh_entry ps)) a =
  {| ra_offsets := ra_offsets a ++ map (fun o => o mod two32) (entry_offsets pos ps);
     ra_pending := ra_pending a; ra_commits := ra_commits a |}.
Proof.
  induction ps as [|p r IH]; intros pos a.
  - cbn. rewrite app_nil_r. destruct a; reflexivity.
  - cbn [map fs_events fold_left]. rewrite IH.
    change (fs_typ (sh_entry p)) with FrameEntry. rewrite rec_step_entry.
    cbn [ra_offsets ra_pending ra_commits entry_offsets map].
    rewrite <- app_assoc. cbn [app].
    replace (pos + 8 + len (fs_body (sh_entry p))) with (pos + enc_frame_size (len p)).
    + reflexivity.
    + cbn [sh_entry fs_body]. rewrite len_app, len_zeros. unfold enc_frame_size. lia.
Qed.

Lemma rec_step_index a off v :
  rec_step a {| fe_typ := FrameIndex; fe_val := v; fe_off := off |} =
  {| ra_offsets := ra_offsets a; ra_pending := off + 8; ra_commits := ra_commits a |}.
Proof. reflexivity. Qed.

Lemma rec_step_commit a off v :
  rec_step a {| fe_typ := FrameCommit; fe_val := v; fe_off := off |} =
  {| ra_offsets := ra_offsets a; ra_pending := 0;
     ra_commits := {| c_crc := v; c_off := off;
                      c_crc_start := match ra_commits a with p :: _ => c_off p + 8 | [] => 0 end;
                      c_offsets_len := length (ra_offsets a);
                      c_index_start := ra_pending a |} :: ra_commits a |}.
Proof. reflexivity. Qed.

Lemma fold_body_events info s b a :
  fold_left rec_step (fs_events (c_pos info s) (body_shapes info s b)) a =
  {| ra_offsets := ra_offsets a ++ map (fun o => o mod two32) (entry_offsets (c_pos info s) (fst b));
     ra_pending := if snd b then c_pos info s + len (entries_bytes (fst b)) + 8 else ra_pending a;
     ra_commits := ra_commits a |}.
Proof.
  unfold body_shapes. rewrite fs_events_app, fold_left_app, fold_entry_events.
  destruct (snd b); [|reflexivity].
  cbn [fs_events fold_left sh_index fs_typ fs_val]. rewrite rec_step_index.
  cbn [ra_offsets ra_pending ra_commits]. rewrite frames_bytes_entries. reflexivity.
Qed.

Lemma fold_batch_events info s b a crc :
  fold_left rec_step (fs_events (c_pos info s) (body_shapes info s b ++ [sh_commit crc])) a =
  let offs := ra_offsets a ++ map (fun o => o mod two32) (entry_offsets (c_pos info s) (fst b)) in
  {| ra_offsets := offs; ra_pending := 0;
     ra_commits := {| c_crc := crc; c_off := c_pos info s + len (batch_body info s b);
                      c_crc_start := match ra_commits a with p :: _ => c_off p + 8 | [] => 0 end;
                      c_offsets_len := length offs;
                      c_index_start := if snd b then c_pos info s + len (entries_bytes (fst b)) + 8
                                       else ra_pending a |} :: ra_commits a |}.
Proof.
  rewrite fs_events_app, fold_left_app, fold_body_events.
  cbn [fs_events fold_left sh_commit fs_typ fs_val]. rewrite rec_step_commit.
  cbn [ra_offsets ra_pending ra_commits]. rewrite frames_bytes_body. reflexivity.
Qed.

(* events carrying no commit frame leave the commit bookkeeping alone *)
Lemma fold_no_commit evs : forall a,
  Forall (fun e => fe_typ e = FrameEntry \/ fe_typ e = FrameIndex) evs ->
  ra_commits (fold_left rec_step evs a) = ra_commits a.
Proof.
  induction evs as [|e r IH]; intros a H; [reflexivity|].
  inversion H as [|? ? He Hr]; subst. cbn [fold_left]. rewrite IH by exact Hr.
  unfold rec_step. destruct He as [-> | ->]; reflexivity.
Qed.

(* any events: the commit frames found are put in front of those already known,
   each at the offset of one of the events, and offsets can only be added *)
Lemma fold_any evs : forall a,
  let a' := fold_left rec_step evs a in
  (exists new, ra_commits a' = new ++ ra_commits a /\
               Forall (fun c => exists e, In e evs /\ c_off c = fe_off e) new) /\
  exists extra, ra_offsets a' = ra_offsets a ++ extra.
Proof.
  induction evs as [|e r IH]; intros a.
  - cbn. split; [exists []; split; [reflexivity|constructor]|exists []; rewrite app_nil_r; reflexivity].
  - cbn [fold_left]. destruct (IH (rec_step a e)) as ((new & C & Hnew) & extra & O). cbn zeta.
    assert (Hnew' : Forall (fun c => exists e0, In e0 (e :: r) /\ c_off c = fe_off e0) new).
    { eapply Forall_impl; [|exact Hnew]. intros c (e0 & Hin & Hc). exists e0. split; [right; exact Hin|exact Hc]. }
    rewrite C, O. unfold rec_step.
    destruct (fe_typ e =? FrameEntry); [|destruct (fe_typ e =? FrameIndex)]; cbn [ra_commits ra_offsets].
    + split; [exists new; split; [reflexivity|exact Hnew']|]. eexists. rewrite <- app_assoc. reflexivity.
    + split; [exists new; split; [reflexivity|exact Hnew']|]. exists extra. reflexivity.
    + split; [|exists extra; reflexivity].
      eexists (new ++ [_]). split; [rewrite <- app_assoc; reflexivity|].
      apply Forall_app; split; [exact Hnew'|]. constructor; [|constructor].
      exists e. split; [left; reflexivity|reflexivity].
Qed.

(* walking back over commit frames that do not verify *)
Lemma find_good_skip f new old :
  Forall (fun c => commit_good f c = false) new -> find_good f (new ++ old) = find_good f old.
Proof.
  induction 1 as [|c r Hc _ IH]; [reflexivity|]. cbn [app find_good]. rewrite Hc. exact IH.
Qed.

(* The accumulator of [rec_fold] after scanning the image of chain state [s].  The last clause holds
   for every [r]: the last commit frame verifies whatever bytes follow the image. *)
Definition acc_inv (info : seginfo) (s : cst) (a : rec_acc) : Prop :=
  ra_offsets a = c_offs s /\ ra_pending a = 0 /\
  match ra_commits a with
  | [] => s = c0
  | fc :: _ =>
      c_img s <> [] /\ c_off fc + 8 = len (c_img s) /\
      c_offsets_len fc = length (c_offs s) /\ c_index_start fc = c_istart s /\
      forall r, crc32c (read_at (c_img s ++ r) (c_crc_start fc) (c_off fc - c_crc_start fc)) = c_crc fc
  end.

Lemma acc_inv_crc_start info s a :
  acc_inv info s a -> match ra_commits a with p :: _ => c_off p + 8 | [] => 0 end = len (c_img s).
Proof.
  intros (_ & _ & Hf). destruct (ra_commits a); [subst s; reflexivity|]. destruct Hf as (_ & H & _); exact H.
Qed.

Lemma entry_offsets_mod_id info s b :
  len (c_img (cstep info s b)) < two32 ->
  map (fun o => o mod two32) (entry_offsets (c_pos info s) (fst b)) = entry_offsets (c_pos info s) (fst b).
Proof.
  intros H. rewrite len_img_cstep, len_batch_body in H.
  apply map_mod_small. eapply Forall_impl; [|apply entry_offsets_bound].
  intros o [_ Ho]. cbn beta in Ho. lia.
Qed.

Lemma acc_step info s b a :
  acc_inv info s a -> bwf info s b ->
  let a' := fold_left rec_step (fs_events (c_pos info s) (batch_shapes info s b)) a in
  acc_inv info (cstep info s b) a' /\ (exists fc, ra_commits a' = fc :: ra_commits a).
Proof.
  intros Hacc [Hw Hlen]. pose proof Hacc as (Ho & Hp & _).
  cbn zeta. unfold batch_shapes. rewrite fold_batch_events. cbn zeta.
  split; [|eexists; reflexivity].
  unfold acc_inv. cbn [ra_offsets ra_pending ra_commits c_off c_offsets_len c_index_start c_crc_start c_crc].
  rewrite (entry_offsets_mod_id info s b Hlen), Ho. cbn [cstep c_offs c_istart]. fold (c_offs' info s b).
  split; [reflexivity|]. split; [reflexivity|].
  split; [apply c_img_cstep_nonnil|]. split; [rewrite len_img_cstep; reflexivity|].
  split; [reflexivity|]. split; [rewrite Hp; reflexivity|].
  intros r. rewrite (acc_inv_crc_start info s a Hacc). cbn [c_img cstep]. unfold batch_write.
  rewrite <- (app_assoc (c_img s)), <- (app_assoc (c_pend info s ++ batch_body info s b)).
  rewrite read_at_mid by (unfold c_pos; rewrite len_app; lia). reflexivity.
Qed.

(* image plus pending bytes begin with the file header (before the first batch the header is pending) *)
Definition hdr_inv (info : seginfo) (s : cst) : Prop :=
  exists r, c_img s ++ c_pend info s = file_header info ++ r.

Lemma hdr_inv_c0 info : hdr_inv info c0.
Proof. exists []. unfold c_pend. cbn [c0 c_img app]. rewrite app_nil_r. reflexivity. Qed.

Lemma hdr_inv_step info s b : hdr_inv info s -> hdr_inv info (cstep info s b).
Proof.
  intros [r H]. unfold hdr_inv. rewrite c_pend_cstep, app_nil_r. cbn [cstep c_img].
  unfold batch_write. rewrite <- app_assoc, app_assoc, H, <- app_assoc. eexists. reflexivity.
Qed.

(* chains of well-formed batches *)
Fixpoint chain_wf (info : seginfo) (s : cst) (bs : list batch) : Prop :=
  match bs with
  | [] => True
  | b :: r => bwf info s b /\ chain_wf info (cstep info s b) r
  end.

Lemma chain_wf_app info a : forall s b,
  chain_wf info s (a ++ b) <-> chain_wf info s a /\ chain_wf info (fold_left (cstep info) a s) b.
Proof.
  induction a as [|x a IH]; intros s b; cbn [app chain_wf fold_left]; [tauto|].
  rewrite IH. tauto.
Qed.

(* scanning the image of a chain: its events, then on from the end of the image.
   P stands for the pending header bytes of an empty file (any 32 bytes: the
   scan starts behind them). *)
Lemma chain_scan info bs :
  chain_wf info c0 bs ->
  let s := cstate info bs in
  hdr_inv info s /\
  exists evs,
    acc_inv info s (rec_fold evs) /\
    forall P r, len P = len (c_pend info s) ->
      scanF (c_img s ++ P ++ r) 32 = evs ++ scanF (c_img s ++ P ++ r) (c_pos info s).
Proof.
  induction bs as [|b bs IH] using rev_ind; intros Hwf; cbn zeta.
  - split; [apply hdr_inv_c0|]. exists []. split.
    + unfold acc_inv, rec_fold. cbn. auto.
    + intros P r HP. cbn [app]. reflexivity.
  - apply chain_wf_app in Hwf as [Hwf1 Hwf2]. cbn [chain_wf] in Hwf2. destruct Hwf2 as [Hb _].
    fold (cstate info bs) in Hb. specialize (IH Hwf1). cbn zeta in IH.
    destruct IH as (Hh & evs & Hacc & Hscan). rewrite cstate_snoc.
    set (s := cstate info bs) in *.
    split; [apply hdr_inv_step; exact Hh|].
    exists (evs ++ fs_events (c_pos info s) (batch_shapes info s b)). split.
    + unfold rec_fold. rewrite fold_left_app. apply acc_step; assumption.
    + intros P r HP. rewrite c_pend_cstep in HP. destruct P; [|rewrite len_cons in HP; change (len []) with 0 in HP; lia].
      cbn [app]. rewrite c_pos_cstep. cbn [cstep c_img]. rewrite batch_write_shapes.
      rewrite <- !app_assoc. rewrite (Hscan (c_pend info s)) by reflexivity.
      f_equal.
      replace (c_pos info s) with (len (c_img s ++ c_pend info s)) by (rewrite len_app; reflexivity).
      rewrite (app_assoc (c_img s)).
      rewrite scanF_frames by (apply batch_shapes_ok; exact Hb).
      f_equal. f_equal. rewrite !len_app. lia.
Qed.

Lemma scanned_header_hdr info r :
  hdr_wf info -> validate_file_header (scanned_header (file_header info ++ r)) info = true.
Proof.
  intros (Hb & Hi & Hc). unfold scanned_header.
  rewrite <- app_assoc.
  change 32%nat with (length (file_header info)). rewrite firstn_app_exact.
  rewrite <- (app_nil_r (file_header info)).
  rewrite read_file_header_hdr by assumption. apply validate_file_header_refl.
Qed.

Lemma recovered_wst info s :
  c_img s <> [] -> len (c_img s) < two32 ->
  recovered info (len (c_img s)) (c_istart s) (c_offs s) = wst info s.
Proof.
  intros Hn Hl. unfold recovered, wst.
  cbn [w_info w_buf w_crc w_off w_index_start w_offsets w_commit_idx].
  assert (Hp : c_pend info s = []) by (unfold c_pend; destruct (c_img s); congruence).
  rewrite Hp. change (crc32c []) with 0. rewrite N.mod_small by exact Hl.
  f_equal.
Qed.

(* behind the chain the scan found only commit frames that do not verify (new):
   recovery walks back over them to the last commit frame of the chain, which
   verifies whatever follows the chain, and the chain survives as is *)
Lemma recover_stale info s r a evs2 new (f := c_img s ++ r) :
  hdr_wf info -> hdr_inv info s -> len (c_img s) < two32 ->
  acc_inv info s a ->
  rec_fold (scan f) = fold_left rec_step evs2 a ->
  ra_commits (fold_left rec_step evs2 a) = new ++ ra_commits a ->
  Forall (fun c => commit_good f c = false) new ->
  recover_state info f = Some (wst info s).
Proof.
  intros Hhw [hr Hh] Hl (Ho & Hp & Hf) Hfold Hc Hbad. assert (Ef : f = c_img s ++ r) by reflexivity. clearbody f.
  destruct (fold_any evs2 a) as (_ & extra & O). cbn zeta in O.
  unfold recover_state. rewrite Hfold, Hc, (find_good_skip f new _ Hbad).
  destruct (ra_commits a) as [|fc rest] eqn:Efc.
  - cbn [find_good]. rewrite Hf, wst_c0. reflexivity.
  - destruct Hf as (Hn & Hoff & Hol & His & Hcrc).
    assert (Hg : commit_good f fc = true) by (unfold commit_good; rewrite Ef, Hcrc; apply N.eqb_refl).
    cbn [find_good]. rewrite Hg.
    assert (Hpend : c_pend info s = []) by (unfold c_pend; destruct (c_img s); congruence).
    rewrite Hpend, app_nil_r in Hh.
    assert (Hhdr : validate_file_header (scanned_header f) info = true).
    { rewrite Ef, Hh, <- app_assoc. apply scanned_header_hdr. exact Hhw. }
    rewrite Hhdr, O, Ho, Hol, firstn_app_exact.
    replace (c_off fc + 8) with (len (c_img s)) by lia. rewrite His.
    rewrite recovered_wst by assumption. reflexivity.
Qed.

(* the tail behind the chain produced no commit frame: the chain survives as is *)
Lemma recover_no_commit info s r a evs2 (f := c_img s ++ r) :
  hdr_wf info -> hdr_inv info s -> len (c_img s) < two32 ->
  acc_inv info s a ->
  Forall (fun e => fe_typ e = FrameEntry \/ fe_typ e = FrameIndex) evs2 ->
  rec_fold (scan f) = fold_left rec_step evs2 a ->
  recover_state info f = Some (wst info s).
Proof.
  intros Hhw Hh Hl Hacc Hev Hfold.
  pose proof (fold_no_commit evs2 a Hev) as F.
  apply (recover_stale info s r a evs2 []); try assumption. constructor.
Qed.

(* A torn image of [new] written over zeros: per 8-byte chunk either the new
   bytes or the old (zero) bytes -- chunk for chunk what RunSeg.crash_mix
   builds (lemma crash_mix_torn in Run/RunSegFacts.v). *)
Inductive torn : bytes -> bytes -> Prop :=
| torn_nil : torn [] []
| torn_keep c new img : length c = 8%nat -> torn new img -> torn (c ++ new) (c ++ img)
| torn_zero c new img : length c = 8%nat -> torn new img -> torn (c ++ new) (zeros 8 ++ img).

Lemma torn_length new img : torn new img -> length img = length new.
Proof.
  induction 1 as [|c new img Hc _ IH|c new img Hc _ IH]; [reflexivity| |];
    rewrite !app_length, IH; [reflexivity|]. rewrite zeros_length, Hc. reflexivity.
Qed.

Lemma torn_nil_inv T : torn [] T -> T = [].
Proof.
  intros H. remember [] as x eqn:E. destruct H as [|c new img Hc _|c new img Hc _]; [reflexivity| |];
    destruct c; cbn in Hc; try lia; discriminate.
Qed.

(* induction over byte strings cut into 8-byte chunks *)
Lemma chunk_ind2 (P : bytes -> bytes -> Prop) :
  P [] [] ->
  (forall c d a b, length c = 8%nat -> length d = 8%nat -> P a b -> P (c ++ a) (d ++ b)) ->
  forall k a b, length a = (8 * k)%nat -> length b = (8 * k)%nat -> P a b.
Proof.
  intros H0 Hs. induction k as [|k IH]; intros a b Ha Hb.
  - destruct a; [|cbn in Ha; lia]. destruct b; [exact H0|cbn in Hb; lia].
  - rewrite <- (firstn_skipn 8 a), <- (firstn_skipn 8 b).
    apply Hs; [rewrite firstn_length; lia|rewrite firstn_length; lia|].
    apply IH; rewrite skipn_length; lia.
Qed.

Lemma chunk_ind (P : bytes -> Prop) :
  P [] -> (forall c a, length c = 8%nat -> P a -> P (c ++ a)) ->
  forall k a, length a = (8 * k)%nat -> P a.
Proof. intros H0 Hs k a Ha. apply (chunk_ind2 (fun a _ => P a)) with k a; auto. Qed.

Lemma torn_app_inv k : forall a b T,
  length a = (8 * k)%nat -> torn (a ++ b) T ->
  exists Ta Tb, T = Ta ++ Tb /\ torn a Ta /\ torn b Tb.
Proof.
  intros a b T Ha. revert b T.
  apply (chunk_ind (fun a => forall b T, torn (a ++ b) T ->
                             exists Ta Tb, T = Ta ++ Tb /\ torn a Ta /\ torn b Tb)) with k; [| |exact Ha]; clear.
  - intros b T H. exists [], T. repeat split; [constructor|exact H].
  - intros c a Lc IH b T H. rewrite <- app_assoc in H. remember (c ++ a ++ b) as x eqn:Ex.
    destruct H as [|c0 new img Hc0 Ht|c0 new img Hc0 Ht].
    + destruct c; cbn in Lc; [lia|discriminate].
    + apply app_eq_len in Ex as [-> ->]; [|lia].
      destruct (IH b img Ht) as (Ta & Tb & -> & H1 & H2).
      exists (c ++ Ta), Tb. rewrite <- app_assoc. repeat split; [|exact H2]. apply torn_keep; assumption.
    + apply app_eq_len in Ex as [-> ->]; [|lia].
      destruct (IH b img Ht) as (Ta & Tb & -> & H1 & H2).
      exists (zeros 8 ++ Ta), Tb. rewrite <- app_assoc. repeat split; [|exact H2]. apply torn_zero; assumption.
Qed.

Lemma torn_hdr_inv h body T :
  length h = 8%nat -> torn (h ++ body) T ->
  exists Tb, torn body Tb /\ (T = h ++ Tb \/ T = zeros 8 ++ Tb).
Proof.
  intros Lh H. remember (h ++ body) as x eqn:Ex.
  destruct H as [|c0 new img Hc0 Ht|c0 new img Hc0 Ht].
  - destruct h; cbn in Lh; [lia|discriminate].
  - apply app_eq_len in Ex as [-> ->]; [|lia]. exists img. auto.
  - apply app_eq_len in Ex as [-> ->]; [|lia]. exists img. auto.
Qed.

Lemma torn_refl k : forall a, length a = (8 * k)%nat -> torn a a.
Proof. apply chunk_ind; [constructor|]. intros c a Hc H. apply torn_keep; assumption. Qed.

Lemma torn_all_zero k : forall a, length a = (8 * k)%nat -> torn a (zeros (length a)).
Proof.
  apply chunk_ind; [constructor|]. intros c a Hc H.
  rewrite app_length, Hc, zeros_app. apply torn_zero; assumption.
Qed.

(* a torn write of [new] over the old content [old] of the same range: per
   8-byte chunk the new or the old bytes (used from FailFacts.v on, where its lemmas are) *)
Inductive torn_over : bytes -> bytes -> bytes -> Prop :=
| tov_nil : torn_over [] [] []
| tov_new co cn old new T : length co = 8%nat -> length cn = 8%nat -> torn_over old new T ->
                            torn_over (co ++ old) (cn ++ new) (cn ++ T)
| tov_old co cn old new T : length co = 8%nat -> length cn = 8%nat -> torn_over old new T ->
                            torn_over (co ++ old) (cn ++ new) (co ++ T).

(* the n bytes at off (zeros beyond the end: a write there extends the file) *)
Definition region (s : bytes) (off n : nat) : bytes := firstn n (skipn off s ++ zeros n).

(* frames under tearing: headers are single chunks, so each is intact or zero *)
Definition hdr_eq (x y : fshape) : Prop :=
  fs_typ x = fs_typ y /\ fs_val x = fs_val y /\ length (fs_body x) = length (fs_body y).

Lemma fs_ok_hdr_eq x y : hdr_eq x y -> fs_ok x -> fs_ok y.
Proof.
  intros (Ht & Hv & Hb) (A & B & C). unfold fs_ok. rewrite <- Ht, <- Hv.
  split; [exact A|]. split; [exact B|]. unfold len in *. rewrite <- Hb. exact C.
Qed.

Lemma Forall_fs_ok_hdr_eq l l' : Forall2 hdr_eq l l' -> Forall fs_ok l -> Forall fs_ok l'.
Proof.
  induction 1 as [|x y l l' Hxy _ IH]; intros H; [constructor|].
  inversion H; subst. constructor; [eapply fs_ok_hdr_eq; eassumption|auto].
Qed.

Lemma fs_events_hdr_eq l l' : Forall2 hdr_eq l l' -> forall off, fs_events off l = fs_events off l'.
Proof.
  induction 1 as [|x y l l' (Ht & Hv & Hb) _ IH]; intros off; [reflexivity|].
  cbn [fs_events]. rewrite Ht, Hv. unfold len. rewrite Hb. f_equal. apply IH.
Qed.

Lemma len_frames_hdr_eq l l' : Forall2 hdr_eq l l' -> len (frames_bytes l) = len (frames_bytes l').
Proof.
  induction 1 as [|x y l l' (Ht & Hv & Hb) _ IH]; [reflexivity|].
  unfold frames_bytes. cbn [flat_map]. rewrite !len_app, !len_fs_bytes.
  fold (frames_bytes l). fold (frames_bytes l'). unfold len in *. lia.
Qed.

Lemma Forall2_hdr_eq_refl l : Forall2 hdr_eq l l.
Proof. induction l; constructor; [unfold hdr_eq; auto|assumption]. Qed.

Lemma fs_bytes_len8 s : fs_ok s -> exists k, length (fs_bytes s) = (8 * k)%nat.
Proof.
  intros (_ & _ & H). pose proof (enc_frame_size_aligned (fh_len (fs_typ s) (fs_val s))) as A.
  pose proof (len_fs_bytes s) as L. unfold len in *.
  exists (length (fs_bytes s) / 8)%nat.
  pose proof (Nat.div_mod (length (fs_bytes s)) 8 ltac:(lia)).
  assert ((length (fs_bytes s) mod 8 = 0)%nat); [|lia].
  rewrite <- H in A. rewrite <- L in A. lia.
Qed.

Lemma torn_frames l :
  Forall fs_ok l -> forall T, torn (frames_bytes l) T ->
  (exists l', Forall2 hdr_eq l l' /\ T = frames_bytes l') \/
  (exists l1 l1' l2 rest, l = l1 ++ l2 /\ l2 <> [] /\ Forall2 hdr_eq l1 l1' /\
                          T = frames_bytes l1' ++ zeros 8 ++ rest).
Proof.
  induction l as [|s l IH]; intros Hok T HT.
  - cbn in HT. apply torn_nil_inv in HT. subst. left. exists []. split; [constructor|reflexivity].
  - inversion Hok as [|? ? Hs Hl]; subst.
    destruct (fs_bytes_len8 s Hs) as [k Hk].
    unfold frames_bytes in HT. cbn [flat_map] in HT. fold (frames_bytes l) in HT.
    destruct (torn_app_inv k _ _ _ Hk HT) as (Ts & Tl & -> & H1 & H2).
    unfold fs_bytes in H1. apply torn_hdr_inv in H1 as (Tb & HTb & [-> | ->]); [| |reflexivity].
    + set (s' := {| fs_typ := fs_typ s; fs_val := fs_val s; fs_body := Tb |}).
      assert (Hss' : hdr_eq s s').
      { unfold hdr_eq, s'. cbn. repeat split. symmetry. apply torn_length. exact HTb. }
      destruct (IH Hl Tl H2) as [(l' & Hl' & ->)|(l1 & l1' & l2 & rest & -> & Hne & Hl1 & ->)].
      * left. exists (s' :: l'). split; [constructor; assumption|].
        unfold frames_bytes. cbn [flat_map]. reflexivity.
      * right. exists (s :: l1), (s' :: l1'), l2, rest. repeat split; try assumption.
        -- constructor; assumption.
        -- unfold frames_bytes. cbn [flat_map]. unfold fs_bytes at 1. cbn [s' fs_typ fs_val fs_body].
           rewrite <- !app_assoc. reflexivity.
    + right. exists [], [], (s :: l), (Tb ++ Tl).
      split; [reflexivity|]. split; [discriminate|]. split; [constructor|].
      cbn [frames_bytes flat_map app]. rewrite <- app_assoc. reflexivity.
Qed.

(* behind a chain the scan goes on over frames whose headers are intact, up to where it stops *)
Lemma scan_behind_chain info s evs Tp l l' rest :
  (forall P r, len P = len (c_pend info s) ->
     scanF (c_img s ++ P ++ r) 32 = evs ++ scanF (c_img s ++ P ++ r) (c_pos info s)) ->
  len Tp = len (c_pend info s) -> Forall2 hdr_eq l l' -> Forall fs_ok l ->
  scanF (((c_img s ++ Tp) ++ frames_bytes l') ++ rest) (len ((c_img s ++ Tp) ++ frames_bytes l')) = [] ->
  scan (c_img s ++ Tp ++ frames_bytes l' ++ rest) = evs ++ fs_events (c_pos info s) l.
Proof.
  intros Hscan HTp Hl Hok Hstop.
  rewrite scan_is_scanF, (Hscan Tp) by exact HTp. f_equal.
  replace (c_pos info s) with (len (c_img s ++ Tp)) by (rewrite len_app, HTp; reflexivity).
  rewrite (app_assoc (c_img s)).
  rewrite scanF_frames by (eapply Forall_fs_ok_hdr_eq; eassumption).
  rewrite <- len_app, app_assoc, Hstop, app_nil_r. symmetry. apply fs_events_hdr_eq. exact Hl.
Qed.

Lemma body_shapes_types info s b :
  Forall (fun sh => fs_typ sh = FrameEntry \/ fs_typ sh = FrameIndex) (body_shapes info s b).
Proof.
  unfold body_shapes. apply Forall_app; split.
  - apply Forall_forall. intros x Hx. apply in_map_iff in Hx as (p & <- & _). left. reflexivity.
  - destruct (snd b); [|constructor]. constructor; [right; reflexivity|constructor].
Qed.

Lemma fs_events_types l : forall off,
  Forall (fun sh => fs_typ sh = FrameEntry \/ fs_typ sh = FrameIndex) l ->
  Forall (fun e => fe_typ e = FrameEntry \/ fe_typ e = FrameIndex) (fs_events off l).
Proof.
  induction l as [|x l IH]; intros off H; [constructor|].
  inversion H; subst. cbn [fs_events]. constructor; [assumption|apply IH; assumption].
Qed.

Lemma prefix_of_snoc {A} (l1 l2 X : list A) c :
  l1 ++ l2 = X ++ [c] -> l2 <> [] -> exists l2', X = l1 ++ l2'.
Proof.
  intros E Hne. destruct (exists_last Hne) as (l2' & c' & ->).
  rewrite app_assoc in E. apply app_inj_tail in E as [E _]. exists l2'. symmetry. exact E.
Qed.

Lemma Forall2_sing_l {A B} (R : A -> B -> Prop) a l : Forall2 R [a] l -> exists c, l = [c] /\ R a c.
Proof.
  intros H. inversion H as [|x c lx ly Hc Hnil]; subst. inversion Hnil; subst. exists c. auto.
Qed.

Definition hdr_okb (info : seginfo) (f : bytes) : bool := validate_file_header (scanned_header f) info.

(* all frame headers of the batch are on disk (bodies possibly torn): the commit
   frame is reached and its CRC decides *)
Lemma recover_commit_reached info bs b Tp lb' k :
  hdr_wf info -> chain_wf info c0 (bs ++ [b]) ->
  let s := cstate info bs in
  len Tp = len (c_pend info s) -> Forall2 hdr_eq (body_shapes info s b) lb' ->
  let f := c_img s ++ Tp ++ frames_bytes lb' ++ commit_frame (batch_crc info s b) ++ zeros k in
  recover_state info f =
    if crc32c (Tp ++ frames_bytes lb') =? batch_crc info s b
    then (if hdr_okb info f then Some (wst info (cstep info s b)) else None)
    else Some (wst info s).
Proof.
  intros Hhw Hwf s HTp Hlb f.
  apply chain_wf_app in Hwf as [Hwf1 Hwf2]. cbn [chain_wf] in Hwf2. destruct Hwf2 as [Hb _].
  fold (cstate info bs) in Hb. fold s in Hb.
  destruct (chain_scan info bs Hwf1) as (Hh & evs & Hacc & Hscan). fold s in Hh, Hacc, Hscan.
  pose proof Hb as [Hbw Hblen].
  pose proof (len_img_cstep info s b) as Limg.
  assert (Lsmall : len (c_img s) < two32) by (unfold c_pos in Limg; lia).
  set (crc := batch_crc info s b) in *.
  set (l' := lb' ++ [sh_commit crc]).
  assert (Hl' : Forall2 hdr_eq (batch_shapes info s b) l').
  { unfold batch_shapes, l'. apply Forall2_app; [exact Hlb|]. constructor; [|constructor].
    unfold hdr_eq; auto. }
  assert (Ef : f = c_img s ++ Tp ++ frames_bytes l' ++ zeros k).
  { unfold f, l'. rewrite frames_bytes_app. change (frames_bytes [sh_commit crc]) with (commit_frame crc ++ []).
    rewrite app_nil_r, <- !app_assoc. reflexivity. }
  assert (Escan : scan f = evs ++ fs_events (c_pos info s) (batch_shapes info s b)).
  { rewrite Ef. apply scan_behind_chain;
      [exact Hscan|exact HTp|exact Hl'|apply batch_shapes_ok; exact Hb|apply scanF_stop_zeros]. }
  set (a := rec_fold evs) in *.
  assert (Efold : rec_fold (scan f) =
                  fold_left rec_step (fs_events (c_pos info s) (body_shapes info s b ++ [sh_commit crc])) a).
  { rewrite Escan. unfold rec_fold. rewrite fold_left_app. reflexivity. }
  pose proof Hacc as (Ho & Hp & Hf).
  pose proof (acc_inv_crc_start info s a Hacc) as Es.
  assert (Eread : read_at f (len (c_img s)) (c_pos info s + len (batch_body info s b) - len (c_img s))
                  = Tp ++ frames_bytes lb').
  { unfold f. rewrite (app_assoc Tp). apply read_at_mid.
    rewrite len_app, HTp, <- (len_frames_hdr_eq _ _ Hlb), frames_bytes_body. unfold c_pos. lia. }
  destruct (crc32c (Tp ++ frames_bytes lb') =? crc) eqn:Ecrc.
  - (* the commit frame verifies: it is the first one recovery looks at *)
    unfold recover_state. fold (hdr_okb info f). rewrite Efold, fold_batch_events. cbn zeta.
    cbn [ra_commits ra_offsets find_good]. unfold commit_good.
    cbn [c_offsets_len c_off c_crc_start c_crc c_index_start].
    rewrite Es, Eread, Ecrc, (entry_offsets_mod_id info s b Hblen), Ho, Hp. fold (c_offs' info s b).
    cbn [c_offsets_len c_off c_index_start].
    destruct (hdr_okb info f); [|reflexivity]. f_equal. rewrite firstn_all.
    rewrite <- (recovered_wst info (cstep info s b)); [|apply c_img_cstep_nonnil|exact Hblen].
    rewrite Limg. cbn [cstep c_istart c_offs]. reflexivity.
  - (* it does not: recovery walks back over it to the chain *)
    eapply (recover_stale info s _ a _ [_]);
      [exact Hhw|exact Hh|exact Lsmall|exact Hacc|exact Efold| |].
    + rewrite fold_batch_events. reflexivity.
    + constructor; [|constructor]. unfold commit_good.
      cbn [c_off c_crc_start c_crc]. rewrite Es. fold f. rewrite Eread. exact Ecrc.
Qed.

(* torn-write collisions: an incomplete image whose commit chunk is on disk and
   whose remaining bytes happen to have the CRC of the intended bytes *)
Definition torn_body (x : bytes) : bytes := firstn (length x - 8) x.
Definition torn_tail (x : bytes) : bytes := skipn (length x - 8) x.

Definition no_torn_collision (new T : bytes) : Prop :=
  T = new \/ torn_tail T <> torn_tail new \/ crc32c (torn_body T) <> crc32c (torn_body new).

Definition no_torn_collisionb (new T : bytes) : bool :=
  beq_bytes T new || negb (beq_bytes (torn_tail T) (torn_tail new))
  || negb (crc32c (torn_body T) =? crc32c (torn_body new)).

Lemma no_torn_collisionb_spec new T : no_torn_collisionb new T = true <-> no_torn_collision new T.
Proof.
  unfold no_torn_collisionb, no_torn_collision. rewrite !orb_true_iff, !negb_true_iff.
  rewrite beq_bytes_eq.
  assert (A : beq_bytes (torn_tail T) (torn_tail new) = false <-> torn_tail T <> torn_tail new).
  { rewrite <- beq_bytes_eq. destruct (beq_bytes (torn_tail T) (torn_tail new)); split; congruence. }
  rewrite A, N.eqb_neq. tauto.
Qed.

(* for two strings with the same last chunk the collision clause is about the CRCs in front of it *)
Lemma no_torn_collision_snoc x y c :
  length c = 8%nat -> no_torn_collision (y ++ c) (x ++ c) -> x ++ c <> y ++ c -> crc32c x <> crc32c y.
Proof.
  intros Lc [H|[H|H]] Hne; [congruence| |];
    unfold torn_body, torn_tail in H; rewrite !app_length, Lc, !Nat.add_sub in H.
  - rewrite !skipn_app_exact in H. congruence.
  - rewrite !firstn_app_exact in H. exact H.
Qed.

(* THE L1 LAW.  s = chain of n committed batches (n >= 0); b = one more batch;
   T = any torn image of the bytes the writer writes for b; behind it zeros. *)
Theorem seg_recover_torn info bs b T k :
  hdr_wf info -> chain_wf info c0 (bs ++ [b]) ->
  let s := cstate info bs in
  let new := batch_write info s b in
  torn new T -> no_torn_collision new T ->
  recover_state info (c_img s ++ T ++ zeros k) =
    Some (if beq_bytes T new then wst info (cstep info s b) else wst info s).
Proof.
  intros Hhw Hwf s new HT Hnc.
  pose proof Hwf as Hwf0.
  apply chain_wf_app in Hwf as [Hwf1 Hwf2]. cbn [chain_wf] in Hwf2. destruct Hwf2 as [Hb _].
  fold (cstate info bs) in Hb. fold s in Hb.
  assert (Enew : new = c_pend info s ++ frames_bytes (batch_shapes info s b)) by apply batch_write_shapes.
  assert (Hpk : exists kp, length (c_pend info s) = (8 * kp)%nat).
  { unfold c_pend. destruct (c_img s); [exists 4%nat|exists 0%nat]; reflexivity. }
  destruct Hpk as [kp Hkp]. rewrite Enew in HT.
  destruct (torn_app_inv kp _ _ _ Hkp HT) as (Tp & Tf & ET & HTp & HTf).
  assert (LTp : len Tp = len (c_pend info s)) by (unfold len; rewrite (torn_length _ _ HTp); reflexivity).
  pose proof (batch_shapes_ok info s b Hb) as Hok.
  destruct (torn_frames _ Hok Tf HTf) as [(l' & Hl' & ETf)|(l1 & l1' & l2 & rest & El & Hne & Hl1 & ETf)].
  - (* every header intact *)
    unfold batch_shapes in Hl'. apply Forall2_app_inv_l in Hl' as (lb' & lc & Hlb & Hlc & ->).
    apply Forall2_sing_l in Hlc as (c' & -> & Hc).
    destruct Hc as (Ht & Hv & Hbl). cbn [sh_commit fs_typ fs_val fs_body length] in Ht, Hv, Hbl.
    assert (Ec : fs_bytes c' = commit_frame (batch_crc info s b)).
    { unfold fs_bytes. rewrite <- Ht, <- Hv. destruct (fs_body c'); [|cbn in Hbl; lia]. reflexivity. }
    assert (ETT : T = (Tp ++ frames_bytes lb') ++ commit_frame (batch_crc info s b)).
    { rewrite ET, ETf, frames_bytes_app. unfold frames_bytes at 2. cbn [flat_map].
      rewrite Ec, app_nil_r, <- !app_assoc. reflexivity. }
    pose proof (recover_commit_reached info bs b Tp lb' k Hhw Hwf0 LTp Hlb) as Hrc.
    cbn zeta in Hrc. fold s in Hrc.
    replace (c_img s ++ T ++ zeros k)
      with (c_img s ++ Tp ++ frames_bytes lb' ++ commit_frame (batch_crc info s b) ++ zeros k)
      by (rewrite ETT, <- !app_assoc; reflexivity).
    rewrite Hrc. clear Hrc.
    assert (ENN : new = (c_pend info s ++ batch_body info s b) ++ commit_frame (batch_crc info s b)) by reflexivity.
    assert (Lsame : length (Tp ++ frames_bytes lb') = length (c_pend info s ++ batch_body info s b)).
    { pose proof (len_frames_hdr_eq _ _ Hlb) as L. rewrite frames_bytes_body in L.
      unfold len in *. rewrite !app_length. lia. }
    destruct (beq_bytes T new) eqn:Eb.
    + apply beq_bytes_eq in Eb. rewrite ETT, ENN in Eb.
      apply app_eq_len in Eb as [Eb _]; [|exact Lsame].
      rewrite Eb. change (crc32c (c_pend info s ++ batch_body info s b)) with (batch_crc info s b).
      rewrite N.eqb_refl.
      assert (Hhdr : hdr_okb info (c_img s ++ Tp ++ frames_bytes lb' ++
                                   commit_frame (batch_crc info s b) ++ zeros k) = true).
      { destruct (chain_scan info bs Hwf1) as ([hr Hh] & _). fold s in Hh.
        unfold hdr_okb. rewrite (app_assoc Tp), Eb, <- (app_assoc (c_pend info s)), (app_assoc (c_img s)), Hh.
        rewrite <- app_assoc. apply scanned_header_hdr. exact Hhw. }
      rewrite Hhdr. reflexivity.
    + replace (crc32c (Tp ++ frames_bytes lb') =? batch_crc info s b) with false; [reflexivity|].
      symmetry. apply N.eqb_neq.
      apply (no_torn_collision_snoc _ _ (commit_frame (batch_crc info s b)) eq_refl); rewrite <- ETT.
      * exact Hnc.
      * intros E. change (T = new) in E. rewrite E, beq_bytes_refl in Eb. discriminate.
  - (* a frame header chunk is missing: the scan stops in front of it *)
    assert (Hbeq : beq_bytes T new = false).
    { destruct (beq_bytes T new) eqn:Eb; [|reflexivity]. exfalso.
      apply beq_bytes_eq in Eb. rewrite ET, Enew in Eb.
      apply app_eq_len in Eb as [_ Eb]; [|unfold len in LTp; lia].
      rewrite ETf, El, frames_bytes_app in Eb.
      apply app_eq_len in Eb as [_ Eb].
      2:{ pose proof (len_frames_hdr_eq _ _ Hl1) as L. unfold len in L. lia. }
      destruct l2 as [|x l2]; [congruence|].
      unfold frames_bytes in Eb. cbn [flat_map] in Eb. unfold fs_bytes at 1, frame_header in Eb.
      cbn [app zeros repeat] in Eb. inversion Eb as [[E0 _]].
      assert (Hx : fs_ok x).
      { rewrite El in Hok. apply Forall_app in Hok as [_ Hok]. inversion Hok; assumption. }
      destruct Hx as ([E|[E|E]] & _); rewrite E in E0; discriminate. }
    rewrite Hbeq.
    destruct (chain_scan info bs Hwf1) as (Hh & evs & Hacc & Hscan). fold s in Hh, Hacc, Hscan.
    pose proof Hb as [Hbw Hblen]. pose proof (len_img_cstep info s b) as Limg.
    assert (Lsmall : len (c_img s) < two32) by (unfold c_pos in Limg; lia).
    assert (El' : l1 ++ l2 = body_shapes info s b ++ [sh_commit (batch_crc info s b)]) by (symmetry; exact El).
    destruct (prefix_of_snoc _ _ _ _ El' Hne) as (l2' & Ebody).
    assert (Hok1 : Forall fs_ok l1) by (rewrite El in Hok; apply Forall_app in Hok as [H _]; exact H).
    apply (recover_no_commit info s (T ++ zeros k) (rec_fold evs) (fs_events (c_pos info s) l1)); try assumption.
    + apply fs_events_types. pose proof (body_shapes_types info s b) as Hty.
      rewrite Ebody in Hty. apply Forall_app in Hty as [H _]. exact H.
    + unfold rec_fold at 2. rewrite <- fold_left_app. unfold rec_fold. f_equal.
      rewrite ET, ETf, <- !app_assoc.
      apply scan_behind_chain; [exact Hscan|exact LTp|exact Hl1|exact Hok1|apply scanF_stop_zero].
Qed.

Lemma apply_wactions_app f a b : apply_wactions f (a ++ b) = apply_wactions (apply_wactions f a) b.
Proof. unfold apply_wactions. apply fold_left_app. Qed.

Lemma scrub_chunks_apply fuel : forall a a' x,
  length a' = length a -> len x <= N.of_nat fuel * min_buf_size ->
  apply_wactions (a ++ x) (scrub_chunks fuel (a' ++ x) (len a')) = a ++ zeros (length x).
Proof.
  induction fuel as [|fuel IH]; intros a a' x Hl Hx.
  - destruct x; [|rewrite len_cons in Hx; lia]. reflexivity.
  - cbn [scrub_chunks]. rewrite read_at_app.
    destruct x as [|x0 xr]; [rewrite firstn_nil; reflexivity|].
    assert (HM : N.of_nat (N.to_nat min_buf_size) = min_buf_size) by apply N2Nat.id.
    destruct (N.to_nat min_buf_size) as [|M]; [discriminate HM|].
    (* the chunk read is c, a nonempty prefix of x = c ++ x' *)
    cbn [firstn]. set (c := x0 :: firstn M xr). set (x' := skipn M xr).
    assert (Exc : x0 :: xr = c ++ x') by (unfold c, x'; cbn [app]; rewrite firstn_skipn; reflexivity).
    rewrite apply_wactions_app, Exc.
    assert (E1 : apply_wactions (a ++ c ++ x') (if all_zero c then [] else [WWrite (len a') (zeros (length c))])
                 = (a ++ zeros (length c)) ++ x').
    { destruct (all_zero c) eqn:Ez.
      - apply all_zero_spec in Ez. cbn [apply_wactions fold_left]. rewrite <- Ez, app_assoc. reflexivity.
      - unfold apply_wactions. cbn [fold_left apply_waction]. rewrite to_nat_len, Hl, overwrite_app.
        rewrite zeros_length, skipn_app_exact, app_assoc. reflexivity. }
    rewrite E1, (app_assoc a'), <- (len_app a'), IH.
    + rewrite <- app_assoc, <- zeros_app, app_length. reflexivity.
    + rewrite !app_length, zeros_length. lia.
    + unfold x', len in *. rewrite skipn_length. cbn [length] in Hx. unfold min_buf_size in *. lia.
Qed.

(* after recovery everything behind the recovered write offset is zero *)
Theorem recover_leaves_zero_tail a x :
  apply_wactions (a ++ x) (scrub_actions (a ++ x) (len a)) = a ++ zeros (length x).
Proof.
  unfold scrub_actions.
  set (ws := scrub_chunks (S (N.to_nat (len (a ++ x) / min_buf_size))) (a ++ x) (len a)).
  assert (H : apply_wactions (a ++ x) ws = a ++ zeros (length x)).
  { unfold ws. apply scrub_chunks_apply; [reflexivity|].
    rewrite len_app. unfold min_buf_size. lia. }
  destruct ws as [|w0 wr] eqn:E; [exact H|].
  rewrite apply_wactions_app, H. reflexivity.
Qed.

(* one crash / recover round on the byte level *)
Theorem seg_recover_round info bs b T k :
  hdr_wf info -> chain_wf info c0 (bs ++ [b]) ->
  let s := cstate info bs in
  let new := batch_write info s b in
  torn new T -> no_torn_collision new T ->
  let f := c_img s ++ T ++ zeros k in
  let s' := if beq_bytes T new then cstep info s b else s in
  exists acts, recover_tail info f = Some (wst info s', acts) /\
               apply_wactions f acts = c_img s' ++ zeros (length f - length (c_img s')).
Proof.
  intros Hhw Hwf s new HT Hnc f s'.
  pose proof (seg_recover_torn info bs b T k Hhw Hwf HT Hnc) as Hr. fold s new f in Hr.
  unfold recover_tail. rewrite Hr.
  replace (if beq_bytes T new then wst info (cstep info s b) else wst info s) with (wst info s')
    by (unfold s'; destruct (beq_bytes T new); reflexivity).
  eexists. split; [reflexivity|].
  change (w_off (wst info s')) with (len (c_img s')).
  assert (Ef : exists x, f = c_img s' ++ x).
  { unfold s', f. destruct (beq_bytes T new) eqn:Eb.
    - apply beq_bytes_eq in Eb. subst T. exists (zeros k). cbn [cstep c_img]. rewrite <- app_assoc. reflexivity.
    - eexists. reflexivity. }
  destruct Ef as [x Ef]. rewrite Ef. rewrite recover_leaves_zero_tail.
  rewrite app_length. f_equal. f_equal. lia.
Qed.
