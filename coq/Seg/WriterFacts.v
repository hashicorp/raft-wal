(* WriterFacts.v -- what Seg/Writer.v writes: every successful append /
   force-seal from init_empty extends the file image by exactly one batch of
   SegAbs.image, and the writer state is a function (SegAbs.wst) of the batches
   committed so far. *)
From RW Require Import Base.Bytes Base.BytesFacts Base.Crc32c Base.Crc32cFacts
     Fmt.Frame Fmt.FrameFacts Seg.Writer Seg.SegAbs Gen.Constants.
From RW Require Import Base.LiaSetup.
Open Scope N_scope.

Fixpoint idx_ok (start : N) (es : list entry) : Prop :=
  match es with
  | [] => True
  | e :: r => fst e = start /\ idx_ok (start + 1) r
  end.

Lemma len_entries_bytes_cons p ps :
  len (entries_bytes (p :: ps)) = enc_frame_size (len p) + len (entries_bytes ps).
Proof. unfold entries_bytes. cbn [flat_map]. rewrite len_app, len_enc_frame. reflexivity. Qed.

Lemma entries_bytes_app a b : entries_bytes (a ++ b) = entries_bytes a ++ entries_bytes b.
Proof. unfold entries_bytes. apply flat_map_app. Qed.

Lemma entry_offsets_app pos a b :
  entry_offsets pos (a ++ b) = entry_offsets pos a ++ entry_offsets (pos + len (entries_bytes a)) b.
Proof.
  revert pos; induction a as [|p a IH]; intros pos.
  - cbn. rewrite N.add_0_r. reflexivity.
  - cbn [app entry_offsets]. rewrite IH, len_entries_bytes_cons. f_equal. f_equal. f_equal. lia.
Qed.

Lemma entry_offsets_length pos ps : length (entry_offsets pos ps) = length ps.
Proof. revert pos; induction ps as [|p r IH]; intros pos; cbn; [reflexivity|]. rewrite IH. reflexivity. Qed.

Lemma entry_offsets_bound pos ps :
  Forall (fun o => pos <= o /\ o + 8 <= pos + len (entries_bytes ps)) (entry_offsets pos ps).
Proof.
  revert pos; induction ps as [|p r IH]; intros pos; cbn [entry_offsets]; constructor.
  - rewrite len_entries_bytes_cons. pose proof (enc_frame_size_ge (len p)). lia.
  - rewrite len_entries_bytes_cons. eapply Forall_impl; [|apply IH].
    intros o [H1 H2]. pose proof (enc_frame_size_ge (len p)). lia.
Qed.

Lemma entry_offsets_aligned pos ps :
  pos mod 8 = 0 -> Forall (fun o => o mod 8 = 0) (entry_offsets pos ps).
Proof.
  revert pos; induction ps as [|p r IH]; intros pos H; cbn [entry_offsets]; constructor; [exact H|].
  apply IH. apply add_aligned; [exact H|apply enc_frame_size_aligned].
Qed.

Lemma len_entries_bytes_aligned ps : len (entries_bytes ps) mod 8 = 0.
Proof.
  induction ps as [|p r IH]; [reflexivity|].
  rewrite len_entries_bytes_cons. apply add_aligned; [apply enc_frame_size_aligned|exact IH].
Qed.

Lemma map_mod_small (l : list N) b :
  Forall (fun o => o < b) l -> map (fun o => o mod b) l = l.
Proof.
  induction 1 as [|x l H _ IH]; [reflexivity|]. cbn. rewrite IH, N.mod_small by exact H. reflexivity.
Qed.

(* append_entries: buffer, crc and offsets after a run of entries *)
Lemma append_entries_char es : forall w w1,
  append_entries w es = Some w1 ->
  idx_ok (si_base (w_info w) + len (w_offsets w)) es /\
  w1 = set_buf w (w_buf w ++ entries_bytes (map snd es))
             (crc_update (w_crc w) (entries_bytes (map snd es)))
             (w_offsets w ++ map (fun o => o mod two32)
                                 (entry_offsets (w_off w + len (w_buf w)) (map snd es))).
Proof.
  induction es as [|e r IH]; intros w w1 H.
  - cbn in H. inversion H; subst. split; [exact I|].
    cbn [map entries_bytes flat_map entry_offsets]. rewrite !app_nil_r, crc_update_nil.
    destruct w1; reflexivity.
  - cbn [append_entries] in H. unfold append_entry in H.
    destruct (fst e =? si_base (w_info w) + len (w_offsets w)) eqn:E; [|discriminate].
    apply N.eqb_eq in E. apply IH in H. destruct H as [Hi Hw]. split.
    + cbn [idx_ok]. split; [exact E|]. cbn [set_buf w_info w_offsets] in Hi.
      rewrite len_app in Hi. replace (len [(w_off w + len (w_buf w)) mod two32]) with 1 in Hi by reflexivity.
      rewrite <- N.add_assoc. exact Hi.
    + subst w1. unfold set_buf. cbn [w_info w_buf w_crc w_off w_index_start w_offsets w_commit_idx].
      cbn [map entries_bytes flat_map entry_offsets].
      fold (entries_bytes (map snd r)).
      rewrite <- !app_assoc. rewrite <- crc_update_app.
      rewrite len_app, len_enc_frame. cbn [app].
      rewrite N.add_assoc. reflexivity.
Qed.

Lemma append_entries_ok es : forall w,
  idx_ok (si_base (w_info w) + len (w_offsets w)) es ->
  exists w1, append_entries w es = Some w1.
Proof.
  induction es as [|e r IH]; intros w H; [eexists; reflexivity|].
  cbn [idx_ok] in H. destruct H as [H1 H2].
  cbn [append_entries]. unfold append_entry. rewrite H1, N.eqb_refl.
  apply IH. cbn [set_buf w_info w_offsets]. rewrite len_app.
  replace (len [(w_off w + len (w_buf w)) mod two32]) with 1 by reflexivity.
  rewrite N.add_assoc. exact H2.
Qed.

Lemma c_img_cstep_nonnil info s b : c_img (cstep info s b) <> [].
Proof.
  cbn [cstep c_img]. unfold batch_write, commit_frame, frame_header. intros H.
  apply app_eq_nil in H as [_ H]. apply app_eq_nil in H as [_ H]. discriminate.
Qed.

Lemma c_pend_cstep info s b : c_pend info (cstep info s b) = [].
Proof.
  unfold c_pend. pose proof (c_img_cstep_nonnil info s b) as H.
  destruct (c_img (cstep info s b)); [congruence|reflexivity].
Qed.

Lemma c_pos_cstep info s b : c_pos info (cstep info s b) = len (c_img (cstep info s b)).
Proof. unfold c_pos. rewrite c_pend_cstep. cbn. lia. Qed.

Lemma len_c_pend info s : len (c_pend info s) = if len (c_img s) =? 0 then 32 else 0.
Proof.
  unfold c_pend. destruct (c_img s) as [|x r]; [reflexivity|].
  rewrite len_cons. replace (1 + len r =? 0) with false by (symmetry; apply N.eqb_neq; lia). reflexivity.
Qed.

Lemma len_batch_write info s b :
  len (batch_write info s b) = len (c_pend info s) + len (batch_body info s b) + 8.
Proof. unfold batch_write. rewrite len_app, len_commit_frame, len_app. reflexivity. Qed.

Lemma len_img_cstep info s b :
  len (c_img (cstep info s b)) = c_pos info s + len (batch_body info s b) + 8.
Proof. cbn [cstep c_img]. rewrite len_app, len_batch_write. unfold c_pos. lia. Qed.

Lemma len_batch_body info s b :
  len (batch_body info s b) =
  len (entries_bytes (fst b)) + (if snd b then enc_frame_size (4 * len (c_offs' info s b)) else 0).
Proof.
  unfold batch_body. rewrite len_app. destruct (snd b); [rewrite len_index_frame|]; reflexivity.
Qed.

Lemma cstate_snoc info bs b : cstate info (bs ++ [b]) = cstep info (cstate info bs) b.
Proof. unfold cstate. rewrite fold_left_app. reflexivity. Qed.

Lemma cstate_app info a b : cstate info (a ++ b) = fold_left (cstep info) b (cstate info a).
Proof. unfold cstate. apply fold_left_app. Qed.

Lemma wst_c0 info : wst info c0 = init_empty info.
Proof. reflexivity. Qed.

Lemma sealed_wst info s : sealed (wst info s) = (0 <? c_istart s).
Proof. reflexivity. Qed.

(* The writer that has buffered the frames of batch [b] behind chain state [s]
   and has not committed yet.  append and force_seal reach it by append_entries
   and append_index, and append_commit takes it to the next chain state. *)
Definition buffered (info : seginfo) (s : cst) (b : batch) : wstate :=
  {| w_info := info; w_buf := c_pend info s ++ batch_body info s b;
     w_crc := crc32c (c_pend info s ++ batch_body info s b);
     w_off := len (c_img s); w_index_start := c_istart (cstep info s b);
     w_offsets := c_offs' info s b; w_commit_idx := w_commit_idx (wst info s) |}.

Lemma append_entries_buffered info s es w1 :
  c_istart s = 0 -> append_entries (wst info s) es = Some w1 ->
  c_pos info s + len (entries_bytes (map snd es)) < two32 ->
  w1 = buffered info s (map snd es, false).
Proof.
  intros Hz Hent Hlen. destruct (append_entries_char _ _ _ Hent) as [_ ->]. clear Hent.
  unfold buffered, set_buf, batch_body, c_offs'.
  cbn [wst w_info w_buf w_crc w_off w_index_start w_offsets w_commit_idx cstep c_istart fst snd].
  fold (c_pos info s). rewrite app_nil_r, <- crc32c_app, Hz. do 2 f_equal.
  apply map_mod_small. eapply Forall_impl; [|apply entry_offsets_bound].
  intros o [_ Ho]. cbn beta in Ho. lia.
Qed.

Lemma append_index_buffered info s ps :
  c_offs' info s (ps, false) <> [] ->
  append_index (buffered info s (ps, false)) = Some (buffered info s (ps, true)).
Proof.
  intros Hnn. unfold append_index. cbn [buffered w_offsets].
  destruct (c_offs' info s (ps, false)) eqn:E; [congruence|]. rewrite <- E. clear E.
  unfold buffered, batch_body.
  cbn [w_info w_buf w_crc w_off w_index_start w_offsets w_commit_idx cstep c_istart fst snd].
  change (c_offs' info s (ps, true)) with (c_offs' info s (ps, false)).
  rewrite app_nil_r, <- crc32c_app, <- app_assoc, len_app. unfold c_pos. do 2 f_equal. lia.
Qed.

Lemma append_commit_buffered info s b :
  len (c_img (cstep info s b)) < two32 ->
  append_commit (buffered info s b) FNone =
    (Some (wst info (cstep info s b)), [WWrite (len (c_img s)) (batch_write info s b); WSync]).
Proof.
  intros Hlen. unfold append_commit, wst, buffered.
  cbn [w_info w_buf w_crc w_off w_index_start w_offsets w_commit_idx].
  fold (batch_write info s b). rewrite c_pend_cstep. change (crc32c []) with 0.
  rewrite <- len_app. change (c_img s ++ batch_write info s b) with (c_img (cstep info s b)).
  rewrite N.mod_small by exact Hlen. reflexivity.
Qed.

Lemma append_wst info s es w1 :
  es <> [] -> c_istart s = 0 -> too_big es = false ->
  append_entries (wst info s) es = Some w1 ->
  len (c_img (cstep info s (map snd es, needs_seal w1))) < two32 ->
  append (wst info s) es FNone =
    (WOk, wst info (cstep info s (map snd es, needs_seal w1)),
     [WWrite (len (c_img s)) (batch_write info s (map snd es, needs_seal w1)); WSync]).
Proof.
  intros Hne Hseal Hbig Hent Hlen.
  assert (Ew1 : w1 = buffered info s (map snd es, false)).
  { apply append_entries_buffered; [exact Hseal|exact Hent|].
    rewrite len_img_cstep, len_batch_body in Hlen. cbn [fst] in Hlen. lia. }
  unfold append. destruct es as [|e0 es0] eqn:Ees; [congruence|]. rewrite <- Ees in *.
  replace (0 <? w_index_start (wst info s)) with false
    by (cbn [wst w_index_start]; rewrite Hseal; reflexivity).
  rewrite Hbig, Hent. destruct (needs_seal w1); rewrite Ew1.
  - rewrite append_index_buffered.
    + rewrite append_commit_buffered by exact Hlen. reflexivity.
    + unfold c_offs'. rewrite Ees. cbn [fst map entry_offsets]. intros H.
      apply app_eq_nil in H as [_ H]. discriminate.
  - rewrite append_commit_buffered by exact Hlen. reflexivity.
Qed.

(* the seal flag the writer chose is visible in the resulting state *)
Lemma append_sealed_flag w es w1 w' acts :
  es <> [] -> append_entries w es = Some w1 -> w_index_start w = 0 ->
  append w es FNone = (WOk, w', acts) -> sealed w' = needs_seal w1.
Proof.
  intros Hne Hent Hz H.
  unfold append in H. destruct es as [|e0 es0] eqn:Ees; [congruence|]. rewrite <- Ees in *.
  destruct (0 <? w_index_start w); [discriminate|].
  destruct (too_big es); [discriminate|]. rewrite Hent in H.
  destruct (append_entries_char _ _ _ Hent) as [_ Hw1].
  assert (Hi1 : w_index_start w1 = 0) by (rewrite Hw1; exact Hz).
  destruct (needs_seal w1).
  - unfold append_index in H. destruct (w_offsets w1); [discriminate|].
    unfold append_commit in H. injection H as <- _. unfold sealed. cbn [w_index_start].
    apply N.ltb_lt. lia.
  - unfold append_commit in H. injection H as <- _. unfold sealed. cbn [w_index_start].
    rewrite Hi1. reflexivity.
Qed.

Lemma force_seal_wst info s :
  c_istart s = 0 -> c_offs s <> [] ->
  len (c_img (cstep info s ([], true))) < two32 ->
  force_seal (wst info s) FNone =
    (WOk, wst info (cstep info s ([], true)),
     [WWrite (len (c_img s)) (batch_write info s ([], true)); WSync]).
Proof.
  intros Hz Hnn Hlen. unfold force_seal.
  replace (0 <? w_index_start (wst info s)) with false
    by (cbn [wst w_index_start]; rewrite Hz; reflexivity).
  rewrite (append_entries_buffered info s [] (wst info s) Hz eq_refl)
    by (rewrite len_img_cstep in Hlen; cbn [map entries_bytes flat_map]; change (len []) with 0; lia).
  cbn [map]. rewrite append_index_buffered.
  - rewrite append_commit_buffered by exact Hlen. reflexivity.
  - unfold c_offs'. cbn [fst entry_offsets]. rewrite app_nil_r. exact Hnn.
Qed.

Lemma len_img_fold_mono info bs : forall s,
  len (c_img s) <= len (c_img (fold_left (cstep info) bs s)).
Proof.
  induction bs as [|b r IH]; intros s; [cbn; lia|].
  cbn [fold_left]. specialize (IH (cstep info s b)).
  pose proof (len_img_cstep info s b). unfold c_pos in *. lia.
Qed.

(* one operation: nothing is written and no batch is committed, or the writer
   appends one batch to the chain with one write at the end of the image *)
Lemma do_op_char info s op w' acts :
  do_op (wst info s) op = (WOk, w', acts) ->
  let bl := op_batch (wst info s) w' op in
  len (c_img (fold_left (cstep info) bl s)) < two32 ->
  w' = wst info (fold_left (cstep info) bl s) /\
  ((bl = [] /\ acts = []) \/
   exists b, bl = [b] /\ acts = [WWrite (len (c_img s)) (batch_write info s b); WSync]).
Proof.
  destruct op as [es|]; cbn [do_op op_batch]; intros Hop Hlen.
  - destruct es as [|e0 es0] eqn:Ees; [inversion Hop; auto|]. rewrite <- Ees in *.
    assert (Hne : es <> []) by (rewrite Ees; discriminate).
    pose proof Hop as Hop'. unfold append in Hop'. rewrite Ees in Hop'. rewrite <- Ees in Hop'.
    destruct (0 <? w_index_start (wst info s)) eqn:Es; [discriminate|].
    destruct (too_big es) eqn:Eb; [discriminate|].
    destruct (append_entries (wst info s) es) as [w1|] eqn:Ee; [|discriminate]. clear Hop'.
    assert (Hz : c_istart s = 0) by (cbn [wst w_index_start] in Es; apply N.ltb_ge in Es; lia).
    rewrite (append_sealed_flag _ _ _ _ _ Hne Ee Hz Hop) in *. cbn [fold_left] in Hlen |- *.
    rewrite (append_wst info s es w1 Hne Hz Eb Ee Hlen) in Hop. inversion Hop. eauto.
  - unfold force_seal, sealed in *.
    destruct (0 <? w_index_start (wst info s)) eqn:Es; [inversion Hop; auto|].
    assert (Hz : c_istart s = 0) by (cbn [wst w_index_start] in Es; apply N.ltb_ge in Es; lia).
    assert (Hnn : c_offs s <> []).
    { intros E. unfold append_index in Hop. cbn [wst w_offsets] in Hop. rewrite E in Hop. discriminate. }
    pose proof (force_seal_wst info s Hz Hnn Hlen) as Hfs.
    unfold force_seal in Hfs. rewrite Es in Hfs. rewrite Hfs in Hop. inversion Hop. eauto.
Qed.

Lemma wrun_char info ops : forall s w acts bs,
  wrun (wst info s) ops = Some (w, acts, bs) ->
  len (c_img (fold_left (cstep info) bs s)) < two32 ->
  w = wst info (fold_left (cstep info) bs s) /\
  writes_contiguous (len (c_img s)) acts /\
  c_img s ++ writes_concat acts = c_img (fold_left (cstep info) bs s).
Proof.
  induction ops as [|op r IH]; intros s w acts bs H Hlen.
  - cbn in H. inversion H; subst. cbn. rewrite app_nil_r. auto.
  - cbn [wrun] in H.
    destruct (do_op (wst info s) op) as [[res w'] acts0] eqn:Eop.
    destruct res; try discriminate.
    destruct (wrun w' r) as [[[w'' acts'] bs']|] eqn:Er; [|discriminate].
    inversion H; subst w'' acts bs. clear H. rewrite fold_left_app in Hlen |- *.
    set (bl := op_batch (wst info s) w' op) in *.
    pose proof (len_img_fold_mono info bs' (fold_left (cstep info) bl s)) as Hmono.
    destruct (do_op_char info s op w' acts0 Eop) as (Ew' & Hacts); [fold bl; lia|].
    fold bl in Ew', Hacts. rewrite Ew' in Er.
    destruct (IH _ _ _ _ Er Hlen) as (Hw & Hc & Hi). split; [exact Hw|].
    destruct Hacts as [[-> ->]|(b & -> & ->)]; [auto|].
    cbn [fold_left app writes_contiguous writes_concat] in *.
    rewrite <- len_app, app_assoc. split; [split; [reflexivity|exact Hc]|exact Hi].
Qed.

Theorem wrun_image info ops w acts bs :
  wrun (init_empty info) ops = Some (w, acts, bs) ->
  len (image info bs) < two32 ->
  w = wst info (cstate info bs) /\ writes_contiguous 0 acts /\ writes_concat acts = image info bs.
Proof.
  intros H Hlen. rewrite <- wst_c0 in H.
  destruct (wrun_char info ops c0 w acts bs H Hlen) as (A & B & C). auto.
Qed.

(* applying contiguous writes to any initial file content *)
Lemma apply_wactions_contiguous acts : forall a x,
  writes_contiguous (len a) acts ->
  apply_wactions (a ++ x) acts =
  a ++ writes_concat acts ++ skipn (length (writes_concat acts)) x.
Proof.
  induction acts as [|[off bs|] r IH]; intros a x H.
  - cbn. reflexivity.
  - cbn [writes_contiguous] in H. destruct H as [-> H].
    unfold apply_wactions. cbn [fold_left apply_waction]. rewrite to_nat_len, overwrite_app.
    fold (apply_wactions (a ++ bs ++ skipn (length bs) x) r).
    rewrite app_assoc. rewrite IH by (rewrite len_app; exact H).
    cbn [writes_concat]. rewrite <- !app_assoc. do 3 f_equal.
    rewrite skipn_skipn', app_length. reflexivity.
  - cbn [writes_contiguous] in H. unfold apply_wactions. cbn [fold_left apply_waction].
    apply IH. exact H.
Qed.

Lemma apply_wactions_from0 acts x :
  writes_contiguous 0 acts ->
  apply_wactions x acts = writes_concat acts ++ skipn (length (writes_concat acts)) x.
Proof. intros H. apply (apply_wactions_contiguous acts [] x). exact H. Qed.
