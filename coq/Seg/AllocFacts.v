(* AllocFacts.v -- C11, segment level: the data-dependent allocations of
   recovery and of DumpSegment are bounded by the file length / MaxEntrySize
   whatever bytes the file holds. *)
From RW Require Import Base.Bytes Base.BytesFacts Base.Crc32c Fmt.Frame Fmt.FrameFacts
     Seg.Writer Seg.Recover Seg.Reader Seg.Dump Seg.SegAbs Seg.ScanFacts Gen.Constants.
From RW Require Import Base.LiaSetup.
Open Scope N_scope.

(* every frame the scan reports was read completely: its header lies in the file *)
Lemma scan_from_in_file fuel : forall f off,
  Forall (fun e => fe_off e + 8 <= len f) (scan_from fuel f off).
Proof.
  induction fuel as [|k IH]; intros f off; [constructor|]. cbn [scan_from].
  destruct (read_frame_header (read_at f off 8)) as [typ v| | |] eqn:E; try constructor; [|apply IH].
  exact (frame_header_in_file _ _ _ _ E).
Qed.

(* every commit frame the recovery remembers lies inside the file, and its CRC
   range starts at or before it (at 0 or right behind an earlier commit frame) *)
Definition commit_in_file (f : bytes) (c : commit_info) : Prop :=
  c_crc_start c <= c_off c /\ c_off c + 8 <= len f.

Lemma rec_fold_commits_in_file f evs : forall a off,
  Forall (fun e => fe_off e + 8 <= len f) evs ->
  scan_sorted off evs ->
  Forall (commit_in_file f) (ra_commits a) ->
  Forall (fun c => c_off c + 8 <= off) (ra_commits a) ->
  Forall (commit_in_file f) (ra_commits (fold_left rec_step evs a)).
Proof.
  induction evs as [|e r IH]; intros a off He Hs Ha Hb; [exact Ha|].
  inversion He as [|? ? He0 Her]; subst. cbn [scan_sorted] in Hs. destruct Hs as [Hoff Hs].
  cbn [fold_left].
  assert (Hb' : Forall (fun c => c_off c + 8 <= fe_off e + 8) (ra_commits a)).
  { eapply Forall_impl; [|exact Hb]. intros c Hc. cbn beta in Hc. lia. }
  apply (IH (rec_step a e) (fe_off e + 8) Her Hs); unfold rec_step.
  (* an entry or index frame leaves the commits as they are; a commit frame adds one at [fe_off e] *)
  all: destruct (fe_typ e =? FrameEntry); [cbn [ra_commits]; assumption|].
  all: destruct (fe_typ e =? FrameIndex); [cbn [ra_commits]; assumption|].
  all: cbn [ra_commits].
  - constructor; [|exact Ha]. unfold commit_in_file. cbn [c_off c_crc_start]. split; [|exact He0].
    destruct (ra_commits a) as [|p ?]; [lia|]. inversion Hb; subst. lia.
  - constructor; [cbn [c_off]; lia|exact Hb'].
Qed.

Lemma read_at_inside f off n : off + n <= len f -> len (read_at f off n) = n.
Proof.
  intros H. unfold read_at. destruct (len f <=? off) eqn:E.
  - apply N.leb_le in E. cbn. lia.
  - apply N.leb_gt in E. unfold sub, len in *. rewrite firstn_length, skipn_length. lia.
Qed.

(* recoverTail's only data-dependent allocation is the CRC batch buffer, sized
   to the largest c_off - c_crc_start among the commit frames it walks back
   over.  For EVERY commit frame of the scan that size is at most the file
   length, and the ReadAt that fills the buffer is never short (so the error
   path of that ReadAt is dead code for a file that does not shrink). *)
Theorem recover_alloc_bound f :
  Forall (fun c => c_off c - c_crc_start c <= len f /\
                   len (read_at f (c_crc_start c) (c_off c - c_crc_start c)) = c_off c - c_crc_start c)
         (ra_commits (rec_fold (scan f))).
Proof.
  assert (H : Forall (commit_in_file f) (ra_commits (rec_fold (scan f)))).
  { unfold rec_fold. apply (rec_fold_commits_in_file f (scan f) _ 32).
    - apply scan_from_in_file.
    - apply scan_from_sorted.
    - constructor.
    - constructor. }
  eapply Forall_impl; [|exact H]. intros c [H1 H2]. split; [lia|].
  apply read_at_inside. lia.
Qed.

(* recover_state is a total function of the bytes by typing; what is stated here is that it
   fails only on a header mismatch, never on the frames: it succeeds when the header validates *)
Theorem recover_total info f :
  validate_file_header (scanned_header f) info = true -> exists w, recover_state info f = Some w.
Proof.
  intros H. unfold recover_state. rewrite H.
  destruct (find_good f (ra_commits (rec_fold (scan f)))); eexists; reflexivity.
Qed.

(* DumpSegment: every buffer it fills, hence every payload it emits, is at most
   MaxEntrySize bytes long *)
Lemma dump_batch_bound f batch : forall acc,
  Forall (fun e : N * bytes => len (snd e) <= MaxEntrySize) acc ->
  Forall (fun e : N * bytes => len (snd e) <= MaxEntrySize) (snd (dump_batch f batch acc)) /\
  match fst (dump_batch f batch acc) with
  | Some acc' => Forall (fun e : N * bytes => len (snd e) <= MaxEntrySize) acc'
  | None => True
  end.
Proof.
  induction batch as [|[[idx off] l] r IH]; intros acc Ha; [cbn; auto|].
  cbn [dump_batch]. destruct (MaxEntrySize <? l) eqn:E1; [cbn; auto|]. apply N.ltb_ge in E1.
  destruct (len (read_at f (off + 8) l) <? l) eqn:E2; [cbn; auto|].
  apply IH. apply Forall_app; split; [exact Ha|]. constructor; [|constructor]. cbn [snd].
  pose proof (read_at_len f (off + 8) l). lia.
Qed.

Lemma dump_go_bound f evs : forall idx after before batch acc,
  Forall (fun e : N * bytes => len (snd e) <= MaxEntrySize) acc ->
  match dump_go f evs idx after before batch acc with
  | DumpOk es | DumpErr es => Forall (fun e : N * bytes => len (snd e) <= MaxEntrySize) es
  end.
Proof.
  induction evs as [|e r IH]; intros idx after before batch acc Ha; [exact Ha|].
  cbn [dump_go]. destruct (fe_typ e =? FrameCommit).
  - destruct (dump_batch_bound f batch acc Ha) as [H1 H2].
    destruct (dump_batch f batch acc) as [[acc'|] acc'']; cbn [fst snd] in *; [apply IH; exact H2|exact H1].
  - destruct (negb (fe_typ e =? FrameEntry)); [apply IH; exact Ha|].
    destruct (idx <=? after); [apply IH; exact Ha|].
    destruct ((0 <? before) && (before <=? idx)); [exact Ha|apply IH; exact Ha].
Qed.

Theorem dump_alloc_bound f base after before :
  match dump_segment f base after before with
  | DumpOk es | DumpErr es => Forall (fun e : N * bytes => len (snd e) <= MaxEntrySize) es
  end.
Proof. unfold dump_segment. apply dump_go_bound. constructor. Qed.

(* DumpLogs: every entry handed to the callback is at most MaxEntrySize long,
   whatever the files contain *)
Lemma dump_logs_go_bound files : forall after before acc,
  Forall (fun e : N * bytes => len (snd e) <= MaxEntrySize) acc ->
  match dump_logs_go files after before acc with
  | DumpOk es | DumpErr es => Forall (fun e : N * bytes => len (snd e) <= MaxEntrySize) es
  end.
Proof.
  induction files as [|[[id base] f] r IH]; intros after before acc Ha; cbn [dump_logs_go]; [exact Ha|].
  destruct ((0 <? after) && (0 <? match r with (_, b, _) :: _ => b | [] => 0 end)
            && (match r with (_, b, _) :: _ => b | [] => 0 end <=? after)); [apply IH; exact Ha|].
  destruct ((0 <? before) && (before <=? base)); [exact Ha|].
  pose proof (dump_alloc_bound f base after before) as Hb.
  destruct (dump_segment f base after before) as [es|es].
  - apply IH. apply Forall_app. split; assumption.
  - apply Forall_app. split; assumption.
Qed.

Theorem dump_logs_alloc_bound badname files after before :
  match dump_logs badname files after before with
  | DumpOk es | DumpErr es => Forall (fun e : N * bytes => len (snd e) <= MaxEntrySize) es
  end.
Proof.
  unfold dump_logs. destruct badname; [constructor|].
  apply dump_logs_go_bound. constructor.
Qed.
