(* Reader.v -- model of segment/reader.go and Writer.OffsetForFrame *)
From RW Require Import Base.Bytes Fmt.Frame Seg.Writer Seg.Recover Gen.Constants.
Open Scope N_scope.

Inductive rres := ROk (payload : bytes) | RNotFound | RCorrupt | RErr.

(* readFrame: returns the result and the bytes allocated beyond the pooled buffer *)
Definition read_frame (f : bytes) (off : N) : rres * N :=
  let buf := read_at f off min_buf_size in
  if len buf <? 8 then (RErr, 0)
  else match read_frame_header buf with
       | FHShort => (RErr, 0)
       | FHCorrupt => (RCorrupt, 0)
       | FHZero => (ROk [], 0)
       | FH typ v =>
           let l := fh_len typ v in
           if 8 + l <=? len buf then (ROk (sub 8 (N.to_nat l) buf), 0)
           else if MaxEntrySize <? l then (RCorrupt, 0)
           else let p := read_at f (off + 8) l in
                if len p <? l then (RErr, l) else (ROk p, l)
       end.

(* tail: in-memory offsets bounded by w_commit_idx; the writer checks the MinIndex
   it was created with *)
Definition tail_offset (w : wstate) (idx : N) : option N :=
  if (idx <? si_base (w_info w)) || (idx <? si_min (w_info w)) || (w_commit_idx w <? idx) then None
  else nth_error (w_offsets w) (N.to_nat (idx - si_base (w_info w))).

Definition tail_get (w : wstate) (f : bytes) (idx : N) : rres :=
  match tail_offset w idx with
  | None => RNotFound
  | Some off => fst (read_frame f off)
  end.

(* sealed: 4-byte read in the on-disk index block *)
Definition sealed_get (info : seginfo) (f : bytes) (idx : N) : rres :=
  if si_index_start info =? 0 then RErr
  else if (idx <? si_min info) || ((0 <? si_max info) && (si_max info <? idx)) then RNotFound
  else
    let bo := (si_index_start info + ((idx - si_base info) mod two64) * 4) mod two64 in
    let b4 := read_at f bo 4 in
    if len b4 <? 4 then RErr else fst (read_frame f (rd32 b4)).

(* Filer.Open of a sealed segment: header must be readable and match *)
Definition open_sealed (info : seginfo) (f : bytes) : bool :=
  if len f <? 32 then false
  else match read_file_header (firstn 32 f) with
       | None => false
       | Some h => validate_file_header h info
       end.
