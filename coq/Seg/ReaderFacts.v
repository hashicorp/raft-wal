(* ReaderFacts.v -- readers get back what the writer committed (C15), and
   read_frame's allocation is bounded whatever the file holds (C11). *)
From RW Require Import Base.Bytes Base.BytesFacts Base.Crc32c Fmt.Frame Fmt.FrameFacts
     Seg.Writer Seg.Recover Seg.Reader Seg.SegAbs Seg.WriterFacts Seg.ScanFacts Gen.Constants.
From RW Require Import Base.LiaSetup.
Open Scope N_scope.

Lemma firstn_entry_frame M p r : (8 + length p <= M)%nat ->
  exists t, firstn M (enc_frame FrameEntry p ++ r) = frame_header FrameEntry (len p) ++ p ++ t.
Proof.
  intros HMp. unfold enc_frame. rewrite <- !app_assoc.
  rewrite (firstn_app_ge M (frame_header FrameEntry (len p))) by (rewrite frame_header_length; lia).
  rewrite frame_header_length.
  rewrite (firstn_app_ge (M - 8) p) by lia. eexists. reflexivity.
Qed.

(* Stated apart, about a variable [M]: proved inside [read_frame_entry] the same [lia] step makes
   its Qed overflow the stack (65536 as a unary number). *)
Lemma first_read_fits (M : nat) (p x buf : bytes) :
  N.of_nat M = 65536 -> len buf = N.min 65536 (len x) -> 8 + len p <= len buf -> (8 + length p <= M)%nat.
Proof. intros HM Lbuf E1. unfold len in *. lia. Qed.

(* any payload length up to MaxEntrySize: one read when the frame fits in the
   64 KiB first read, otherwise the second, exact-size read *)
Lemma read_frame_entry a p r :
  len p <= MaxEntrySize ->
  fst (read_frame (a ++ enc_frame FrameEntry p ++ r) (len a)) = ROk p.
Proof.
  intros Hp. unfold read_frame. rewrite read_at_app.
  remember (N.to_nat min_buf_size) as M eqn:EM.
  assert (HM : N.of_nat M = 65536) by (unfold min_buf_size in EM; lia). clear EM.
  remember (enc_frame FrameEntry p ++ r) as x eqn:Ex.
  remember (firstn M x) as buf eqn:Eb.
  assert (Lx : 8 <= len x) by (rewrite Ex, len_app, len_enc_frame; unfold enc_frame_size; lia).
  assert (Lbuf : len buf = N.min 65536 (len x)).
  { rewrite Eb. unfold len. rewrite firstn_length. lia. }
  assert (L8 : 8 <= len buf) by lia.
  replace (len buf <? 8) with false by (symmetry; apply N.ltb_ge; exact L8).
  assert (Eh : read_frame_header buf = FH FrameEntry (len p)).
  { rewrite <- read_frame_header_firstn8 by exact L8. rewrite Eb, firstn_firstn.
    replace (Nat.min 8 M) with 8%nat by lia.
    rewrite Ex. unfold enc_frame. rewrite <- !app_assoc.
    change 8%nat with (length (frame_header FrameEntry (len p))). rewrite firstn_app_exact.
    rewrite <- (app_nil_r (frame_header _ _)). apply read_frame_header_hdr; [auto|].
    unfold MaxEntrySize, two32 in *. lia. }
  rewrite Eh. unfold fh_len. replace (FrameEntry =? FrameCommit) with false by reflexivity.
  destruct (8 + len p <=? len buf) eqn:E1.
  - apply N.leb_le in E1. cbn [fst]. f_equal.
    pose proof (first_read_fits M p x buf HM Lbuf E1) as HMp.
    destruct (firstn_entry_frame M p r HMp) as [t Et]. rewrite <- Ex, <- Eb in Et.
    rewrite Et. unfold sub.
    change 8%nat with (length (frame_header FrameEntry (len p))). rewrite skipn_app_exact.
    rewrite to_nat_len. apply firstn_app_exact.
  - replace (MaxEntrySize <? len p) with false by (symmetry; apply N.ltb_ge; exact Hp).
    rewrite Ex. unfold enc_frame. rewrite <- !app_assoc.
    replace (len a + 8) with (len (a ++ frame_header FrameEntry (len p))) by (rewrite len_app; reflexivity).
    rewrite (app_assoc a). rewrite read_at_app. rewrite to_nat_len, firstn_app_exact.
    rewrite N.ltb_irrefl. reflexivity.
Qed.

(* the only allocation beyond the pooled 64 KiB buffer is the second read: at
   most MaxEntrySize bytes, and only when the frame does not fit into what the
   first read returned *)
Theorem read_frame_alloc_bound f off :
  let buf := read_at f off min_buf_size in
  let alloc := snd (read_frame f off) in
  alloc <= MaxEntrySize /\ (alloc <> 0 -> len buf < 8 + alloc).
Proof.
  cbn zeta. unfold read_frame.
  destruct (len (read_at f off min_buf_size) <? 8); [cbn; split; [unfold MaxEntrySize|]; lia|].
  destruct (read_frame_header (read_at f off min_buf_size)) as [typ v| | |];
    try (cbn; split; [unfold MaxEntrySize|]; lia).
  destruct (8 + fh_len typ v <=? len (read_at f off min_buf_size)) eqn:E1;
    [cbn; split; [unfold MaxEntrySize|]; lia|].
  apply N.leb_gt in E1.
  destruct (MaxEntrySize <? fh_len typ v) eqn:E2; [cbn; split; [unfold MaxEntrySize|]; lia|].
  apply N.ltb_ge in E2.
  destruct (len (read_at f (off + 8) (fh_len typ v)) <? fh_len typ v); cbn [snd]; split; lia.
Qed.

(* Stated in the accepting direction: a file that Filer.Open accepts as sealed has 32 bytes and the
   expected header words; the refusals are the corollaries below.  The words are read from the first
   32 bytes; a damaged magic or version byte changes the 64-bit word the reader compares. *)
Theorem open_detects_bad_sealed info f :
  open_sealed info f = true ->
  32 <= len f /\ rd64 f = magic /\
  rd64 (skipn 8 f) = si_base info /\ rd64 (skipn 16 f) = si_id info /\ rd64 (skipn 24 f) = si_codec info.
Proof.
  unfold open_sealed, read_file_header, validate_file_header. intros H.
  destruct (N.ltb_spec (len f) 32) as [|L]; [discriminate|].
  destruct (len (firstn 32 f) <? file_header_len); [discriminate|].
  destruct (N.eqb_spec (rd64 (firstn 32 f)) magic) as [Hm|]; [|discriminate]. cbn [negb] in H.
  apply andb_true_iff in H as [H H3]. apply andb_true_iff in H as [H1 H2].
  apply N.eqb_eq in H1, H2, H3.
  rewrite skipn_firstn_comm, rd64_firstn in H1, H2, H3 by lia. rewrite rd64_firstn in Hm by lia.
  auto.
Qed.

Lemma open_sealed_short info f : len f < 32 -> open_sealed info f = false.
Proof.
  intros H. destruct (open_sealed info f) eqn:E; [|reflexivity].
  apply open_detects_bad_sealed in E. lia.
Qed.

Lemma open_sealed_bad_magic info f : rd64 f <> magic -> open_sealed info f = false.
Proof.
  intros H. destruct (open_sealed info f) eqn:E; [|reflexivity].
  apply open_detects_bad_sealed in E. tauto.
Qed.

Definition payloads (bs : list batch) : list bytes := flat_map fst bs.

Lemma payloads_snoc bs b : payloads (bs ++ [b]) = payloads bs ++ fst b.
Proof. unfold payloads. rewrite flat_map_app. cbn. rewrite app_nil_r. reflexivity. Qed.

Lemma entries_nth ps : forall pos j off p,
  nth_error (entry_offsets pos ps) j = Some off -> nth_error ps j = Some p ->
  exists a' r', entries_bytes ps = a' ++ enc_frame FrameEntry p ++ r' /\ pos + len a' = off.
Proof.
  induction ps as [|q ps IH]; intros pos j off p Ho Hp; [destruct j; discriminate|].
  destruct j as [|j]; cbn [entry_offsets nth_error] in Ho, Hp.
  - inversion Ho; inversion Hp; subst. exists [], (entries_bytes ps). split; [reflexivity|]. cbn. lia.
  - destruct (IH _ _ _ _ Ho Hp) as (a' & r' & E & L).
    exists (enc_frame FrameEntry q ++ a'), r'. split.
    + unfold entries_bytes in *. cbn [flat_map]. rewrite E, <- app_assoc. reflexivity.
    + rewrite len_app, len_enc_frame. lia.
Qed.

Lemma c_offs_length info bs : length (c_offs (cstate info bs)) = length (payloads bs).
Proof.
  induction bs as [|b bs IH] using rev_ind; [reflexivity|].
  rewrite cstate_snoc, payloads_snoc. cbn [cstep c_offs]. unfold c_offs'.
  rewrite !app_length, entry_offsets_length, IH. reflexivity.
Qed.

Lemma image_entry info bs : forall i off p,
  nth_error (c_offs (cstate info bs)) i = Some off -> nth_error (payloads bs) i = Some p ->
  exists a r, image info bs = a ++ enc_frame FrameEntry p ++ r /\ len a = off.
Proof.
  unfold image. induction bs as [|b bs IH] using rev_ind; intros i off p Ho Hp; [destruct i; discriminate|].
  rewrite cstate_snoc in *. rewrite payloads_snoc in Hp. cbn [cstep c_offs c_img] in *.
  unfold c_offs' in Ho. pose proof (c_offs_length info bs) as L.
  destruct (Nat.lt_ge_cases i (length (payloads bs))) as [Hi|Hi].
  - rewrite nth_error_app1 in Ho by lia. rewrite nth_error_app1 in Hp by lia.
    destruct (IH _ _ _ Ho Hp) as (a & r & E & La).
    exists a, (r ++ batch_write info (cstate info bs) b). split; [|exact La].
    rewrite E, <- !app_assoc. reflexivity.
  - rewrite nth_error_app2 in Ho by lia. rewrite nth_error_app2 in Hp by lia. rewrite L in Ho.
    destruct (entries_nth _ _ _ _ _ Ho Hp) as (a' & r' & E & La).
    set (s := cstate info bs) in *.
    exists (c_img s ++ c_pend info s ++ a'). eexists. split.
    + unfold batch_write, batch_body. rewrite E, <- !app_assoc. reflexivity.
    + rewrite !len_app. unfold c_pos in La. lia.
Qed.

Lemma index_payload_nth offs : forall i o,
  nth_error offs i = Some o ->
  exists x y, index_payload offs = x ++ le32 o ++ y /\ len x = 4 * N.of_nat i.
Proof.
  induction offs as [|q offs IH]; intros i o H; [destruct i; discriminate|].
  destruct i as [|i]; cbn [nth_error] in H.
  - inversion H; subst. exists [], (index_payload offs). split; reflexivity.
  - destruct (IH _ _ H) as (x & y & E & L). exists (le32 q ++ x), y. split.
    + unfold index_payload in *. cbn [flat_map]. rewrite E, <- app_assoc. reflexivity.
    + rewrite len_app, len_le32, L. lia.
Qed.

Lemma image_index_frame info bs :
  c_istart (cstate info bs) <> 0 ->
  exists a r, image info bs = a ++ frame_header FrameIndex (4 * len (c_offs (cstate info bs))) ++
                              index_payload (c_offs (cstate info bs)) ++ r /\
              len a + 8 = c_istart (cstate info bs).
Proof.
  unfold image. destruct bs as [|b bs] using rev_ind; [cbn; congruence|]. clear IHbs.
  rewrite cstate_snoc. set (s := cstate info bs). cbn [cstep c_istart c_offs c_img].
  destruct (snd b) eqn:Eb; [|congruence]. intros _.
  exists (c_img s ++ c_pend info s ++ entries_bytes (fst b)). eexists. split.
  - unfold batch_write, batch_body. rewrite Eb. unfold index_frame. rewrite <- !app_assoc. reflexivity.
  - rewrite !len_app. unfold c_pos. lia.
Qed.

Lemma image_index info bs :
  c_istart (cstate info bs) <> 0 ->
  exists a r, image info bs = a ++ index_payload (c_offs (cstate info bs)) ++ r /\
              len a = c_istart (cstate info bs).
Proof.
  intros H. destruct (image_index_frame info bs H) as (a & r & E & L).
  exists (a ++ frame_header FrameIndex (4 * len (c_offs (cstate info bs)))), r.
  split; [rewrite E, <- app_assoc; reflexivity|]. rewrite len_app, len_frame_header. exact L.
Qed.

Lemma too_big_false es : too_big es = false <-> Forall (fun e => len (snd e) <= MaxEntrySize) es.
Proof.
  unfold too_big. induction es as [|e r IH]; [split; constructor|].
  cbn [existsb]. rewrite orb_false_iff, IH, N.ltb_ge, Forall_cons_iff. reflexivity.
Qed.

Lemma append_ok_not_too_big w es f w' acts :
  append w es f = (WOk, w', acts) -> too_big es = false.
Proof.
  unfold append. destruct es as [|e r]; [reflexivity|]. intros H.
  destruct (0 <? w_index_start w); [discriminate|].
  destruct (too_big (e :: r)); [discriminate|reflexivity].
Qed.

Lemma wrun_payload_bound ops : forall w w' acts bs,
  wrun w ops = Some (w', acts, bs) -> Forall (fun p => len p <= MaxEntrySize) (payloads bs).
Proof.
  induction ops as [|op r IH]; intros w w' acts bs H.
  - cbn in H. inversion H; subst. constructor.
  - cbn [wrun] in H. destruct (do_op w op) as [[res w1] acts0] eqn:Eop. destruct res; try discriminate.
    destruct (wrun w1 r) as [[[w2 acts2] bs2]|] eqn:E; [|discriminate].
    inversion H; subst. unfold payloads. rewrite flat_map_app. apply Forall_app; split; [|eapply IH; eassumption].
    destruct op as [es|]; cbn [op_batch do_op] in *.
    + destruct es as [|e0 r0]; [constructor|]. cbn [flat_map fst]. rewrite app_nil_r.
      apply append_ok_not_too_big in Eop. apply too_big_false in Eop.
      rewrite Forall_map. exact Eop.
    + destruct (sealed w); constructor.
Qed.

(* entry i of the committed payloads sits, as one entry frame, at the offset the writer recorded
   for it, in any file that extends the image *)
Lemma image_frame_at info bs i p r :
  nth_error (payloads bs) i = Some p -> len p <= MaxEntrySize ->
  exists off, nth_error (c_offs (cstate info bs)) i = Some off /\
              off + 8 + len p <= len (image info bs) /\
              fst (read_frame (image info bs ++ r) off) = ROk p.
Proof.
  intros Hp Hpl. set (s := cstate info bs).
  assert (Hi : (i < length (c_offs s))%nat).
  { unfold s. rewrite c_offs_length. apply nth_error_Some. congruence. }
  destruct (nth_error (c_offs s) i) as [off|] eqn:Eo; [|apply nth_error_None in Eo; lia].
  destruct (image_entry info bs i off p Eo Hp) as (a & r0 & E & La).
  exists off. split; [reflexivity|]. split.
  - rewrite E, !len_app, len_enc_frame. unfold enc_frame_size. lia.
  - rewrite E, <- !app_assoc, <- La. apply read_frame_entry. exact Hpl.
Qed.

(* the tail reader on the image; si_min may lie anywhere up to the index asked for *)
Lemma tail_get_image info bs i p r :
  si_min info <= si_base info + N.of_nat i ->
  nth_error (payloads bs) i = Some p -> len p <= MaxEntrySize ->
  tail_get (wst info (cstate info bs)) (image info bs ++ r) (si_base info + N.of_nat i) = ROk p.
Proof.
  intros Hmin Hp Hpl. destruct (image_frame_at info bs i p r Hp Hpl) as (off & Eo & _ & Hr).
  set (s := cstate info bs) in *.
  assert (Hi : (i < length (c_offs s))%nat) by (apply nth_error_Some; congruence).
  unfold tail_get, tail_offset. cbn [wst w_info w_commit_idx w_offsets].
  unfold commit_idx_of. cbn [w_offsets w_info].
  destruct (c_offs s) as [|o0 or0] eqn:Ec; [cbn in Hi; lia|]. rewrite <- Ec in *.
  replace (si_base info + N.of_nat i <? si_base info) with false by (symmetry; apply N.ltb_ge; lia).
  replace (si_base info + N.of_nat i <? si_min info) with false by (symmetry; apply N.ltb_ge; lia).
  replace (si_base info + len (c_offs s) - 1 <? si_base info + N.of_nat i) with false
    by (symmetry; apply N.ltb_ge; unfold len; lia).
  cbn [orb]. replace (N.to_nat (si_base info + N.of_nat i - si_base info)) with i by lia.
  rewrite Eo. exact Hr.
Qed.

Lemma sealed_get_image info info' bs i p r :
  len (image info bs) < two32 -> c_istart (cstate info bs) <> 0 ->
  si_base info' = si_base info -> si_index_start info' = c_istart (cstate info bs) ->
  si_min info' <= si_base info + N.of_nat i ->
  (si_max info' = 0 \/ si_base info + N.of_nat i <= si_max info') ->
  nth_error (payloads bs) i = Some p -> len p <= MaxEntrySize ->
  sealed_get info' (image info bs ++ r) (si_base info + N.of_nat i) = ROk p.
Proof.
  intros Hlen Hs Hbase His Hmin Hmax Hp Hpl.
  destruct (image_frame_at info bs i p r Hp Hpl) as (off & Eo & Hoffl & Hr).
  set (s := cstate info bs) in *.
  destruct (image_index info bs Hs) as (ia & ir & Eidx & Lia). fold s in Eidx, Lia.
  destruct (index_payload_nth _ _ _ Eo) as (x & y & Ex & Lx).
  assert (Hoff : off < two32) by lia.
  assert (Hist : c_istart s + 4 * N.of_nat i + 4 <= len (image info bs)).
  { rewrite Eidx, Ex, !len_app, len_le32. lia. }
  unfold sealed_get. rewrite His, Hbase.
  replace (c_istart s =? 0) with false by (symmetry; apply N.eqb_neq; lia).
  replace (si_base info + N.of_nat i <? si_min info') with false by (symmetry; apply N.ltb_ge; lia).
  replace ((0 <? si_max info') && (si_max info' <? si_base info + N.of_nat i)) with false.
  2:{ symmetry. apply andb_false_iff. destruct Hmax as [Hm|Hm]; [left; rewrite Hm; reflexivity|right; apply N.ltb_ge; exact Hm]. }
  cbn [orb].
  replace (si_base info + N.of_nat i - si_base info) with (N.of_nat i) by lia.
  replace ((c_istart s + N.of_nat i mod two64 * 4) mod two64) with (len (ia ++ x)).
  2:{ rewrite len_app, Lia, Lx. rewrite !N.mod_small by (unfold two32, two64 in *; lia). lia. }
  assert (Ef : image info bs ++ r = (ia ++ x) ++ le32 off ++ (y ++ ir ++ r)).
  { rewrite Eidx, Ex, <- !app_assoc. reflexivity. }
  assert (Eread : read_at (image info bs ++ r) (len (ia ++ x)) 4 = le32 off).
  { rewrite Ef. rewrite read_at_app. change (N.to_nat 4) with (length (le32 off)). apply firstn_app_exact. }
  rewrite Eread.
  replace (len (le32 off) <? 4) with false by reflexivity.
  rewrite rd32_le32 by (unfold two32 in Hoff; exact Hoff).
  exact Hr.
Qed.

(* C15, tail form: every entry of every acknowledged batch is returned by the
   tail reader from the file obtained by applying the writer's actions to any
   initial content -- any payload length the writer accepted, any position in
   its batch, any size limit (also when the append sealed the segment) *)
Theorem accepted_is_readable_tail info ops w acts bs f0 i p :
  wrun (init_empty info) ops = Some (w, acts, bs) -> len (image info bs) < two32 ->
  si_min info <= si_base info ->
  nth_error (payloads bs) i = Some p ->
  tail_get w (apply_wactions f0 acts) (si_base info + N.of_nat i) = ROk p.
Proof.
  intros Hrun Hlen Hmin Hp.
  destruct (wrun_image info ops w acts bs Hrun Hlen) as (-> & Hc & Ei).
  pose proof (wrun_payload_bound _ _ _ _ _ Hrun) as Hb. rewrite Forall_forall in Hb.
  rewrite apply_wactions_from0, Ei by exact Hc.
  apply tail_get_image; [lia|exact Hp|]. apply Hb. eapply nth_error_In. exact Hp.
Qed.

(* C15, sealed form: after the segment is sealed (by size or by force_seal) the
   sealed reader, given the index start the writer reports, returns it too *)
Theorem accepted_is_readable_sealed info ops w acts bs f0 i p info' :
  wrun (init_empty info) ops = Some (w, acts, bs) -> len (image info bs) < two32 ->
  sealed w = true ->
  si_base info' = si_base info -> si_index_start info' = w_index_start w ->
  si_min info' <= si_base info + N.of_nat i ->
  (si_max info' = 0 \/ si_base info + N.of_nat i <= si_max info') ->
  nth_error (payloads bs) i = Some p ->
  sealed_get info' (apply_wactions f0 acts) (si_base info + N.of_nat i) = ROk p.
Proof.
  intros Hrun Hlen Hs Hbase His Hmin Hmax Hp.
  destruct (wrun_image info ops w acts bs Hrun Hlen) as (-> & Hc & Ei).
  pose proof (wrun_payload_bound _ _ _ _ _ Hrun) as Hb. rewrite Forall_forall in Hb.
  rewrite apply_wactions_from0, Ei by exact Hc.
  unfold sealed in Hs. cbn [wst w_index_start] in Hs, His. apply N.ltb_lt in Hs.
  apply sealed_get_image; try assumption; [lia|]. apply Hb. eapply nth_error_In. exact Hp.
Qed.

(* an entry the reader could not read back is refused, and nothing changes *)
Theorem too_big_refused w es f :
  too_big es = true ->
  exists r, append w es f = (r, w, []) /\ (r = WErrTooBig \/ r = WErrSealed) /\
            (w_index_start w = 0 -> r = WErrTooBig).
Proof.
  intros H. unfold append. destruct es as [|e r]; [discriminate|].
  destruct (0 <? w_index_start w) eqn:E.
  - exists WErrSealed. repeat split; auto. intros Hz. rewrite Hz in E. discriminate.
  - rewrite H. exists WErrTooBig. repeat split; auto.
Qed.

(* no size up to MaxEntrySize is refused: an unsealed writer accepts every batch
   of consecutive indexes whose entries are all <= MaxEntrySize *)
Theorem up_to_max_accepted w es :
  w_index_start w = 0 -> idx_ok (si_base (w_info w) + len (w_offsets w)) es ->
  Forall (fun e => len (snd e) <= MaxEntrySize) es ->
  exists w' acts, append w es FNone = (WOk, w', acts).
Proof.
  intros Hz Hi Hb. unfold append. destruct es as [|e r] eqn:Ees; [eexists; eexists; reflexivity|].
  rewrite <- Ees in *. rewrite Hz. cbn [N.ltb N.compare].
  assert (Hnb : too_big es = false) by (apply too_big_false; exact Hb).
  rewrite Hnb. destruct (append_entries_ok es w Hi) as [w1 Hw1]. rewrite Hw1.
  destruct (append_entries_char _ _ _ Hw1) as [_ Ew1].
  assert (Hnn : w_offsets w1 <> []).
  { rewrite Ew1. cbn [set_buf w_offsets]. rewrite Ees. cbn [map entry_offsets].
    intros H. apply app_eq_nil in H as [_ H]. discriminate. }
  destruct (needs_seal w1).
  - unfold append_index. destruct (w_offsets w1); [congruence|]. unfold append_commit.
    eexists; eexists; reflexivity.
  - unfold append_commit. eexists; eexists; reflexivity.
Qed.
