(* CodecFacts.v -- Fmt/Codec.v decodes what it encodes (uvarint, two's complement, time.Time,
   the whole log entry), and an encoding cut short or followed by extra bytes is refused (C11). *)
From RW Require Import Base.Bytes Base.BytesFacts Fmt.Codec.
From RW Require Import Base.LiaSetup.
Open Scope N_scope.

Lemma put_uvarint_aux_S f v :
  put_uvarint_aux (S f) v =
  if v <? 128 then [v] else (v mod 128 + 128) :: put_uvarint_aux f (v / 128).
Proof. reflexivity. Qed.

Lemma put_uvarint_aux_nonempty f v : put_uvarint_aux (S f) v <> [].
Proof. rewrite put_uvarint_aux_S. destruct (v <? 128); discriminate. Qed.

(* a final byte: at position 9 only 0 and 1 keep the value below 2^64 *)
Lemma get_uvarint_aux_last v rest i x s :
  v < 128 -> s = 7 * N.of_nat i -> (i < 10)%nat -> x + v * 2 ^ s < two64 ->
  get_uvarint_aux (v :: rest) i x s = (x + v * 2 ^ s, Z.of_nat (i + 1)).
Proof.
  intros Hv Hs Hi Hsum. cbn [get_uvarint_aux].
  apply N.ltb_lt in Hv. rewrite Hv.
  replace (Nat.eqb i 10) with false by (symmetry; apply Nat.eqb_neq; lia).
  replace (Nat.eqb i 9 && (1 <? v)) with false.
  - rewrite N.mod_small by exact Hsum. f_equal. lia.
  - destruct (Nat.eqb_spec i 9) as [->|_]; [|reflexivity].
    subst s. change (2 ^ (7 * N.of_nat 9)) with two63 in Hsum. unfold two64, two63 in Hsum.
    symmetry. apply N.ltb_ge. lia.
Qed.

Lemma get_uvarint_aux_more d rest i x s :
  d < 128 -> (i < 10)%nat ->
  get_uvarint_aux (d + 128 :: rest) i x s
  = get_uvarint_aux rest (S i) ((x + d * 2 ^ s) mod two64) (s + 7).
Proof.
  intros Hd Hi. cbn [get_uvarint_aux].
  replace (Nat.eqb i 10) with false by (symmetry; apply Nat.eqb_neq; lia).
  replace (d + 128 <? 128) with false by (symmetry; apply N.ltb_ge; lia).
  replace ((d + 128) mod 128) with d by lia. reflexivity.
Qed.

Lemma uvarint_aux_roundtrip f : forall v i x s rest,
    s = 7 * N.of_nat i -> (i + S f = 10)%nat -> x + v * 2 ^ s < two64 ->
    get_uvarint_aux (put_uvarint_aux (S f) v ++ rest) i x s
    = (x + v * 2 ^ s, Z.of_nat (i + length (put_uvarint_aux (S f) v))).
Proof.
  induction f as [|f IH]; intros v i x s rest Hs Hi Hsum;
    rewrite put_uvarint_aux_S; destruct (N.ltb_spec v 128) as [Hv|Hv];
    try (apply get_uvarint_aux_last; [exact Hv|exact Hs|lia|exact Hsum]).
  - (* fuel 1 is position 9, where 128 * 2^63 is too much *)
    exfalso. assert (i = 9%nat) by lia. subst i s.
    change (2 ^ (7 * N.of_nat 9)) with two63 in Hsum. unfold two64, two63 in Hsum. lia.
  - (* v = 128 q + d, and 2^(s+7) = 128 * 2^s *)
    assert (Hd : v mod 128 < 128) by (apply N.mod_lt; discriminate).
    assert (Hsplit : x + v mod 128 * 2 ^ s + v / 128 * 2 ^ (s + 7)
                     = x + (v mod 128 + 128 * (v / 128)) * 2 ^ s)
      by (rewrite N.pow_add_r; change (2 ^ 7) with 128; ring).
    rewrite mod_add_div in Hsplit by discriminate.
    cbn [app]. rewrite get_uvarint_aux_more by (exact Hd || lia).
    rewrite N.mod_small by lia.
    rewrite IH; [|lia|lia|rewrite Hsplit; exact Hsum].
    rewrite Hsplit. cbn [length]. f_equal. lia.
Qed.

Lemma uvarint_roundtrip v rest :
  v < two64 ->
  get_uvarint (put_uvarint v ++ rest) = (v, Z.of_nat (length (put_uvarint v))).
Proof.
  intros Hv. unfold get_uvarint, put_uvarint.
  rewrite (uvarint_aux_roundtrip 9 v 0 0 0 rest); [|reflexivity|reflexivity|].
  - rewrite N.mul_1_r. reflexivity.
  - rewrite N.mul_1_r. exact Hv.
Qed.

Lemma put_uvarint_length_pos v : (0 < length (put_uvarint v))%nat.
Proof.
  pose proof (put_uvarint_aux_nonempty 9 v) as H. fold (put_uvarint v) in H.
  destruct (put_uvarint v); [congruence|apply Nat.lt_0_succ].
Qed.

Lemma dec_varint_put v rest :
  v < two64 -> dec_varint (put_uvarint v ++ rest) = DOk v rest.
Proof.
  intros Hv. unfold dec_varint. rewrite uvarint_roundtrip by exact Hv.
  pose proof (put_uvarint_length_pos v) as Hp.
  replace (Z.of_nat (length (put_uvarint v)) <=? 0)%Z with false by (symmetry; apply Z.leb_gt; lia).
  rewrite Nat2Z.id. rewrite skipn_app, skipn_all, Nat.sub_diag. reflexivity.
Qed.

Lemma dec_bytes_enc bs rest :
  len bs < two64 -> dec_bytes (enc_bytes bs ++ rest) = DOk bs rest.
Proof.
  intros Hl. unfold dec_bytes, enc_bytes. rewrite <- app_assoc.
  rewrite dec_varint_put by exact Hl.
  destruct (len bs =? 0) eqn:E.
  - apply N.eqb_eq in E. unfold len in E. destruct bs; [reflexivity|simpl in E; lia].
  - replace (len (bs ++ rest) <? len bs) with false.
    + unfold len. rewrite Nat2N.id. rewrite firstn_app, firstn_all, Nat.sub_diag, firstn_O, app_nil_r.
      rewrite skipn_app, skipn_all, Nat.sub_diag. reflexivity.
    + symmetry. apply N.ltb_ge. unfold len. rewrite app_length. lia.
Qed.

Lemma u_to_z_to_u w half z :
  w = 2 * half -> (- Z.of_N half <= z < Z.of_N half)%Z -> 0 < half ->
  u_to_z w half (z_to_u w z) = z.
Proof.
  intros Hw Hz Hh. unfold u_to_z, z_to_u.
  assert (Hpos : (0 < Z.of_N w)%Z) by lia.
  pose proof (Z.mod_pos_bound z (Z.of_N w) Hpos) as Hb.
  destruct (Z.to_N (z mod Z.of_N w) <? half) eqn:E.
  - apply N.ltb_lt in E. rewrite Z2N.id by lia.
    destruct (Z_lt_le_dec z 0) as [Hn|Hn].
    + exfalso. assert (z mod Z.of_N w = z + Z.of_N w)%Z.
      { symmetry. apply Z.mod_unique with (q := (-1)%Z); lia. }
      lia.
    + apply Z.mod_small. lia.
  - apply N.ltb_ge in E. rewrite Z2N.id by lia.
    destruct (Z_lt_le_dec z 0) as [Hn|Hn].
    + assert (z mod Z.of_N w = z + Z.of_N w)%Z.
      { symmetry. apply Z.mod_unique with (q := (-1)%Z); lia. }
      lia.
    + exfalso. rewrite Z.mod_small in E by lia. lia.
Qed.

Lemma z_to_u_lt w z : 0 < w -> z_to_u w z < w.
Proof.
  intros Hw. unfold z_to_u.
  pose proof (Z.mod_pos_bound z (Z.of_N w) ltac:(lia)). lia.
Qed.

Lemma rdbe32_be32_app v r : v < 4294967296 -> rdbe32 (be32 v ++ r) = v.
Proof.
  intros H. unfold rdbe32, be32.
  change (firstn 4 (rev (le32 v) ++ r)) with (rev (le32 v)).
  rewrite rev_involutive. apply rd32_le32. exact H.
Qed.

Lemma rdbe16_be16_app v r : v < 65536 -> rdbe16 (be16 v ++ r) = v.
Proof.
  intros H. unfold rdbe16, be16, nth0. cbn [app nth].
  rewrite (N.mod_small (v / 256)) by (apply N.div_lt_upper_bound; lia).
  pose proof (N.div_mod v 256 ltac:(lia)). lia.
Qed.

Lemma be32_length v : length (be32 v) = 4%nat.
Proof. reflexivity. Qed.
Lemma be16_length v : length (be16 v) = 2%nat.
Proof. reflexivity. Qed.

Lemma skip8_be64 a b : skipn 8 (be64 a ++ b) = b.
Proof.
  rewrite skipn_app. rewrite skipn_all2 by (rewrite be64_length; lia).
  rewrite be64_length. reflexivity.
Qed.

Definition mk_zone (off : Z) : option Z := if (off =? -60)%Z then None else Some off.

Lemma unmarshal_v1 s n m :
  s < 18446744073709551616 -> n < 4294967296 -> m < 65536 ->
  unmarshal_time (1 :: be64 s ++ be32 n ++ be16 m) =
  Some {| t_sec := u_to_z two64 two63 s; t_nsec := u_to_z two32 two31 n;
          t_zone := mk_zone (u_to_z two16 two15 m * 60 + 0) |}.
Proof.
  intros Hs Hn Hm. unfold unmarshal_time.
  change (1 =? 1) with true. change (1 =? 2) with false. cbn [orb negb].
  assert (L : length (1 :: be64 s ++ be32 n ++ be16 m) = 15%nat).
  { cbn [length]. repeat rewrite app_length. rewrite be64_length, be32_length, be16_length. reflexivity. }
  rewrite L. cbn [Nat.eqb negb].
  rewrite rdbe64_be64_app by exact Hs. rewrite skip8_be64.
  rewrite rdbe32_be32_app by exact Hn.
  replace (skipn 12 (be64 s ++ be32 n ++ be16 m)) with (be16 m ++ []).
  2:{ change 12%nat with (8 + 4)%nat. rewrite <- skipn_skipn'. rewrite skip8_be64.
      rewrite app_nil_r. reflexivity. }
  rewrite rdbe16_be16_app by exact Hm. reflexivity.
Qed.

Lemma unmarshal_v2 s n m b :
  s < 18446744073709551616 -> n < 4294967296 -> m < 65536 ->
  unmarshal_time (2 :: be64 s ++ be32 n ++ be16 m ++ [b]) =
  Some {| t_sec := u_to_z two64 two63 s; t_nsec := u_to_z two32 two31 n;
          t_zone := mk_zone (u_to_z two16 two15 m * 60 + Z.of_N b) |}.
Proof.
  intros Hs Hn Hm. unfold unmarshal_time.
  change (2 =? 1) with false. change (2 =? 2) with true. cbn [orb negb].
  assert (L : length (2 :: be64 s ++ be32 n ++ be16 m ++ [b]) = 16%nat).
  { cbn [length]. repeat rewrite app_length. rewrite be64_length, be32_length, be16_length. reflexivity. }
  rewrite L. cbn [Nat.eqb negb].
  rewrite rdbe64_be64_app by exact Hs. rewrite skip8_be64.
  rewrite rdbe32_be32_app by exact Hn.
  replace (skipn 12 (be64 s ++ be32 n ++ be16 m ++ [b])) with (be16 m ++ [b]).
  2:{ change 12%nat with (8 + 4)%nat. rewrite <- skipn_skipn'. rewrite skip8_be64. reflexivity. }
  rewrite rdbe16_be16_app by exact Hm.
  replace (nth0 14 (be64 s ++ be32 n ++ be16 m ++ [b])) with b by reflexivity.
  reflexivity.
Qed.

Lemma wf_time_hdr v s n m :
  v < 256 -> wf_bytes ([v] ++ be64 s ++ be32 n ++ be16 m).
Proof.
  intros Hv. apply wf_bytes_app; split; [repeat constructor; exact Hv|].
  apply wf_bytes_app; split; [apply wf_be64|].
  apply wf_bytes_app; split; [unfold be32; apply Forall_rev; apply wf_le32|].
  unfold be16. repeat constructor; unfold wf_byte; apply N.mod_lt; lia.
Qed.

Lemma time_roundtrip t :
  wf_time t ->
  exists tb, marshal_time t = Some tb /\ unmarshal_time tb = Some t /\ wf_bytes tb.
Proof.
  intros (Hsec & Hns & Hz). destruct t as [sec nsec zone]. cbn [t_sec t_nsec t_zone] in *.
  unfold marshal_time. cbn [t_sec t_nsec t_zone].
  assert (Hsec' : u_to_z two64 two63 (z_to_u two64 sec) = sec)
    by (apply u_to_z_to_u; [reflexivity | exact Hsec | reflexivity]).
  assert (Hns' : u_to_z two32 two31 (z_to_u two32 nsec) = nsec)
    by (apply u_to_z_to_u; [reflexivity | unfold two31; lia | reflexivity]).
  assert (L64 : z_to_u two64 sec < 18446744073709551616) by (apply z_to_u_lt; reflexivity).
  assert (L32 : z_to_u two32 nsec < 4294967296) by (apply z_to_u_lt; reflexivity).
  destruct zone as [off|].
  - destruct Hz as (Hq & Hq1 & Hr).
    replace ((Z.quot off 60 <? -32768) || (Z.quot off 60 =? -1) || (32767 <? Z.quot off 60))%Z with false
      by (symmetry; apply orb_false_iff; split; [apply orb_false_iff; split|]; lia).
    assert (Hmin' : u_to_z two16 two15 (z_to_u two16 (Z.quot off 60)) = Z.quot off 60)
      by (apply u_to_z_to_u; [reflexivity | unfold two15; lia | reflexivity]).
    assert (L16 : z_to_u two16 (Z.quot off 60) < 65536) by (apply z_to_u_lt; reflexivity).
    pose proof (Z.quot_rem' off 60) as Hqr.
    pose proof (Z.rem_bound_abs off 60 ltac:(lia)) as Hrb.
    assert (Hne : off <> (-60)%Z).
    { intros ->. apply Hq1. reflexivity. }
    destruct (Z.rem off 60 =? 0)%Z eqn:E.
    + eexists; split; [reflexivity|]. split.
      * change (Z.to_N 1) with 1. cbn [app].
        rewrite unmarshal_v1 by assumption. rewrite Hsec', Hns', Hmin'.
        apply Z.eqb_eq in E.
        replace (Z.quot off 60 * 60 + 0)%Z with off by lia.
        unfold mk_zone. replace (off =? -60)%Z with false by (symmetry; apply Z.eqb_neq; exact Hne).
        reflexivity.
      * apply wf_time_hdr. reflexivity.
    + apply Z.eqb_neq in E.
      assert (Lr : z_to_u 256 (Z.rem off 60) = Z.to_N (Z.rem off 60)).
      { unfold z_to_u. rewrite Z.mod_small; [reflexivity|]. change (Z.of_N 256) with 256%Z. lia. }
      eexists; split; [reflexivity|]. split.
      * change (Z.to_N 2) with 2. cbn [app]. repeat rewrite <- app_assoc.
        rewrite unmarshal_v2 by assumption. rewrite Hsec', Hns', Hmin', Lr.
        rewrite Z2N.id by lia.
        replace (Z.quot off 60 * 60 + Z.rem off 60)%Z with off by lia.
        unfold mk_zone. replace (off =? -60)%Z with false by (symmetry; apply Z.eqb_neq; exact Hne).
        reflexivity.
      * apply wf_bytes_app; split; [apply wf_time_hdr; reflexivity|].
        repeat constructor. unfold wf_byte. apply z_to_u_lt. reflexivity.
  - eexists; split; [reflexivity|]. split.
    + change (Z.to_N 1) with 1. cbn [app].
      assert (L16 : z_to_u two16 (-1) < 65536) by (apply z_to_u_lt; reflexivity).
      rewrite unmarshal_v1 by assumption. rewrite Hsec', Hns'. reflexivity.
    + apply wf_time_hdr. reflexivity.
Qed.

Theorem decode_encode l :
  wf_log l -> exists bs, encode_log l = Some bs /\ decode_log bs = Some l.
Proof.
  intros (Hi & Ht & Hty & _ & _ & Hld & Hle & Htm).
  destruct (time_roundtrip _ Htm) as (tb & Hm & Hu & _).
  unfold encode_log. rewrite Hm. eexists; split; [reflexivity|].
  unfold decode_log.
  rewrite dec_varint_put by exact Hi.
  rewrite dec_varint_put by exact Ht.
  rewrite dec_varint_put by (unfold two64; lia).
  rewrite dec_bytes_enc by exact Hld.
  rewrite dec_bytes_enc by exact Hle.
  rewrite Hu. rewrite N.mod_small by exact Hty.
  destruct l; reflexivity.
Qed.

(* C11: a valid encoding cut short anywhere, or followed by extra bytes, does not
   decode: every field is self-delimiting and the time field is last and
   length-exact. *)
Lemma get_uvarint_aux_cut f : forall v n i x s,
  (n < length (put_uvarint_aux (S f) v))%nat -> (i + S f <= 10)%nat ->
  get_uvarint_aux (firstn n (put_uvarint_aux (S f) v)) i x s = (0, 0%Z).
Proof.
  induction f as [|f IH]; intros v n i x s Hn Hi.
  - cbn [put_uvarint_aux] in *. destruct (v <? 128); cbn [length] in Hn.
    + destruct n; [reflexivity|lia].
    + destruct n; [reflexivity|lia].
  - rewrite put_uvarint_aux_S in *. destruct (v <? 128) eqn:E.
    + cbn [length] in Hn. destruct n; [reflexivity|lia].
    + cbn [length] in Hn. destruct n as [|n]; [reflexivity|].
      cbn [firstn get_uvarint_aux].
      replace (Nat.eqb i 10) with false by (symmetry; apply Nat.eqb_neq; lia).
      replace (v mod 128 + 128 <? 128) with false by (symmetry; apply N.ltb_ge; lia).
      apply IH; lia.
Qed.

Lemma dec_varint_cut v n : (n < length (put_uvarint v))%nat -> dec_varint (firstn n (put_uvarint v)) = DErr.
Proof.
  intros H. unfold dec_varint, get_uvarint, put_uvarint in *.
  rewrite get_uvarint_aux_cut by (assumption || lia). reflexivity.
Qed.

Lemma dec_bytes_cut d n :
  len d < two64 -> (n < length (enc_bytes d))%nat -> dec_bytes (firstn n (enc_bytes d)) = DErr.
Proof.
  intros Hl Hn. unfold enc_bytes in *. rewrite app_length in Hn. unfold dec_bytes.
  destruct (Nat.lt_ge_cases n (length (put_uvarint (len d)))) as [H|H].
  - rewrite firstn_app_le by lia. rewrite dec_varint_cut by exact H. reflexivity.
  - rewrite firstn_app_ge by exact H. rewrite dec_varint_put by exact Hl.
    replace (len d =? 0) with false by (symmetry; apply N.eqb_neq; unfold len in *; lia).
    replace (len (firstn (n - length (put_uvarint (len d))) d) <? len d) with true; [reflexivity|].
    symmetry. apply N.ltb_lt. unfold len in *. rewrite firstn_length. lia.
Qed.

(* A field decoder run on a prefix of [field ++ b]: it fails when the cut falls inside the
   field, and otherwise consumes the field and leaves the prefix of [b]. *)
Lemma dec_varint_firstn v n b :
  v < two64 ->
  dec_varint (firstn n (put_uvarint v ++ b)) =
  if (n <? length (put_uvarint v))%nat then DErr
  else DOk v (firstn (n - length (put_uvarint v)) b).
Proof.
  intros Hv. destruct (Nat.ltb_spec n (length (put_uvarint v))) as [H|H].
  - rewrite firstn_app_le by lia. apply dec_varint_cut. exact H.
  - rewrite firstn_app_ge by exact H. apply dec_varint_put. exact Hv.
Qed.

Lemma dec_bytes_firstn d n b :
  len d < two64 ->
  dec_bytes (firstn n (enc_bytes d ++ b)) =
  if (n <? length (enc_bytes d))%nat then DErr
  else DOk d (firstn (n - length (enc_bytes d)) b).
Proof.
  intros Hd. destruct (Nat.ltb_spec n (length (enc_bytes d))) as [H|H].
  - rewrite firstn_app_le by lia. apply dec_bytes_cut; assumption.
  - rewrite firstn_app_ge by exact H. apply dec_bytes_enc. exact Hd.
Qed.

Lemma marshal_time_shape t tb :
  marshal_time t = Some tb ->
  exists v rest, tb = v :: rest /\ ((v = 1 /\ length tb = 15%nat) \/ (v = 2 /\ length tb = 16%nat)).
Proof.
  unfold marshal_time. intros H.
  destruct (t_zone t) as [off|].
  - destruct ((Z.quot off 60 <? -32768) || (Z.quot off 60 =? -1) || (32767 <? Z.quot off 60))%Z; [discriminate|].
    destruct (Z.rem off 60 =? 0)%Z; injection H as <-.
    + do 2 eexists. split; [reflexivity|]. left. split; reflexivity.
    + do 2 eexists. split; [reflexivity|]. right. split; reflexivity.
  - injection H as <-. do 2 eexists. split; [reflexivity|]. left. split; reflexivity.
Qed.

Lemma unmarshal_wrong_length v rest n :
  (v = 1 /\ n <> 15%nat) \/ (v = 2 /\ n <> 16%nat) -> length (v :: rest) = n ->
  unmarshal_time (v :: rest) = None.
Proof.
  intros H L. unfold unmarshal_time. destruct H as [[-> Hn]|[-> Hn]].
  - change (negb ((1 =? 1) || (1 =? 2))) with false. change (1 =? 2) with false. cbv iota.
    rewrite L. replace (Nat.eqb n 15) with false by (symmetry; apply Nat.eqb_neq; exact Hn). reflexivity.
  - change (negb ((2 =? 1) || (2 =? 2))) with false. change (2 =? 2) with true. cbv iota.
    rewrite L. replace (Nat.eqb n 16) with false by (symmetry; apply Nat.eqb_neq; exact Hn). reflexivity.
Qed.

Lemma unmarshal_time_cut t tb n :
  marshal_time t = Some tb -> (n < length tb)%nat -> unmarshal_time (firstn n tb) = None.
Proof.
  intros H Hn. destruct (marshal_time_shape t tb H) as (v & rest & -> & Hs).
  destruct n as [|n]; [reflexivity|]. cbn [firstn].
  apply (unmarshal_wrong_length v (firstn n rest) (S (length (firstn n rest)))); [|reflexivity].
  rewrite firstn_length. cbn [length] in Hn, Hs.
  destruct Hs as [[-> L]|[-> L]]; [left|right]; split; try reflexivity; lia.
Qed.

Lemma unmarshal_time_extra t tb extra :
  marshal_time t = Some tb -> extra <> [] -> unmarshal_time (tb ++ extra) = None.
Proof.
  intros H Hn. destruct (marshal_time_shape t tb H) as (v & rest & -> & Hs).
  assert (Le : (0 < length extra)%nat) by (destruct extra; [congruence|cbn; lia]).
  cbn [app]. apply (unmarshal_wrong_length v (rest ++ extra) (S (length (rest ++ extra)))); [|reflexivity].
  rewrite app_length. cbn [length] in Hs.
  destruct Hs as [[-> L]|[-> L]]; [left|right]; split; try reflexivity; lia.
Qed.

Theorem decode_trailing_fails l bs extra :
  wf_log l -> encode_log l = Some bs -> extra <> [] -> decode_log (bs ++ extra) = None.
Proof.
  intros (Hi & Ht & Hty & _ & _ & Hld & Hle & Htm) Henc Hne.
  unfold encode_log in Henc. destruct (marshal_time (l_time l)) as [tb|] eqn:Hm; [|discriminate].
  inversion Henc; subst bs. clear Henc. rewrite <- !app_assoc. unfold decode_log.
  rewrite dec_varint_put by exact Hi.
  rewrite dec_varint_put by exact Ht.
  rewrite dec_varint_put by (unfold two64; lia).
  rewrite dec_bytes_enc by exact Hld.
  rewrite dec_bytes_enc by exact Hle.
  rewrite (unmarshal_time_extra _ _ _ Hm Hne). reflexivity.
Qed.

Theorem decode_prefix_fails l bs n :
  wf_log l -> encode_log l = Some bs -> (n < length bs)%nat -> decode_log (firstn n bs) = None.
Proof.
  intros (Hi & Ht & Hty & _ & _ & Hld & Hle & Htm) Henc Hn.
  unfold encode_log in Henc. destruct (marshal_time (l_time l)) as [tb|] eqn:Hm; [|discriminate].
  inversion Henc; subst bs. clear Henc. unfold decode_log.
  rewrite !app_length in Hn.
  rewrite dec_varint_firstn by exact Hi.
  destruct (Nat.ltb_spec n (length (put_uvarint (l_index l)))) as [|H1]; [reflexivity|].
  rewrite dec_varint_firstn by exact Ht.
  destruct (Nat.ltb_spec (n - length (put_uvarint (l_index l))) (length (put_uvarint (l_term l)))) as [|H2]; [reflexivity|].
  rewrite dec_varint_firstn by (unfold two64; lia).
  destruct (Nat.ltb_spec (n - length (put_uvarint (l_index l)) - length (put_uvarint (l_term l))) (length (put_uvarint (l_type l)))) as [|H3]; [reflexivity|].
  rewrite dec_bytes_firstn by exact Hld.
  destruct (Nat.ltb_spec (n - length (put_uvarint (l_index l)) - length (put_uvarint (l_term l))
              - length (put_uvarint (l_type l))) (length (enc_bytes (l_data l)))) as [|H4]; [reflexivity|].
  rewrite dec_bytes_firstn by exact Hle.
  destruct (Nat.ltb_spec (n - length (put_uvarint (l_index l)) - length (put_uvarint (l_term l))
              - length (put_uvarint (l_type l)) - length (enc_bytes (l_data l))) (length (enc_bytes (l_ext l)))) as [|H5]; [reflexivity|].
  rewrite (unmarshal_time_cut _ _ _ Hm); [reflexivity|lia].
Qed.
