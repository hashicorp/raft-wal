(* ReadmeSpecFacts.v -- the independent decoder reads everything the
   independent encoder lays out:  parse (layout h bs ++ zeros k) = Some (h, bs). *)
From RW Require Import Base.Bytes Base.BytesFacts Base.Crc32c Base.Crc32cFacts Fmt.Frame Fmt.FrameFacts Fmt.ReadmeSpec.
From RW Require Import Base.LiaSetup.
Open Scope N_scope.

Lemma rs_slice_app a r n : rs_slice (a ++ r) (len a) n = firstn (N.to_nat n) r.
Proof. unfold rs_slice. rewrite to_nat_len, skipn_app_exact. reflexivity. Qed.

Lemma rs_slice_exact a x r : rs_slice (a ++ x ++ r) (len a) (len x) = x.
Proof. rewrite rs_slice_app, to_nat_len. apply firstn_app_exact. Qed.

Lemma rs_slice_0 f n : rs_slice f 0 n = firstn (N.to_nat n) f.
Proof. reflexivity. Qed.

Lemma rs_pad_lt n : rs_pad n < 8.
Proof. unfold rs_pad. lia. Qed.

Lemma len_rs_frame t p : len (rs_frame t p) = rs_frame_size (len p).
Proof.
  unfold rs_frame, rs_frame_size. rewrite !len_app, len_zeros, len_le32.
  change (len [t; 0; 0; 0]) with 4. lia.
Qed.

Lemma rs_frame_size_ge n : 8 <= rs_frame_size n.
Proof. unfold rs_frame_size. lia. Qed.

Lemma len_rs_entries_cons p ps : len (rs_entries (p :: ps)) = rs_frame_size (len p) + len (rs_entries ps).
Proof. unfold rs_entries. cbn [flat_map]. rewrite len_app, len_rs_frame. reflexivity. Qed.

Lemma len_flat_le32 offs : len (flat_map le32 offs) = 4 * len offs.
Proof.
  induction offs as [|o r IH]; [reflexivity|]. cbn [flat_map]. rewrite len_app, len_le32, IH, len_cons. lia.
Qed.

Lemma wf_rs_frame t p : t < 256 -> wf_bytes p -> wf_bytes (rs_frame t p).
Proof.
  intros Ht Hp. unfold rs_frame. apply wf_bytes_app; split.
  - repeat constructor; unfold wf_byte; lia.
  - apply wf_bytes_app; split; [apply wf_le32|]. apply wf_bytes_app; split; [exact Hp|apply wf_zeros].
Qed.

Lemma wf_flat_le32 offs : wf_bytes (flat_map le32 offs).
Proof. induction offs as [|o r IH]; [constructor|]. cbn [flat_map]. apply wf_bytes_app; split; [apply wf_le32|exact IH]. Qed.

Lemma wf_rs_entries ps : Forall wf_bytes ps -> wf_bytes (rs_entries ps).
Proof.
  induction 1 as [|p r Hp _ IH]; [constructor|]. unfold rs_entries. cbn [flat_map].
  apply wf_bytes_app; split; [apply wf_rs_frame; [reflexivity|exact Hp]|exact IH].
Qed.

Lemma wf_rs_file_header h : wf_bytes (rs_file_header h).
Proof.
  unfold rs_file_header. repeat (apply wf_bytes_app; split); try apply wf_le32; try apply wf_le64;
    repeat constructor; unfold wf_byte, rs_version; lia.
Qed.

Definition mk_pst cur seal offs start done : rs_pst :=
  {| p_cur := cur; p_seal := seal; p_offs := offs; p_start := start; p_done := done |}.

Lemma hdr_slice t v x r a :
  rs_slice (a ++ ([t; 0; 0; 0] ++ le32 v ++ x) ++ r) (len a) 8 = [t; 0; 0; 0] ++ le32 v.
Proof.
  rewrite rs_slice_app. rewrite <- !app_assoc.
  change (N.to_nat 8) with (length ([t; 0; 0; 0] ++ le32 v)).
  rewrite (app_assoc [t; 0; 0; 0] (le32 v)). apply firstn_app_exact.
Qed.

Lemma pad_ok_zeros a n r : rs_pad_ok (a ++ zeros (N.to_nat n) ++ r) (len a) n = true.
Proof.
  unfold rs_pad_ok.
  assert (E : rs_slice (a ++ zeros (N.to_nat n) ++ r) (len a) n = zeros (N.to_nat n)).
  { replace n with (len (zeros (N.to_nat n))) at 2 by (rewrite len_zeros; lia). apply rs_slice_exact. }
  rewrite E. rewrite len_zeros, all_zero_zeros, N2Nat.id, N.eqb_refl. reflexivity.
Qed.

(* the three reads the parser makes of a frame with a payload: header, payload, padding *)
Lemma frame_slices a t p r (f := a ++ rs_frame t p ++ r) :
  rs_slice f (len a) 8 = [t; 0; 0; 0] ++ le32 (len p) /\
  rs_slice f (len a + 8) (len p) = p /\
  rs_pad_ok f (len a + 8 + len p) (rs_pad (len p)) = true.
Proof.
  subst f. unfold rs_frame. split; [apply hdr_slice|]. rewrite <- !app_assoc. split.
  - replace (len a + 8) with (len (a ++ [t; 0; 0; 0] ++ le32 (len p)))
      by (rewrite !len_app, len_le32; reflexivity).
    rewrite (app_assoc [t; 0; 0; 0]), (app_assoc a). apply rs_slice_exact.
  - replace (len a + 8 + len p) with (len (a ++ [t; 0; 0; 0] ++ le32 (len p) ++ p))
      by (rewrite !len_app, len_le32; change (len [t; 0; 0; 0]) with 4; lia).
    replace (a ++ [t; 0; 0; 0] ++ le32 (len p) ++ p ++ zeros (N.to_nat (rs_pad (len p))) ++ r)
      with ((a ++ [t; 0; 0; 0] ++ le32 (len p) ++ p) ++ zeros (N.to_nat (rs_pad (len p))) ++ r)
      by (rewrite <- !app_assoc; reflexivity).
    apply pad_ok_zeros.
Qed.

Lemma parse_entry_step fuel a p r st :
  len p <= rs_max_entry -> p_seal st = false ->
  rs_parse_frames (S fuel) (a ++ rs_frame rs_t_entry p ++ r) (len a) st =
  rs_parse_frames fuel (a ++ rs_frame rs_t_entry p ++ r) (len a + rs_frame_size (len p))
    (mk_pst (p_cur st ++ [p]) false (p_offs st ++ [len a]) (p_start st) (p_done st)).
Proof.
  intros Hp Hs. destruct (frame_slices a rs_t_entry p r) as (E0 & E1 & E2).
  cbn [rs_parse_frames]. rewrite E0.
  replace (len ([rs_t_entry; 0; 0; 0] ++ le32 (len p)) <? 8) with false by reflexivity.
  cbn [app nth skipn]. change (rs_t_entry =? rs_t_invalid) with false. change (rs_t_entry =? rs_t_entry) with true.
  rewrite rd32_le32 by (unfold rs_max_entry in Hp; lia).
  replace (rs_max_entry <? len p) with false by (symmetry; apply N.ltb_ge; exact Hp).
  rewrite E1, N.ltb_irrefl, E2, Hs. reflexivity.
Qed.

Lemma parse_entries ps : forall fuel a r st,
  Forall (fun p => len p <= rs_max_entry) ps -> p_seal st = false ->
  rs_parse_frames (length ps + fuel) (a ++ rs_entries ps ++ r) (len a) st =
  rs_parse_frames fuel (a ++ rs_entries ps ++ r) (len a + len (rs_entries ps))
    (mk_pst (p_cur st ++ ps) false (p_offs st ++ rs_offsets (len a) ps) (p_start st) (p_done st)).
Proof.
  induction ps as [|p ps IH]; intros fuel a r st Hb Hs.
  - cbn [length Nat.add rs_entries flat_map rs_offsets app]. rewrite N.add_0_r, !app_nil_r.
    destruct st; cbn in Hs; subst; reflexivity.
  - inversion Hb as [|? ? Hp Hps]; subst.
    cbn [length Nat.add]. unfold rs_entries. cbn [flat_map]. fold (rs_entries ps). rewrite <- app_assoc.
    rewrite parse_entry_step by assumption.
    replace (len a + rs_frame_size (len p)) with (len (a ++ rs_frame rs_t_entry p))
      by (rewrite len_app, len_rs_frame; reflexivity).
    rewrite (app_assoc a). rewrite IH by (assumption || reflexivity).
    cbn [mk_pst p_cur p_offs p_start p_done rs_offsets]. rewrite <- !app_assoc. cbn [app].
    rewrite !len_app, len_rs_frame. f_equal. lia.
Qed.

Lemma parse_index_step fuel a offs r st :
  4 * len offs < two32 -> p_seal st = false -> p_offs st = offs ->
  rs_parse_frames (S fuel) (a ++ rs_index offs ++ r) (len a) st =
  rs_parse_frames fuel (a ++ rs_index offs ++ r) (len a + len (rs_index offs))
    (mk_pst (p_cur st) true (p_offs st) (p_start st) (p_done st)).
Proof.
  intros Hl Hs Ho. unfold rs_index.
  set (pl := flat_map le32 offs).
  assert (Lpl : len pl = 4 * len offs) by apply len_flat_le32.
  destruct (frame_slices a rs_t_index pl r) as (E0 & E1 & E2).
  cbn [rs_parse_frames]. rewrite E0.
  replace (len ([rs_t_index; 0; 0; 0] ++ le32 (len pl)) <? 8) with false by reflexivity.
  cbn [app nth skipn]. change (rs_t_index =? rs_t_invalid) with false.
  change (rs_t_index =? rs_t_entry) with false. change (rs_t_index =? rs_t_index) with true.
  rewrite rd32_le32 by (unfold two32 in Hl; lia).
  rewrite E1, Ho. fold pl. rewrite beq_bytes_refl, E2, Hs. cbn [negb orb].
  rewrite len_rs_frame, <- Ho. reflexivity.
Qed.

Lemma parse_seal_step fuel a (seal : bool) offs r st :
  (seal = true -> 4 * len offs < two32) -> p_seal st = false -> p_offs st = offs ->
  rs_parse_frames ((if seal then 1 else 0) + fuel) (a ++ (if seal then rs_index offs else []) ++ r) (len a) st =
  rs_parse_frames fuel (a ++ (if seal then rs_index offs else []) ++ r)
    (len a + len (if seal then rs_index offs else []))
    (mk_pst (p_cur st) seal (p_offs st) (p_start st) (p_done st)).
Proof.
  intros Hl Hs Ho. destruct seal.
  - apply parse_index_step; auto.
  - cbn [Nat.add]. rewrite N.add_0_r. destruct st; cbn in Hs; subst; reflexivity.
Qed.

Lemma parse_commit_step fuel a0 mid r st :
  p_start st = len a0 -> wf_bytes mid ->
  rs_parse_frames (S fuel) ((a0 ++ mid) ++ rs_commit (crc32c mid) ++ r) (len (a0 ++ mid)) st =
  rs_parse_frames fuel ((a0 ++ mid) ++ rs_commit (crc32c mid) ++ r) (len (a0 ++ mid) + 8)
    (mk_pst [] false (p_offs st) (len (a0 ++ mid) + 8) (p_done st ++ [(p_cur st, p_seal st)])).
Proof.
  intros Hst Hw.
  remember ((a0 ++ mid) ++ rs_commit (crc32c mid) ++ r) as f eqn:Ef.
  assert (E0 : rs_slice f (len (a0 ++ mid)) 8 = [rs_t_commit; 0; 0; 0] ++ le32 (crc32c mid)).
  { rewrite Ef. unfold rs_commit. rewrite rs_slice_app.
    change (N.to_nat 8) with (length ([rs_t_commit; 0; 0; 0] ++ le32 (crc32c mid))).
    apply firstn_app_exact. }
  assert (E1 : rs_slice f (len a0) (len (a0 ++ mid) - len a0) = mid).
  { rewrite Ef. replace (len (a0 ++ mid) - len a0) with (len mid) by (rewrite len_app; lia).
    rewrite <- app_assoc. apply rs_slice_exact. }
  clear Ef. cbn [rs_parse_frames]. rewrite E0.
  replace (len ([rs_t_commit; 0; 0; 0] ++ le32 (crc32c mid)) <? 8) with false by reflexivity.
  cbn [app nth skipn]. change (rs_t_commit =? rs_t_invalid) with false.
  change (rs_t_commit =? rs_t_entry) with false. change (rs_t_commit =? rs_t_index) with false.
  change (rs_t_commit =? rs_t_commit) with true.
  pose proof (crc32c_lt mid Hw) as Hc. rewrite rd32_le32 by (unfold two32 in Hc; exact Hc).
  rewrite Hst, E1, N.eqb_refl. reflexivity.
Qed.

Definition rs_batch_wf (b : rs_batch) : Prop :=
  Forall (fun p => wf_bytes p /\ len p <= rs_max_entry) (fst b).

Definition rs_nframes (bs : list rs_batch) : nat :=
  fold_right (fun (b : rs_batch) (n : nat) => (length (fst b) + (if snd b then 1 else 0) + 1 + n)%nat) 0%nat bs.

(* [a0]: the bytes before the open CRC range; [pend]: what of that range is already laid out (the
   file header before the first batch, nothing later); [offs], [done]: offsets and batches so far.
   One unit of fuel per frame, and one more for the short or zero header at which the loop stops. *)
Lemma parse_batches bs : forall fuel a0 pend offs done k,
  Forall rs_batch_wf bs ->
  len (a0 ++ pend ++ rs_batches (len (a0 ++ pend)) pend offs bs) < two32 ->
  wf_bytes pend ->
  rs_parse_frames (rs_nframes bs + S fuel)
    ((a0 ++ pend) ++ rs_batches (len (a0 ++ pend)) pend offs bs ++ zeros k) (len (a0 ++ pend))
    (mk_pst [] false offs (len a0) done) = Some (done ++ bs).
Proof.
  induction bs as [|[ps seal] bs IH]; intros fuel a0 pend offs done k Hwf Hlen Hpw.
  - cbn [rs_nframes fold_right Nat.add rs_batches app]. rewrite app_nil_r.
    cbn [rs_parse_frames]. rewrite rs_slice_app.
    destruct (Nat.lt_ge_cases k 8) as [Hk|Hk].
    + replace (len (firstn (N.to_nat 8) (zeros k)) <? 8) with true; [reflexivity|].
      symmetry. apply N.ltb_lt. unfold len. rewrite firstn_length, zeros_length. lia.
    + replace k with (8 + (k - 8))%nat by lia. rewrite zeros_app.
      change (N.to_nat 8) with (length (zeros 8)). rewrite firstn_app_exact. reflexivity.
  - inversion Hwf as [|? ? Hb Hbs]; subst. unfold rs_batch_wf in Hb. cbn [fst] in Hb.
    cbn [rs_batches] in *.
    set (pos := len (a0 ++ pend)) in *.
    set (offs' := offs ++ rs_offsets pos ps) in *.
    set (body := rs_entries ps ++ (if seal then rs_index offs' else [])) in *.
    set (rest := rs_batches (pos + len body + 8) [] offs' bs) in *.
    assert (Hbnd : Forall (fun p => len p <= rs_max_entry) ps)
      by (eapply Forall_impl; [|exact Hb]; intros p [_ H]; exact H).
    assert (Hpw2 : Forall wf_bytes ps)
      by (eapply Forall_impl; [|exact Hb]; intros p [H _]; exact H).
    cbn [rs_nframes fold_right fst snd]. fold (rs_nframes bs).
    replace (length ps + (if seal then 1 else 0) + 1 + rs_nframes bs + S fuel)%nat
      with (length ps + ((if seal then 1 else 0) + (1 + (rs_nframes bs + S fuel))))%nat by lia.
    set (cfr := rs_commit (crc32c (pend ++ body))) in *.
    assert (Efile : (a0 ++ pend) ++ (body ++ cfr ++ rest) ++ zeros k =
                    (a0 ++ pend) ++ rs_entries ps ++ (if seal then rs_index offs' else []) ++ cfr ++ rest ++ zeros k)
      by (unfold body; rewrite <- !app_assoc; reflexivity).
    rewrite Efile. unfold pos at 1. rewrite parse_entries by (assumption || reflexivity).
    cbn [mk_pst p_cur p_offs p_start p_done app]. fold pos. fold offs'.
    rewrite (app_assoc (a0 ++ pend) (rs_entries ps)).
    replace (pos + len (rs_entries ps)) with (len ((a0 ++ pend) ++ rs_entries ps))
      by (rewrite (len_app (a0 ++ pend)); reflexivity).
    rewrite parse_seal_step; [| |reflexivity|reflexivity].
    2:{ intros ->. unfold body in Hlen. rewrite !len_app in Hlen. unfold rs_index in Hlen.
        rewrite len_rs_frame, len_flat_le32 in Hlen. unfold rs_frame_size in Hlen. lia. }
    cbn [mk_pst p_cur p_offs p_start p_done].
    assert (Ef : ((a0 ++ pend) ++ rs_entries ps) ++ (if seal then rs_index offs' else []) ++ cfr ++ rest ++ zeros k
                 = (a0 ++ (pend ++ body)) ++ rs_commit (crc32c (pend ++ body)) ++ rest ++ zeros k)
      by (unfold body, cfr; rewrite <- !app_assoc; reflexivity).
    rewrite Ef.
    replace (len ((a0 ++ pend) ++ rs_entries ps) + len (if seal then rs_index offs' else []))
      with (len (a0 ++ pend ++ body)) by (unfold body; rewrite !len_app, !N.add_assoc; reflexivity).
    cbn [Nat.add].
    assert (Hbw : wf_bytes (pend ++ body)).
    { apply wf_bytes_app; split; [exact Hpw|]. unfold body. apply wf_bytes_app; split.
      - apply wf_rs_entries. exact Hpw2.
      - destruct seal; [|constructor]. unfold rs_index. apply wf_rs_frame; [reflexivity|apply wf_flat_le32]. }
    rewrite parse_commit_step by (reflexivity || exact Hbw).
    cbn [mk_pst p_cur p_seal p_offs p_done].
    set (a0' := a0 ++ pend ++ body ++ rs_commit (crc32c (pend ++ body))).
    assert (E1 : len (a0 ++ pend ++ body) + 8 = len a0').
    { unfold a0'. rewrite !len_app. change (len (rs_commit (crc32c (pend ++ body)))) with 8. lia. }
    assert (E2 : (a0 ++ pend ++ body) ++ rs_commit (crc32c (pend ++ body)) ++ rest ++ zeros k
                 = a0' ++ rest ++ zeros k).
    { unfold a0'. rewrite <- !app_assoc. reflexivity. }
    assert (E3 : pos + len body + 8 = len a0').
    { rewrite <- E1. unfold pos. rewrite !len_app. lia. }
    rewrite E1, E2. unfold rest. rewrite E3.
    pose proof (IH fuel a0' [] offs' (done ++ [(ps, seal)]) k Hbs) as IH'.
    rewrite !app_nil_r in IH'. cbn [app] in IH'. rewrite <- app_assoc in IH'. cbn [app] in IH'.
    apply IH'; [|constructor].
    rewrite <- E3. fold rest. unfold a0'. fold cfr. rewrite <- !app_assoc. exact Hlen.
Qed.

Lemma len_rs_entries_ge ps : 8 * N.of_nat (length ps) <= len (rs_entries ps).
Proof.
  induction ps as [|p r IH]; [change (len (rs_entries [])) with 0; cbn [length]; lia|].
  rewrite len_rs_entries_cons. cbn [length].
  pose proof (rs_frame_size_ge (len p)). lia.
Qed.

Lemma nframes_bound bs : forall pos pend offs,
  8 * N.of_nat (rs_nframes bs) <= len (rs_batches pos pend offs bs).
Proof.
  induction bs as [|[ps seal] bs IH]; intros pos pend offs; [cbn; lia|].
  cbn [rs_batches rs_nframes fold_right fst snd]. fold (rs_nframes bs).
  rewrite !len_app. change (len (rs_commit _)) with 8.
  match goal with |- context [rs_batches ?p [] ?o bs] => pose proof (IH p [] o) as IH' end.
  pose proof (len_rs_entries_ge ps).
  destruct seal.
  - unfold rs_index in *. rewrite len_rs_frame in *.
    pose proof (rs_frame_size_ge (len (flat_map le32 (offs ++ rs_offsets pos ps)))). lia.
  - change (len []) with 0 in *. lia.
Qed.

Definition rs_header_wf (h : rs_header) : Prop := h_base h < two64 /\ h_id h < two64 /\ h_codec h < two64.

Lemma parse_header_layout h r :
  rs_header_wf h -> rs_parse_header (rs_file_header h ++ r) = Some h.
Proof.
  intros (Hb & Hi & Hc). unfold rs_parse_header. rewrite rs_slice_0.
  change (N.to_nat rs_header_len) with (length (rs_file_header h)). rewrite firstn_app_exact.
  replace (len (rs_file_header h) <? rs_header_len) with false by reflexivity.
  unfold rs_file_header.
  rewrite rd32_le32_app by (unfold rs_magic; lia). rewrite N.eqb_refl. cbn [negb].
  replace (nth 7 (le32 rs_magic ++ [0; 0; 0] ++ [rs_version] ++ le64 (h_base h) ++ le64 (h_id h) ++ le64 (h_codec h)) 0)
    with rs_version by reflexivity.
  rewrite N.eqb_refl. cbn [negb].
  change (skipn 8 (le32 rs_magic ++ [0; 0; 0] ++ [rs_version] ++ ?x)) with x.
  change (skipn 16 (le32 rs_magic ++ [0; 0; 0] ++ [rs_version] ++ le64 (h_base h) ++ ?x)) with x.
  change (skipn 24 (le32 rs_magic ++ [0; 0; 0] ++ [rs_version] ++ le64 (h_base h) ++ le64 (h_id h) ++ ?x)) with x.
  unfold two64 in *. rewrite !rd64_le64_app by assumption. rewrite rd64_le64 by assumption.
  destruct h; reflexivity.
Qed.

(* the independent decoder reads everything the independent encoder lays out,
   whatever the amount of preallocated zero space behind it *)
Theorem parse_layout h bs k :
  bs <> [] -> rs_header_wf h -> Forall rs_batch_wf bs -> len (layout h bs) < two32 ->
  parse (layout h bs ++ zeros k) = Some (h, bs).
Proof.
  intros Hne Hh Hwf Hlen. unfold layout in *. destruct bs as [|b0 bs0] eqn:Eb; [congruence|].
  rewrite <- Eb in *. clear Eb Hne.
  unfold parse. rewrite <- app_assoc. rewrite parse_header_layout by exact Hh.
  set (hd := rs_file_header h) in *.
  set (f := hd ++ rs_batches rs_header_len hd [] bs ++ zeros k).
  pose proof (nframes_bound bs rs_header_len hd []) as Hn.
  assert (Hfuel : exists fuel, S (S (length f / 8)) = (rs_nframes bs + S fuel)%nat).
  { exists (S (length f / 8) - rs_nframes bs)%nat.
    assert (8 * rs_nframes bs <= length f)%nat.
    { unfold f. rewrite !app_length. unfold len in Hn. lia. }
    pose proof (Nat.div_mod (length f) 8 ltac:(lia)).
    pose proof (Nat.mod_upper_bound (length f) 8 ltac:(lia)). lia. }
  destruct Hfuel as [fuel ->].
  pose proof (parse_batches bs fuel [] hd [] [] k Hwf) as P. cbn [app] in P.
  change (len hd) with rs_header_len in P. unfold f.
  change (mk_pst [] false [] (len []) []) with
    {| p_cur := []; p_seal := false; p_offs := []; p_start := 0; p_done := [] |} in P.
  rewrite P; [reflexivity|exact Hlen|apply wf_rs_file_header].
Qed.
