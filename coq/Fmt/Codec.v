(* Codec.v -- model of codec.go (BinaryCodec) incl. encoding/binary Uvarint and
   time.Time Marshal/UnmarshalBinary (projected to sec/nsec/zone offset). *)
From RW Require Import Base.Bytes.
Open Scope N_scope.

(* ---- binary.PutUvarint / binary.Uvarint --------------------------------- *)
Fixpoint put_uvarint_aux (fuel : nat) (v : N) : bytes :=
  match fuel with
  | O => []
  | S f => if v <? 128 then [v] else (v mod 128 + 128) :: put_uvarint_aux f (v / 128)
  end.
Definition put_uvarint (v : N) : bytes := put_uvarint_aux 10 v.

(* result (value, n) exactly as binary.Uvarint: n = 0 buffer too small,
   n < 0 overflow with -n bytes read *)
Fixpoint get_uvarint_aux (buf : bytes) (i : nat) (x : N) (s : N) : N * Z :=
  match buf with
  | [] => (0, 0%Z)
  | b :: r =>
      if Nat.eqb i 10 then (0, (- (Z.of_nat i + 1))%Z)
      else if b <? 128 then
             if Nat.eqb i 9 && (1 <? b) then (0, (- (Z.of_nat i + 1))%Z)
             else ((x + b * 2 ^ s) mod two64, (Z.of_nat i + 1)%Z)
           else get_uvarint_aux r (S i) ((x + (b mod 128) * 2 ^ s) mod two64) (s + 7)
  end.
Definition get_uvarint (buf : bytes) : N * Z := get_uvarint_aux buf 0 0 0.

(* ---- time.Time projection ------------------------------------------------ *)
Record gotime := { t_sec : Z;            (* seconds since year 1 (internal)   *)
                   t_nsec : Z;           (* int32 as stored                   *)
                   t_zone : option Z }.  (* None = UTC, Some off = seconds east *)

Definition marshal_time (t : gotime) : option bytes :=
  let hdr (version offmin : Z) :=
      [Z.to_N version] ++ be64 (z_to_u two64 (t_sec t)) ++ be32 (z_to_u two32 (t_nsec t))
        ++ be16 (z_to_u two16 offmin) in
  match t_zone t with
  | None => Some (hdr 1%Z (-1)%Z)
  | Some off =>
      let offsec := Z.rem off 60 in
      let offmin := Z.quot off 60 in
      if ((offmin <? -32768) || (offmin =? -1) || (32767 <? offmin))%Z then None
      else if (offsec =? 0)%Z then Some (hdr 1%Z offmin)
           else Some (hdr 2%Z offmin ++ [z_to_u 256 offsec])
  end.

Definition unmarshal_time (buf : bytes) : option gotime :=
  match buf with
  | [] => None
  | version :: rest =>
      if negb ((version =? 1) || (version =? 2)) then None
      else
        let want := if version =? 2 then 16%nat else 15%nat in
        if negb (Nat.eqb (length buf) want) then None
        else
          let sec := u_to_z two64 two63 (rdbe64 rest) in
          let nsec := u_to_z two32 two31 (rdbe32 (skipn 8 rest)) in
          let offmin := u_to_z two16 two15 (rdbe16 (skipn 12 rest)) in
          let offs := if version =? 2 then Z.of_N (nth0 14 rest) else 0%Z in
          let off := ((offmin * 60) + offs)%Z in
          Some {| t_sec := sec; t_nsec := nsec;
                  t_zone := if (off =? -60)%Z then None else Some off |}
  end.

(* ---- raft.Log and BinaryCodec ------------------------------------------- *)
Record log := { l_index : N; l_term : N; l_type : N;
                l_data : bytes; l_ext : bytes; l_time : gotime }.

Definition enc_bytes (bs : bytes) : bytes := put_uvarint (len bs) ++ bs.

Definition encode_log (l : log) : option bytes :=
  match marshal_time (l_time l) with
  | None => None
  | Some tb =>
      Some (put_uvarint (l_index l) ++ put_uvarint (l_term l) ++ put_uvarint (l_type l)
              ++ enc_bytes (l_data l) ++ enc_bytes (l_ext l) ++ tb)
  end.

Inductive dres (A : Type) := DOk (a : A) (rest : bytes) | DErr.
Arguments DOk {A}. Arguments DErr {A}.

(* decoder.varint (codec.go): binary.Uvarint reports a buffer that ends inside the varint, or a
   value over 64 bits, by n <= 0, and the decoder then sets its error instead of slicing *)
Definition dec_varint (buf : bytes) : dres N :=
  let '(v, n) := get_uvarint buf in
  if (n <=? 0)%Z then DErr else DOk v (skipn (Z.to_nat n) buf).

Definition dec_bytes (buf : bytes) : dres bytes :=
  match dec_varint buf with
  | DErr => DErr
  | DOk n rest =>
      if n =? 0 then DOk [] rest
      else if len rest <? n then DErr
           else DOk (firstn (N.to_nat n) rest) (skipn (N.to_nat n) rest)
  end.

Definition decode_log (buf : bytes) : option log :=
  match dec_varint buf with DErr => None | DOk idx r1 =>
  match dec_varint r1 with DErr => None | DOk term r2 =>
  match dec_varint r2 with DErr => None | DOk typ r3 =>
  match dec_bytes r3 with DErr => None | DOk data r4 =>
  match dec_bytes r4 with DErr => None | DOk ext r5 =>
  match unmarshal_time r5 with None => None | Some t =>
    Some {| l_index := idx; l_term := term; l_type := typ mod 256;
            l_data := data; l_ext := ext; l_time := t |}
  end end end end end end.

(* well-formedness: what a Go raft.Log can hold *)
Definition wf_time (t : gotime) : Prop :=
  (- Z.of_N two63 <= t_sec t < Z.of_N two63)%Z /\ (0 <= t_nsec t < 1000000000)%Z /\
  match t_zone t with
  | None => True
  | Some off => (-32768 <= Z.quot off 60 <= 32767)%Z /\ Z.quot off 60 <> (-1)%Z
                /\ (0 <= Z.rem off 60)%Z
  end.

Definition wf_log (l : log) : Prop :=
  l_index l < two64 /\ l_term l < two64 /\ l_type l < 256 /\
  wf_bytes (l_data l) /\ wf_bytes (l_ext l) /\
  len (l_data l) < two64 /\ len (l_ext l) < two64 /\ wf_time (l_time l).
