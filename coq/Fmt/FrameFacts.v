(* FrameFacts.v -- characterising lemmas of Fmt/Frame.v and of the byte slicing
   used by the segment models (lengths, alignment, reading back what was
   written).  Proofs only; the executable definitions are in Frame.v. *)
From RW Require Import Base.Bytes Base.BytesFacts Base.Crc32c Base.Crc32cFacts Fmt.Frame Gen.Constants.
From RW Require Import Base.LiaSetup.
Open Scope N_scope.

Lemma len_app a b : len (a ++ b) = len a + len b.
Proof. unfold len. rewrite app_length. lia. Qed.
Lemma len_nil : len [] = 0.
Proof. reflexivity. Qed.
Lemma len_cons x a : len (x :: a) = 1 + len a.
Proof. unfold len. cbn [length]. lia. Qed.
Lemma len_zeros n : len (zeros n) = N.of_nat n.
Proof. unfold len. rewrite zeros_length. reflexivity. Qed.
Lemma len_le32 v : len (le32 v) = 4.
Proof. reflexivity. Qed.
Lemma len_le64 v : len (le64 v) = 8.
Proof. reflexivity. Qed.
Lemma len_firstn_le n (a : bytes) : len (firstn n a) <= len a.
Proof. unfold len. rewrite firstn_length. lia. Qed.
Lemma to_nat_len a : N.to_nat (len a) = length a.
Proof. unfold len. lia. Qed.

Lemma zeros_app n m : zeros (n + m) = zeros n ++ zeros m.
Proof. unfold zeros. apply repeat_app. Qed.
Lemma firstn_zeros n m : firstn n (zeros m) = zeros (Nat.min n m).
Proof.
  revert m; induction n as [|n IH]; intros [|m]; try reflexivity.
  cbn. f_equal. apply IH.
Qed.
Lemma skipn_zeros n m : skipn n (zeros m) = zeros (m - n).
Proof.
  revert m; induction n as [|n IH]; intros [|m]; try reflexivity. cbn. apply IH.
Qed.
Lemma all_zero_app a b : all_zero (a ++ b) = all_zero a && all_zero b.
Proof. induction a as [|x a IH]; cbn; [reflexivity|]. rewrite IH. apply andb_assoc. Qed.

(* overwrite at the end of a prefix *)
Lemma overwrite_app a x w : overwrite (a ++ x) (length a) w = a ++ w ++ skipn (length w) x.
Proof. induction a as [|b a IH]; cbn; [reflexivity|]. f_equal. exact IH. Qed.
Lemma overwrite_0 x w : overwrite x 0 w = w ++ skipn (length w) x.
Proof. reflexivity. Qed.

Lemma pad_len_lt n : pad_len n < 8.
Proof. unfold pad_len. lia. Qed.
Lemma pad_len_aligned n : (n + pad_len n) mod 8 = 0.
Proof. unfold pad_len. lia. Qed.
Lemma pad_len_0 n : n mod 8 = 0 -> pad_len n = 0.
Proof. unfold pad_len. lia. Qed.
Lemma add_aligned a b : a mod 8 = 0 -> b mod 8 = 0 -> (a + b) mod 8 = 0.
Proof. intros Ha Hb. rewrite N.add_mod, Ha, Hb by discriminate. reflexivity. Qed.
Lemma enc_frame_size_aligned n : enc_frame_size n mod 8 = 0.
Proof. unfold enc_frame_size, pad_len. lia. Qed.
Lemma enc_frame_size_ge n : 8 <= enc_frame_size n.
Proof. unfold enc_frame_size. lia. Qed.

Lemma frame_header_length t v : length (frame_header t v) = 8%nat.
Proof. reflexivity. Qed.
Lemma len_frame_header t v : len (frame_header t v) = 8.
Proof. reflexivity. Qed.
Lemma len_commit_frame c : len (commit_frame c) = 8.
Proof. reflexivity. Qed.
Lemma len_file_header i : len (file_header i) = 32.
Proof. reflexivity. Qed.
Lemma file_header_length i : length (file_header i) = 32%nat.
Proof. reflexivity. Qed.

Lemma len_enc_frame t p : len (enc_frame t p) = enc_frame_size (len p).
Proof.
  unfold enc_frame, enc_frame_size. rewrite !len_app, len_frame_header, len_zeros. lia.
Qed.

Lemma len_index_payload offs : len (index_payload offs) = 4 * len offs.
Proof.
  unfold index_payload. induction offs as [|o r IH]; [reflexivity|].
  cbn [flat_map]. rewrite len_app, len_le32, IH. unfold len. cbn [length]. lia.
Qed.

(* the index frame is an ordinary frame (type Index) whose payload is the
   offset array: the explicit 4-byte zero word is the generic padding *)
Lemma index_frame_is_frame offs :
  index_frame offs = enc_frame FrameIndex (index_payload offs).
Proof.
  unfold index_frame, enc_frame. rewrite len_index_payload. do 2 f_equal.
  unfold pad_len. destruct (N.odd (len offs)) eqn:E.
  - assert (H : len offs mod 2 = 1).
    { rewrite <- N.bit0_mod, N.bit0_odd, E. reflexivity. }
    replace ((8 - (4 * len offs) mod 8) mod 8) with 4 by lia. reflexivity.
  - assert (H : len offs mod 2 = 0).
    { rewrite <- N.bit0_mod, N.bit0_odd, E. reflexivity. }
    replace ((8 - (4 * len offs) mod 8) mod 8) with 0 by lia. reflexivity.
Qed.

Lemma len_index_frame offs : len (index_frame offs) = enc_frame_size (4 * len offs).
Proof. rewrite index_frame_is_frame, len_enc_frame, len_index_payload. reflexivity. Qed.

Lemma index_frame_size_spec offs : offs <> [] -> index_frame_size (len offs) = len (index_frame offs).
Proof.
  intros H. unfold index_frame_size. rewrite len_index_frame.
  destruct (len offs =? 0) eqn:E.
  - apply N.eqb_eq in E. destruct offs; [congruence|]. rewrite len_cons in E. lia.
  - f_equal. lia.
Qed.

Lemma read_frame_header_hdr t v r :
  (t = FrameEntry \/ t = FrameIndex \/ t = FrameCommit) -> v < two32 ->
  read_frame_header (frame_header t v ++ r) = FH t v.
Proof.
  intros Ht Hv. unfold read_frame_header.
  replace (len (frame_header t v ++ r) <? frame_header_len) with false.
  2:{ symmetry. apply N.ltb_ge. rewrite len_app, len_frame_header. unfold frame_header_len. lia. }
  replace (nth0 0 (frame_header t v ++ r)) with t by reflexivity.
  change (skipn 4 (frame_header t v ++ r)) with (le32 v ++ r). rewrite rd32_le32_app by exact Hv.
  destruct Ht as [->|[->| ->]]; reflexivity.
Qed.

Lemma read_frame_header_short b : len b < 8 -> read_frame_header b = FHShort.
Proof.
  intros H. unfold read_frame_header. replace (len b <? frame_header_len) with true; [reflexivity|].
  symmetry. apply N.ltb_lt. exact H.
Qed.

Lemma read_frame_header_zero r : read_frame_header (zeros 8 ++ r) = FHZero.
Proof.
  unfold read_frame_header.
  replace (len (zeros 8 ++ r) <? frame_header_len) with false; [reflexivity|].
  symmetry. apply N.ltb_ge. rewrite len_app, len_zeros. unfold frame_header_len. lia.
Qed.

(* reading a frame header only looks at the first 8 bytes *)
Lemma read_frame_header_firstn8 b : 8 <= len b -> read_frame_header (firstn 8 b) = read_frame_header b.
Proof.
  intros H. unfold len in H.
  do 8 (destruct b as [|? b]; [cbn [length] in H; lia|]).
  unfold read_frame_header.
  replace (len (firstn 8 (n :: n0 :: n1 :: n2 :: n3 :: n4 :: n5 :: n6 :: b)) <? frame_header_len) with false by reflexivity.
  replace (len (n :: n0 :: n1 :: n2 :: n3 :: n4 :: n5 :: n6 :: b) <? frame_header_len) with false.
  - reflexivity.
  - symmetry. apply N.ltb_ge. unfold frame_header_len. exact H.
Qed.

Lemma read_file_header_hdr info r :
  si_base info < two64 -> si_id info < two64 -> si_codec info < two64 ->
  read_file_header (file_header info ++ r) = Some (si_base info, si_id info, si_codec info).
Proof.
  intros Hb Hi Hc. unfold read_file_header.
  replace (len (file_header info ++ r) <? file_header_len) with false.
  2:{ symmetry. apply N.ltb_ge. rewrite len_app, len_file_header. unfold file_header_len. lia. }
  unfold file_header. rewrite <- !app_assoc.
  assert (E0 : rd64 (le32 magic ++ [0; 0; 0; 0] ++ le64 (si_base info) ++ le64 (si_id info) ++ le64 (si_codec info) ++ r) = magic).
  { unfold rd64. rewrite rd32_le32_app by (unfold magic; lia).
    change (skipn 4 (le32 magic ++ ?x)) with x. reflexivity. }
  rewrite E0, N.eqb_refl. cbn [negb].
  change (skipn 8 (le32 magic ++ [0; 0; 0; 0] ++ ?x)) with x.
  change (skipn 16 (le32 magic ++ [0; 0; 0; 0] ++ le64 (si_base info) ++ ?x)) with x.
  change (skipn 24 (le32 magic ++ [0; 0; 0; 0] ++ le64 (si_base info) ++ le64 (si_id info) ++ ?x)) with x.
  unfold two64 in *. rewrite !rd64_le64_app by assumption. reflexivity.
Qed.

Lemma validate_file_header_refl info :
  validate_file_header (si_base info, si_id info, si_codec info) info = true.
Proof. unfold validate_file_header. rewrite !N.eqb_refl. reflexivity. Qed.

Lemma wf_frame_header t v : t < 256 -> wf_bytes (frame_header t v).
Proof.
  intros H. unfold frame_header. apply wf_bytes_app; split; [|apply wf_le32].
  repeat constructor; unfold wf_byte; lia.
Qed.
Lemma wf_enc_frame t p : t < 256 -> wf_bytes p -> wf_bytes (enc_frame t p).
Proof.
  intros Ht Hp. unfold enc_frame. apply wf_bytes_app; split; [apply wf_frame_header; exact Ht|].
  apply wf_bytes_app; split; [exact Hp|apply wf_zeros].
Qed.
Lemma wf_index_payload offs : wf_bytes (index_payload offs).
Proof.
  unfold index_payload. induction offs as [|o r IH]; [constructor|].
  cbn [flat_map]. apply wf_bytes_app; split; [apply wf_le32|exact IH].
Qed.
Lemma wf_index_frame offs : wf_bytes (index_frame offs).
Proof. rewrite index_frame_is_frame. apply wf_enc_frame; [reflexivity|apply wf_index_payload]. Qed.
Lemma wf_commit_frame c : wf_bytes (commit_frame c).
Proof. apply wf_frame_header. reflexivity. Qed.
Lemma wf_file_header info : wf_bytes (file_header info).
Proof.
  unfold file_header. repeat (apply wf_bytes_app; split); try apply wf_le32; try apply wf_le64.
  repeat constructor; unfold wf_byte; lia.
Qed.
