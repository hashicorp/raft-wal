(* SourceTie.v -- the hand-written format model agrees with Gen/Source.v, the
   file `wh translate` regenerates from /repo's Go source on every run
   (unexported constants as the Go type checker evaluates them; the integer
   functions of segment/format.go translated expression by expression).
   A change to one of these constants or functions in the code breaks a proof
   in this file. *)
From Coq Require Import ZArith NArith Lia List.
From RW Require Import Base.Bytes Fmt.Frame Gen.Constants Gen.Source.
Import ListNotations.

Lemma tie_file_header_len : Z.of_N file_header_len = segment_fileHeaderLen.   Proof. reflexivity. Qed.
Lemma tie_frame_header_len : Z.of_N frame_header_len = segment_frameHeaderLen. Proof. reflexivity. Qed.
Lemma tie_magic : Z.of_N magic = segment_magic.                                Proof. reflexivity. Qed.
Lemma tie_min_buf_size : Z.of_N min_buf_size = segment_minBufSize.             Proof. reflexivity. Qed.
Lemma tie_version : segment_version = 0%Z.                                     Proof. reflexivity. Qed.
Lemma tie_max_entry_size : Z.of_N MaxEntrySize = segment_MaxEntrySize.         Proof. reflexivity. Qed.
Lemma tie_frame_types :
  (Z.of_N FrameInvalid, Z.of_N FrameEntry, Z.of_N FrameIndex, Z.of_N FrameCommit)
  = (segment_FrameInvalid, segment_FrameEntry, segment_FrameIndex, segment_FrameCommit).
Proof. reflexivity. Qed.
Lemma tie_codec_ids :
  (Z.of_N FirstExternalCodecID, Z.of_N CodecBinaryV1) = (wal_FirstExternalCodecID, wal_CodecBinaryV1).
Proof. reflexivity. Qed.
Lemma tie_default_segment_size : Z.of_N DefaultSegmentSize = wal_var_DefaultSegmentSize. Proof. reflexivity. Qed.
Lemma tie_extension_magic : Z.of_N ExtensionMagicPrefix = verifier_ExtensionMagicPrefix. Proof. reflexivity. Qed.
Lemma tie_meta_names :
  (MetaFileName, MetaBucket, StableBucket, MetaKey)
  = (metadb_FileName, metadb_MetaBucket, metadb_StableBucket, metadb_MetaKey).
Proof. reflexivity. Qed.
(* "%020d-%016x.wal": the pattern [file_name] implements (20 decimal digits of
   BaseIndex, '-', 16 lower-case hex digits of ID, ".wal") *)
Lemma tie_file_name_pattern :
  segment_segmentFileNamePattern = [37; 48; 50; 48; 100; 45; 37; 48; 49; 54; 120; 46; 119; 97; 108]%N.
Proof. reflexivity. Qed.
Lemma tie_file_name_probe : file_name 1234567 11259375 = FileNameProbe.
Proof. vm_compute. reflexivity. Qed.
(* the `retired` bit of state.refCount lies above every count the model allows *)
Lemma tie_retired : wal_retired = (2 ^ 30)%Z. Proof. reflexivity. Qed.

Lemma land7 x : Z.land x 7 = (x mod 8)%Z.
Proof. change 7%Z with (Z.ones 3). rewrite Z.land_ones by lia. reflexivity. Qed.

Theorem tie_pad_len n : Z.of_N (pad_len n) = segment_fn_padLen (Z.of_N n).
Proof.
  unfold pad_len, segment_fn_padLen, segment_frameHeaderLen.
  rewrite Z.rem_mod_nonneg, land7 by lia.
  rewrite N2Z.inj_mod, N2Z.inj_sub by (pose proof (N.mod_upper_bound n 8); lia).
  rewrite N2Z.inj_mod. reflexivity.
Qed.

Theorem tie_enc_frame_size n : Z.of_N (enc_frame_size n) = segment_fn_encodedFrameSize (Z.of_N n).
Proof.
  unfold enc_frame_size, segment_fn_encodedFrameSize, segment_frameHeaderLen.
  rewrite <- tie_pad_len. lia.
Qed.

Theorem tie_index_frame_size n : Z.of_N (index_frame_size n) = segment_fn_indexFrameSize (Z.of_N n).
Proof.
  unfold index_frame_size, segment_fn_indexFrameSize.
  destruct (N.eqb_spec n 0) as [->|Hn]; [reflexivity|].
  destruct (Z.eqb_spec (Z.of_N n) 0) as [Hz|_]; [lia|].
  rewrite tie_enc_frame_size. f_equal. lia.
Qed.

(* the translation keeps Go's truncated division; it does not model wrap-around
   at 64 bits: for arguments below 2^62 no intermediate result leaves int64 *)
Lemma no_wrap n : (Z.of_N n < 2 ^ 62)%Z ->
  (0 <= segment_fn_padLen (Z.of_N n) < 8 /\
   0 <= segment_fn_encodedFrameSize (Z.of_N n) < 2 ^ 63)%Z.
Proof.
  intros H. rewrite <- tie_enc_frame_size, <- tie_pad_len.
  unfold enc_frame_size, pad_len.
  assert (E62 : (2 ^ 62 = 4611686018427387904)%Z) by reflexivity.
  assert (E63 : (2 ^ 63 = 9223372036854775808)%Z) by reflexivity.
  rewrite E62 in H. rewrite E63.
  pose proof (N.mod_upper_bound (8 - n mod 8) 8).
  remember ((8 - n mod 8) mod 8)%N as p. lia.
Qed.
