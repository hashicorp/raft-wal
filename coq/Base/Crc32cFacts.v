(* Crc32cFacts.v -- the running CRC of Base/Crc32c.v over a concatenation, its 32-bit bound,
   and the standard check value. *)
From RW Require Import Base.Bytes Base.BytesFacts Base.Crc32c.
From RW Require Import Base.LiaSetup.
Open Scope N_scope.

Lemma crc_raw_app c a b : crc_raw c (a ++ b) = crc_raw (crc_raw c a) b.
Proof. unfold crc_raw. apply fold_left_app. Qed.

Lemma crc_update_app c a b : crc_update c (a ++ b) = crc_update (crc_update c a) b.
Proof. unfold crc_update. rewrite lxor_cancel_r, crc_raw_app. reflexivity. Qed.

Lemma crc_update_nil c : crc_update c [] = c.
Proof. unfold crc_update, crc_raw. simpl. apply lxor_cancel_r. Qed.

Lemma crc32c_app a b : crc32c (a ++ b) = crc_update (crc32c a) b.
Proof. unfold crc32c. apply crc_update_app. Qed.

(* the CRC stays a 32-bit word *)
Lemma lxor_lt32 a b : a < two32 -> b < two32 -> N.lxor a b < two32.
Proof. apply (lxor_lt_pow2 a b 32). Qed.

Lemma crc_shift1_lt c : c < two32 -> crc_shift1 c < two32.
Proof.
  intros H. unfold crc_shift1.
  assert (D : N.div2 c < two32) by (rewrite N.div2_div; unfold two32 in *; lia).
  destruct (N.odd c); [|exact D]. apply lxor_lt32; [exact D|reflexivity].
Qed.

Lemma crc_byte_lt c b : c < two32 -> b < 256 -> crc_byte c b < two32.
Proof.
  intros Hc Hb. unfold crc_byte. do 8 apply crc_shift1_lt.
  apply lxor_lt32; [exact Hc|unfold two32; lia].
Qed.

Lemma crc_raw_lt bs : forall c, c < two32 -> wf_bytes bs -> crc_raw c bs < two32.
Proof.
  induction bs as [|b r IH]; intros c Hc Hw; [exact Hc|].
  inversion Hw; subst. unfold crc_raw. cbn [fold_left]. apply IH; [|assumption].
  apply crc_byte_lt; assumption.
Qed.

Lemma crc_update_lt c bs : c < two32 -> wf_bytes bs -> crc_update c bs < two32.
Proof.
  intros Hc Hw. unfold crc_update. apply lxor_lt32; [|reflexivity].
  apply crc_raw_lt; [|exact Hw]. apply lxor_lt32; [exact Hc|reflexivity].
Qed.

Lemma crc32c_lt bs : wf_bytes bs -> crc32c bs < two32.
Proof. intros H. apply crc_update_lt; [reflexivity|exact H]. Qed.

(* the standard check value: CRC-32C("123456789") = 0xE3069283 *)
Example crc32c_check : crc32c [49;50;51;52;53;54;55;56;57] = 3808858755.
Proof. vm_compute. reflexivity. Qed.
