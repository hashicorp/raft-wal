(* BytesFacts.v -- facts about Base/Bytes.v (little- and big-endian words read back, byte
   well-formedness, zeros) and the list and xor lemmas every later directory draws on. *)
From RW Require Import Base.Bytes.
From RW Require Import Base.LiaSetup.
Open Scope N_scope.

Lemma le32_length v : length (le32 v) = 4%nat.
Proof. reflexivity. Qed.
Lemma le64_length v : length (le64 v) = 8%nat.
Proof. reflexivity. Qed.
Lemma be64_length v : length (be64 v) = 8%nat.
Proof. unfold be64. rewrite rev_length. reflexivity. Qed.

Lemma mod_add_div x b : b <> 0 -> x mod b + b * (x / b) = x.
Proof. intros H. rewrite N.add_comm. symmetry. apply N.div_mod. exact H. Qed.

(* The four bytes are the base-256 digits of [v]: in Horner form each level is
   [mod_add_div], and the top digit needs no reduction since [v < 256^4]. *)
Lemma rd32_le32_app v r : v < 4294967296 -> rd32 (le32 v ++ r) = v.
Proof.
  intros H. unfold rd32, le32, nth0; cbn [nth app].
  change (v / 65536) with (v / (256 * 256)). change (v / 16777216) with (v / (256 * 256 * 256)).
  rewrite <- !N.div_div by discriminate.
  rewrite (N.mod_small (v / 256 / 256 / 256))
    by (repeat apply N.div_lt_upper_bound; try discriminate; exact H).
  set (d0 := v mod 256). set (d1 := v / 256 mod 256). set (d2 := v / 256 / 256 mod 256).
  set (d3 := v / 256 / 256 / 256).
  transitivity (d0 + 256 * (d1 + 256 * (d2 + 256 * d3))); [lia|].
  subst d0 d1 d2 d3. rewrite !mod_add_div by discriminate. reflexivity.
Qed.

Lemma rd32_le32 v : v < 4294967296 -> rd32 (le32 v) = v.
Proof. rewrite <- (app_nil_r (le32 v)). apply rd32_le32_app. Qed.

Lemma rd64_le64_app v r : v < 18446744073709551616 -> rd64 (le64 v ++ r) = v.
Proof.
  intros H. unfold rd64, le64. rewrite <- app_assoc.
  rewrite rd32_le32_app by (apply N.mod_lt; discriminate).
  change (skipn 4 (le32 (v mod 4294967296) ++ le32 (v / 4294967296) ++ r))
    with (le32 (v / 4294967296) ++ r).
  rewrite rd32_le32_app by (apply N.div_lt_upper_bound; [discriminate|exact H]).
  apply mod_add_div. discriminate.
Qed.

Lemma rd64_le64 v : v < 18446744073709551616 -> rd64 (le64 v) = v.
Proof. intros H. rewrite <- (app_nil_r (le64 v)). apply rd64_le64_app; exact H. Qed.

(* reading a word looks only at its own bytes *)
Lemma nth0_firstn i : forall k bs, (i < k)%nat -> nth0 i (firstn k bs) = nth0 i bs.
Proof.
  induction i as [|i IH]; intros [|k] [|b bs] H; try reflexivity; try lia.
  apply (IH k bs). lia.
Qed.

Lemma rd32_firstn k bs : (4 <= k)%nat -> rd32 (firstn k bs) = rd32 bs.
Proof. intros H. unfold rd32. rewrite !nth0_firstn by lia. reflexivity. Qed.

Lemma rd64_firstn k bs : (8 <= k)%nat -> rd64 (firstn k bs) = rd64 bs.
Proof. intros H. unfold rd64. rewrite skipn_firstn_comm, !rd32_firstn by lia. reflexivity. Qed.

Lemma wf_le32 v : wf_bytes (le32 v).
Proof. unfold le32, wf_bytes. repeat constructor; apply N.mod_lt; discriminate. Qed.
Lemma wf_le64 v : wf_bytes (le64 v).
Proof. unfold le64, wf_bytes. apply Forall_app; split; apply wf_le32. Qed.
Lemma wf_be64 v : wf_bytes (be64 v).
Proof. unfold be64, wf_bytes. apply Forall_rev. apply wf_le64. Qed.

Lemma rdbe64_be64_app v r : v < 18446744073709551616 -> rdbe64 (be64 v ++ r) = v.
Proof.
  intros H. unfold rdbe64.
  assert (E : firstn 8 (be64 v ++ r) = be64 v).
  { rewrite firstn_app, be64_length. simpl (8 - 8)%nat. rewrite firstn_O, app_nil_r.
    apply firstn_all2. rewrite be64_length. lia. }
  rewrite E. unfold be64. rewrite rev_involutive. apply rd64_le64; exact H.
Qed.

Lemma beq_bytes_refl a : beq_bytes a a = true.
Proof. induction a as [|x a IH]; simpl; [reflexivity|]. rewrite N.eqb_refl, IH. reflexivity. Qed.

Lemma beq_bytes_eq a b : beq_bytes a b = true <-> a = b.
Proof.
  revert b; induction a as [|x a IH]; intros [|y b]; simpl; split; intros H;
    try reflexivity; try discriminate.
  - apply andb_true_iff in H as [H1 H2]. apply N.eqb_eq in H1. apply IH in H2. congruence.
  - inversion H; subst. rewrite N.eqb_refl. apply (proj2 (IH b)). reflexivity.
Qed.

Lemma wf_bytesb_spec bs : wf_bytesb bs = true <-> wf_bytes bs.
Proof.
  unfold wf_bytesb, wf_bytes. rewrite forallb_forall, Forall_forall.
  split; intros H x Hx; specialize (H x Hx); unfold wf_byteb, wf_byte in *; lia.
Qed.

Lemma wf_bytes_app a b : wf_bytes (a ++ b) <-> wf_bytes a /\ wf_bytes b.
Proof. unfold wf_bytes. apply Forall_app. Qed.

Lemma wf_zeros n : wf_bytes (zeros n).
Proof. unfold zeros, wf_bytes. apply Forall_forall. intros x Hx. apply repeat_spec in Hx. subst. unfold wf_byte. lia. Qed.

Lemma zeros_length n : length (zeros n) = n.
Proof. apply repeat_length. Qed.

Lemma all_zero_zeros n : all_zero (zeros n) = true.
Proof. induction n; simpl; auto. Qed.

Lemma all_zero_spec bs : all_zero bs = true <-> bs = zeros (length bs).
Proof.
  induction bs as [|b r IH]; simpl; split; intros H; auto.
  - apply andb_true_iff in H as [H1 H2]. apply N.eqb_eq in H1. apply IH in H2.
    subst b. unfold zeros in *. simpl. f_equal. exact H2.
  - unfold zeros in H. simpl in H. inversion H as [[H0 H1]]. simpl.
    rewrite <- H1. apply IH. unfold zeros. exact H1.
Qed.

Lemma skipn_skipn' {A} (a b : nat) (l : list A) : skipn a (skipn b l) = skipn (b + a) l.
Proof.
  revert l; induction b as [|b IH]; intros l; [reflexivity|].
  destruct l as [|x l]; simpl; [apply skipn_nil|apply IH].
Qed.

Lemma firstn_app_le {A} n (a b : list A) : (n <= length a)%nat -> firstn n (a ++ b) = firstn n a.
Proof. intros H. rewrite firstn_app. replace (n - length a)%nat with 0%nat by lia. rewrite firstn_O, app_nil_r. reflexivity. Qed.
Lemma firstn_app_ge {A} n (a b : list A) : (length a <= n)%nat -> firstn n (a ++ b) = a ++ firstn (n - length a) b.
Proof. intros H. rewrite firstn_app. rewrite firstn_all2 by lia. reflexivity. Qed.

Lemma skipn_app_le {A} (n : nat) (a b : list A) :
  (n <= length a)%nat -> skipn n (a ++ b) = skipn n a ++ b.
Proof.
  intros H. rewrite skipn_app. replace (n - length a)%nat with 0%nat by lia. reflexivity.
Qed.
Lemma skipn_app_ge {A} (n : nat) (a b : list A) :
  (length a <= n)%nat -> skipn n (a ++ b) = skipn (n - length a) b.
Proof. intros H. rewrite skipn_app. rewrite skipn_all2 by exact H. reflexivity. Qed.

Lemma nth_error_skipn {A} (l : list A) k i : nth_error (skipn k l) i = nth_error l (k + i).
Proof.
  revert l. induction k as [|k IH]; intros l; [reflexivity|].
  destruct l as [|x l]; [destruct i; reflexivity|]. cbn [skipn]. rewrite IH. reflexivity.
Qed.
Lemma nth_error_firstn {A} (l : list A) k i : (i < k)%nat -> nth_error (firstn k l) i = nth_error l i.
Proof.
  revert l i. induction k as [|k IH]; intros l i Hi; [lia|].
  destruct l as [|x l]; [reflexivity|]. destruct i as [|i]; [reflexivity|].
  cbn [firstn nth_error]. apply IH. lia.
Qed.

Lemma firstn_app_exact {A} (a b : list A) : firstn (length a) (a ++ b) = a.
Proof. rewrite firstn_app, Nat.sub_diag, firstn_O, app_nil_r. apply firstn_all. Qed.
Lemma skipn_app_exact {A} (a b : list A) : skipn (length a) (a ++ b) = b.
Proof. rewrite skipn_app, Nat.sub_diag, skipn_all. reflexivity. Qed.

Lemma firstn_app_plus {A} (X Y : list A) a b : length X = a -> firstn (a + b) (X ++ Y) = X ++ firstn b Y.
Proof. intros <-. rewrite firstn_app_ge by lia. do 2 f_equal. lia. Qed.
Lemma skipn_app_plus {A} (X Y : list A) a b : length X = a -> skipn (a + b) (X ++ Y) = skipn b Y.
Proof. intros <-. rewrite skipn_app, skipn_all2 by lia. cbn [app]. f_equal. lia. Qed.

Lemma app_eq_len {A} (a b c d : list A) : a ++ b = c ++ d -> length a = length c -> a = c /\ b = d.
Proof.
  revert c; induction a as [|x a IH]; intros [|y c] H L; try discriminate; [auto|].
  cbn in H. inversion H; subst. cbn in L. destruct (IH c) as [E1 E2]; [assumption|lia|]. subst. auto.
Qed.

Lemma lxor_cancel_r a b : N.lxor (N.lxor a b) b = a.
Proof. rewrite N.lxor_assoc, N.lxor_nilpotent, N.lxor_0_r. reflexivity. Qed.

Lemma testbit_high a n m : a < 2 ^ n -> n <= m -> N.testbit a m = false.
Proof.
  intros Ha Hm. rewrite <- (N.mod_small a (2 ^ n)) by exact Ha.
  apply N.mod_pow2_bits_high. exact Hm.
Qed.

Lemma lxor_lt_pow2 a b n : a < 2 ^ n -> b < 2 ^ n -> N.lxor a b < 2 ^ n.
Proof.
  intros Ha Hb.
  assert (E : N.lxor a b mod 2 ^ n = N.lxor a b).
  { apply N.bits_inj. intros m.
    destruct (N.lt_ge_cases m n) as [Hlt|Hge].
    - rewrite N.mod_pow2_bits_low by exact Hlt. reflexivity.
    - rewrite N.mod_pow2_bits_high by exact Hge.
      rewrite N.lxor_spec, (testbit_high a n m Ha Hge), (testbit_high b n m Hb Hge).
      reflexivity. }
  rewrite <- E. apply N.mod_lt. apply N.pow_nonzero. discriminate.
Qed.
