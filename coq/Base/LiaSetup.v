(* [lia] over N, nat and the boolean comparisons, as every proof file uses it.
   ZifyBool also installs [elim_bool_cstr] as zify's post-hook: it case-splits every boolean
   comparison it finds in the context, exponentially many cases under the large contexts of the
   WAL proofs, and [lia] decides these goals without it.  The hook is therefore switched off
   again; the setting takes effect where this file is imported, so import it after the other
   libraries.  [lia] reads the whole context and its cost grows with it: where a proof says
   [clear - H1 .. Hn] before [lia], those are the arithmetic facts the step uses. *)
From Coq Require Export Lia ZifyN ZifyNat ZifyBool.
Ltac Zify.zify_post_hook ::= idtac.
