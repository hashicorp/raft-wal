(* FnvFacts.v -- the FNV-1a step is a bijection of uint64 for every byte, hence
   (a) a divergence of the running state is never masked by a common suffix and
   (b) two equal-length streams that differ in exactly one byte never collide. *)
From RW Require Import Base.Bytes Base.BytesFacts Base.Fnv.
From RW Require Import Base.LiaSetup.
Open Scope N_scope.

Lemma lxor_lt64 a b : a < two64 -> b < two64 -> N.lxor a b < two64.
Proof. apply (lxor_lt_pow2 a b 64). Qed.

Lemma lxor_inj_l h a b : N.lxor h a = N.lxor h b -> a = b.
Proof.
  intros E. assert (E2 : N.lxor h (N.lxor h a) = N.lxor h (N.lxor h b)) by (rewrite E; reflexivity).
  rewrite <- !N.lxor_assoc, N.lxor_nilpotent, !N.lxor_0_l in E2. exact E2.
Qed.

Lemma two64_nz : two64 <> 0.
Proof. discriminate. Qed.

Lemma fnv_prime_inv_ok : (fnv_prime * fnv_prime_inv) mod two64 = 1.
Proof. vm_compute. reflexivity. Qed.

(* multiplication by the odd FNV prime is invertible modulo 2^64 *)
Lemma mul_mod_inv a b x : (a * b) mod two64 = 1 -> x < two64 -> ((x * a) mod two64 * b) mod two64 = x.
Proof.
  intros Hab Hx.
  rewrite N.mul_mod_idemp_l, <- N.mul_assoc, N.mul_mod, Hab, N.mul_1_r, N.mod_mod by exact two64_nz.
  apply N.mod_small. exact Hx.
Qed.

Lemma mulp_unmul x : x < two64 -> ((x * fnv_prime) mod two64 * fnv_prime_inv) mod two64 = x.
Proof. apply mul_mod_inv. exact fnv_prime_inv_ok. Qed.

Lemma mul_unmulp x : x < two64 -> ((x * fnv_prime_inv) mod two64 * fnv_prime) mod two64 = x.
Proof. apply mul_mod_inv. rewrite N.mul_comm. exact fnv_prime_inv_ok. Qed.

Lemma mulp_inj x y : x < two64 -> y < two64 ->
  (x * fnv_prime) mod two64 = (y * fnv_prime) mod two64 -> x = y.
Proof.
  intros Hx Hy E. rewrite <- (mulp_unmul x Hx), <- (mulp_unmul y Hy), E. reflexivity.
Qed.

Lemma fnv_step_mod h b : fnv_step h b = (N.lxor h b * fnv_prime) mod two64.
Proof.
  unfold fnv_step. change mask64 with (N.ones 64). rewrite N.land_ones, N.mul_comm. reflexivity.
Qed.

Lemma fnv_step_lt h b : fnv_step h b < two64.
Proof. rewrite fnv_step_mod. apply N.mod_lt. exact two64_nz. Qed.

Lemma fnv_unstep_step h b : h < two64 -> b < two64 -> fnv_unstep (fnv_step h b) b = h.
Proof.
  intros Hh Hb. unfold fnv_unstep. rewrite fnv_step_mod.
  rewrite mulp_unmul by (apply lxor_lt64; assumption). apply lxor_cancel_r.
Qed.

Lemma fnv_unstep_lt h' b : b < two64 -> fnv_unstep h' b < two64.
Proof.
  intros Hb. unfold fnv_unstep. apply lxor_lt64; [apply N.mod_lt; exact two64_nz|exact Hb].
Qed.

Lemma fnv_step_unstep h' b : h' < two64 -> b < two64 -> fnv_step (fnv_unstep h' b) b = h'.
Proof.
  intros Hh Hb. rewrite fnv_step_mod. unfold fnv_unstep. rewrite lxor_cancel_r.
  apply mul_unmulp. exact Hh.
Qed.

Lemma xor_byte_involutive h b : N.lxor (N.lxor h b) b = h.
Proof. apply lxor_cancel_r. Qed.

(* for every byte b the step  h |-> (h xor b) * prime  is a bijection of uint64 *)
Lemma fnv_step_bijective b : b < two64 ->
  (forall h1 h2, h1 < two64 -> h2 < two64 -> fnv_step h1 b = fnv_step h2 b -> h1 = h2) /\
  (forall h', h' < two64 -> exists h, h < two64 /\ fnv_step h b = h').
Proof.
  intros Hb. split.
  - intros h1 h2 H1 H2 E.
    rewrite <- (fnv_unstep_step h1 b H1 Hb), <- (fnv_unstep_step h2 b H2 Hb), E. reflexivity.
  - intros h' Hh. exists (fnv_unstep h' b). split.
    + apply fnv_unstep_lt; exact Hb.
    + apply fnv_step_unstep; assumption.
Qed.

Lemma fnv_step_inj_state h1 h2 b :
  h1 < two64 -> h2 < two64 -> b < two64 -> fnv_step h1 b = fnv_step h2 b -> h1 = h2.
Proof. intros H1 H2 Hb. apply (proj1 (fnv_step_bijective b Hb)); assumption. Qed.

(* ... and for a fixed state it is injective in the byte *)
Lemma fnv_step_inj_byte h b1 b2 :
  h < two64 -> b1 < two64 -> b2 < two64 -> fnv_step h b1 = fnv_step h b2 -> b1 = b2.
Proof.
  intros Hh H1 H2 E. rewrite !fnv_step_mod in E.
  apply mulp_inj in E; try (apply lxor_lt64; assumption).
  apply lxor_inj_l in E. exact E.
Qed.

Lemma fnv_add_app h a b : fnv_add h (a ++ b) = fnv_add (fnv_add h a) b.
Proof. unfold fnv_add. apply fold_left_app. Qed.

Lemma fnv_add_cons h b r : fnv_add h (b :: r) = fnv_add (fnv_step h b) r.
Proof. reflexivity. Qed.

Lemma fnv_add_nil h : fnv_add h [] = h.
Proof. reflexivity. Qed.

Lemma fnv_add_lt h s : h < two64 -> fnv_add h s < two64.
Proof.
  revert h; induction s as [|b r IH]; intros h Hh; [exact Hh|].
  rewrite fnv_add_cons. apply IH. apply fnv_step_lt.
Qed.

Lemma wf_byte_lt64 b : wf_byte b -> b < two64.
Proof. unfold wf_byte, two64. lia. Qed.

(* different running states stay different under any common suffix *)
Lemma fnv_suffix_injective s : wf_bytes s ->
  forall h1 h2, h1 < two64 -> h2 < two64 -> h1 <> h2 -> fnv_add h1 s <> fnv_add h2 s.
Proof.
  induction 1 as [|b r Hb Hr IH]; intros h1 h2 H1 H2 Hne; [exact Hne|].
  rewrite !fnv_add_cons. apply IH; try apply fnv_step_lt.
  intros E. apply Hne. apply (fnv_step_inj_state h1 h2 b); auto using wf_byte_lt64.
Qed.

(* two streams of equal length that differ in exactly one byte never collide *)
Lemma single_byte_flip_always_detected h a b1 b2 c :
  h < two64 -> wf_byte b1 -> wf_byte b2 -> wf_bytes c -> b1 <> b2 ->
  fnv_add h (a ++ b1 :: c) <> fnv_add h (a ++ b2 :: c).
Proof.
  intros Hh H1 H2 Hc Hne. rewrite !fnv_add_app, !fnv_add_cons.
  assert (Hs : fnv_add h a < two64) by (apply fnv_add_lt; exact Hh).
  apply fnv_suffix_injective; try exact Hc; try apply fnv_step_lt.
  intros E. apply Hne. apply (fnv_step_inj_byte (fnv_add h a)); auto using wf_byte_lt64.
Qed.

(* the last byte alone always matters, whatever precedes it *)
Lemma fnv_add_last_byte h a b1 b2 :
  h < two64 -> wf_byte b1 -> wf_byte b2 -> b1 <> b2 ->
  fnv_add h (a ++ [b1]) <> fnv_add h (a ++ [b2]).
Proof.
  intros Hh H1 H2 Hne. apply single_byte_flip_always_detected; auto. constructor.
Qed.
