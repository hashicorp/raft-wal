(* C18 -- Verifier is transparent and never blocks appends.
   Only statements here; proofs live in Vfy/NodesFacts.v, Vfy/VerifChanFacts.v.

   Pass-through: in the model FirstIndex / LastIndex / GetLog through the
   middleware ARE the underlying store's (the runner reads [n_store] directly,
   as LogStore.FirstIndex etc. forward directly); the theorems below cover the
   calls that do involve middleware state.  They are stated for an arbitrary
   node state, hence for every operation sequence.
   Hand-off: [crun c_init evs] runs an arbitrary schedule of the three threads
   (StoreLogs caller: CPush then one CSend per checkpoint; verifier goroutine:
   CRecv; ReportFn returning: CReturn).  A ReportFn that blocks forever is a
   schedule without CReturn.  C18_node_channel ties a node's channel state to
   that system.  Middleware restarts are outside C18's quantifier: a new
   LogStore forgets lastCheckPointIdx, so the first report after a restart
   carries no SkippedRange. *)
From RW Require Import Base.Bytes Vfy.Checksum Vfy.Spec Vfy.Store Vfy.VerifChan Vfy.Nodes
  Vfy.StoreFacts Vfy.VerifChanFacts Vfy.NodesFacts.
Open Scope N_scope.

Theorem C18_passthrough :
  forall cpf nd b res nd' rs,
    node_store cpf nd b = (res, nd', rs) ->
    match res with
    | SOk => exists b', Forall2 (gains_meta cpf) b b' /\
                        store_logs (n_store nd) b' = Some (n_store nd')
    | SErrVfy => n_store nd' = n_store nd /\ n_v nd' = n_v nd /\ rs = []
    | SErrStore => n_store nd' = n_store nd /\ n_v nd' = n_v nd /\ rs = [] /\
                   (n_fail nd = true \/
                    exists b', Forall2 (gains_meta cpf) b b' /\ store_logs (n_store nd) b' = None)
    end.
Proof. exact passthrough_store. Qed.
Print Assumptions C18_passthrough.

(* a checkpoint whose Extensions hold foreign data (or a failing checkpoint
   function) is refused and the underlying store is not touched *)
Theorem C18_foreign_checkpoint_refused :
  forall cpf nd b e,
    In e b -> (cpf e = None \/ foreign_checkpoint cpf e) ->
    fst (fst (node_store cpf nd b)) = SErrVfy /\
    n_store (snd (fst (node_store cpf nd b))) = n_store nd.
Proof. exact foreign_checkpoint_refused. Qed.
Print Assumptions C18_foreign_checkpoint_refused.

(* DeleteRange = the underlying call (after one LastIndex read, which has no
   effect; lf = that read failed); the verifier state restarts iff the read failed
   or the range reached that last index *)
Theorem C18_passthrough_delete :
  forall nd mn mx lf,
    match delete_range (n_store nd) mn mx with
    | Some s' => node_delete nd mn mx lf = (true, snd (node_delete nd mn mx lf)) /\
                 n_store (snd (node_delete nd mn mx lf)) = s' /\
                 n_v (snd (node_delete nd mn mx lf)) =
                   (if lf || (last_index (n_store nd) <=? mx) then v_init else n_v nd)
    | None => fst (node_delete nd mn mx lf) = false /\
              n_store (snd (node_delete nd mn mx lf)) = n_store nd /\
              n_v (snd (node_delete nd mn mx lf)) = n_v nd
    end.
Proof. exact passthrough_delete. Qed.
Print Assumptions C18_passthrough_delete.

Theorem C18_passthrough_other :
  forall cpf nd ev,
    match ev with HStore _ _ | HDelete _ _ _ _ | HTamper _ _ _ => True
    | _ => n_store (node_step cpf nd ev) = n_store nd end.
Proof. exact passthrough_other. Qed.
Print Assumptions C18_passthrough_other.

(* StoreLogs never waits: whatever the other threads do -- in particular with no
   CReturn at all, i.e. ReportFn blocked forever -- the caller's pending sends
   shrink by exactly one per send step and reach zero after as many steps as
   it triggered reports. *)
Theorem C18_store_never_blocks :
  forall evs c,
    forallb (fun ev => negb (is_push ev)) evs = true ->
    length (c_pending (crun c evs)) = (length (c_pending c) - count_sends evs)%nat.
Proof. exact pending_after_sends. Qed.
Print Assumptions C18_store_never_blocks.

Theorem C18_store_completes :
  forall evs c,
    forallb (fun ev => negb (is_push ev)) evs = true ->
    (length (c_pending c) <= count_sends evs)%nat ->
    c_pending (crun c evs) = [].
Proof. exact store_completes. Qed.
Print Assumptions C18_store_completes.

(* delivered + dropped + in_channel + in_progress (+ not yet sent, while a
   StoreLogs is still in its send loop) = checkpoints, at every point of every
   schedule; checkpoints_written counts them *)
Theorem C18_accounting :
  forall evs,
    let c := crun c_init evs in
    N.of_nat (length (c_delivered c)) + c_dropped c + opt_count (c_ch c) + opt_count (c_inprog c)
      + N.of_nat (length (c_pending c)) = N.of_nat (length (pushed evs)) /\
    c_written c = N.of_nat (length (pushed evs)).
Proof. exact accounting. Qed.
Print Assumptions C18_accounting.

(* for checkpoints forming a chain, every processed report names exactly the
   range tiled by the checkpoints dropped since the previously enqueued one
   (ghost list attached to it), nil if none; and dropped_reports counts exactly
   those ghost lists *)
Theorem C18_skipped_range :
  forall evs,
    chained_from 0 (pushed evs) ->
    let c := crun c_init evs in
    Forall names_skipped (processed c) /\
    c_dropped c = sum_drops (processed c)
                  + match c_ch c with Some (_, ds) => N.of_nat (length ds) | None => 0 end
                  + N.of_nat (length (g_drops c)).
Proof. exact skipped_range. Qed.
Print Assumptions C18_skipped_range.

Theorem C18_node_channel :
  forall cpf nd ev,
    (forall n, ev <> HRestart n) ->
    n_c (node_step cpf nd ev) = crun (n_c nd) (cevents_of cpf nd ev).
Proof. exact node_step_channel. Qed.
Print Assumptions C18_node_channel.

(* ---- non-vacuity ------------------------------------------------------------ *)
Definition ex_r (a b : N) : report := new_report a b 0 0.
Definition ex_s : sstore := s_empty.

(* ReportFn blocks on the first report: the second waits in the channel, the
   third and fourth are dropped -- StoreLogs has finished every time (no pending
   sends) although nothing returned *)
Example C18_ex_blocked :
  let c := crun c_init [CPush [ex_r 1 5]; CSend; CRecv ex_s;
                        CPush [ex_r 5 9]; CSend;
                        CPush [ex_r 9 12; ex_r 12 20]; CSend; CSend] in
  c_pending c = [] /\ c_dropped c = 2 /\ c_delivered c = [] /\
  opt_count (c_ch c) = 1 /\ opt_count (c_inprog c) = 1 /\ c_written c = 4.
Proof. vm_compute. repeat split; reflexivity. Qed.

(* ... after it returns, the next delivered report [20,25) names the skipped
   range [9,20) *)
Example C18_ex_skipped :
  let c := crun c_init [CPush [ex_r 1 5]; CSend; CRecv ex_s;
                        CPush [ex_r 5 9]; CSend;
                        CPush [ex_r 9 12; ex_r 12 20]; CSend; CSend;
                        CReturn; CRecv ex_s; CReturn;
                        CPush [ex_r 20 25]; CSend; CRecv ex_s; CReturn] in
  map (fun x => (r_start (fst x), r_end (fst x), r_skipped (fst x))) (c_delivered c) =
    [(1, 5, None); (5, 9, None); (20, 25, Some (9, 20))] /\
  c_dropped c = 2 /\ chained_from 0 (pushed [CPush [ex_r 1 5]; CPush [ex_r 5 9];
                                             CPush [ex_r 9 12; ex_r 12 20]; CPush [ex_r 20 25]]).
Proof. vm_compute. repeat split; try reflexivity; auto. Qed.

(* a leader checkpoint gains exactly 24 bytes; a foreign one is refused *)
Definition ex_cpf (e : entry) : option bool :=
  Some (match e_data e with 192 :: _ => true | _ => false end).
Example C18_ex_meta :
  match node_store ex_cpf node_init
          [{| e_index := 1; e_term := 1; e_type := 0; e_data := [192]; e_ext := [] |}] with
  | (SOk, nd', [r]) => map (fun e => length (e_ext e)) (s_logs (n_store nd')) = [24%nat]
  | _ => False
  end /\
  fst (fst (node_store ex_cpf node_init
          [{| e_index := 1; e_term := 1; e_type := 0; e_data := [192]; e_ext := [1; 2] |}])) = SErrVfy.
Proof. vm_compute. split; reflexivity. Qed.
