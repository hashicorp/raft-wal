(* Link -- the two models of a segment file are one: theorems relating the byte
   level L1 (Seg/Writer.v, Recover.v, Reader.v, SegAbs.v) to the abstract files
   L2 (Wal/Model.v: dfile, wseg, seg_append, seg_force_seal, seg_recover,
   seg_read, crash_file) that every WAL-level theorem (C01-C05, C08, C09, C13,
   C20) is about.  Not one of the 20 properties: it replaces the step "L2's
   files behave like the byte-level files", which used to rest on the L1 law
   plus trace testing, by theorems.  Only statements here; definitions in
   Link/Abs.v, proofs in Link/AbsFacts1..4.v.  Sections 1-4: one file.
   Sections 5-6 (definitions Link/Disk.v, Link/Compose.v; proofs
   Link/DiskFacts1..3.v, Link/ComposeFacts1..3.v, 5..7.v): whole directories (every
   byte-level action / crash outcome of a disk corresponds to L2's), restarts
   and failed fsyncs, and the composition with the WAL operations and the crash
   histories of crash_refinement by a lock-step run of the byte disk.
   Section 7 (Link/IndexStart*.v): the IndexStart recorded in the metadata is
   the index start of the file, in every state of every accepted history, hence
   GetLog down to bytes without side hypothesis (Link_get_log).  Section 8
   (Link/FaultDisk*.v, FaultLink*.v, FaultIS*.v): the histories with injected
   I/O errors of Wal/FaultHist.v (C10) at byte level -- stale bytes behind the
   valid chain, restarts re-establishing "image, then zeros", GetLog and the
   nominal state of fault_safety from bytes.

   Vocabulary (Link/Abs.v):
     enc l                 the bytes stored for record l (its BinaryCodec encoding)
     ents ls               the L1 batch (index, payload) of the records ls
     rep info bs f         the abstract file f represents the byte image
                           [image info bs] of the committed L1 batches bs
     rep_p info bs b f     ... with the batch b written behind it, not yet synced
     cur_rep info bs f     f as a reader / a restarted process sees it (pending
                           batch included) represents [image info bs]
     rep_w w1 w2           the numeric writer w2 represents the byte writer w1
     res_abs, abs_acts     L1 results / I/O actions as L2 sees them
     linked ...            all of it, as an invariant of a file's life
   Guards: encs_ok (payload bytes < 256, length <= MaxEntrySize; implied by
   the WAL-level log_ok: Link_log_ok_enc_ok), hdr_wf (header fields < 2^64),
   files below 2^32 bytes (the code's uint32 offsets), consec (the batch has
   consecutive indexes: StoreLogs checks that before calling the segment). *)
From RW Require Import Base.Bytes Base.BytesFacts Base.Crc32c Fmt.Codec Fmt.Frame
     Seg.Writer Seg.Recover Seg.Reader Seg.SegAbs Seg.WriterFacts Seg.RecoverFacts Seg.ChainFacts
     Wal.Model Wal.Spec Wal.Hist Wal.CrashInv Wal.CrashGlue
     Link.Abs Link.AbsFacts1 Link.AbsFacts2 Link.AbsFacts3 Link.AbsFacts4
     Link.Disk Link.DiskFacts1 Link.DiskFacts2 Link.DiskFacts3
     Link.Compose Link.ComposeFacts1 Link.ComposeFacts2 Link.ComposeFacts3
     Link.ComposeFacts5 Link.ComposeFacts6 Link.ComposeFacts7
     Link.IndexStart Link.IndexStartFacts1 Link.IndexStartFacts2 Link.IndexStartFacts3 Wal.CrashExamples
     Seg.FailFacts Wal.FaultHist Wal.FaultInv Wal.FaultThm
     Link.FaultDisk Link.FaultDiskFacts1 Link.FaultDiskFacts2 Link.FaultDiskFacts3
     Link.FaultLink Link.FaultLinkFacts1 Link.FaultLinkFacts2 Link.FaultLinkFacts3
     Link.FaultIS Link.FaultISFacts1 Link.FaultISFacts2 Link.FaultISFacts3 Link.FaultExamples
     Run.RunSeg Run.RunSegFacts Gen.Constants.
Open Scope N_scope.

(* ================================================================== *)
(* 1. Writer simulation                                                 *)

(* Append, no fault.  From corresponding writers, L1 [append] on the encoded
   batch and L2 [seg_append] return corresponding results (ok / sealed / too
   big / non-monotonic alike) and corresponding writers, and L2's environment
   is obtained by performing the abstraction of L1's actions: AWrite at the
   offset of the WWrite with the length of the bytes written, then ASync.  No
   size guard is needed: the uint32 arithmetic of both models is the same. *)
Theorem Link_append_sim :
  forall w1 w2 ls e,
    rep_w w1 w2 -> consec ls -> e_fault e = None ->
    exists r w1' acts w2',
      append w1 (ents ls) FNone = (r, w1', acts) /\
      seg_append w2 ls e = (res_abs r, w2', do_acts e (abs_acts (ws_name w2) (pb_of ls w1') acts)) /\
      rep_w w1' w2' /\
      (acts = [] \/ exists buf, acts = [WWrite (ws_off w2) buf; WSync]).
Proof. exact append_sim. Qed.
Print Assumptions Link_append_sim.

(* Append under any fault position.  x0 = the fault-free L1 run (it fixes the
   intended actions), x = the L1 run under the fault matching L2's counter
   (0 = the write fails, 1 = the fsync fails): same result, corresponding
   writers (both rolled back on a fault), L2 performs the intended actions up
   to the failing one. *)
Theorem Link_append_sim_faults :
  forall w1 w2 ls e,
    rep_w w1 w2 -> consec ls ->
    let x0 := append w1 (ents ls) FNone in
    let x := append w1 (ents ls) (wfault_of (e_fault e)) in
    exists w2',
      seg_append w2 ls e =
        (res_abs (fst (fst x)), w2',
         do_acts e (abs_acts (ws_name w2) (pb_of ls (snd (fst x0))) (snd x0))) /\
      rep_w (snd (fst x)) w2'.
Proof. exact append_sim_gen. Qed.
Print Assumptions Link_append_sim_faults.

Theorem Link_force_seal_sim :
  forall w1 w2 e,
    rep_w w1 w2 -> e_fault e = None ->
    exists r w1' acts w2',
      force_seal w1 FNone = (r, w1', acts) /\
      seg_force_seal w2 e = (res_abs r, w2', do_acts e (abs_acts (ws_name w2) (pb_of [] w1') acts)) /\
      rep_w w1' w2'.
Proof. exact force_seal_sim. Qed.
Print Assumptions Link_force_seal_sim.

Theorem Link_force_seal_sim_faults :
  forall w1 w2 e,
    rep_w w1 w2 ->
    let x0 := force_seal w1 FNone in
    let x := force_seal w1 (wfault_of (e_fault e)) in
    exists w2',
      seg_force_seal w2 e =
        (res_abs (fst (fst x)), w2',
         do_acts e (abs_acts (ws_name w2) (pb_of [] (snd (fst x0))) (snd x0))) /\
      rep_w (snd (fst x)) w2'.
Proof. exact force_seal_sim_gen. Qed.
Print Assumptions Link_force_seal_sim_faults.

(* a SHORT write (Seg/Writer.v FWriteShort: WriteAt puts the first half of the buffer
   and returns an error) is not among wfault_of's faults: at L2 a failed AWrite has no
   effect on the abstract file.  Result and writer of the L1 operation are those of the
   write that fails outright (so the two theorems above with fault count 0 hold of it
   verbatim); the only difference is the half buffer left behind the image, stale bytes
   that readers never look at and that recovery discards (Props/C10.v, block "byte
   level").  The L2 correspondence itself is stated for FWrite / FSync only. *)
Theorem Link_append_short_as_write :
  forall w es,
    fst (append w es FWriteShort) = fst (append w es FWrite) /\
    (snd (append w es FWriteShort) = [] \/
     exists off buf, snd (append w es FNone) = [WWrite off buf; WSync] /\
                     snd (append w es FWriteShort) = [WWrite off (firstn (length buf / 2) buf)]).
Proof. exact append_short_as_write. Qed.
Print Assumptions Link_append_short_as_write.

Theorem Link_force_seal_short_as_write :
  forall w,
    fst (force_seal w FWriteShort) = fst (force_seal w FWrite) /\
    (snd (force_seal w FWriteShort) = [] \/
     exists off buf, snd (force_seal w FNone) = [WWrite off buf; WSync] /\
                     snd (force_seal w FWriteShort) = [WWrite off (firstn (length buf / 2) buf)]).
Proof. exact force_seal_short_as_write. Qed.
Print Assumptions Link_force_seal_short_as_write.

(* the writers Create hands out correspond *)
Theorem Link_rep_w_init : forall info, rep_w (init_empty info) (new_wseg info).
Proof. exact rep_w_init. Qed.
Print Assumptions Link_rep_w_init.

(* One commit on the files.  A successful L1 operation on the writer of the
   image of bs writes exactly [batch_write] at the end of the image; the L2
   actions abstracting its I/O turn a file representing bs into one
   representing "bs with b pending" (after the write: the crash window) and
   into one representing bs ++ [b] (after the fsync). *)
Theorem Link_commit_rep :
  forall info bs f op w1' acts b ls d,
    let s := cstate info bs in
    let n := name_of info in
    rep info bs f -> lookup n (dk_files d) = Some f ->
    wrun (wst info s) [op] = Some (w1', acts, [b]) ->
    fst b = map enc ls ->
    len (image info (bs ++ [b])) < two32 ->
    let new := batch_write info s b in
    let pb := pb_of ls w1' in
    let aw := AWrite n (len (image info bs)) (len new) pb in
    acts = [WWrite (len (image info bs)) new; WSync] /\
    w1' = wst info (cstate info (bs ++ [b])) /\
    abs_acts n pb acts = [aw; ASync n] /\
    lookup n (dk_files (apply_act d aw)) = Some (written f pb) /\ rep_p info bs b (written f pb) /\
    lookup n (dk_files (apply_act (apply_act d aw) (ASync n))) = Some (synced f pb) /\
    rep info (bs ++ [b]) (synced f pb).
Proof. exact commit_rep. Qed.
Print Assumptions Link_commit_rep.

(* Append, the two writers side by side on a file *)
Theorem Link_append_sim_rep :
  forall info bs f w2 ls e w1' acts w2' e',
    let s := cstate info bs in
    let n := name_of info in
    rep info bs f -> lookup n (dk_files (e_disk e)) = Some f ->
    rep_w (wst info s) w2 -> consec ls -> ls <> [] -> e_fault e = None ->
    append (wst info s) (ents ls) FNone = (WOk, w1', acts) ->
    seg_append w2 ls e = (Model.ROk, w2', e') ->
    let b := (map enc ls, sealed w1') in
    len (image info (bs ++ [b])) < two32 ->
    acts = [WWrite (len (image info bs)) (batch_write info s b); WSync] /\
    w1' = wst info (cstate info (bs ++ [b])) /\ rep_w w1' w2' /\
    lookup n (dk_files (e_disk e')) = Some (synced f (pb_of ls w1')) /\
    rep info (bs ++ [b]) (synced f (pb_of ls w1')).
Proof. exact append_sim_rep. Qed.
Print Assumptions Link_append_sim_rep.

Theorem Link_force_seal_sim_rep :
  forall info bs f w2 e w1' acts w2' e',
    let s := cstate info bs in
    let n := name_of info in
    rep info bs f -> lookup n (dk_files (e_disk e)) = Some f ->
    rep_w (wst info s) w2 -> e_fault e = None -> ws_index_start w2 = 0 ->
    force_seal (wst info s) FNone = (WOk, w1', acts) ->
    seg_force_seal w2 e = (Model.ROk, w2', e') ->
    let b := (@nil bytes, true) in
    len (image info (bs ++ [b])) < two32 ->
    acts = [WWrite (len (image info bs)) (batch_write info s b); WSync] /\
    w1' = wst info (cstate info (bs ++ [b])) /\ rep_w w1' w2' /\
    lookup n (dk_files (e_disk e')) = Some (synced f (pb_of [] w1')) /\
    rep info (bs ++ [b]) (synced f (pb_of [] w1')).
Proof. exact force_seal_sim_rep. Qed.
Print Assumptions Link_force_seal_sim_rep.

(* ================================================================== *)
(* 2. Recovery and crash simulation                                     *)

(* (a) Nothing pending: byte-level recovery of "image, then zeros" returns the
   byte writer that the writer L2's seg_recover builds represents. *)
Theorem Link_recover_sim :
  forall info bs f e k,
    hdr_wf info -> rep info bs f -> encs_ok (df_ents f) -> len (image info bs) < two32 ->
    lookup (name_of info) (dk_files (e_disk e)) = Some f ->
    exists w1 w2,
      recover_state info (image info bs ++ zeros k) = Some w1 /\
      seg_recover info e = Some (Some w2) /\ rep_w w1 w2 /\
      w1 = wst info (cstate info bs).
Proof. exact recover_sim. Qed.
Print Assumptions Link_recover_sim.

(* the same for the content a restarted process sees (a pending batch that is
   complete in the page cache: restart without power loss, L2's adopt_file) *)
Theorem Link_recover_sim_cur :
  forall info bs f e k,
    hdr_wf info -> cur_rep info bs f -> encs_ok (cur_ents f) -> len (image info bs) < two32 ->
    lookup (name_of info) (dk_files (e_disk e)) = Some f ->
    recover_state info (image info bs ++ zeros k) = Some (wst info (cstate info bs)) /\
    seg_recover info e = Some (Some (recw info f)) /\
    rep_w (wst info (cstate info bs)) (recw info f).
Proof. exact recover_sim_cur. Qed.
Print Assumptions Link_recover_sim_cur.

(* (b) THE JUSTIFICATION OF crash_file.  f represents the image of bs with one
   more batch b written at its end but not yet synced.  For EVERY torn image T
   of the bytes of b over zeros (per 8-byte chunk new or old, RecoverFacts.torn)
   that is not a CRC collision: byte-level recovery of the file succeeds,
   returns the writer of bs ++ [b] if T is complete and of bs otherwise, and
   zeroStaleTail re-establishes "image, then zeros"; L2's crash_file with the
   pending batch KEPT iff T is complete leaves a file that represents the
   recovered image, and L2's seg_recover on it yields a writer that represents
   the recovered byte writer. *)
Theorem Link_crash_file_sound :
  forall info bs b f c T k,
    let s := cstate info bs in
    let n := name_of info in
    let new := batch_write info s b in
    hdr_wf info -> rep_p info bs b f -> encs_ok (cur_ents f) ->
    len (image info (bs ++ [b])) < two32 ->
    torn new T -> no_torn_collision new T ->
    (df_dir f = true \/ mem_name n (cc_keep_file c) = true) ->
    mem_name n (cc_keep_batch c) = beq_bytes T new ->
    let file := image info bs ++ T ++ zeros k in
    let bs' := if beq_bytes T new then bs ++ [b] else bs in
    let w1 := wst info (cstate info bs') in
    exists f',
      crash_file c (n, f) = [(n, f')] /\ rep info bs' f' /\ df_dir f' = true /\
      recover_state info file = Some w1 /\
      (exists acts, recover_tail info file = Some (w1, acts) /\
                    apply_wactions file acts = image info bs' ++ zeros (length file - length (image info bs'))) /\
      rep_w w1 (recw info f') /\
      forall e, lookup n (dk_files (e_disk e)) = Some f' -> seg_recover info e = Some (Some (recw info f')).
Proof. exact crash_file_sound. Qed.
Print Assumptions Link_crash_file_sound.

(* ... and both choices of crash_file are produced by a torn write: the
   adversary of L2 is exactly as strong as byte-level tearing of the batch *)
Theorem Link_crash_file_tight :
  forall info s b (keep : bool),
    let new := batch_write info s b in
    exists T, torn new T /\ no_torn_collision new T /\ beq_bytes T new = keep.
Proof. exact crash_file_tight. Qed.
Print Assumptions Link_crash_file_tight.

(* ================================================================== *)
(* 3. Reader simulation                                                 *)

(* tail: for every idx the byte-level tail reader returns the encoding of the
   record L2's tail lookup returns, ErrNotFound exactly when L2 finds nothing *)
Theorem Link_read_sim_tail :
  forall info bs f d w2 idx r,
    cur_rep info bs f -> encs_ok (cur_ents f) ->
    lookup (name_of info) (dk_files d) = Some f ->
    rep_w (wst info (cstate info bs)) w2 ->
    tail_get (wst info (cstate info bs)) (image info bs ++ r) idx =
      match tail_lookup w2 idx d with
      | Some l => Reader.ROk (enc l)
      | None => RNotFound
      end.
Proof. exact read_sim_tail. Qed.
Print Assumptions Link_read_sim_tail.

(* sealed: the reader opened with the index start recorded in the abstract file *)
Theorem Link_read_sim_sealed :
  forall info info' bs f d idx l r,
    cur_rep info bs f -> encs_ok (cur_ents f) -> len (image info bs) < two32 ->
    lookup (name_of info) (dk_files d) = Some f ->
    cur_seal f <> 0 ->
    si_base info' = si_base info -> si_index_start info' = cur_seal f ->
    si_base info <= idx -> si_min info' <= idx -> (si_max info' = 0 \/ idx <= si_max info') ->
    seg_read (name_of info) (si_base info) idx d = Some l ->
    sealed_get info' (image info bs ++ r) idx = Reader.ROk (enc l).
Proof. exact read_sim_sealed. Qed.
Print Assumptions Link_read_sim_sealed.

(* the stored bytes of a well-formed record decode to the record *)
Theorem Link_enc_decode :
  forall l, wf_log l ->
    encode_log l = Some (enc l) /\ decode_log (enc l) = Some l /\ codec_view l = l /\ wf_bytes (enc l).
Proof. exact enc_decode. Qed.
Print Assumptions Link_enc_decode.

(* GetLog down to bytes: what L2 hands back (codec_view l) is the decoding of
   the bytes the byte-level reader finds, and it is the stored record *)
Theorem Link_get_sim_tail :
  forall info bs f d w2 idx l r,
    cur_rep info bs f -> encs_ok (cur_ents f) ->
    lookup (name_of info) (dk_files d) = Some f ->
    rep_w (wst info (cstate info bs)) w2 ->
    tail_lookup w2 idx d = Some l -> wf_log l ->
    exists p, tail_get (wst info (cstate info bs)) (image info bs ++ r) idx = Reader.ROk p /\
              decode_log p = Some (codec_view l) /\ codec_view l = l.
Proof. exact get_sim_tail. Qed.
Print Assumptions Link_get_sim_tail.

Theorem Link_get_sim_sealed :
  forall info info' bs f d idx l r,
    cur_rep info bs f -> encs_ok (cur_ents f) -> len (image info bs) < two32 ->
    lookup (name_of info) (dk_files d) = Some f ->
    cur_seal f <> 0 ->
    si_base info' = si_base info -> si_index_start info' = cur_seal f ->
    si_base info <= idx -> si_min info' <= idx -> (si_max info' = 0 \/ idx <= si_max info') ->
    seg_read (name_of info) (si_base info) idx d = Some l -> wf_log l ->
    exists p, sealed_get info' (image info bs ++ r) idx = Reader.ROk p /\
              decode_log p = Some (codec_view l) /\ codec_view l = l.
Proof. exact get_sim_sealed. Qed.
Print Assumptions Link_get_sim_sealed.

(* Filer.Open of a sealed segment: the byte-level header validation accepts the
   image exactly when L2's open_segs does (committed header: cur_end <> 0) *)
Theorem Link_open_sealed_sim :
  forall info bs f k,
    hdr_wf info -> cur_rep info bs f ->
    open_sealed info (image info bs ++ zeros k) = negb (cur_end f =? 0).
Proof. exact open_sealed_sim_zeros. Qed.
Print Assumptions Link_open_sealed_sim.

(* the guard of the WAL-level theorems implies the byte-level guard *)
Theorem Link_log_ok_enc_ok : forall ls, logs_ok ls -> encs_ok ls.
Proof. exact logs_ok_encs_ok. Qed.
Print Assumptions Link_log_ok_enc_ok.

(* rep / rep_p give cur_rep *)
Theorem Link_rep_cur_rep : forall info bs f, rep info bs f -> cur_rep info bs f.
Proof. exact rep_cur_rep. Qed.
Print Assumptions Link_rep_cur_rep.
Theorem Link_rep_p_cur_rep : forall info bs b f, rep_p info bs b f -> cur_rep info (bs ++ [b]) f.
Proof. exact rep_p_cur_rep. Qed.
Print Assumptions Link_rep_p_cur_rep.

(* ================================================================== *)
(* 4. The link as an invariant of a segment file's life                 *)

Theorem Link_linked_create :
  forall info size k, linked info [] (created size) (init_empty info) (new_wseg info) (zeros k).
Proof. exact linked_create. Qed.
Print Assumptions Link_linked_create.

(* an acknowledged L2 append whose write ends below 4 GiB (a guard on L2's own
   numbers): L1 acknowledges it, writes the bytes of one more batch at the
   offset and of the length L2 recorded, makes the same seal decision; linked *)
Theorem Link_linked_append :
  forall info bs f w1 w2 file ls e w2' e',
    let n := name_of info in
    linked info bs f w1 w2 file -> lookup n (dk_files (e_disk e)) = Some f ->
    consec ls -> ls <> [] -> encs_ok ls -> e_fault e = None ->
    ws_off w2 + l2_total w2 ls < two32 ->
    seg_append w2 ls e = (Model.ROk, w2', e') ->
    exists w1' new f',
      append w1 (ents ls) FNone = (WOk, w1', [WWrite (ws_off w2) new; WSync]) /\
      len new = l2_total w2 ls /\ sealed w1' = l2_seal w2 ls /\
      lookup n (dk_files (e_disk e')) = Some f' /\
      linked info (bs ++ [(map enc ls, sealed w1')]) f' w1' w2'
             (apply_wactions file [WWrite (ws_off w2) new; WSync]).
Proof. exact linked_append. Qed.
Print Assumptions Link_linked_append.

Theorem Link_linked_force_seal :
  forall info bs f w1 w2 file e w2' e',
    let n := name_of info in
    linked info bs f w1 w2 file -> lookup n (dk_files (e_disk e)) = Some f ->
    e_fault e = None -> ws_index_start w2 = 0 ->
    ws_off w2 + fs_total w2 < two32 ->
    seg_force_seal w2 e = (Model.ROk, w2', e') ->
    exists w1' new f',
      force_seal w1 FNone = (WOk, w1', [WWrite (ws_off w2) new; WSync]) /\
      len new = fs_total w2 /\ sealed w1' = true /\
      lookup n (dk_files (e_disk e')) = Some f' /\
      linked info (bs ++ [([], true)]) f' w1' w2'
             (apply_wactions file [WWrite (ws_off w2) new; WSync]).
Proof. exact linked_force_seal. Qed.
Print Assumptions Link_linked_force_seal.

(* power loss in the middle of a commit (any torn image T of the bytes in
   flight), then RecoverTail resp. crash_file + seg_recover: linked again,
   with the batch iff T is complete *)
Theorem Link_linked_crash :
  forall info bs f w1 w2 file op w1' off new b ls c T,
    let n := name_of info in
    hdr_wf info ->
    linked info bs f w1 w2 file -> encs_ok ls ->
    wrun w1 [op] = Some (w1', [WWrite off new; WSync], [b]) -> fst b = map enc ls ->
    len (image info (bs ++ [b])) < two32 ->
    torn new T -> no_torn_collision new T ->
    let fm := written f (pb_of ls w1') in
    (df_dir f = true \/ mem_name n (cc_keep_file c) = true) ->
    mem_name n (cc_keep_batch c) = beq_bytes T new ->
    let file1 := overwrite file (N.to_nat off) T in
    let bs' := if beq_bytes T new then bs ++ [b] else bs in
    exists f' w1r acts,
      crash_file c (n, fm) = [(n, f')] /\
      recover_tail info file1 = Some (w1r, acts) /\
      linked info bs' f' w1r (recw info f') (apply_wactions file1 acts).
Proof. exact linked_crash. Qed.
Print Assumptions Link_linked_crash.

Theorem Link_linked_restart :
  forall info bs f w1 w2 file c,
    let n := name_of info in
    hdr_wf info -> linked info bs f w1 w2 file ->
    (df_dir f = true \/ mem_name n (cc_keep_file c) = true) ->
    exists f' acts,
      crash_file c (n, f) = [(n, f')] /\
      recover_tail info file = Some (w1, acts) /\
      linked info bs f' w1 (recw info f') (apply_wactions file acts).
Proof. exact linked_restart. Qed.
Print Assumptions Link_linked_restart.

(* the 2^32 guards above follow from the size facts L2's own invariants carry
   for the tail segment (cfg_ok: limit < 2^30; sop_ok: batch < 2^30;
   CrashInv.fsz_ok: 8 n <= end <= limit + 8 while unsealed) *)
Theorem Link_l2_append_guard :
  forall w2 ls,
    ws_limit w2 < 1073741824 -> ws_off w2 <= ws_limit w2 + 8 -> 8 * ws_n w2 <= ws_off w2 ->
    frames_size ls < 1073741824 ->
    ws_off w2 + l2_total w2 ls < two32.
Proof. exact l2_append_guard. Qed.
Print Assumptions Link_l2_append_guard.
Theorem Link_l2_force_seal_guard :
  forall w2,
    ws_limit w2 < 1073741824 -> ws_off w2 <= ws_limit w2 + 8 -> 8 * ws_n w2 <= ws_off w2 ->
    ws_off w2 + fs_total w2 < two32.
Proof. exact l2_force_seal_guard. Qed.
Print Assumptions Link_l2_force_seal_guard.

(* ================================================================== *)
(* Non-vacuity: a concrete file (limit 256), a batch of two records      *)
Definition lk_info : seginfo :=
  {| si_id := 7; si_base := 1; si_min := 1; si_max := 0; si_codec := 1;
     si_index_start := 0; si_sealed := false; si_size_limit := 256 |}.
Definition lk_time : gotime := {| t_sec := 63800000000; t_nsec := 0; t_zone := None |}.
Definition lk_log (i : N) : log :=
  {| l_index := i; l_term := 1; l_type := 0; l_data := repeat 65 24; l_ext := []; l_time := lk_time |}.
Definition lk_ls : list log := [lk_log 1; lk_log 2].
Definition lk_n : fname := name_of lk_info.
Definition lk_env : env :=
  {| e_acts := []; e_disk := apply_act empty_disk (ACreate lk_n 256); e_fault := None; e_fx := fx_none; e_m := zero_metrics |}.

(* the guards are satisfiable *)
Example Link_ex_guards :
  consec lk_ls /\ encs_ok lk_ls /\ hdr_wf lk_info /\
  lookup lk_n (dk_files (e_disk lk_env)) = Some (created 256) /\
  ws_off (new_wseg lk_info) + l2_total (new_wseg lk_info) lk_ls < two32.
Proof.
  split; [cbn; auto|]. split.
  { repeat constructor; try (apply wf_bytesb_spec; vm_compute; reflexivity); vm_compute; discriminate. }
  split; [unfold hdr_wf, two64; cbn; lia|]. split; vm_compute; reflexivity.
Qed.

(* the two writers side by side: same offset, same length, same seal decision,
   L2's actions are the abstraction of L1's *)
Example Link_ex_append :
  match append (init_empty lk_info) (ents lk_ls) FNone, seg_append (new_wseg lk_info) lk_ls lk_env with
  | (WOk, w1', [WWrite off new; WSync]), (Model.ROk, w2', e') =>
      off = 0 /\ len new = 152 /\
      e_acts e' = [ASync lk_n; AWrite lk_n 0 152 (pb_of lk_ls w1')] /\
      ws_off w2' = w_off w1' /\ ws_index_start w2' = w_index_start w1' /\
      ws_commit_idx w2' = 2 /\ w_commit_idx w1' = 2 /\
      seg_read lk_n 1 2 (e_disk e') = Some (lk_log 2) /\
      tail_get w1' (new ++ zeros 104) 2 = Reader.ROk (enc (lk_log 2)) /\
      decode_log (enc (lk_log 2)) = Some (lk_log 2)
  | _, _ => False
  end.
Proof. vm_compute. repeat split; reflexivity. Qed.

(* a torn write of that batch: chunk 3 of 19 did not reach the disk.  It is a
   torn image without CRC collision, incomplete -- and byte-level recovery
   returns the empty writer, the outcome crash_file offers as "dropped" *)
Definition lk_new : bytes :=
  match append (init_empty lk_info) (ents lk_ls) FNone with (_, _, [WWrite _ b; _]) => b | _ => [] end.
Definition lk_T : bytes := crash_mix (zeros (8 * 19)) lk_new 524279 20.

Example Link_ex_torn :
  torn lk_new lk_T /\ no_torn_collision lk_new lk_T /\ beq_bytes lk_T lk_new = false /\
  recover_state lk_info (lk_T ++ zeros 104) = Some (init_empty lk_info) /\
  recover_state lk_info (lk_new ++ zeros 104) =
    Some (snd (fst (append (init_empty lk_info) (ents lk_ls) FNone))) /\
  crash_file {| cc_keep_file := [lk_n]; cc_keep_batch := [] |}
             (lk_n, written (created 256) (pb_of lk_ls (init_empty lk_info))) =
    [(lk_n, {| df_ents := []; df_end := 0; df_seal := 0; df_pend := None; df_dir := true; df_size := 256 |})].
Proof.
  split; [apply crash_mix_torn; [vm_compute; reflexivity|lia]|].
  split; [apply no_torn_collisionb_spec; vm_compute; reflexivity|].
  repeat split; vm_compute; reflexivity.
Qed.

(* the hypothesis [consec] of the writer simulation is needed: seg_append looks
   at the first index of a batch only (StoreLogs has checked the rest), the
   byte-level writer checks every entry *)
Example Link_ex_consec_needed :
  let ls := [lk_log 1; lk_log 5] in
  fst (fst (append (init_empty lk_info) (ents ls) FNone)) = WErrNonMono /\
  fst (fst (seg_append (new_wseg lk_info) ls lk_env)) = Model.ROk /\
  fst (check_logs 0 ls) = RErrNonMono.
Proof. vm_compute. repeat split; reflexivity. Qed.

(* ================================================================== *)
(* 5. THE DIRECTORY LEVEL (Link/Disk.v, DiskFacts1-3.v)                 *)
(* Vocabulary:
     bfile / bdisk        a segment file as bytes: content the process sees
                          (bf_data), durable image as of the last fsync (bf_sync),
                          pwrites issued since (bf_pend), directory entry durable
     bact / bapply        byte-level create / pwrite (with the bytes) / fsync /
                          unlink / none
     bcrash               the byte-level crash adversary over a whole disk: every
                          file independently; a non-durable directory entry is
                          kept or dropped; every unsynced write is torn per 8-byte
                          chunk over what was there (torn_over), no CRC collision
     bscrub               RecoverTail (recoverTailState + zeroStaleTail) on the files
     frep_at info bs pb   bf / f stand for: batches bs committed and durable, pb =
                          Some b: b written behind them, not yet synced; the durable
                          image is "image of bs, then zeros"; records are log_ok;
                          image below 2^32
     drep c bd d          same names in the same order; every file frep-related with
                          info = finfo c name (header fields: base, id, codec);
                          hdr_wf of it
   The guards of the per-file theorems (encs_ok, files < 2^32, hdr_wf) are PART of
   drep: established by Create and the guarded write, kept by everything else.
   no_torn_collision is part of the adversary (as in Seg/RecoverFacts.v);
   NoDup of the names follows from CrashInv.DIs (CrashFacts1.DIs_NoDup). *)

(* (a) every byte-level action preserves drep w.r.t. the L2 action it stands for *)
Theorem Link_disk_create :
  forall c bd d n size, drep c bd d -> hdr_wf (finfo c n) ->
    drep c (bapply bd (BCreate n size)) (apply_act d (ACreate n size)).
Proof. exact bcreate_drep. Qed.
Print Assumptions Link_disk_create.

Theorem Link_disk_sync :
  forall c bd d n, drep c bd d -> drep c (bapply bd (BSync n)) (apply_act d (ASync n)).
Proof. exact bsync_drep. Qed.
Print Assumptions Link_disk_sync.

Theorem Link_disk_delete :
  forall c bd d n, drep c bd d -> drep c (bapply bd (BDelete n)) (apply_act d (ADelete n)).
Proof. exact bdelete_drep. Qed.
Print Assumptions Link_disk_delete.

(* metadata commit, stable store, database initialisation, failed attempt *)
Theorem Link_disk_meta :
  forall c bd d a, meta_act a -> drep c bd d -> drep c (bapply bd BNone) (apply_act d a).
Proof. exact bnone_drep. Qed.
Print Assumptions Link_disk_meta.

(* the write: one successful operation of the byte-level writer of the file's
   image commits b; the pwrite of exactly its bytes and L2's AWrite lead to
   drep-related disks (b pending on both sides: the crash window), and so do
   the fsyncs *)
Theorem Link_disk_write :
  forall c bd d info n bs bf f op w1' acts b ls,
    let s := cstate info bs in
    let new := batch_write info s b in
    let off := len (image info bs) in
    let aw := AWrite n off (len new) (pb_of ls w1') in
    drep c bd d -> name_of info = n -> hdr_eq info (finfo c n) ->
    lookup n (dk_files d) = Some f -> blookup n bd = Some bf -> frep_at info bs None bf f ->
    wrun (wst info s) [op] = Some (w1', acts, [b]) -> fst b = map enc ls -> logs_ok ls ->
    len (image info (bs ++ [b])) < two32 ->
    acts = [WWrite off new; WSync] /\ w1' = wst info (cstate info (bs ++ [b])) /\
    drep c (bapply bd (BWrite n off new)) (apply_act d aw) /\
    drep c (bapply (bapply bd (BWrite n off new)) (BSync n)) (apply_act (apply_act d aw) (ASync n)) /\
    frep_at info bs (Some b) (bwrite_file bf off new) (written f (pb_of ls w1')) /\
    frep_at info (bs ++ [b]) None (bsync_file (bwrite_file bf off new)) (synced f (pb_of ls w1')).
Proof. exact bwrite_drep. Qed.
Print Assumptions Link_disk_write.

(* the adversary's torn writes over zeros are RecoverFacts.torn *)
Theorem Link_torn_over_zeros :
  forall new T, (forall n, torn_over (zeros n) new T -> torn new T) /\
                (torn new T -> torn_over (zeros (length new)) new T).
Proof. exact torn_over_zeros_iff. Qed.
Print Assumptions Link_torn_over_zeros.

(* (b) DISK-LEVEL CRASH SOUNDNESS: whatever the byte-level adversary leaves of a
   drep-related byte disk, there is an L2 crash choice cc such that after
   RecoverTail the byte disk is drep-related to crash_disk cc d *)
Theorem Link_disk_crash_sound :
  forall c bd d bd',
    drep c bd d -> NoDup (map fst (dk_files d)) -> bcrash bd bd' ->
    exists cc, drep c (bscrub c bd') (crash_disk cc d).
Proof. exact bcrash_sound. Qed.
Print Assumptions Link_disk_crash_sound.

(* ... and every L2 crash choice is the outcome of a byte-level crash *)
Theorem Link_disk_crash_tight :
  forall c bd d cc, drep c bd d -> exists bd', bcrash bd bd' /\ drep c (bscrub c bd') (crash_disk cc d).
Proof. exact bcrash_tight. Qed.
Print Assumptions Link_disk_crash_tight.

(* per file, with everything recovery returns; before zeroStaleTail the file is
   "image of the recovered batches, then leftovers" (readers need no more) *)
Theorem Link_disk_crash_file :
  forall info bs pb bf f s',
    hdr_wf info -> frep_at info bs pb bf f -> torn_apply (bf_sync bf) (bf_pend bf) s' ->
    exists keep : bool,
      let bs' := if keep then bs ++ opt_batch pb else bs in
      (pb = None -> s' = bf_sync bf /\ bf_data (bscrub_file info (bkept s')) = s') /\
      frep_at info bs' None (bscrub_file info (bkept s')) (crashed keep f) /\
      recover_state info s' = Some (wst info (cstate info bs')) /\
      (exists junk, s' = image info bs' ++ junk) /\
      rep_w (wst info (cstate info bs')) (recw info (crashed keep f)).
Proof. exact bcrash_file_sound. Qed.
Print Assumptions Link_disk_crash_file.

(* restart without power loss: adopt_disk, mirrored (the bytes are treated as
   settled, L2's modelling decision); recovery returns the represented writer and
   zeroStaleTail writes nothing *)
Theorem Link_disk_adopt : forall c bd d, drep c bd d -> drep c (badopt bd) (adopt_disk d).
Proof. exact drep_adopt. Qed.
Print Assumptions Link_disk_adopt.

Theorem Link_restart_recover :
  forall info bs pb bf f e,
    hdr_wf info -> frep_at info bs pb bf f ->
    lookup (name_of info) (dk_files (e_disk e)) = Some (adopt_file f) ->
    let bs' := bs ++ opt_batch pb in
    recover_state info (bf_data bf) = Some (wst info (cstate info bs')) /\
    seg_recover info e = Some (Some (recw info (adopt_file f))) /\
    rep_w (wst info (cstate info bs')) (recw info (adopt_file f)) /\
    bf_data (bscrub_file info (bkept (bf_data bf))) = bf_data bf.
Proof. exact restart_recover. Qed.
Print Assumptions Link_restart_recover.

(* the branch of apply_act that extends a pending batch: content and fsync agree
   with the bytes of the two L1 batches *)
Theorem Link_extend_pending :
  forall info bs b1 b2 bf f p q,
    let s1 := cstate info (bs ++ [b1]) in
    let new2 := batch_write info s1 b2 in
    let bf2 := bwrite_file bf (len (image info (bs ++ [b1]))) new2 in
    let f2 := written f (merged p q) in
    frep_at info bs (Some b1) bf f -> df_pend f = Some p ->
    rep_b info (bs ++ [b1]) b2 q -> Forall log_ok (pb_ents q) ->
    len (image info (bs ++ [b1; b2])) < two32 ->
    cur_rep info (bs ++ [b1; b2]) f2 /\
    (exists k, bf_data bf2 = image info (bs ++ [b1; b2]) ++ zeros k) /\
    frep_at info (bs ++ [b1; b2]) None (bsync_file bf2) (crashed true f2).
Proof. exact frep_extend. Qed.
Print Assumptions Link_extend_pending.

(* a failed fsync leaves frep_at _ bs (Some b1) (Link_disk_write, 4th conjunct)
   and rolled-back writers (Link_append_sim_faults); the retry writes at the same
   offset: L2 replaces the pending batch; the bytes are the new image followed by
   what is left of the failed write; a retry at least as long re-establishes the
   link *)
Theorem Link_retry_after_failed_fsync :
  forall info bs b1 b2 bf f p q,
    let s := cstate info bs in
    let off := len (image info bs) in
    let new1 := batch_write info s b1 in
    let new2 := batch_write info s b2 in
    let bf2 := bwrite_file bf off new2 in
    let f2 := written f q in
    frep_at info bs (Some b1) bf f -> df_pend f = Some p ->
    rep_b info bs b2 q -> Forall log_ok (pb_ents q) -> len (image info (bs ++ [b2])) < two32 ->
    off <> pb_end p /\
    rep_p info bs b2 f2 /\ rep info (bs ++ [b2]) (crashed true f2) /\
    (exists k, bf_data bf2 = image info (bs ++ [b2]) ++ skipn (length new2) new1 ++ zeros k) /\
    (len new1 <= len new2 ->
     exists k, bf_data bf2 = image info (bs ++ [b2]) ++ zeros k /\
               frep_at info (bs ++ [b2]) None (bsync_file bf2) (crashed true f2)).
Proof. exact frep_retry. Qed.
Print Assumptions Link_retry_after_failed_fsync.

(* ================================================================== *)
(* 6. COMPOSITION: the WAL over bytes (Link/Compose.v, ComposeFacts1-3.v, 5-7.v) *)
(* Vocabulary:
     lrun c bd d acts bd' d'   the L2 actions acts, performed in lock step with
                               matching byte-level actions (bmatch: each AWrite by a
                               pwrite of the bytes a byte-level writer emits for that
                               operation), lead from (bd, d) to (bd', d'); EVERY pair
                               of disks on the way is drep-related
     erun c bd e bd' e'        e' is e after more successful actions, an lrun
     wlink c w bd d            drep; names unique; next id < 2^64; the tail writer of
                               the running WAL is represented by a byte-level writer
                               [wst info (cstate info bs)] and its file holds exactly
                               the image of bs (tail_link)
     op_link c bd e w' e'      exists bd', erun c bd e bd' e' /\ wlink c w' bd' (e_disk e')
     small_tail                8 n <= off <= limit + 8 < 2^30 for an unsealed tail
                               writer; follows from LInv (Link_LInv_small)
     HL c h bd                 the invariant of histories (Wal/Hist.v) *)

(* every point of a lock-step run is related: the crash points of a call *)
Theorem Link_lrun_prefix :
  forall c bd d acts bd' d' j, lrun c bd d acts bd' d' ->
    exists bdj, lrun c bd d (firstn j acts) bdj (fold_left apply_act (firstn j acts) d) /\
                drep c bdj (fold_left apply_act (firstn j acts) d).
Proof. exact lrun_prefix_drep. Qed.
Print Assumptions Link_lrun_prefix.

(* per operation: if the state is linked before, the new actions are a lock-step
   run and the state is linked after *)
Theorem Link_store_logs :
  forall c w ls bd e r w' e',
    cfg_ok c -> wlink c w bd (e_disk e) -> e_fault e = None -> small_tail (st_tail w) ->
    logs_ok ls -> frames_size ls < two30 ->
    store_logs c w ls e = (r, w', e') -> op_link c bd e w' e'.
Proof. exact store_logs_link. Qed.
Print Assumptions Link_store_logs.

Theorem Link_delete_range :
  forall c w mn mx bd e r w' e',
    cfg_ok c -> wlink c w bd (e_disk e) -> e_fault e = None -> small_tail (st_tail w) ->
    delete_range c w mn mx e = (r, w', e') -> op_link c bd e w' e'.
Proof. exact delete_range_link. Qed.
Print Assumptions Link_delete_range.

Theorem Link_rotate :
  forall c w bd e w' e',
    cfg_ok c -> wlink c w bd (e_disk e) -> e_fault e = None ->
    rotate c w e = (w', e') ->
    op_link c bd e w' e' /\
    (st_tail w' = st_tail w \/ exists si, small_tw (new_wseg si) /\ st_tail w' = Some (new_wseg si)).
Proof. exact rotate_link. Qed.
Print Assumptions Link_rotate.

(* Open on a disk without a write in flight (after bscrub, or a clean reopen) *)
Theorem Link_open_wal :
  forall c bd e res e',
    cfg_ok c -> drep c bd (e_disk e) -> NoDup (map fst (dk_files (e_disk e))) -> e_fault e = None ->
    no_pend (e_disk e) -> meta_small (e_disk e) ->
    open_wal c e = (res, e') ->
    exists bd', erun c bd e bd' e' /\
                match res with OOk w => wlink c w bd' (e_disk e') | OErr _ => True end.
Proof. exact open_wal_link. Qed.
Print Assumptions Link_open_wal.

(* the byte-level RecoverTail behind seg_recover *)
Theorem Link_seg_recover :
  forall c si bd e f,
    drep c bd (e_disk e) -> si_codec si = c_codec c ->
    lookup (name_of si) (dk_files (e_disk e)) = Some f -> df_pend f = None ->
    seg_recover si e = Some (Some (recw si f)) /\
    exists bs bf,
      tail_link c (recw si f) si bs bd (e_disk e) /\
      blookup (name_of si) bd = Some bf /\
      recover_state si (bf_data bf) = Some (wst si (cstate si bs)) /\
      bf_data (bscrub_file si (bkept (bf_data bf))) = bf_data bf.
Proof. exact seg_recover_link. Qed.
Print Assumptions Link_seg_recover.

(* the guards, from the invariants of crash_refinement *)
Theorem Link_LInv_small : forall c nb w d, cfg_ok c -> LInv c nb w d -> small_tail (st_tail w).
Proof. exact LInv_small. Qed.
Print Assumptions Link_LInv_small.
Theorem Link_DIs_meta_small : forall c nb d, DIs c nb d -> nb < two64 -> meta_small d.
Proof. exact DIs_meta_small. Qed.
Print Assumptions Link_DIs_meta_small.

(* every call of the model *)
Theorem Link_step :
  forall c nb s o bd r s',
    cfg_ok c -> sop_ok o ->
    wlink c (ss_wal s) bd (e_disk (ss_env s)) -> e_fault (ss_env s) = None ->
    LInv c nb (ss_wal s) (e_disk (ss_env s)) -> nb < two64 ->
    step_model c s o = (r, s') -> (o = OReopen -> r = ROk) ->
    op_link c bd (ss_env s) (ss_wal s') (ss_env s').
Proof. exact step_link. Qed.
Print Assumptions Link_step.

(* GetLog down to bytes (partial: see Link_get_log_stmt below) *)
Theorem Link_get_log_partial :
  forall c w bd e idx l e',
    wlink c w bd (e_disk e) -> seg_meta_ok w (e_disk e) ->
    get_log w idx e = (RLog l, e') ->
    exists p, bread c w bd (e_disk e) idx p /\ decode_log p = Some l.
Proof. exact get_log_link. Qed.
Print Assumptions Link_get_log_partial.

(* the full statement about GetLog, without the hypothesis seg_meta_ok, is
   Link_get_log (section 7, link3): the recorded IndexStart of every listed
   sealed segment IS the index start of its file in every state of every
   accepted history (invariant ISd). *)

(* HISTORIES (Wal/Hist.v: calls, power loss after any j actions of a call or of
   Open with any crash choice, reopen; the histories crash_refinement is about).
   (1) every accepted history has a byte-level run: the byte disk is linked at
       the end, hence (prefixes are histories) after every step *)
Theorem Link_history :
  forall c steps, cfg_ok c -> Forall hstep_wf steps -> short_enough steps ->
    exists bd, HL c (hist_run c hist_init steps) bd.
Proof. exact hist_link. Qed.
Print Assumptions Link_history.

Theorem Link_history_step :
  forall c nb h st bd,
    cfg_ok c -> hstep_wf st -> nb + 2 < two64 -> GI c nb h -> HL c h bd ->
    exists bd', HL c (hstep_run c h st) bd'.
Proof. exact hist_step_link. Qed.
Print Assumptions Link_history_step.

Theorem Link_history_GI :
  forall c steps, cfg_ok c -> Forall hstep_wf steps -> short_enough steps ->
    GI c (2 * N.of_nat (length steps)) (hist_run c hist_init steps).
Proof. exact hist_GI. Qed.
Print Assumptions Link_history_GI.

(* a call / an Open from a linked state of an accepted history: the byte disk
   follows in lock step (op_link = exists bd', erun ... /\ wlink ...) *)
Theorem Link_history_call :
  forall c nb h s o bd,
    cfg_ok c -> sop_ok o -> nb + 2 < two64 -> GI c nb h -> hs_mode h = Up s -> HL c h bd ->
    exists r s', step_model c s o = (r, s') /\
                 op_link c bd (ss_env s) (ss_wal s') (ss_env s') /\
                 NoDup (map fst (dk_files (e_disk (ss_env s)))).
Proof. exact call_link. Qed.
Print Assumptions Link_history_call.

Theorem Link_history_open :
  forall c nb h d bd,
    cfg_ok c -> nb + 2 < two64 -> GI c nb h -> hs_mode h = Down d -> HL c h bd ->
    exists w e, open_wal c (env_of d) = (OOk w, e) /\ op_link c bd (env_of d) w e.
Proof. exact open_link. Qed.
Print Assumptions Link_history_open.

(* which file can have a write in flight: a listed segment whose file has a
   pending batch is the unsealed tail, the file Open hands to RecoverTail *)
Theorem Link_pending_only_tail :
  forall c nb d ps n f s,
    DIs c nb d -> dk_meta d = Some ps -> lookup n (dk_files d) = Some f -> df_pend f <> None ->
    In s (ps_segs ps) -> name_of s = n -> si_sealed s = false /\ tail_info (ps_segs ps) = Some s.
Proof. exact pending_only_tail. Qed.
Print Assumptions Link_pending_only_tail.

(* (2) every byte-level crash outcome is covered: after j actions of a call (of
   Open) the byte disk reached is related, and WHATEVER the byte-level adversary
   leaves, some crash choice cc continues the history, linked after RecoverTail;
   the invariant GI of crash_refinement holds of the continued history, so the
   next Open (Link_history_open) and everything after it are covered again *)
Theorem Link_crash_in_call_covered :
  forall c nb h s o j bd,
    cfg_ok c -> sop_ok o -> nb + 2 < two64 -> GI c nb h -> hs_mode h = Up s -> HL c h bd ->
    let s' := snd (step_model c s o) in
    let acts := new_acts (ss_env s) (ss_env s') in
    let dj := fold_left apply_act (firstn j acts) (e_disk (ss_env s)) in
    exists bdj, lrun c bd (e_disk (ss_env s)) (firstn j acts) bdj dj /\
      forall out, bcrash bdj out ->
        exists cc, HL c (hstep_run c h (HCrashIn o j cc)) (bscrub c out) /\
                   hs_mode (hstep_run c h (HCrashIn o j cc)) = Down (crash_disk cc dj) /\
                   GI c (nb + 2) (hstep_run c h (HCrashIn o j cc)).
Proof. exact crash_in_call_covered. Qed.
Print Assumptions Link_crash_in_call_covered.

Theorem Link_crash_in_open_covered :
  forall c nb h d j bd,
    cfg_ok c -> nb + 2 < two64 -> GI c nb h -> hs_mode h = Down d -> HL c h bd ->
    let acts := rev_append (e_acts (snd (open_wal c (env_of d)))) [] in
    let dj := fold_left apply_act (firstn j acts) d in
    exists bdj, lrun c bd d (firstn j acts) bdj dj /\
      forall out, bcrash bdj out ->
        exists cc, HL c (hstep_run c h (HCrashInOpen j cc)) (bscrub c out) /\
                   hs_mode (hstep_run c h (HCrashInOpen j cc)) = Down (crash_disk cc dj) /\
                   GI c (nb + 2) (hstep_run c h (HCrashInOpen j cc)).
Proof. exact crash_in_open_covered. Qed.
Print Assumptions Link_crash_in_open_covered.

(* ================================================================== *)
(* 7. The recorded IndexStart (link3: Link/IndexStart.v, IndexStartFacts1-3.v)

   The sealed reader takes the offset of the index block from the METADATA
   (si_index_start); L2's seg_read ignores the field, so DIs / LInv say nothing
   about it.  ISd d: every segment listed as sealed whose file exists records
   the index start of that file, and it is not 0.  It is established where a
   segment becomes sealed in the metadata -- rotation (st_rotate = the seal
   offset of the tail file), tail truncation (the force-sealed writer's index
   start = the seal offset of the batch just fsynced), Open completing an
   interrupted rotation (cur_seal of the recovered file) -- and kept by
   everything else.  The statement of link2 (hypotheses LInv and wlink only) was
   not provable: LInv does not constrain the field.                        *)

(* one action between two disks satisfying the structural invariant *)
Theorem Link_ISd_step :
  forall c nb nb' d a,
    DIs c nb d -> DIs c nb' (apply_act d a) -> ISd d ->
    (forall ps, a = ACommit ps -> ISs d (ps_segs ps)) ->
    ISd (apply_act d a).
Proof. exact ISd_step. Qed.
Print Assumptions Link_ISd_step.

(* power loss *)
Theorem Link_ISd_crash : forall c nb cc d, DIs c nb d -> ISd d -> ISd (crash_disk cc d).
Proof. exact ISd_crash. Qed.
Print Assumptions Link_ISd_crash.

(* every call: each metadata commit installs segments justified on the disk of
   that moment (ctr), so ISd holds on every disk the call passes through *)
Theorem Link_step_commits :
  forall c nb s o r s' a,
    cfg_ok c -> nb + 2 < two64 -> LInv c nb (ss_wal s) (e_disk (ss_env s)) -> e_fault (ss_env s) = None ->
    sp_of (e_disk (ss_env s)) = a -> ISd (e_disk (ss_env s)) ->
    step_model c s o = (r, s') -> ctr (ss_env s) (ss_env s').
Proof. exact step_ctr. Qed.
Print Assumptions Link_step_commits.

Theorem Link_open_commits :
  forall c nb e res e',
    e_fault e = None -> DIs c nb (e_disk e) -> ISd (e_disk e) -> open_wal c e = (res, e') -> ctr e e'.
Proof. exact open_wal_ctr. Qed.
Print Assumptions Link_open_commits.

Theorem Link_ISd_every_disk :
  forall c nb (P : disk -> Prop) e e',
    (forall d, P d -> DIs c nb d) -> ext P e e' -> ctr e e' -> ISd (e_disk e) ->
    forall j, ISd (fold_left apply_act (firstn j (new_acts e e')) (e_disk e)).
Proof. exact ext_ctr_prefix. Qed.
Print Assumptions Link_ISd_every_disk.

(* the invariant of crash_refinement, extended: GIS = GI /\ ISd (disk of the state) *)
Theorem Link_index_start_step :
  forall c nb h st,
    cfg_ok c -> hstep_wf st -> nb + 2 < two64 -> GIS c nb h -> GIS c (nb + 2) (hstep_run c h st).
Proof. exact GIS_step. Qed.
Print Assumptions Link_index_start_step.

Theorem Link_index_start_history :
  forall c steps, cfg_ok c -> Forall hstep_wf steps -> short_enough steps ->
    GIS c (2 * N.of_nat (length steps)) (hist_run c hist_init steps).
Proof. exact hist_GIS. Qed.
Print Assumptions Link_index_start_history.

(* the hypothesis of Link_get_log_partial follows *)
Theorem Link_seg_meta : forall c nb w d, LInv c nb w d -> ISd d -> seg_meta_ok w d.
Proof. exact LInv_seg_meta. Qed.
Print Assumptions Link_seg_meta.

Theorem Link_get_log_state :
  forall c nb w bd e idx l e',
    LInv c nb w (e_disk e) -> ISd (e_disk e) -> wlink c w bd (e_disk e) ->
    get_log w idx e = (RLog l, e') ->
    exists p, bread c w bd (e_disk e) idx p /\ decode_log p = Some l.
Proof. exact get_log_bytes. Qed.
Print Assumptions Link_get_log_state.

(* GETLOG DOWN TO BYTES, EVERY HISTORY.  After every history accepted by
   crash_refinement that leaves the WAL running there is a byte disk linked to
   L2's disk (lock-step run, Link_history) such that for EVERY index, whatever
   entry GetLog returns is the decoding of the bytes the byte-level reader
   (tail reader with the linked writer's offsets, or sealed reader with the
   METADATA's IndexStart) returns from the byte-level file of the segment. *)
Definition Link_get_log_stmt : Prop :=
  forall c steps s,
    cfg_ok c -> Forall hstep_wf steps -> short_enough steps ->
    hs_mode (hist_run c hist_init steps) = Up s ->
    exists bd, wlink c (ss_wal s) bd (e_disk (ss_env s)) /\
      forall idx l e', get_log (ss_wal s) idx (ss_env s) = (RLog l, e') ->
        exists p, bread c (ss_wal s) bd (e_disk (ss_env s)) idx p /\ decode_log p = Some l.

Theorem Link_get_log : Link_get_log_stmt.
Proof. exact hist_get_log. Qed.
Print Assumptions Link_get_log.

(* non-vacuity: (base, sealed, recorded IndexStart, index start of the file) of
   the listed segments at the end of histories of Wal/CrashExamples.v --
   Open completing a rotation interrupted before its commit (160 = batch 1 of
   96 bytes, the entry frame of 56 of batch 2, the 8-byte header of the index
   frame: the offset of the index block); a tail truncation interrupted after its force-seal, completed by
   Open; the same truncation committed by the running process *)
Example Link_ex_index_start :
  is_shape cfg128 hist_rotation_before_commit = [(1, true, 160, 160); (3, false, 0, 0)] /\
  is_shape cfg256 hist_trunc_after_forceseal = [(1, true, 216, 216); (4, false, 0, 0)] /\
  is_shape cfg256 [HOpen; HOp (OStore [ex_log 1 1; ex_log 2 1; ex_log 3 1]); HOp (ODelete 3 3)]
    = [(1, true, 216, 216); (3, false, 0, 0)].
Proof. vm_compute. auto. Qed.

(* ================================================================== *)
(* 8. HISTORIES WITH INJECTED FAULTS AT BYTE LEVEL (link3: Link/FaultDisk.v,
   FaultDiskFacts1-3.v, FaultLink.v, FaultLinkFacts1-3.v, FaultIS.v,
   FaultISFacts1-3.v).  The histories are those of Wal/FaultHist.v (C10): calls
   with a counted fault and the fault modes (deletions fail, the listing fails,
   a failed creation leaves the empty file), restarts without power loss.

   After a failed fsync the bytes of the batch stay behind the valid chain and
   later writes go over them, so a file is "image, then ANYTHING" -- the weak
   relation wfrep_at / wdrep.  (1) every L2 step is matched by byte-level
   actions keeping wdrep and the link of the rolled-back tail writer (WL);
   (2) at a restart / reopen the byte-level recovery of every file (page cache
   kept, recoverTailState + zeroStaleTail: brestart) yields a disk related by
   the STRONG relation drep to adopt_disk, under stale_free (no commit frame in
   the leftovers verifies: Seg/FailFacts.v no_stale_commit, decidable);
   (3) GetLog of the running process, and whatever the nominal state of
   fault_safety holds, is the decoding of what the byte-level readers return. *)

(* strong implies weak *)
Theorem Link_drep_wdrep : forall c bd d, drep c bd d -> wdrep c bd d.
Proof. exact drep_wdrep. Qed.
Print Assumptions Link_drep_wdrep.

(* the actions *)
Theorem Link_wdisk_create :
  forall c bd d n size, wdrep c bd d -> hdr_wf (finfo c n) ->
    wdrep c (bapply bd (BCreate n size)) (apply_act d (ACreate n size)).
Proof. exact wcreate_drep. Qed.
Print Assumptions Link_wdisk_create.
Theorem Link_wdisk_delete : forall c bd d n, wdrep c bd d -> wdrep c (bapply bd (BDelete n)) (apply_act d (ADelete n)).
Proof. exact wdelete_drep. Qed.
Print Assumptions Link_wdisk_delete.
Theorem Link_wdisk_sync : forall c bd d n, wdrep c bd d -> wdrep c (bapply bd (BSync n)) (apply_act d (ASync n)).
Proof. exact wsync_drep. Qed.
Print Assumptions Link_wdisk_sync.

(* the write over leftovers: whatever lies behind the image of the committed
   batches bs (incl. a complete batch whose fsync failed, pending in L2), one
   successful operation of the byte-level writer of that image writes
   batch_write at the end of the image; L2 REPLACES its pending batch *)
Theorem Link_wdisk_write :
  forall c bd d info n bs pb0 bf f op w1' acts b ls,
    let s := cstate info bs in
    let new := batch_write info s b in
    let off := len (image info bs) in
    let aw := AWrite n off (len new) (pb_of ls w1') in
    wdrep c bd d -> name_of info = n -> hdr_eq info (finfo c n) ->
    lookup n (dk_files d) = Some f -> blookup n bd = Some bf -> wfrep_at info bs pb0 bf f ->
    SegAbs.wrun (wst info s) [op] = Some (w1', acts, [b]) -> fst b = map enc ls -> logs_ok ls ->
    len (image info (bs ++ [b])) < two32 ->
    acts = [WWrite off new; WSync] /\ w1' = wst info (cstate info (bs ++ [b])) /\
    wdrep c (bapply bd (BWrite n off new)) (apply_act d aw) /\
    lookup n (dk_files (apply_act d aw)) = Some (written f (pb_of ls w1')) /\
    blookup n (bapply bd (BWrite n off new)) = Some (bwrite_file bf off new) /\
    wfrep_at info bs (Some b) (bwrite_file bf off new) (written f (pb_of ls w1')).
Proof. exact wwrite_drep. Qed.
Print Assumptions Link_wdisk_write.

(* (2) ONE FILE at a restart: fail_recover / recover_behind applied to the file
   of the weak relation *)
Theorem Link_fault_restart_file :
  forall info bs pb bf f,
    hdr_wf info -> wfrep_at info bs pb bf f -> no_stale_commit (bf_data bf) (cur_end f) ->
    let bs' := bs ++ opt_batch pb in
    recover_state info (bf_data bf) = Some (wst info (cstate info bs')) /\
    frep_at info bs' None (bscrub_file info (badopt_file bf)) (adopt_file f).
Proof. exact wfrep_restart. Qed.
Print Assumptions Link_fault_restart_file.

(* (2) THE DISK at a restart *)
Theorem Link_fault_restart :
  forall c bd d, wdrep c bd d -> NoDup (map fst (dk_files d)) -> stale_free bd d ->
    drep c (brestart c bd) (adopt_disk d).
Proof. exact wrestart. Qed.
Print Assumptions Link_fault_restart.

(* (1) one commit of the tail writer with any fault position: both succeed /
   the fsync fails (bytes stay, writers rolled back) / the write fails *)
Theorem Link_fault_commit :
  forall c tw info bs bd e op ls w1' new tot pb tw',
    let n := ws_name tw in
    let aw := AWrite n (ws_off tw) tot pb in
    let e' := do_acts e [aw; ASync n] in
    wdrep c bd (e_disk e) -> NoDup (map fst (dk_files (e_disk e))) ->
    wtail_link c tw info bs bd (e_disk e) -> logs_ok ls ->
    do_op (wst info (cstate info bs)) op = (WOk, w1', [WWrite (ws_off tw) new; WSync]) ->
    wop_of pb = op -> op_batch (wst info (cstate info bs)) w1' op = [(map enc ls, sealed w1')] ->
    len new = tot -> len (batch_write info (cstate info bs) (map enc ls, sealed w1')) = tot ->
    rep_w w1' tw' -> ws_name tw' = n -> pb = pb_of ls w1' ->
    ws_off tw + tot < two32 ->
    exists bd',
      werun c bd e bd' e' /\ NoDup (map fst (dk_files (e_disk e'))) /\
      if both_ok (e_fault e) then exists bs', wtail_link c tw' info bs' bd' (e_disk e')
      else wtail_link c tw info bs bd' (e_disk e').
Proof. exact wcommit_link. Qed.
Print Assumptions Link_fault_commit.

(* (1) the operations, whatever fails (no hypothesis on e_fault / e_fx) *)
Theorem Link_fault_store_logs :
  forall c w ls bd e r w' e',
    cfg_ok c -> WL c w bd (e_disk e) -> st_next_id w + 1 < two64 ->
    logs_ok ls -> frames_size ls < two30 ->
    store_logs c w ls e = (r, w', e') -> wop_link c bd e w' e'.
Proof. exact store_logs_wlink. Qed.
Print Assumptions Link_fault_store_logs.

Theorem Link_fault_delete_range :
  forall c w mn mx bd e r w' e',
    cfg_ok c -> WL c w bd (e_disk e) -> st_next_id w + 1 < two64 ->
    delete_range c w mn mx e = (r, w', e') -> wop_link c bd e w' e'.
Proof. exact delete_range_wlink. Qed.
Print Assumptions Link_fault_delete_range.

Theorem Link_fault_rotate :
  forall c w bd e w' e',
    cfg_ok c -> WL c w bd (e_disk e) -> st_next_id w + 1 < two64 ->
    rotate c w e = (w', e') ->
    wop_link c bd e w' e' /\ st_next_id w' <= st_next_id w + 1.
Proof. exact rotate_wlink. Qed.
Print Assumptions Link_fault_rotate.

Theorem Link_fault_open :
  forall c bd e res e',
    cfg_ok c -> wdrep c bd (e_disk e) -> NoDup (map fst (dk_files (e_disk e))) ->
    no_pend (e_disk e) -> meta_small (e_disk e) ->
    open_wal c e = (res, e') ->
    exists bd', werun c bd e bd' e' /\ NoDup (map fst (dk_files (e_disk e'))) /\
                match res with OOk w => wtail_linked c (st_tail w) bd' (e_disk e') | OErr _ => True end.
Proof. exact open_wal_wlink. Qed.
Print Assumptions Link_fault_open.

Theorem Link_fault_step :
  forall c s o bd r s',
    cfg_ok c -> sop_ok o -> o <> OReopen -> WL c (ss_wal s) bd (e_disk (ss_env s)) ->
    st_next_id (ss_wal s) + 2 < two64 -> step_model c s o = (r, s') ->
    wop_link c bd (ss_env s) (ss_wal s') (ss_env s') /\ st_next_id (ss_wal s') <= st_next_id (ss_wal s) + 2.
Proof. exact step_wlink. Qed.
Print Assumptions Link_fault_step.

(* (1)+(2) every step of a history: FHL (the invariant: WL for a running WAL,
   wdrep for one whose Open failed) is kept, and the step has a byte-level step
   (fbstep: a weak lock-step run of the effective actions; at a restart / reopen
   first brestart, which needs stale_free) *)
Theorem Link_fault_history_step :
  forall c nb h st bd,
    cfg_ok c -> fstep_wf st -> nb + 2 < two64 -> FInv c nb h -> FHL c nb h bd ->
    (is_restart st = true -> stale_free bd (fdisk h)) ->
    exists bd', fbstep c h bd st bd' /\ FHL c (nb + 2) (fstep_run c h st) bd'.
Proof. exact fault_step_link. Qed.
Print Assumptions Link_fault_history_step.

(* every byte-level run of a history ends weakly related to L2's disk *)
Theorem Link_fault_run_sound :
  forall c steps nb h bd h' bd',
    cfg_ok c -> Forall fstep_wf steps -> nb + 2 * N.of_nat (length steps) < two64 ->
    FInv c nb h -> wdrep c bd (fdisk h) ->
    fbrun c h bd steps h' bd' -> h' = fault_run c h steps /\ wdrep c bd' (fdisk h').
Proof. exact fbrun_sound. Qed.
Print Assumptions Link_fault_run_sound.

(* the recorded IndexStart (section 7) along histories with faults: FJH = every
   segment listed as sealed, in memory or in the metadata, whose file exists
   records the seal offset of that file, which has nothing pending *)
Theorem Link_fault_index_start_step :
  forall c nb h st bd,
    cfg_ok c -> fstep_wf st -> nb + 2 < two64 -> FInv c nb h -> FHL c nb h bd -> FJH h ->
    FJH (fstep_run c h st).
Proof. exact fault_step_FJ. Qed.
Print Assumptions Link_fault_index_start_step.

(* EVERY HISTORY WITH INJECTED FAULTS HAS A BYTE-LEVEL RUN (given that no commit
   frame in the leftovers verifies at the restarts: restarts_clean); at its end
   the WAL is linked to the byte disk, the invariant of fault_safety holds, and
   so does the IndexStart invariant *)
Definition Link_fault_history_stmt : Prop :=
  forall c steps s0,
    cfg_ok c -> Forall fstep_wf steps -> short_enough steps -> initial c = Some s0 ->
    exists bd0, FHL c 1 (fault_init s0) bd0 /\
      (restarts_clean c (fault_init s0) bd0 steps ->
       let h := fault_run c (fault_init s0) steps in
       let nb := 1 + 2 * N.of_nat (length steps) in
       exists bd, fbrun c (fault_init s0) bd0 steps h bd /\ FHL c nb h bd /\ FInv c nb h /\ FJH h).

Theorem Link_fault_history : Link_fault_history_stmt.
Proof. exact fault_hist_bytes. Qed.
Print Assumptions Link_fault_history.

(* (3) GETLOG OF THE RUNNING PROCESS FROM BYTES: the tail reader uses the
   offsets of the ROLLED-BACK byte-level writer on a file that may hold the bytes
   of failed batches behind the image; nothing of a failed batch is returned *)
Theorem Link_fault_tail_read :
  forall c tw info bs bd d idx l0,
    wtail_link c tw info bs bd d -> 1 <= ws_base tw -> tail_lookup tw idx d = Some l0 ->
    exists bf p, blookup (ws_name tw) bd = Some bf /\
                 tail_get (wst info (cstate info bs)) (bf_data bf) idx = Reader.ROk p /\
                 decode_log p = Some (codec_view l0).
Proof. exact wtail_read. Qed.
Print Assumptions Link_fault_tail_read.

Theorem Link_fault_get_log :
  forall c nb h bd idx l e',
    FInv c nb h -> FHL c nb h bd -> FJH h -> st_closed (ss_wal (fs_s h)) = false ->
    get_log (ss_wal (fs_s h)) idx (ss_env (fs_s h)) = (RLog l, e') ->
    exists p, wbread c (ss_wal (fs_s h)) bd (fdisk h) idx p /\ decode_log p = Some l.
Proof. exact fault_get_log. Qed.
Print Assumptions Link_fault_get_log.

(* (3) with fault_safety: what the NOMINAL state holds (calls that returned nil
   applied, calls that returned an error not; after a restart: the state the
   recovery presented) is what the bytes decode to *)
Theorem Link_fault_nominal_bytes :
  forall c nb h bd i l,
    cfg_ok c -> nb + 2 < two64 -> FInv c nb h -> FHL c nb h bd -> FJH h -> st_closed (ss_wal (fs_s h)) = false ->
    i < two64 -> spec_get (sp_log (fs_nom h)) i = Some l ->
    exists p, wbread c (ss_wal (fs_s h)) bd (fdisk h) i p /\ decode_log p = Some l.
Proof. exact fault_nominal_bytes. Qed.
Print Assumptions Link_fault_nominal_bytes.

(* (3) after a restart: the writer the byte-level recovery returns for a file
   represents the writer L2's Open builds on the adopted file (entry count,
   write offset, index start, commit index = LastIndex) *)
Theorem Link_fault_restart_recovered :
  forall c bd d n f e si,
    wdrep c bd d -> stale_free bd d -> lookup n (dk_files d) = Some f ->
    name_of si = n -> si_codec si = c_codec c -> e_disk e = adopt_disk d ->
    exists bf bs', blookup n bd = Some bf /\
      recover_state si (bf_data bf) = Some (wst si (cstate si bs')) /\
      seg_recover si e = Some (Some (recw si (adopt_file f))) /\
      rep_w (wst si (cstate si bs')) (recw si (adopt_file f)).
Proof. exact restart_recovered. Qed.
Print Assumptions Link_fault_restart_recovered.

(* C. the branch of apply_act that EXTENDS a pending batch (Link_extend_pending,
   Link_ex_merged_crash) is not taken in these histories: a linked tail writer
   writes at the synced end, strictly before the end of a batch still pending *)
Theorem Link_write_never_extends :
  forall c tw info bs bd d f p,
    wtail_link c tw info bs bd d -> lookup (ws_name tw) (dk_files d) = Some f -> df_pend f = Some p ->
    ws_off tw < pb_end p.
Proof. exact write_never_extends. Qed.
Print Assumptions Link_write_never_extends.

Theorem Link_stale_freeb_spec :
  forall bd d, NoDup (map fst bd) -> stale_freeb bd d = true -> stale_free bd d.
Proof. exact stale_freeb_spec. Qed.
Print Assumptions Link_stale_freeb_spec.

(* non-vacuity: the multi-failure history of Seg/FailFacts.v lifted to the WAL
   (Link/FaultExamples.v): StoreLogs [1] ok; [2a;3a;4a] fsync fails; [2b;3b]
   fsync fails; [2c] ok.  L2 accepts it; its tail file has 2 entries, ends at
   152, nothing pending; the byte-level file of the same operations has the same
   image of 152 bytes followed by NON-ZERO leftovers; stale_free holds; byte-level
   recovery returns 2 entries / offset 152 / commit index 2 -- the tail writer
   L2's Open installs after FRestart; and the history continues *)
Example Link_ex_fault_history :
  FaultHist.fs_ok fe_h = true /\
  option_map (fun f => (llen (df_ents f), df_end f, df_seal f, df_pend f, df_dir f)) fe_tail_file = Some (2, 152, 0, None, true) /\
  FailFacts.fs_ok fe_st = true /\ len (image fe_info (FailFacts.fs_bs fe_st)) = 152 /\
  all_zero (skipn 152 (bf_data fe_bf)) = false /\
  stale_freeb fe_bd fe_d = true /\
  option_map (fun w => (len (w_offsets w), w_off w, w_commit_idx w)) (recover_state fe_info (bf_data fe_bf)) = Some (2, 152, 2) /\
  option_map (fun tw => (ws_n tw, ws_off tw, ws_commit_idx tw)) (st_tail (ss_wal (FaultHist.fs_s fe_after_restart))) = Some (2, 152, 2) /\
  FaultHist.fs_ok (fault_run fe_c (fault_init fe_s0) fe_steps) = true.
Proof. vm_compute. repeat split; reflexivity. Qed.

(* the concrete byte disk IS weakly related to L2's disk, is NOT strongly
   related (leftovers), and the restart re-establishes the strong relation *)
Example Link_ex_fault_wdrep :
  wdrep fe_c fe_bd fe_d /\ stale_free fe_bd fe_d /\ drep fe_c (brestart fe_c fe_bd) (adopt_disk fe_d).
Proof.
  assert (Ed : dk_files fe_d = [(fe_n, match fe_tail_file with Some f => f | None => created 0 end)]) by (vm_compute; reflexivity).
  assert (H : wdrep fe_c fe_bd fe_d).
  { unfold wdrep, grel. rewrite Ed. constructor; [|constructor]. cbn [fst snd fe_bd].
    split; [reflexivity|]. split; [repeat split; reflexivity|].
    exists (FailFacts.fs_bs fe_st), None. constructor; cbn [opt_batch].
    - constructor; vm_compute; reflexivity.
    - replace (cur_ents (match fe_tail_file with Some f => f | None => created 0 end)) with (fe_b1 ++ fe_bc) by (vm_compute; reflexivity).
      repeat constructor; try (vm_compute; intros; discriminate); try (vm_compute; reflexivity).
    - vm_compute. reflexivity.
    - exists (skipn 152 (bf_data fe_bf)). vm_compute. reflexivity.
    - reflexivity. }
  assert (Hs : stale_free fe_bd fe_d).
  { apply stale_freeb_spec; [repeat constructor; intros []|vm_compute; reflexivity]. }
  split; [exact H|]. split; [exact Hs|]. apply wrestart; [exact H| |exact Hs].
  rewrite Ed. repeat constructor. intros [].
Qed.

(* ================================================================== *)
(* Non-vacuity of sections 5 and 6: a concrete directory with two files  *)
Definition lk_c : cfg := {| c_seg_size := 256; c_codec := 1 |}.
Definition lk_n2 : fname := (3, 8).
Definition lk_w1 : wstate := snd (fst (append (init_empty lk_info) (ents lk_ls) FNone)).
Definition lk_pb : pbatch := pb_of lk_ls lk_w1.
(* L2: two files created, the batch of two records written to the first, no fsync yet *)
Definition lk_d0 : disk := apply_act (apply_act empty_disk (ACreate lk_n 256)) (ACreate lk_n2 256).
Definition lk_d1 : disk := apply_act lk_d0 (AWrite lk_n 0 152 lk_pb).
(* bytes: the same with the actual bytes *)
Definition lk_bd0 : bdisk := bapply (bapply [] (BCreate lk_n 256)) (BCreate lk_n2 256).
Definition lk_bd1 : bdisk := bapply lk_bd0 (BWrite lk_n 0 lk_new).

Example Link_ex_cfg : cfg_ok lk_c /\ finfo lk_c lk_n = lk_info /\ hdr_wf (finfo lk_c lk_n) /\ hdr_wf (finfo lk_c lk_n2).
Proof.
  split; [repeat split; try (left; reflexivity); reflexivity|]. split; [reflexivity|].
  split; repeat split; reflexivity.
Qed.

Example Link_ex_logs_ok : logs_ok lk_ls.
Proof.
  repeat constructor; try (vm_compute; intros; discriminate); try (vm_compute; reflexivity).
Qed.

(* the two-file directory with a batch in flight is drep-related; the byte-level
   file: the bytes in the page cache, 256 zero bytes durable, one unsynced write,
   directory entry not durable *)
Example Link_ex_disk :
  drep lk_c lk_bd0 lk_d0 /\ drep lk_c lk_bd1 lk_d1 /\
  lk_bd1 = [(lk_n, {| bf_data := lk_new ++ zeros 104; bf_sync := zeros 256; bf_pend := [(0, lk_new)]; bf_dir := false |});
            (lk_n2, bcreated 256)] /\
  dk_files lk_d1 = [(lk_n, written (created 256) lk_pb); (lk_n2, created 256)] /\
  frep_at lk_info [] (Some (map enc lk_ls, false))
          {| bf_data := lk_new ++ zeros 104; bf_sync := zeros 256; bf_pend := [(0, lk_new)]; bf_dir := false |}
          (written (created 256) lk_pb).
Proof.
  assert (D0 : drep lk_c lk_bd0 lk_d0).
  { destruct Link_ex_cfg as (_ & _ & H1 & H2).
    apply bcreate_drep; [apply bcreate_drep; [constructor|exact H1]|exact H2]. }
  destruct (bwrite_drep lk_c lk_bd0 lk_d0 lk_info lk_n [] (bcreated 256) (created 256)
              (OpAppend (ents lk_ls)) lk_w1 (snd (append (init_empty lk_info) (ents lk_ls) FNone))
              (map enc lk_ls, sealed lk_w1) lk_ls) as (_ & _ & D1 & _ & R1 & _).
  - exact D0.
  - reflexivity.
  - repeat split; reflexivity.
  - vm_compute. reflexivity.
  - vm_compute. reflexivity.
  - apply frep_create.
  - vm_compute. reflexivity.
  - reflexivity.
  - exact Link_ex_logs_ok.
  - vm_compute. reflexivity.
  - assert (E1 : batch_write lk_info (cstate lk_info []) (map enc lk_ls, sealed lk_w1) = lk_new) by (vm_compute; reflexivity).
    assert (E2 : len (image lk_info []) = 0) by reflexivity.
    assert (E3 : len lk_new = 152) by (vm_compute; reflexivity).
    assert (E4 : sealed lk_w1 = false) by (vm_compute; reflexivity).
    rewrite E1, E2, E3 in D1. rewrite E1, E2, E4 in R1.
    split; [exact D0|]. split; [exact D1|]. split; [vm_compute; reflexivity|]. split; [vm_compute; reflexivity|].
    replace (lk_new ++ zeros 104) with (bf_data (bwrite_file (bcreated 256) 0 lk_new)) by (vm_compute; reflexivity).
    exact R1.
Qed.

(* a concrete power loss: the second file (entry not durable) disappears; of the
   batch in flight chunk 3 of 19 does not reach the disk.  RecoverTail zeroes the
   torn bytes; L2's crash choice "keep the first file, drop its batch" gives the
   related disk. *)
Definition lk_out : bdisk := [(lk_n, bkept (lk_T ++ zeros 104))].
Definition lk_cc : crash_choice := {| cc_keep_file := [lk_n]; cc_keep_batch := [] |}.

Example Link_ex_disk_crash :
  bcrash lk_bd1 lk_out /\
  bscrub lk_c lk_out = [(lk_n, bkept (zeros 256))] /\
  dk_files (crash_disk lk_cc lk_d1) =
    [(lk_n, {| df_ents := []; df_end := 0; df_seal := 0; df_pend := None; df_dir := true; df_size := 256 |})] /\
  drep lk_c (bscrub lk_c lk_out) (crash_disk lk_cc lk_d1).
Proof.
  destruct Link_ex_torn as (HT & Hnc & _). destruct Link_ex_disk as (_ & _ & Ebd & _).
  split; [|split; [vm_compute; reflexivity|split; [vm_compute; reflexivity|]]].
  - rewrite Ebd. apply (bcr_cons _ [(lk_n, bkept (lk_T ++ zeros 104))] _ []).
    + apply bcf_keep. cbn [bf_sync bf_pend].
      apply (ta_cons _ 0 lk_new lk_T).
      * replace (region (zeros 256) (N.to_nat 0) (length lk_new)) with (zeros (length lk_new)) by (vm_compute; reflexivity).
        apply torn_torn_over. exact HT.
      * exact Hnc.
      * replace (lk_T ++ zeros 104) with (overwrite (zeros 256) (N.to_nat 0) lk_T) by (vm_compute; reflexivity).
        constructor.
    + apply (bcr_cons _ [] _ []); [apply bcf_drop; reflexivity|constructor].
  - replace (bscrub lk_c lk_out) with [(lk_n, bkept (zeros 256))] by (vm_compute; reflexivity).
    unfold drep.
    replace (dk_files (crash_disk lk_cc lk_d1)) with
      [(lk_n, {| df_ents := []; df_end := 0; df_seal := 0; df_pend := None; df_dir := true; df_size := 256 |})]
      by (vm_compute; reflexivity).
    constructor; [|constructor]. cbn [fst snd]. split; [reflexivity|].
    split; [apply Link_ex_cfg|]. exists [], None.
    constructor; cbn [opt_batch app bkept bf_sync bf_pend bf_dir df_dir cur_ents df_pend df_ents].
    + constructor; reflexivity.
    + constructor.
    + reflexivity.
    + exists 256%nat. reflexivity.
    + reflexivity.
    + reflexivity.
    + reflexivity.
Qed.

(* the branch of apply_act that extends a pending batch (a second write right
   behind a batch that was never synced, without adopt_disk in between): L2's
   merged batch survives a power loss whole or not at all (3 or 0 records), the
   bytes can also keep the first batch only (2 records).  The state is not
   reachable in the histories of the WAL-level theorems (every restart applies
   adopt_disk first; crash histories have no failed fsync), so this is a limit
   of that branch, not a defect of the theorems. *)
Definition lk_x2 := append lk_w1 (ents [lk_log 3]) FNone.
Definition lk_new2 : bytes := match lk_x2 with (_, _, [WWrite _ b; _]) => b | _ => [] end.
Definition lk_pb2 : pbatch := pb_of [lk_log 3] (snd (fst lk_x2)).
Definition lk_f2 : dfile := written (created 256) (merged lk_pb lk_pb2).

Example Link_ex_merged_crash :
  lookup lk_n (dk_files (apply_act lk_d1 (AWrite lk_n 152 (len lk_new2) lk_pb2))) = Some lk_f2 /\
  map (fun keep => llen (df_ents (crashed keep lk_f2))) [true; false] = [3; 0] /\
  torn_apply (zeros 256) [(0, lk_new); (152, lk_new2)] (lk_new ++ zeros 104) /\
  recover_state lk_info (lk_new ++ zeros 104) = Some lk_w1 /\ len (w_offsets lk_w1) = 2.
Proof.
  split; [vm_compute; reflexivity|]. split; [vm_compute; reflexivity|].
  split; [|split; vm_compute; reflexivity].
  apply (ta_cons _ 0 lk_new lk_new).
  - replace (region (zeros 256) (N.to_nat 0) (length lk_new)) with (zeros (length lk_new)) by (vm_compute; reflexivity).
    apply torn_torn_over. apply (torn_refl 19). vm_compute. reflexivity.
  - left. reflexivity.
  - apply (ta_cons _ 152 lk_new2 (zeros (length lk_new2))).
    + replace (region (overwrite (zeros 256) (N.to_nat 0) lk_new) (N.to_nat 152) (length lk_new2))
        with (zeros (length lk_new2)) by (vm_compute; reflexivity).
      apply torn_torn_over. apply (torn_all_zero 8). vm_compute. reflexivity.
    + apply no_torn_collisionb_spec. vm_compute. reflexivity.
    + replace (lk_new ++ zeros 104)
        with (overwrite (overwrite (zeros 256) (N.to_nat 0) lk_new) (N.to_nat 152) (zeros (length lk_new2)))
        by (vm_compute; reflexivity).
      constructor.
Qed.
