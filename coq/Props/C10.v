(* C10 -- I/O errors never cost acknowledged data.

   The statement is `fault_safety_stmt` of Wal/FaultHist.v, proved in full
   (Wal/FaultThm.v): for every configuration and every history of calls
   `FOp f fx o` with process restarts and Close/Open cycles in between, where
     f  = Some k: the k-th I/O action of the call fails -- ANY action of ANY call:
          segment write, fsync, file creation, metadata commit, stable write
          (StoreLogs incl. the reset of the empty first segment, the background
          rotation a call waits for, DeleteRange head and tail truncation incl. the
          forced seal, stable Set, Open incl. the completion of an interrupted
          rotation);
     fx = the fault modes in force while that fault is armed (a call that is to see
          only a mode carries a count it never reaches):
          fx_del    every segment-file deletion fails (error, the file stays; the WAL
                    ignores the error; the clean-up of a later Open removes the file,
                    and may fail again)
          fx_list   the directory listing of Open fails: Open returns an error after
                    MetaStore.Load, the next Open succeeds
          fx_leave  a file creation hit by the counted fault leaves the empty,
                    unallocated file behind
          fx_land   a metadata commit or stable write hit by the counted fault
                    reports the failure although it reached the disk (bbolt: the
                    meta page is written, the last fdatasync fails);
   the following hold:
     (a) readers of the running process always see exactly the state in which the
         calls that returned nil are applied and those that returned an error are not
         (only a stable Set that returned an error may show its value);
     (b) a call that returned nil was acceptable to the contiguous-log specification;
     (c) after a restart / reopen the WAL opens (unless a fault was injected into that
         very Open) and presents a member of `candidates alts defer`: each failed call
         applied as a whole (in place, or -- for a failed StoreLogs whose complete
         bytes sit behind the last commit of the tail file -- at restart time) or not
         at all.
   A failed action other than a creation under fx_leave or a BoltDB transaction
   under fx_land has no effect on the disk (Model.io); the model does not cover an
   fsync of a segment file that reports an error although the data reached the disk.
   After ANY failed metadata commit of a state transaction the WAL refuses writes
   until it is reopened (wal.go mutateStateLocked sets w.failed: the outcome of the
   commit is unknown); Wal/ModelOld.v keeps the transaction as it was before that
   repair, example C10_ex_commit_lands_old_refuted shows the acknowledged entry it
   loses (finding F4).
   Proof architecture: lock-step simulation of the faulty run against the fault-free
   run on a normalised disk (Wal/FaultSim*.v), which transfers the per-action-prefix
   disk invariants of the crash development (Wal/Crash*.v) to the disk a failed call
   leaves (a run whose deletions all fail is the fault-free run stopped before its
   trailing deletions); an invariant FInv (Wal/FaultInv.v) over the process states
   reachable with faults (stale unsynced batch behind a rolled-back writer or in a
   file that could not be deleted; a WAL that refuses writes while the metadata on
   the disk is the old or already the new one; closed handle); Wal/FaultNames.v: a file the metadata does
   not list is never listed again. *)
From RW Require Import Base.Bytes Fmt.Codec Fmt.Frame Wal.Model Wal.Spec Wal.Hist Wal.FaultHist Wal.FaultFacts
  Wal.FaultInv Wal.FaultThm Wal.FaultCor Wal.CrashExamples Wal.CrashExamplesFacts Wal.FaultExamples Wal.FaultExamplesFacts
  Gen.Constants.
Open Scope N_scope.

(* the full statement *)
Theorem C10_fault_safety : fault_safety_stmt.
Proof. exact fault_safety. Qed.
Print Assumptions C10_fault_safety.

(* plain-language corollaries.  [fault_hist_ok c steps] = cfg_ok c, every call
   well-formed, fewer than 2^62 steps.  [fs_nom h] is the nominal state of the ghost
   ledger: it changes only when a call returns nil (then by the specification's
   transition) or at a restart/reopen (then to the state the recovery presents). *)

(* while the WAL is open, readers see exactly the nominal state -- so every entry of a
   StoreLogs that returned nil, not covered by a later successful DeleteRange, is
   returned by GetLog, and nothing of a call that returned an error is *)
Theorem C10_nominal_view :
  forall c steps s0, fault_hist_ok c steps -> initial c = Some s0 ->
    let h := fault_run c (fault_init s0) steps in
    st_closed (ss_wal (fs_s h)) = false ->
    observed (fs_s h) = fs_nom h /\
    forall i, i < two64 ->
      result_eqb (res_class (fst (get_log (ss_wal (fs_s h)) i (ss_env (fs_s h)))))
                 (fst (step_spec (fs_nom h) (OGet i))) = true.
Proof. exact nominal_view. Qed.
Print Assumptions C10_nominal_view.

(* after any such history, whatever fault and fault modes are armed for it: if StoreLogs returns nil,
   GetLog returns every one of its entries *)
Theorem C10_acked_visible_in_process :
  forall c steps s0 f fx ls l, fault_hist_ok c steps -> initial c = Some s0 -> sop_ok (OStore ls) ->
    let h := fault_run c (fault_init s0) steps in
    st_closed (ss_wal (fs_s h)) = false ->
    let '(r, s1) := step_model c (with_fault (fs_s h) f fx) (OStore ls) in
    r = ROk -> In l ls -> fst (get_log (ss_wal s1) (l_index l) (ss_env s1)) = RLog l.
Proof. exact acked_visible_in_process. Qed.
Print Assumptions C10_acked_visible_in_process.

(* if StoreLogs returns an error, GetLog answers every index from the state before the
   call: in particular none of its entries beyond the log is found *)
Theorem C10_failed_store_invisible :
  forall c steps s0 f fx ls i, fault_hist_ok c steps -> initial c = Some s0 -> sop_ok (OStore ls) ->
    let h := fault_run c (fault_init s0) steps in
    st_closed (ss_wal (fs_s h)) = false -> i < two64 ->
    let '(r, s1) := step_model c (with_fault (fs_s h) f fx) (OStore ls) in
    r <> ROk ->
    result_eqb (res_class (fst (get_log (ss_wal s1) i (ss_env s1)))) (fst (step_spec (fs_nom h) (OGet i))) = true.
Proof. exact failed_store_invisible. Qed.
Print Assumptions C10_failed_store_invisible.

Theorem C10_failed_store_not_found :
  forall c steps s0 f fx ls l, fault_hist_ok c steps -> initial c = Some s0 -> sop_ok (OStore ls) ->
    let h := fault_run c (fault_init s0) steps in
    st_closed (ss_wal (fs_s h)) = false -> In l ls -> spec_get (sp_log (fs_nom h)) (l_index l) = None ->
    let '(r, s1) := step_model c (with_fault (fs_s h) f fx) (OStore ls) in
    r <> ROk -> fst (get_log (ss_wal s1) (l_index l) (ss_env s1)) = RErrNotFound.
Proof. exact failed_store_not_found. Qed.
Print Assumptions C10_failed_store_not_found.

(* a restart after any such history opens the WAL, and what it presents (and what readers
   then see) is a candidate: an alternative of the ledger -- every failed call applied in
   full or not at all -- or such an alternative with one failed StoreLogs applied in full *)
Theorem C10_reopen_applies_whole_or_nothing :
  forall c steps s0, fault_hist_ok c steps -> initial c = Some s0 ->
    let h := fault_run c (fault_init s0) steps in
    let h' := fstep_run c h FRestart in
    st_closed (ss_wal (fs_s h')) = false /\ fs_ok h' = true /\
    In (fs_nom h') (candidates (fs_alts h) (fs_defer h)) /\ observed (fs_s h') = fs_nom h'.
Proof. exact reopen_whole_or_nothing. Qed.
Print Assumptions C10_reopen_applies_whole_or_nothing.

Theorem C10_candidate_shape :
  forall alts defer x, In x (candidates alts defer) ->
    In x alts \/ exists a o, In a alts /\ In o defer /\ spec_accepts a o = Some x.
Proof. exact cand_inv. Qed.
Print Assumptions C10_candidate_shape.

(* the local consequences of an error on which the model's error paths rest *)
Theorem C10_failed_action_no_effect :
  forall a e e', is_txn a = false -> io a e = (false, e') -> e_disk e' = e_disk e.
Proof. exact io_fail_no_effect_plain. Qed.
Print Assumptions C10_failed_action_no_effect.

(* a BoltDB transaction (metadata commit, stable write) that fails has no effect or,
   under fx_land, exactly its effect *)
Theorem C10_failed_transaction_effect :
  forall a e e', io a e = (false, e') ->
    e_disk e' = e_disk e \/
    (is_txn a = true /\ fx_land (e_fx e) = true /\ e_fault e = Some O /\ e_disk e' = apply_act (e_disk e) a).
Proof. exact io_fail_no_effect. Qed.
Print Assumptions C10_failed_transaction_effect.

Theorem C10_failed_create_leaves_at_most_an_empty_file :
  forall si e e', seg_create si e = (None, e') ->
    e_disk e' = e_disk e \/ e_disk e' = apply_act (e_disk e) (ACreate (name_of si) 0).
Proof. exact failed_create_effect. Qed.
Print Assumptions C10_failed_create_leaves_at_most_an_empty_file.

Theorem C10_failed_delete_keeps_file :
  forall n e e', io (ADelete n) e = (false, e') ->
    e_disk e' = e_disk e /\ e_fault e' = e_fault e /\ armed e = true /\ fx_del (e_fx e) = true.
Proof. exact failed_delete_effect. Qed.
Print Assumptions C10_failed_delete_keeps_file.

Theorem C10_failed_listing_fails_open :
  forall c e,
    negb (FirstExternalCodecID <=? c_codec c) && negb (c_codec c =? BinaryCodecID) = false ->
    dk_inited (e_disk e) = true -> armed e = true -> fx_list (e_fx e) = true ->
    open_wal c e = (OErr RErrIO, list_failed e) /\ e_disk (list_failed e) = e_disk e /\
    fx_list (e_fx (list_failed e)) = false.
Proof. exact failed_listing_fails_open. Qed.
Print Assumptions C10_failed_listing_fails_open.

Theorem C10_failed_append_rolls_back :
  forall w ls e r w' e', seg_append w ls e = (r, w', e') -> r <> ROk -> w' = w.
Proof. exact seg_append_error_rolls_back. Qed.
Print Assumptions C10_failed_append_rolls_back.

Theorem C10_failed_force_seal_rolls_back :
  forall w e r w' e', seg_force_seal w e = (r, w', e') -> r <> ROk -> w' = w.
Proof. exact seg_force_seal_error_rolls_back. Qed.
Print Assumptions C10_failed_force_seal_rolls_back.

(* a failed metadata commit publishes nothing and makes the WAL refuse writes *)
Theorem C10_failed_commit_fails_wal :
  forall w t e e1,
    io (ACommit {| ps_next_id := tx_next_id t; ps_segs := tx_segs t |}) e = (false, e1) ->
    mutate w t e = (RErrIO, wal_failed w, e1).
Proof. exact mutate_commit_failure_fails_wal. Qed.
Print Assumptions C10_failed_commit_fails_wal.

Theorem C10_failed_wal_refuses_writes :
  forall c w ls e, st_closed w = false -> st_failed w = true -> ls <> [] ->
    store_logs c w ls e = (RErrFailed, w, e).
Proof. exact failed_wal_refuses_store. Qed.
Print Assumptions C10_failed_wal_refuses_writes.

(* non-vacuity: the hypotheses are satisfiable and the ledger is not trivial *)
Example C10_ex_cfg : cfg_ok cfg256 /\ cfg_ok cfg128.
Proof. exact (conj cfg256_ok cfg128_ok). Qed.

(* A: fsync failure of a 2-entry append; the entries are invisible; a shorter batch with
   another term is written at the same offset; after a restart exactly that batch is there *)
Example C10_ex_fsync_then_shorter :
  (ff_ok cfg256 fh_fsync_then_shorter, ff_last cfg256 (firstn 4 fh_fsync_then_shorter),
   ff_last cfg256 fh_fsync_then_shorter, ff_term cfg256 fh_fsync_then_shorter 2, ff_term cfg256 fh_fsync_then_shorter 3)
  = (true, 1, 2, Some 2, None).
Proof. vm_compute. reflexivity. Qed.

(* A': the same failed fsync followed by a restart: the failed StoreLogs is applied, as a
   whole, at restart time (last index 1 before, 3 after) *)
Example C10_ex_fsync_then_restart :
  (ff_ok cfg256 fh_fsync_then_restart, ff_last cfg256 (firstn 3 fh_fsync_then_restart), ff_last cfg256 fh_fsync_then_restart)
  = (true, 1, 3).
Proof. vm_compute. reflexivity. Qed.

(* B: the creation of the new tail fails after the metadata commit of a tail truncation:
   the WAL is marked failed, the next StoreLogs is refused, readers still see 3 entries;
   after a reopen the truncation is applied (2 entries) and index 3 can be rewritten *)
Example C10_ex_trunc_create_fails :
  (ff_ok cfg256 fh_trunc_create_fails, ff_flags cfg256 (firstn 2 fh_trunc_create_fails),
   ff_result cfg256 (firstn 2 fh_trunc_create_fails) None (OStore [ex_log 4 1]),
   ff_last cfg256 (firstn 5 fh_trunc_create_fails), ff_last cfg256 (firstn 7 fh_trunc_create_fails),
   ff_term cfg256 fh_trunc_create_fails 3)
  = (true, (true, false), RErrFailed, 3, 2, Some 5).
Proof. vm_compute. reflexivity. Qed.

(* C: the commit of the pending rotation fails: the WAL refuses writes (appends and the
   head truncation alike) until a restart completes the rotation *)
Example C10_ex_rotation_commit_fails :
  (ff_ok cfg128 fh_rotation_commit_fails, ff_flags cfg128 (firstn 3 fh_rotation_commit_fails),
   ff_result cfg128 (firstn 3 fh_rotation_commit_fails) None (OStore [ex_log 3 1]),
   ff_last cfg128 (firstn 5 fh_rotation_commit_fails), ff_first cfg128 (firstn 7 fh_rotation_commit_fails),
   ff_first cfg128 fh_rotation_commit_fails, ff_last cfg128 fh_rotation_commit_fails)
  = (true, (true, false), RErrFailed, 2, 1, 1, 3).
Proof. vm_compute. reflexivity. Qed.

(* D: a fault inside Open: it fails, every call fails, the next Open succeeds *)
Example C10_ex_fault_in_open :
  (ff_ok cfg128 fh_fault_in_open, ff_flags cfg128 (firstn 3 fh_fault_in_open),
   ff_result cfg128 (firstn 3 fh_fault_in_open) None OLast,
   ff_last cfg128 fh_fault_in_open, ff_term cfg128 fh_fault_in_open 3)
  = (true, (false, true), RErrClosed, 3, Some 1).
Proof. vm_compute. reflexivity. Qed.

(* E: a failed stable-store write and a head truncation whose commit fails change nothing *)
Example C10_ex_misc :
  (ff_ok cfg256 fh_misc, ff_first cfg256 fh_misc, ff_kv cfg256 fh_misc [107]) = (true, 1, [1]).
Proof. vm_compute. reflexivity. Qed.

(* F: every deletion of a head truncation fails: the truncation is applied (first index 5),
   the 3 files stay; the next append rotates (4 files); the clean-up of an Open under the
   same mode fails again (4 files); the clean Open after it removes them (2 files) *)
Example C10_ex_delete_fails :
  (ff_ok cfg128 fh_delete_fails, ff_nfiles cfg128 (firstn 5 fh_delete_fails), ff_nfiles cfg128 (firstn 6 fh_delete_fails),
   ff_first cfg128 (firstn 6 fh_delete_fails), ff_nfiles cfg128 (firstn 9 fh_delete_fails),
   ff_nfiles cfg128 (firstn 12 fh_delete_fails), ff_first cfg128 fh_delete_fails, ff_last cfg128 fh_delete_fails)
  = (true, 3%nat, 3%nat, 5, 4%nat, 2%nat, 5, 7).
Proof. vm_compute. reflexivity. Qed.

(* F': the old tail file stays when the empty first segment is replaced; a restart removes it *)
Example C10_ex_reset_delete_fails :
  (ff_ok cfg256 fh_reset_delete_fails, ff_nfiles cfg256 (firstn 1 fh_reset_delete_fails), ff_nfiles cfg256 fh_reset_delete_fails,
   ff_first cfg256 fh_reset_delete_fails, ff_last cfg256 fh_reset_delete_fails)
  = (true, 2%nat, 1%nat, 5, 6).
Proof. vm_compute. reflexivity. Qed.

(* G: the directory listing of Open fails: an error, every call fails, the next Open succeeds *)
Example C10_ex_list_fails :
  (ff_ok cfg128 fh_list_fails, ff_flags cfg128 (firstn 3 fh_list_fails),
   ff_result_fx cfg128 (firstn 2 fh_list_fails) never fx_listing OReopen,
   ff_result cfg128 (firstn 3 fh_list_fails) None OLast,
   ff_last cfg128 fh_list_fails, ff_term cfg128 fh_list_fails 3)
  = (true, (false, true), RErrIO, RErrClosed, 3, Some 1).
Proof. vm_compute. reflexivity. Qed.

(* H: as B, but the failed creation leaves the empty file (2 files instead of 1): the next
   Open adopts it as the tail, the truncation is applied and index 3 can be rewritten *)
Example C10_ex_trunc_create_leaves :
  (ff_ok cfg256 fh_trunc_create_leaves, ff_flags cfg256 (firstn 2 fh_trunc_create_leaves),
   ff_nfiles cfg256 (firstn 1 fh_trunc_create_leaves), ff_nfiles cfg256 (firstn 2 fh_trunc_create_leaves),
   ff_nfiles cfg256 (firstn 2 fh_trunc_create_fails),
   ff_last cfg256 (firstn 4 fh_trunc_create_leaves), ff_last cfg256 (firstn 6 fh_trunc_create_leaves),
   ff_term cfg256 fh_trunc_create_leaves 3)
  = (true, (true, false), 1%nat, 2%nat, 1%nat, 3, 2, Some 5).
Proof. vm_compute. reflexivity. Qed.

(* H': the file of a rotation is left behind by the failed creation; a restart adopts it *)
Example C10_ex_rotate_create_leaves :
  (ff_ok cfg128 fh_rotate_create_leaves, ff_flags cfg128 (firstn 3 fh_rotate_create_leaves),
   ff_nfiles cfg128 (firstn 2 fh_rotate_create_leaves), ff_nfiles cfg128 (firstn 3 fh_rotate_create_leaves),
   ff_last cfg128 (firstn 5 fh_rotate_create_leaves), ff_last cfg128 fh_rotate_create_leaves,
   ff_term cfg128 fh_rotate_create_leaves 3)
  = (true, (true, false), 1%nat, 2%nat, 2, 3, Some 1).
Proof. vm_compute. reflexivity. Qed.

(* I (finding F4): a tail truncation that drops the tail segment as a whole; its metadata
   commit reports a failure but has reached the disk.  DeleteRange returns an error, the
   WAL refuses the next StoreLogs (in-process last index 2: nothing acknowledged is lost,
   nothing is acknowledged any more); the next Open finds the truncation done (last index 1)
   and index 2 can be rewritten *)
Example C10_ex_commit_lands :
  (ff_ok cfg128 fh_commit_lands, ff_result_fx cfg128 (firstn 2 fh_commit_lands) (Some 2%nat) fx_lands (ODelete 2 2),
   ff_flags cfg128 (firstn 3 fh_commit_lands),
   ff_result cfg128 (firstn 3 fh_commit_lands) None (OStore [ex_log 3 1]),
   ff_last cfg128 (firstn 6 fh_commit_lands), ff_last cfg128 (firstn 8 fh_commit_lands),
   ff_term cfg128 fh_commit_lands 2, ff_last cfg128 fh_commit_lands)
  = (true, RErrIO, (true, false), RErrFailed, 2, 1, Some 7, 2).
Proof. vm_compute. reflexivity. Qed.

(* the same history on the transaction as it was before the repair (Wal/ModelOld.v): the
   truncation returns an error and the WAL does NOT refuse writes; StoreLogs [3] returns
   nil (last index 3); after the next Open the last index is 1: entry 3 was acknowledged
   after the failed call and is gone *)
Example C10_ex_commit_lands_old_refuted :
  old_f4_run cfg128 = (RErrIO, false, ROk, 3, 1).
Proof. vm_compute. reflexivity. Qed.

(* I': a stable Set whose transaction fails and lands: the call returns an error, readers
   see the new value, before and after a restart *)
Example C10_ex_set_lands :
  (ff_ok cfg256 fh_set_lands, ff_result_fx cfg256 (firstn 1 fh_set_lands) (Some 0%nat) fx_lands (OSet [107] [2] false),
   ff_kv cfg256 (firstn 3 fh_set_lands) [107], ff_kv cfg256 fh_set_lands [107])
  = (true, RErrIO, [2], [2]).
Proof. vm_compute. reflexivity. Qed.

(* the example histories satisfy the hypotheses of the theorem *)
Example C10_ex_hyps :
  fault_hist_ok cfg256 fh_fsync_then_shorter /\ fault_hist_ok cfg256 fh_fsync_then_restart /\
  fault_hist_ok cfg256 fh_trunc_create_fails /\ fault_hist_ok cfg128 fh_rotation_commit_fails /\
  fault_hist_ok cfg128 fh_fault_in_open /\ fault_hist_ok cfg256 fh_misc /\
  fault_hist_ok cfg128 fh_delete_fails /\ fault_hist_ok cfg256 fh_reset_delete_fails /\
  fault_hist_ok cfg128 fh_list_fails /\ fault_hist_ok cfg256 fh_trunc_create_leaves /\
  fault_hist_ok cfg128 fh_rotate_create_leaves /\ fault_hist_ok cfg128 fh_commit_lands /\
  fault_hist_ok cfg256 fh_set_lands.
Proof.
  exact (conj fh_fsync_then_shorter_ok (conj fh_fsync_then_restart_ok (conj fh_trunc_create_fails_ok
         (conj fh_rotation_commit_fails_ok (conj fh_fault_in_open_ok (conj fh_misc_ok
         (conj fh_delete_fails_ok (conj fh_reset_delete_fails_ok (conj fh_list_fails_ok
         (conj fh_trunc_create_leaves_ok (conj fh_rotate_create_leaves_ok (conj fh_commit_lands_ok fh_set_lands_ok)))))))))))).
Qed.

(* ===== BEGIN block "byte level" (one segment file, Seg/FailFacts.v) =====

   The WAL-level model above has no bytes: a failed batch that is overwritten is gone.
   In the file it is not.  A batch whose write or fsync FAILED is rolled back in the
   writer only; a shorter batch appended over its start leaves the rest of it --
   entry frames and its commit frame -- behind the valid chain.  The statements below
   are about the byte-level writer (Seg/Writer.v append / force_seal with the faults
   FWrite / FWriteShort / FSync: writer rolled back; a write that fails outright leaves
   nothing, a SHORT write (WriteAt returns n < len with an error) leaves the first half
   of its bytes, a write whose fsync failed leaves all of them in the file) and the
   byte-level recovery (Seg/Recover.v recover_state = recoverTailState
   as repaired by "fix: recovery verifies every commit frame"; the algorithm before the
   repair is Seg/RecoverOld.v and is REFUTED below).

   frun info k0 ops: the instrumented run of ANY list of operations (op, fault) from
   init_empty on a file of k0 zero bytes.  fs_w / fs_file: writer and file at the end;
   fs_bs: the batches of the operations that succeeded; fs_pend: the batches whose
   COMPLETE write was issued and whose fsync failed since the last success (a refused
   operation, or one whose write failed outright, writes nothing and leaves no trace; a
   half-written batch is never complete); fs_last: the last of them, unless a later
   short write damaged its bytes (then none): the one batch of a failed operation that is
   complete in the file; fs_ok: every write belonged to a batch ending below 2^32.

   no_stale_commit f p (decidable: no_stale_commitb): no commit frame the scan of f meets
   at or behind offset p stores the CRC-32C of its apparent range (the bytes between the
   preceding commit frame of the scan and itself) -- the analogue of no_torn_collision
   for leftovers; it fails only on a genuine collision of the checksum, or when a
   payload written earlier contains a forged frame sequence with a matching CRC. *)
From RW Require Import Base.Bytes Base.Crc32c Fmt.Frame Seg.Writer Seg.Recover Seg.RecoverOld Seg.Reader Seg.SegAbs
     Seg.WriterFacts Seg.ScanFacts Seg.RecoverFacts Seg.ChainFacts Seg.FailFacts Gen.Constants.

(* THE THEOREM (restart without power loss).  After EVERY history of successful,
   refused and failed appends / force-seals: the running writer is the writer of the
   acknowledged batches, and recovery of the file returns -- all fields -- the writer
   of the acknowledged batches, or of those plus fs_last, the LAST failed complete write
   (whose bytes are then completely in the file).  Never an entry of a failed batch that
   was followed by another complete write, never a part of a batch -- in particular
   nothing of a batch that a short write left half-written --, never a mix of two. *)
Theorem C10_byte_fail_recover :
  forall info k0 ops,
    hdr_wf info -> fops_wf ops ->
    let st := frun info k0 ops in
    fs_ok st = true ->
    let bs' := fs_bs st ++ fs_last st in
    fs_w st = wst info (cstate info (fs_bs st)) /\
    (no_stale_commit (fs_file st) (len (image info bs')) ->
     recover_state info (fs_file st) = Some (wst info (cstate info bs'))).
Proof. exact fail_recover. Qed.
Print Assumptions C10_byte_fail_recover.

(* when no failed batch is complete in the file -- e.g. right after an ACKNOWLEDGED write,
   whatever failed before -- a restart is invisible *)
Theorem C10_byte_restart_after_ack :
  forall info k0 ops,
    hdr_wf info -> fops_wf ops ->
    let st := frun info k0 ops in
    fs_ok st = true -> fs_last st = [] ->
    no_stale_commit (fs_file st) (len (image info (fs_bs st))) ->
    recover_state info (fs_file st) = Some (fs_w st).
Proof. exact fail_recover_acked. Qed.
Print Assumptions C10_byte_restart_after_ack.

(* the same from any state that satisfies the invariant of such runs, e.g. the clean
   file every RecoverTail leaves (image of a chain, then zeros): histories with
   restarts in between *)
Theorem C10_byte_fail_recover_from :
  forall info st0 ops,
    hdr_wf info -> finv info st0 -> fops_wf ops ->
    let st := frun_from st0 ops in
    fs_ok st = true ->
    let bs' := fs_bs st ++ fs_last st in
    fs_w st = wst info (cstate info (fs_bs st)) /\
    (no_stale_commit (fs_file st) (len (image info bs')) ->
     recover_state info (fs_file st) = Some (wst info (cstate info bs'))).
Proof. exact fail_recover_from. Qed.
Print Assumptions C10_byte_fail_recover_from.

Theorem C10_byte_clean_state :
  forall info bs k, chain_wf info c0 bs -> finv info (fclean info bs k).
Proof. exact finv_clean. Qed.
Print Assumptions C10_byte_clean_state.

(* the law behind it: the image of ANY chain followed by ANY bytes in which no commit
   frame verifies is recovered as the chain *)
Theorem C10_byte_recover_behind :
  forall info bs R,
    hdr_wf info -> chain_wf info c0 bs ->
    let s := cstate info bs in
    no_stale_commit (c_img s ++ R) (len (c_img s)) ->
    recover_state info (c_img s ++ R) = Some (wst info s).
Proof. exact recover_behind. Qed.
Print Assumptions C10_byte_recover_behind.

Theorem C10_byte_no_stale_commit_decidable :
  forall f p, no_stale_commitb f p = true <-> no_stale_commit f p.
Proof. exact no_stale_commitb_spec. Qed.
Print Assumptions C10_byte_no_stale_commit_decidable.

(* the fault semantics the histories rest on: an operation that does nothing is not
   affected by a fault; otherwise the result is an I/O error, the writer is rolled
   back, and the write has happened (fsync failed) or not (write failed) *)
Theorem C10_byte_fault_semantics :
  forall w op flt r w' acts,
    do_op w op = (r, w', acts) -> flt <> FNone ->
    do_fop w (op, flt) =
    match acts with
    | [] => (r, w', [])
    | _ => (WErrIO, w, match flt with FSync => acts | FWriteShort => short_acts acts | FWrite | FNone => [] end)
    end.
Proof. exact do_fop_fault. Qed.
Print Assumptions C10_byte_fault_semantics.

(* non-vacuity AND the finding.  History of honest batches (fx_ops): [e1] succeeds;
   a = [a2; a3; a4] -- fsync fails; b = [b2; b3] -- fsync fails; c = [c2] succeeds, its
   commit frame ends where b's second frame begins and b's commit frame ends where a's
   third frame begins: behind the commit of c lie [b3][commit b][a4][commit a]. *)
Example C10_byte_ex_hyps : hdr_wf fx_info /\ fops_wf fx_ops.
Proof. exact fx_hyps. Qed.

(* the hypotheses hold on it and the repaired recovery returns the running writer:
   entries e1, c2 and nothing else *)
Example C10_byte_ex_history :
  fs_ok fx_st = true /\
  fs_bs fx_st = [([fx_e1], false); ([fx_c2], false)] /\ fs_pend fx_st = [] /\ fs_last fx_st = [] /\
  no_stale_commitb (fs_file fx_st) (len (image fx_info (fs_bs fx_st))) = true /\
  recover_state fx_info (fs_file fx_st) = Some (fs_w fx_st) /\
  length (w_offsets (fs_w fx_st)) = 2%nat /\
  tail_get (fs_w fx_st) (fs_file fx_st) 2 = ROk fx_c2 /\
  tail_get (fs_w fx_st) (fs_file fx_st) 3 = RNotFound.
Proof. vm_compute. repeat split; reflexivity. Qed.

(* THE DEFECT: on the same file the algorithm before the repair (it verified only the
   last commit frame and fell back to the previous one unverified) returns a writer
   with 3 entries whose third entry is b3 -- an entry of a batch that failed, was
   rolled back and was overwritten by c *)
Example C10_byte_recover_old_refuted :
  exists w, recover_state_old fx_info (fs_file fx_st) = Some w /\
            length (w_offsets w) = 3%nat /\ w_commit_idx w = 3 /\
            tail_get w (fs_file fx_st) 2 = ROk fx_c2 /\
            tail_get w (fs_file fx_st) 3 = ROk fx_b3 /\
            recover_state_old fx_info (fs_file fx_st) <> recover_state fx_info (fs_file fx_st).
Proof. exact recover_old_refuted. Qed.
(* short writes: history [e1] ok, a -- fsync fails, then (pb) b fails with a SHORT write:
   its first half replaces a's first frame, a is damaged, nothing of b can be complete:
   recovery returns [e1] = the running writer; (pa) the retry of a itself is short: the
   half written equals what is there, a is still complete: recovery returns [e1], a;
   (pc) after (pb) c succeeds: recovery returns the running writer [e1], c *)
Example C10_byte_ex_short_hyps : fops_wf fx_ops_pb /\ fops_wf fx_ops_pa /\ fops_wf fx_ops_pc.
Proof. exact fx_short_hyps. Qed.
Example C10_byte_ex_short :
  let sb := frun fx_info 256 fx_ops_pb in
  let sa := frun fx_info 256 fx_ops_pa in
  let sc := frun fx_info 256 fx_ops_pc in
  (fs_ok sb, fs_bs sb, fs_pend sb, fs_last sb) =
    (true, [([fx_e1], false)], [([fx_a2; fx_a3; fx_a4], false)], []) /\
  length (fs_pw sb) = 2%nat /\
  no_stale_commitb (fs_file sb) (len (image fx_info (fs_bs sb))) = true /\
  recover_state fx_info (fs_file sb) = Some (fs_w sb) /\
  (fs_ok sa, fs_bs sa, fs_last sa) = (true, [([fx_e1], false)], [([fx_a2; fx_a3; fx_a4], false)]) /\
  no_stale_commitb (fs_file sa) (len (image fx_info (fs_bs sa ++ fs_last sa))) = true /\
  recover_state fx_info (fs_file sa) = Some (wst fx_info (cstate fx_info (fs_bs sa ++ fs_last sa))) /\
  (fs_ok sc, fs_bs sc, fs_last sc) = (true, [([fx_e1], false); ([fx_c2], false)], []) /\
  no_stale_commitb (fs_file sc) (len (image fx_info (fs_bs sc))) = true /\
  recover_state fx_info (fs_file sc) = Some (fs_w sc).
Proof. exact fx_short. Qed.

(* The composition of this per-file law with the WAL-level histories of this file
   (fault_safety_stmt: counted faults, fault modes, FRestart) is in Props/Link.v,
   section 8 (link3): every history with injected faults has a byte-level run
   (Link_fault_history: lock-step byte actions keep the weak relation "image, then
   anything"; at every restart the byte-level recovery of every file -- fail_recover
   above -- gives back the strong relation to adopt_disk, under stale_free =
   no_stale_commit for every file); GetLog of the running process and every entry
   of the nominal state of fault_safety are the decoding of what the byte-level
   readers return (Link_fault_get_log, Link_fault_nominal_bytes); the recovered
   byte-level writer represents the tail writer Open installs
   (Link_fault_restart_recovered). *)
(* ===== END block "byte level" ===== *)
