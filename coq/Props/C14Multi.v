(* C14, beyond the single-writer theorems of Props/C14.v: ANY number of threads issuing StoreLogs /
   DeleteRange ("in-flight StoreLogs, DeleteRange, pending rotation" of the quantifier needs two).
   Only statements here; proofs in Conc/AwaitInv.v (on top of CloseSafe.Safe: mutual exclusion
   for every program list and every schedule).

   C14_no_call_overtakes_queued_rotation: in every state reached without a panic, a StoreLogs or
   DeleteRange that is past its awaitRotation check (past_await: from the load of the state to
   the point where the call itself queues a rotation, the whole mutateStateLocked of a
   truncation included) runs with awaitRotate = nil.  C14_queued_rotation_undisturbed is the
   contrapositive: from the moment a sealing append stores awaitRotate until the rotation
   goroutine resets it, no other mutating call is inside its body -- the rotation finds the tail
   it was queued for.  No single_writer hypothesis, no bound on threads or steps.

   In /repo the property holds since commit fae88cb: awaitRotationLocked loops (model: PRelock
   re-checks g_await).  The code before that commit let a writer that had waited for one
   rotation go on although another writer had queued the next one, which left acknowledged
   entries unreadable and Open failing for good (DESIGN.md, section round4; stream twowriters).
   The Examples run that very schedule on the model: the second writer, woken after rotation 1
   with rotation 2 queued, waits again (PRelock -> PWaiting), and the run ends with the log the
   two calls give in lock order.
   What is NOT proved for several writers: the reference-count / handle invariants Inv1, Inv2
   and linearizability (stated for one mutating thread); the implementation is probed by the
   twowriters stream. *)
From Coq Require Import List Arith Bool Lia.
From RW Require Import Conc.Sys Conc.Close Conc.CloseInv Conc.CloseSafe Conc.AwaitInv Conc.Readers.
Import ListNotations.

Theorem C14_no_call_overtakes_queued_rotation : forall progs extra sch t th,
  let s := run step (init progs extra) sch in
  crashed s = false -> nth_error (ths s) t = Some th -> past_await th = true -> g_await (sh s) = None.
Proof. exact no_call_overtakes_queued_rotation. Qed.
Print Assumptions C14_no_call_overtakes_queued_rotation.

Theorem C14_queued_rotation_undisturbed : forall progs extra sch c,
  let s := run step (init progs extra) sch in
  crashed s = false -> g_await (sh s) = Some c ->
  forall t th, nth_error (ths s) t = Some th -> past_await th = false.
Proof. exact queued_rotation_undisturbed. Qed.
Print Assumptions C14_queued_rotation_undisturbed.

(* a thread past the check holds writeMu (so the statement is about the lock holder) *)
Theorem C14_past_await_holds_mu : forall th, past_await th = true -> holds_mu th = true.
Proof. exact past_await_holds. Qed.
Print Assumptions C14_past_await_holds_mu.

(* ---- the schedule of the defect, on the model ---------------------------------------------
   thread 0 = W1: two appends that each fill the segment; thread 1 = W2: DeleteRange(2, max)
   (keeps index 1); thread 2 = rotation goroutine.
   W1's first append queues rotation 1; W2 and W1's second call both wait for it; rotation 1
   runs; W1 re-takes the lock first, appends entry 2, fills the new tail, queues rotation 2 and
   returns; W2 receives on the (closed) channel of rotation 1 and re-takes the lock. *)
Definition c14m_progs : list (list op) := [[OStore true 7 1; OStore true 8 1]; [OTrunc 1]].
Definition c14m_run (sch : list tid) : sys := run step (init c14m_progs []) sch.
Definition c14m_woken : list tid :=
  repeat 0 16 ++ repeat 1 6 ++ repeat 0 6 ++ repeat 2 20 ++ repeat 0 16 ++ [1].
Definition c14m_view (s : sys) := (map t_pc (ths s), g_await (sh s), g_mu (sh s)).

(* W2 is about to re-take the lock; rotation 2 is queued (awaitRotate = channel 1) *)
Example C14_ex_two_writers_woken :
  c14m_view (c14m_run c14m_woken) = ([PIdle; PRelock; PRIdle], Some 1, None).
Proof. vm_compute. reflexivity. Qed.

(* its next step: Lock, awaitRotate is set again: Unlock and wait again -- not PLoad *)
Example C14_ex_two_writers_waits_again :
  c14m_view (c14m_run (c14m_woken ++ [1])) = ([PIdle; PWaiting 1; PRIdle], Some 1, None) /\
  past_await (nth 1 (ths (c14m_run (c14m_woken ++ [1]))) (caller [])) = false.
Proof. vm_compute. split; reflexivity. Qed.

(* rotation 2 runs, W2 finishes: every call returned Ok, nobody panicked, and the log is what
   StoreLogs(1); StoreLogs(2); DeleteRange(2, max) give in that order: entry 1 alone *)
Example C14_ex_two_writers_end :
  let s := c14m_run (c14m_woken ++ [1] ++ repeat 2 20 ++ repeat 1 40) in
  map t_outs (ths s) = [[Ok 0; Ok 0]; [Ok 0]; []] /\ crashed s = false /\ g_await (sh s) = None /\
  (abs_first (sh s), abs_last (sh s), abs_get (sh s) 1, abs_get (sh s) 2) = (1, 1, Ok 7, NotFound).
Proof. vm_compute. repeat split; reflexivity. Qed.
