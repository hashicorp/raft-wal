(* C14 -- Close is safe, idempotent and final.
   Only statements here; model: Conc/Close.v, proofs: Conc/Close*.v.

   Proved for every program list and every schedule:
     C14_after_close, C14_mutual_exclusion.
   Proved for every REACHABLE state of a system with a single writer thread
   (single_writer w progs extra: only thread w runs StoreLogs/DeleteRange; any number of
   readers, stable-store callers and Close callers; the rotation goroutine is thread
   `length progs`).  The invariant  Full2 = CloseSafe.Safe /\ CloseInv.Inv1 /\ CloseInv2.Inv2
   is inductive (CloseReach.full_reach, CloseReach2.full2_reach):
     C14_no_panic           no call ever panics (nil state, closed / nil channel, offsets index)
     C14_no_deadlock        if a call has not returned some thread can step (a writer parked in
                            awaitRotation is woken by the rotation goroutine or by Close)
     C14_rotator_exits      after Close was called the system cannot rest with the rotation
                            goroutine alive
     C14_racing_calls       every outcome recorded by a call satisfies CloseInv2.allowed (a result
                            or ErrClosed; CloseInv2.allowed also admits ErrSealed for StoreLogs,
                            the strict form below does not), in program order
     C14_racing_calls_clean in particular never Panic, never an I/O error through a closed
                            or deleted file, never a metaDB error
     C14_handles_released   after Close and after every call returned, every file handle ever
                            opened has been closed exactly once, and the metaDB exactly once
   Inv2 is the reference-count / retired-bit / finalizer / handle-ownership invariant: the
   count of every state equals the references held by threads plus the reference of its
   predecessor's finalizer; every open handle has exactly one owner (the current state, one
   finalizer that has not run, or one running release); a finalizer exists only for a retired
   state and runs only when the count reached `retired`; a validated holder of state x keeps
   the finalizers of all states >= x from running, so every handle it can reach is open.

     C14_racing_calls_strict the same with CloseThm3.allowed_strict: a result (Ok; NotFound for
                            GetLog) or ErrClosed and nothing else -- in particular StoreLogs never
                            finds the tail sealed (C14_no_errsealed)
   The last two rest on SealInv.Inv4 (inductive, SealInv.inv4_reach): if the tail of the
   current open version is sealed then (A) awaitRotate is set, or (B) Close is at stage >= 3
   (it closed the await channel and holds writeMu until the state is swapped), or (C) the
   closed flag is set and no locking call is past its closed check, or (W) the thread that
   sealed it is still between the seal and the trigger (PApp1..PTrig) or between the
   force-seal of a tail truncation and its commit (PM3, classified DTail); and the rotation
   goroutine keeps the new tail unsealed until it resets awaitRotate.  A writer at its
   append holds writeMu with awaitRotate = nil on an open current version, which excludes
   every clause (SealStep.seal_contra).
   The implementation side is judged by the oracles of the sched14 stream (recover(),
   watchdog, goroutine count, handle accounting, two reopen cycles; any outcome other than
   a result or ErrClosed -- ioerr, metaerr, sealed, err -- is a witness). *)
From Coq Require Import List Arith Bool Lia.
From RW Require Import Conc.Sys Conc.Close Conc.CloseInv Conc.CloseInv2 Conc.CloseLive Conc.CloseSafe Conc.CloseReach
     Conc.CloseThm Conc.CloseThm2 Conc.CloseThm3.
Import ListNotations.

Theorem C14_after_close : forall progs extra s,
  reach progs extra s -> g_closed (sh s) = true ->
  (forall t th o, nth_error (ths s) t = Some th -> t_pc th = PIdle -> cur_op th = Some o ->
     step s t = Some {| sh := sh s;
                        ths := upd (ths s) t (finish th (if is_close o then Ok 0 else ErrClosed)) |}) /\
  (forall sch, g_closed (sh (run step s sch)) = true).
Proof. exact after_close. Qed.
Print Assumptions C14_after_close.

Theorem C14_mutual_exclusion : forall progs extra s,
  reach progs extra s -> crashed s = false ->
  forall t1 t2 th1 th2,
    nth_error (ths s) t1 = Some th1 -> nth_error (ths s) t2 = Some th2 ->
    holds_mu th1 = true -> holds_mu th2 = true -> t1 = t2 /\ g_mu (sh s) = Some t1.
Proof. exact mutual_exclusion. Qed.
Print Assumptions C14_mutual_exclusion.

Theorem C14_no_panic : forall w progs extra s,
  single_writer w progs extra -> reach progs extra s -> crashed s = false.
Proof. exact no_panic_reach. Qed.
Print Assumptions C14_no_panic.

Theorem C14_no_deadlock : forall w progs extra s,
  single_writer w progs extra -> reach progs extra s ->
  (exists t th, nth_error (ths s) t = Some th /\ t_rot th = false /\ th_done th = false) ->
  exists t, enabled step s t = true.
Proof. exact no_deadlock_reach. Qed.
Print Assumptions C14_no_deadlock.

Theorem C14_rotator_exits : forall w progs extra s,
  single_writer w progs extra -> reach progs extra s -> g_closed (sh s) = true ->
  (exists thr, nth_error (ths s) (length progs) = Some thr /\ t_pc thr = PRDone) \/
  exists t, enabled step s t = true.
Proof. exact rotator_exits_reach. Qed.
Print Assumptions C14_rotator_exits.

(* `ops` is the prefix of its program that thread t has executed *)
Theorem C14_racing_calls : forall w progs extra s,
  single_writer w progs extra -> reach progs extra s ->
  forall t th, nth_error (ths s) t = Some th -> t <> length progs ->
    exists ops, nth_error (progs ++ [] :: extra) t = Some (ops ++ t_prog th) /\
                Forall2 (fun o res => allowed o res = true) ops (t_outs th).
Proof. exact racing_calls. Qed.
Print Assumptions C14_racing_calls.

Theorem C14_racing_calls_clean : forall w progs extra s,
  single_writer w progs extra -> reach progs extra s ->
  forall t th res, nth_error (ths s) t = Some th -> t <> length progs -> In res (t_outs th) ->
    res <> Panic /\ res <> IOErr /\ res <> MetaErr.
Proof. exact outcomes_clean. Qed.
Print Assumptions C14_racing_calls_clean.

Theorem C14_no_errsealed : forall w progs extra s,
  single_writer w progs extra -> reach progs extra s ->
  forall t th res, nth_error (ths s) t = Some th -> In res (t_outs th) -> res <> ErrSealed.
Proof. exact no_errsealed_reach. Qed.
Print Assumptions C14_no_errsealed.

Theorem C14_racing_calls_strict : forall w progs extra s,
  single_writer w progs extra -> reach progs extra s ->
  forall t th, nth_error (ths s) t = Some th -> t <> length progs ->
    exists ops, nth_error (progs ++ [] :: extra) t = Some (ops ++ t_prog th) /\
                Forall2 (fun o res => allowed_strict o res = true) ops (t_outs th).
Proof. exact racing_calls_strict. Qed.
Print Assumptions C14_racing_calls_strict.

(* the hypothesis on PIdle: every caller is between calls *)
Theorem C14_handles_released : forall w progs extra s,
  single_writer w progs extra -> reach progs extra s -> g_closed (sh s) = true ->
  (forall t th, nth_error (ths s) t = Some th -> t <> length progs -> t_pc th = PIdle) ->
  (forall h, h < length (g_hnds (sh s)) -> h_closes (geth (sh s) h) = 1) /\ g_meta_closes (sh s) = 1.
Proof. exact handles_released. Qed.
Print Assumptions C14_handles_released.

(* GetLog passes the closed check, Close runs to completion, GetLog loads the state:
   it finds the empty state and returns ErrClosed; Close returned Ok; handle closed once *)
Definition ex_progs : list (list op) := [[OGet 1]; [OClose]].
Definition ex_sched : list tid :=
  [0; 0] ++ repeat 1 24 ++ repeat 0 12.
Example C14_ex_window :
  let s := run step (init ex_progs [[OStore false 0 1]]) ([3;3;3;3;3;3;3;3;3;3;3;3;3;3;3] ++ ex_sched) in
  map t_outs (firstn 2 (ths s)) = [[ErrClosed]; [Ok 0]] /\
  map h_closes (g_hnds (sh s)) = [1] /\ g_meta_closes (sh s) = 1 /\ crashed s = false.
Proof. vm_compute. repeat split; reflexivity. Qed.

Example C14_ex_closed_flag :
  g_closed (sh (run step (init ex_progs []) [1])) = true.
Proof. vm_compute. reflexivity. Qed.

(* the invariant is satisfiable: it holds in the initial state of this configuration
   (no writer: w = 9; rotator = thread 2) *)
Example C14_ex_inv1_init : Inv1 9 2 (init ex_progs []).
Proof.
  apply (inv1_init 9 ex_progs []).
  intros [|[|[|[|t]]]] p E _; cbn in E; inversion E; reflexivity.
Qed.

From RW Require Gen.Source Conc.HookTie.

(* translator tie: the schedule points that cut the code into the model's atomic steps are
   the verifPoint call sites of /repo's current source (regenerated into Gen/Source.v on
   every run), each in the function the model attributes it to *)
Theorem C14_schedule_points_tie :
  RW.Gen.Source.hook_points =
  List.map (fun p => (RW.Conc.HookTie.s2n (fst p), RW.Conc.HookTie.s2n (snd p))) RW.Conc.HookTie.model_points.
Proof. exact RW.Conc.HookTie.hook_points_tie. Qed.
Print Assumptions C14_schedule_points_tie.
