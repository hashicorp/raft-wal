(* C02 -- Recovery never fabricates, corrupts or half-applies.

   The L1 law (one segment file).
   Proofs in Seg/RecoverFacts.v, Seg/ChainFacts.v, Seg/FailFacts.v, Run/RunSegFacts.v.

   Setting.  A segment file holds n >= 0 committed batches (for n = 0 not even
   the header: the file is all zeros) followed by zeros.  The writer performs
   one more operation (an append, possibly sealing, or a force-seal) whose bytes
   `new` go to offset `off`; the machine crashes and the disk keeps a TORN image
   T of that write: per 8-byte-aligned chunk either the new bytes or the old
   (zero) bytes.  `torn new T` is exactly what RunSeg.crash_mix builds
   (C02_crash_mix_is_torn).  Recovery must return the state before the operation
   when T is incomplete and the state after it when T = new.

   no_torn_collision new T (decidable: no_torn_collisionb) fails only when T is
   incomplete, its last chunk (the commit frame) is on disk, and the CRC-32C of
   the rest of T equals the CRC-32C of the rest of new -- a genuine collision of
   the 32-bit checksum between two different byte strings of the same length. *)
From RW Require Import Base.Bytes Base.Crc32c Fmt.Frame Seg.Writer Seg.Recover Seg.SegAbs
     Seg.WriterFacts Seg.ScanFacts Seg.RecoverFacts Seg.ChainFacts Run.RunSeg Run.RunSegFacts Gen.Constants.
Open Scope N_scope.

(* THE LAW.  The recovered state EQUALS (all fields: info, empty buffer, crc 0,
   write offset, index start, offsets, commit index) the state the writer had
   before the torn operation, resp. after it when the image is complete.  The
   sealed case is included: w' carries the index start iff T is complete. *)
Theorem seg_recover_committed :
  forall info ops op w acts bs w' off new b T k,
    hdr_wf info -> ops_wf (ops ++ [op]) ->
    wrun (init_empty info) ops = Some (w, acts, bs) ->
    wrun w [op] = Some (w', [WWrite off new; WSync], [b]) ->
    len (image info (bs ++ [b])) < two32 ->
    torn new T -> no_torn_collision new T ->
    off = len (writes_concat acts) /\
    recover_state info (writes_concat acts ++ T ++ zeros k) = Some (if beq_bytes T new then w' else w).
Proof. exact ChainFacts.seg_recover_committed. Qed.
Print Assumptions seg_recover_committed.

(* the same on the byte image of any chain of batches (not only writer-made) *)
Theorem seg_recover_torn :
  forall info bs b T k,
    hdr_wf info -> chain_wf info c0 (bs ++ [b]) ->
    let s := cstate info bs in
    let new := batch_write info s b in
    torn new T -> no_torn_collision new T ->
    recover_state info (c_img s ++ T ++ zeros k) =
      Some (if beq_bytes T new then wst info (cstep info s b) else wst info s).
Proof. exact RecoverFacts.seg_recover_torn. Qed.
Print Assumptions seg_recover_torn.

(* zeroStaleTail: after recovery everything behind the recovered write offset is
   zero again, so the shape "committed batches ++ zeros" is re-established *)
Theorem recover_leaves_zero_tail :
  forall a x, apply_wactions (a ++ x) (scrub_actions (a ++ x) (len a)) = a ++ zeros (length x).
Proof. exact RecoverFacts.recover_leaves_zero_tail. Qed.
Print Assumptions recover_leaves_zero_tail.

(* chains: any interleaving of successful operations and crash/recover rounds.
   chain info k0 sv bs w f: w, f are the writer state and file after the history;
   sv / bs the operations / batches that survived (a torn operation survives iff
   its image was complete).  Conclusion: w is the state of a crash-free writer
   that executed exactly sv, and f is the image of bs followed by zeros. *)
Theorem seg_recover_chain :
  forall info k0 sv bs w f,
    hdr_wf info -> chain info k0 sv bs w f ->
    ops_wf sv /\ len (image info bs) < two32 /\
    (exists acts, wrun (init_empty info) sv = Some (w, acts, bs)) /\
    exists k, f = image info bs ++ zeros k.
Proof. exact ChainFacts.seg_recover_chain. Qed.
Print Assumptions seg_recover_chain.

(* in every round of such a chain recovery succeeds *)
Theorem seg_recover_round_total :
  forall info k0 sv bs w f op w2 off new b T,
    hdr_wf info -> chain info k0 sv bs w f ->
    op_wf op -> wrun w [op] = Some (w2, [WWrite off new; WSync], [b]) ->
    len (image info (bs ++ [b])) < two32 ->
    torn new T -> no_torn_collision new T ->
    exists w3 acts3, recover_tail info (overwrite f (N.to_nat off) T) = Some (w3, acts3) /\
                     w3 = (if beq_bytes T new then w2 else w).
Proof. exact ChainFacts.seg_recover_round_total. Qed.
Print Assumptions seg_recover_round_total.

(* the hypothesis is executable (the harness evaluates it on every crash image) *)
Theorem no_torn_collision_decidable :
  forall new T, no_torn_collisionb new T = true <-> no_torn_collision new T.
Proof. exact no_torn_collisionb_spec. Qed.
Print Assumptions no_torn_collision_decidable.

(* the crash images of the `segcrash` stream are torn images: file before the
   write = a ++ zeros, after = a ++ new ++ zeros, any chunk mask *)
Theorem C02_crash_mix_is_torn :
  forall ka kn a new z mask fuel,
    length a = (8 * ka)%nat -> length new = (8 * kn)%nat -> (0 < kn)%nat ->
    (8 * ka + 8 * kn + z < 8 * fuel)%nat ->
    exists T, torn new T /\
      crash_mix (a ++ zeros (8 * kn) ++ zeros z) (a ++ new ++ zeros z) mask fuel = a ++ T ++ zeros z.
Proof. exact crash_mix_file. Qed.
Print Assumptions C02_crash_mix_is_torn.

(* non-vacuity: one committed batch, then a sealing batch whose image loses its
   second chunk: torn, collision-free, and recovery returns the first batch only;
   the complete image recovers both and the index start *)
Definition ex_info : seginfo :=
  {| si_id := 3; si_base := 1; si_min := 1; si_max := 0; si_codec := 1;
     si_index_start := 0; si_sealed := false; si_size_limit := 64 |}.
Definition ex_s := cstate ex_info [([[1; 2; 3]], false)].
Definition ex_b : batch := ([[4; 5; 6; 7; 8; 9; 10; 11; 12]], true).
Definition ex_new := batch_write ex_info ex_s ex_b.
Definition ex_T := firstn 8 ex_new ++ zeros 8 ++ skipn 16 ex_new.
Example C02_ex_torn : torn ex_new ex_T.
Proof.
  change ex_new with (firstn 8 ex_new ++ firstn 8 (skipn 8 ex_new) ++ skipn 16 ex_new).
  apply torn_keep; [reflexivity|]. apply torn_zero; [reflexivity|].
  apply (torn_refl 4). reflexivity.
Qed.
Example C02_ex_nocoll : no_torn_collisionb ex_new ex_T = true /\ beq_bytes ex_T ex_new = false.
Proof. vm_compute. split; reflexivity. Qed.
Example C02_ex_recover :
  recover_state ex_info (c_img ex_s ++ ex_T ++ zeros 24) = Some (wst ex_info ex_s) /\
  recover_state ex_info (c_img ex_s ++ ex_new ++ zeros 24) = Some (wst ex_info (cstep ex_info ex_s ex_b)) /\
  w_index_start (wst ex_info (cstep ex_info ex_s ex_b)) = 88.
Proof. vm_compute. repeat split; reflexivity. Qed.

(* ---- leftovers of FAILED writes, power loss (Seg/FailFacts.v; the variant without
   power loss and the refutation of the recovery algorithm before the repair "fix:
   recovery verifies every commit frame" are in Props/C10.v, block "byte level") ----
   frun info k0 ops: any history of successful, refused and failed (write or fsync)
   appends / force-seals from init_empty on a file of zeros.  fs_sync: the file as of the
   last successful fsync; fs_pw: the writes issued since (all of them belong to failed
   operations, complete or SHORT: a short write puts the first half of its bytes);
   torn_writes: they reach the disk one after the other, each torn per 8-byte chunk
   over what is there (torn_part: the last chunk of a short write may be partial).  fs_bs: the acknowledged batches; fs_pend: the
   batches of the writes that failed since the last success.  Recovery of EVERY such
   durable image returns the writer of the acknowledged batches, or of those plus ONE
   batch of fs_pend whose bytes are completely on the disk: nothing of a batch that
   failed before the last successful fsync, no part of a batch, no mix of two.  (The
   batch need not be the LAST failed write: a power loss can keep an earlier unsynced
   write whole and lose a later one, fx_T_a below.)  Assumed: no_stale_commit, i.e. no
   commit frame the scan meets at or behind the recovered end stores the CRC of its
   apparent range (decidable: no_stale_commitb; C10_byte_no_stale_commit_decidable). *)
From RW Require Import Seg.RecoverOld Seg.FailFacts.

Theorem seg_fail_recover_crash :
  forall info k0 ops T,
    hdr_wf info -> fops_wf ops ->
    let st := frun info k0 ops in
    fs_ok st = true -> torn_writes (fs_sync st) (fs_pw st) T ->
    let s := cstate info (fs_bs st) in
    let p := len (c_img s) in
    (no_stale_commit T p -> recover_state info T = Some (wst info s)) /\
    (forall d, In d (fs_pend st) -> on_disk T p (batch_write info s d) ->
       no_stale_commit T (p + len (batch_write info s d)) ->
       recover_state info T = Some (wst info (cstate info (fs_bs st ++ [d])))).
Proof. exact fail_recover_crash. Qed.
Print Assumptions seg_fail_recover_crash.

(* one decidable hypothesis (crash_okb), one conclusion by cases *)
Theorem seg_fail_recover_crash_cases :
  forall info k0 ops T,
    hdr_wf info -> fops_wf ops ->
    let st := frun info k0 ops in
    fs_ok st = true -> torn_writes (fs_sync st) (fs_pw st) T ->
    crash_okb info st T = true ->
    recover_state info T = Some (wst info (cstate info (fs_bs st))) \/
    exists d, In d (fs_pend st) /\
              on_disk T (len (image info (fs_bs st))) (batch_write info (cstate info (fs_bs st)) d) /\
              recover_state info T = Some (wst info (cstate info (fs_bs st ++ [d]))).
Proof. exact fail_recover_crash_cases. Qed.
Print Assumptions seg_fail_recover_crash_cases.

(* from any state of such a run (histories with RecoverTail rounds in between) *)
Theorem seg_fail_recover_crash_from :
  forall info st0 ops T,
    hdr_wf info -> finv info st0 -> fops_wf ops ->
    let st := frun_from st0 ops in
    fs_ok st = true -> torn_writes (fs_sync st) (fs_pw st) T ->
    let s := cstate info (fs_bs st) in
    let p := len (c_img s) in
    (no_stale_commit T p -> recover_state info T = Some (wst info s)) /\
    (forall d, In d (fs_pend st) -> on_disk T p (batch_write info s d) ->
       no_stale_commit T (p + len (batch_write info s d)) ->
       recover_state info T = Some (wst info (cstate info (fs_bs st ++ [d])))).
Proof. exact fail_recover_crash_from. Qed.
Print Assumptions seg_fail_recover_crash_from.

(* non-vacuity: history [e1] ok, a = [a2;a3;a4] fsync fails, b = [b2;b3] fsync fails,
   then the power fails.  T_b: both writes complete; T_a: a complete, nothing of b;
   T_mix: the first two chunks of b over a.  All three are torn_writes outcomes, the
   hypothesis holds on each, and recovery returns [e1]+b, [e1]+a, [e1] alone *)
Example C02_ex_fail_crash_torn :
  torn_writes (fs_sync fx_st3) (fs_pw fx_st3) fx_T_b /\
  torn_writes (fs_sync fx_st3) (fs_pw fx_st3) fx_T_a /\
  torn_writes (fs_sync fx_st3) (fs_pw fx_st3) fx_T_mix.
Proof. exact fx_crash_torn. Qed.
Example C02_ex_fail_crash :
  fs_ok fx_st3 = true /\ fs_bs fx_st3 = [([fx_e1], false)] /\
  fs_pend fx_st3 = [([fx_a2; fx_a3; fx_a4], false); ([fx_b2; fx_b3], false)] /\
  crash_okb fx_info fx_st3 fx_T_b = true /\ crash_okb fx_info fx_st3 fx_T_a = true /\
  crash_okb fx_info fx_st3 fx_T_mix = true /\
  recover_state fx_info fx_T_b = Some (wst fx_info (cstate fx_info [([fx_e1], false); ([fx_b2; fx_b3], false)])) /\
  recover_state fx_info fx_T_a = Some (wst fx_info (cstate fx_info [([fx_e1], false); ([fx_a2; fx_a3; fx_a4], false)])) /\
  recover_state fx_info fx_T_mix = Some (wst fx_info (cstate fx_info [([fx_e1], false)])).
Proof. vm_compute. repeat split; reflexivity. Qed.

(* The WAL level.  The abstract disk of Wal/Model.v keeps, per file, the synced entries and at most one
   written-but-unsynced batch; the crash adversary decides per file whether that batch
   reached the disk completely (a torn batch is recovered as absent: the L1 law).  On
   top of that, for ALL histories of calls, power losses at any I/O boundary with any
   adversary choice (also inside recovery, nested) and reopens -- guards as in C01.v --
   every crash point is covered BY PROOF (Wal/Crash*.v). *)
From RW Require Import Base.Bytes Fmt.Codec Fmt.Frame Wal.Model Wal.Spec Wal.Hist
  Wal.CrashInv Wal.CrashCalls10 Wal.CrashThm Wal.CrashExamples Wal.CrashExamplesFacts.
Open Scope N_scope.

Theorem C02_crash_refinement : crash_refinement_stmt.
Proof. exact crash_refinement. Qed.
Print Assumptions C02_crash_refinement.

(* After any crash, Open succeeds and what it recovers (log AND stable store) is exactly
   the ledger state [hs_acked] -- the contiguous log built from the contents passed to
   the StoreLogs/DeleteRange calls that returned nil -- or [hs_may], that state with the
   interrupted call applied in full.  Nothing never written, torn, or of a
   truncated-away generation can be returned: the recovered state is one of these two
   spec states, and GetLog reads exactly the spec state (next theorem). *)
Theorem C02_recovered_is_ledger :
  forall c steps d,
    (cfg_ok c /\ Forall hstep_wf steps /\ short_enough steps) ->
    hs_mode (hist_run c hist_init steps) = Down d ->
    exists w e, open_wal c (env_of d) = (OOk w, e) /\
      ({| sp_log := abs w (e_disk e); sp_kv := dk_stable (e_disk e) |} = hs_acked (hist_run c hist_init steps) \/
       {| sp_log := abs w (e_disk e); sp_kv := dk_stable (e_disk e) |} = hs_may (hist_run c hist_init steps)) /\
      dir_exact (e_disk e) = true /\ Forall not_fail (e_acts e).
Proof. exact recovery_after_any_history. Qed.
Print Assumptions C02_recovered_is_ledger.

(* A call interrupted at ANY of its I/O boundaries (j arbitrary) with ANY adversary
   choice is, after recovery, applied in full or not at all; for o = OStore ls this is:
   the batch in flight is present in full or absent in full. *)
Theorem C02_inflight_call_atomic :
  forall c steps s o j cc d,
    (cfg_ok c /\ Forall hstep_wf (steps ++ [HCrashIn o j cc]) /\ short_enough (steps ++ [HCrashIn o j cc])) ->
    hs_mode (hist_run c hist_init steps) = Up s ->
    hs_mode (hist_run c hist_init (steps ++ [HCrashIn o j cc])) = Down d ->
    exists w e, open_wal c (env_of d) = (OOk w, e) /\
      ({| sp_log := abs w (e_disk e); sp_kv := dk_stable (e_disk e) |} = hs_acked (hist_run c hist_init steps) \/
       {| sp_log := abs w (e_disk e); sp_kv := dk_stable (e_disk e) |}
         = snd (step_spec (hs_acked (hist_run c hist_init steps)) o)) /\
      dir_exact (e_disk e) = true.
Proof. exact interrupted_call_atomic. Qed.
Print Assumptions C02_inflight_call_atomic.

(* After any history (in particular after any crash and reopen) FirstIndex..LastIndex is
   contiguous: every index in it is readable and GetLog returns exactly the ledger's
   entry for it, i.e. the content most recently passed to StoreLogs for that index. *)
Theorem C02_range_is_readable :
  forall c steps s i,
    (cfg_ok c /\ Forall hstep_wf steps /\ short_enough steps) ->
    hs_mode (hist_run c hist_init steps) = Up s ->
    forall fi la, first_index_op (ss_wal s) = RVal fi -> last_index_op (ss_wal s) = RVal la ->
    1 <= fi -> fi <= i -> i <= la ->
    exists l, fst (get_log (ss_wal s) i (ss_env s)) = RLog l /\
              spec_get (sp_log (hs_acked (hist_run c hist_init steps))) i = Some l.
Proof. exact range_is_readable. Qed.
Print Assumptions C02_range_is_readable.

(* ---- non-vacuity: a 2-entry batch in flight (written, not fsynced) is recovered whole
   or not at all; a truncated-away entry (index 3, term 1) does not come back after
   index 3 was re-appended with term 7 and another crash *)
Example C02_ex_guards : hist_ok cfg128 hist_batch_lost /\ hist_ok cfg256 hist_trunc_after_commit.
Proof. exact (conj hist_batch_lost_ok hist_trunc_after_commit_ok). Qed.
Example C02_ex_batch_atomic :
  final_ok cfg128 hist_batch_kept = true /\ final_last cfg128 hist_batch_kept = 4 /\
  final_ok cfg128 hist_batch_lost = true /\ final_last cfg128 hist_batch_lost = 2.
Proof. vm_compute. repeat split; reflexivity. Qed.
Example C02_ex_no_old_generation :
  final_ok cfg256 hist_trunc_after_commit = true /\ final_term cfg256 hist_trunc_after_commit 3 = Some 7.
Proof. vm_compute. split; reflexivity. Qed.
