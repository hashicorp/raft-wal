(* FaultDisciplineFacts.v -- C07 on fault paths: the fs-layer model under one
   injected syscall failure ([fs_step_f], Discipline.v; fs/file.go as of b0161d2,
   metadb.go as of 862e6cb) against the extended discipline [xdiscipline] over
   traces with failed syscalls and call results.
   For ALL op sequences (valid or not) and ALL fault positions:
     fault_full_ok     every clause, the two directory clauses included
     fault_core_ok     (corollary) the clauses without them
   and what acceptance means on the trace itself, for any trace:
     delete_ok_sound, create_ok_sound, sync_ok_sound, meta_ok_sound. *)
From RW Require Import Base.Bytes Fs.Discipline Fs.DisciplineFacts.
From RW Require Import Base.LiaSetup.
Open Scope N_scope.

Fixpoint xrun (full : bool) (seg : N) (c : xst) (t : list xevent) : xst + xviol :=
  match t with
  | [] => inl c
  | x :: r => match xstep full seg c x with
              | inl c' => xrun full seg c' r
              | inr v => inr v
              end
  end.

Lemma xcheck_xrun : forall full seg t c i c',
  xcheck full seg c i t = inl c' <-> xrun full seg c t = inl c'.
Proof.
  induction t as [|x t IH]; intros c i c'; cbn [xrun xcheck].
  - split; intros H; injection H as <-; reflexivity.
  - destruct (xstep full seg c x) as [c1|v]; [apply IH|split; discriminate].
Qed.

Lemma xrun_app : forall full seg t1 t2 c,
  xrun full seg c (t1 ++ t2) =
  match xrun full seg c t1 with inl c1 => xrun full seg c1 t2 | inr v => inr v end.
Proof.
  induction t1 as [|x t1 IH]; intros t2 c; cbn [app xrun]; [reflexivity|].
  destruct (xstep full seg c x) as [c1|v]; [apply IH|reflexivity].
Qed.

Lemma memb_add_same : forall s l, memb s (add s l) = true.
Proof. intros. apply memb_In. apply In_add. left. reflexivity. Qed.
Lemma memb_del_same : forall s l, memb s (del s l) = false.
Proof. intros. apply memb_false. intros H. apply In_del in H. destruct H as [_ H]. congruence. Qed.
Lemma memb_nil : forall s, memb s [] = false.
Proof. reflexivity. Qed.
Lemma h_get_del_same : forall s h, h_get s (h_del s h) = None.
Proof.
  intros s h. induction h as [|[s' b] h IH]; cbn [h_del h_get]; [reflexivity|].
  destruct (s' =? s) eqn:E; [exact IH|]. cbn [h_get]. rewrite E. exact IH.
Qed.

(* Between two calls, the state [st] of the fs-layer model under faults and the state [c] of the
   checker: they agree on which of the two metadata names exist, a handle exists only for an existing
   segment name and, with the directory clauses ([full]), no handle of a name whose directory entry
   is pending is marked as having fsynced the directory. *)
Record Inv (full : bool) (st : fstate) (c : xst) : Prop := {
  i_meta : x_me c = s_meta st;
  i_tmp : x_te c = s_tmp st;
  i_hex : forall s, h_get s (s_h st) <> None -> In s (s_ex st);
  i_pend : full = true -> forall s, In s (x_pend c) -> h_get s (s_h st) <> Some true }.

Lemma Inv0 : forall full f, Inv full (st0 f) x0.
Proof.
  intros. constructor; cbn; intros; try discriminate; try contradiction; auto.
Qed.

(* the projections and setters of [xst] and [fstate] computed, nothing else unfolded *)
Ltac xproj := cbn [x_gone x_unl x_pend x_call x_te x_td x_to x_tw x_me x_ren xs_segs xs_meta xs_call
                   s_h s_ex s_tmp s_meta s_mopen s_flt st_files st_meta] in *.
(* the checker run over the events of the call, which are a literal list on each path *)
Ltac xsimp := cbn [app xrun xstep xok_step xret_check existsb is_excl is_falloc is_fsync
                   andb orb negb fst snd]; xproj.

(* case split on every pair, boolean or option that [H] scrutinises (the outcomes of the model's
   syscalls and its lookups), each with its equation *)
Ltac brk H :=
  repeat (match type of H with
          | context [match ?x with _ => _ end] =>
              match type of x with
              | (_ * _)%type => let a := fresh "r" in let b := fresh "f" in destruct x as [a b] eqn:?
              | bool => destruct x eqn:?
              | option _ => destruct x eqn:?
              end
          end; cbn [fst snd] in H).

Lemma sys_natfail : forall c nf f ok f', sys c nf f = (ok, f') -> ok = true -> nf = false.
Proof.
  intros c nf f ok f' H Hok. unfold sys in H. destruct (attempt c f) as [inj f1].
  injection H as H _. subst ok. apply negb_true_iff in Hok. apply orb_false_iff in Hok. tauto.
Qed.

Lemma existsb_cons : forall (A : Type) (f : A -> bool) x l, existsb f (x :: l) = f x || existsb f l.
Proof. reflexivity. Qed.

(* the checker's tests on the events just produced: [existsb] over a literal list, membership
   right after [add] / [del] *)
Ltac xbool :=
  repeat (rewrite ?existsb_cons; cbn [is_excl is_falloc is_fsync];
          rewrite ?N.eqb_refl, ?memb_add_same, ?memb_del_same, ?memb_nil; cbn [andb orb negb]).

(* [x = s] or not, and [h_get] of [h_set] / [h_del] rewritten accordingly *)
Ltac hcase x s :=
  destruct (N.eq_dec x s) as [->|?];
  [rewrite ?h_get_set_same, ?h_get_del_same in *
  |rewrite ?h_get_set_other, ?h_get_del_other in * by assumption].

Lemma syncdir_cases : forall f ev ok f', xf_syncdir f = (ev, ok, f') ->
  (ev = [XOpenDir true; XOk FsyncDir] /\ ok = true) \/
  (ev = [XOpenDir true; XFail FsyncDir] /\ ok = false) \/
  (ev = [XOpenDir false] /\ ok = false).
Proof.
  intros f ev ok f' H. unfold xf_syncdir in H. brk H; injection H as <- <- _; auto.
Qed.

(* to the checker syncDir is one successful directory fsync, or nothing *)
Lemma xrun_syncdir : forall full seg f ev ok f' c t, xf_syncdir f = (ev, ok, f') ->
  xrun full seg c (ev ++ t) = xrun full seg c ((if ok then [XOk FsyncDir] else []) ++ t).
Proof. intros full seg f ev ok f' c t H. unfold xf_syncdir in H. brk H; injection H as <- <- _; reflexivity. Qed.

(* the common end of every case: the checker accepts the call, the invariant holds *)
Ltac accept := eexists; split; [reflexivity|].
Ltac inv HI := destruct HI as [IM IT IH IP]; constructor; xproj; auto.

(* a call is accepted when its syscalls are and, if it reports nil, its return is *)
Lemma call_ok : forall full seg st' c ev o ok c1,
  xrun full seg c ev = inl c1 -> (ok = true -> xret_check full seg c1 o = None) -> Inv full st' c1 ->
  exists c', xrun full seg c (ev ++ [XRet o ok]) = inl c' /\ Inv full st' c'.
Proof.
  intros full seg st' c ev o ok c1 Hr Hc HI. exists (xs_call c1 []). split; [|destruct HI; constructor; assumption].
  rewrite xrun_app, Hr. cbn [xrun xstep]. destruct ok; [rewrite Hc|]; reflexivity.
Qed.

Lemma xret_meta : forall full seg c, x_me c = true -> x_ren c = false -> xret_check full seg c FMetaInit = None.
Proof. intros full seg c Hm Hr. cbn [xret_check]. rewrite Hm, Hr, andb_false_r. reflexivity. Qed.

(* every call of the model, on every path: the checker accepts its syscalls and its
   return, and the invariant holds of the states after it *)
Lemma step_inv : forall full seg st c o ev ok st',
  Inv full st c -> fs_step_f seg st o = (ev, ok, st') ->
  exists c', xrun full seg c (ev ++ [XRet o ok]) = inl c' /\ Inv full st' c'.
Proof.
  intros full seg st c o ev ok st' HI H. destruct o as [s|s|s off len|s|s|s| | |k op n]; cbn [fs_step_f] in H.
  - (* Create *) unfold xf_create in H. brk H. all: injection H as <- <- <-; xsimp; xbool; accept; inv HI.
    + (* created *)
      intros x Hx. hcase x s; sets; auto.
    + intros Hf x Hx. sets. hcase x s; [discriminate|]. destruct Hx; [contradiction|auto].
    + (* fallocate failed: the file stays, no handle is returned *)
      intros x Hx. sets. auto.
    + intros Hf x Hx. sets. destruct Hx as [->|Hx]; [|auto].
      (* the O_EXCL open succeeded, so the name was new and has no handle *)
      assert (Hnew : ~ In s (s_ex st)).
      { apply memb_false. eapply sys_natfail; [eassumption|reflexivity]. }
      intros Hg. apply Hnew. apply IH. congruence.
  - (* OpenWriter *) unfold xf_openw in H. brk H. all: injection H as <- <- <-; xsimp; xbool; accept; inv HI.
    + intros x Hx. hcase x s; [|auto].
      apply memb_In, negb_false_iff. eapply sys_natfail; [eassumption|reflexivity].
    + intros Hf x Hx. hcase x s; [discriminate|auto].
  - (* Write *) unfold xf_write in H. brk H. all: injection H as <- <- <-; xsimp; accept; inv HI.
  - (* Sync: the handle is marked only when the directory fsync succeeded, so a
       pending entry always meets a handle that still fsyncs the directory *)
    unfold xf_sync in H. brk H.
    all: injection H as <- <- <-; xsimp; erewrite ?xrun_syncdir by eassumption; xsimp; xbool.
    + (* the handle has fsynced the directory before: the entry is not pending *)
      assert (Hp : full && memb s (x_pend c) = false).
      { destruct full; [|reflexivity]. cbn [andb]. apply memb_false. intros Hin.
        apply (i_pend _ _ _ HI eq_refl s Hin). assumption. }
      rewrite Hp. accept. inv HI.
    + (* directory fsynced: nothing is pending any more *)
      rewrite andb_false_r. accept. inv HI.
      intros x Hx. hcase x s; [|auto]. apply IH. congruence.
    + (* the directory fsync failed: the handle stays unmarked *)
      accept. inv HI.
    + (* the file fsync failed: nothing changed *)
      accept. inv HI.
    + accept. inv HI.
  - (* Close *) unfold xf_close in H. brk H. all: injection H as <- <- <-; xsimp; xbool; accept; inv HI.
    + intros x Hx. hcase x s; [congruence|auto].
    + intros Hf x Hx. hcase x s; [discriminate|auto].
  - (* Delete drops the handle; the name goes only when the unlink succeeded *)
    unfold xf_delete in H. brk H.
    all: injection H as <- <- <-; xsimp; erewrite ?xrun_syncdir by eassumption.
    all: try match goal with |- context [if ?ok then [XOk FsyncDir] else []] => destruct ok end.
    all: xsimp; xbool; accept; inv HI.
    all: try ((* i_hex *) intros x Hx; hcase x s; [congruence|]; sets; auto; fail).
    all: (* i_pend *) intros Hf x Hx; hcase x s; [discriminate|]; sets; apply (IP Hf); tauto.
  - (* Load touches neither handles nor segment names.  The checker's view of the two
       metadata names is the model's ([i_meta], [i_tmp]), so on each path of
       [xf_metainit] the checker runs on known flags: evaluation decides it. *)
    destruct HI as [IM IT IH IP]. unfold xf_metainit in H.
    destruct c as [g u p cl te td to tw me rn]. cbn [x_me x_te x_pend] in *. subst me te.
    destruct (s_meta st), (s_mopen st), (s_tmp st); brk H; injection H as <- <- <-.
    all: try match goal with E : xf_syncdir _ = _ |- _ =>
               destruct (syncdir_cases _ _ _ _ E) as [[-> ?]|[[-> ?]|[-> ?]]]; try discriminate end.
    all: eapply call_ok;
      [lazy; reflexivity
      |first [discriminate | intros _; apply xret_meta; reflexivity]
      |constructor; xproj; auto; intros _ s []].
  - (* CommitState *) unfold xf_metacommit in H. brk H. all: injection H as <- <- <-; xsimp; accept; inv HI.
  - (* Mark *) injection H as <- <- <-. xsimp. accept. inv HI.
Qed.

Lemma run_inv : forall full seg ops st c,
  Inv full st c -> exists c', xrun full seg c (xtrace_of (fs_run_from seg st ops)) = inl c'.
Proof.
  induction ops as [|o ops IHo]; intros st c HI; cbn [fs_run_from].
  - exists c. reflexivity.
  - destruct (fs_step_f seg st o) as [[ev ok] st'] eqn:Es.
    cbn [xtrace_of flat_map xcall_trace]. fold (xtrace_of (fs_run_from seg st' ops)).
    destruct (step_inv full seg st c o ev ok st' HI Es) as (c1 & Hc1 & HI1).
    rewrite xrun_app, Hc1. apply IHo. exact HI1.
Qed.

Lemma fault_ok : forall full seg ops f, xdiscipline full seg (fs_xtrace seg ops f) = true.
Proof.
  intros full seg ops f. unfold xdiscipline, xdiscipline_res, fs_xtrace, fs_run_f.
  destruct (run_inv full seg ops (st0 f) x0 (Inv0 full f)) as (c' & Hc).
  rewrite (proj2 (xcheck_xrun _ _ _ _ _ _) Hc). reflexivity.
Qed.

(* C07_fault_full_ok: for every op sequence (valid or not) and every fault
   position the model's trace obeys the whole discipline: a Delete reports nil
   only if the name was unlinked and a successful directory fsync followed the
   unlink; a Create only after a successful O_EXCL open and a successful
   fallocate(0, 0, size); a Sync only after a successful fsync of the file and
   with a successful directory fsync since the file was created; a Load only
   when wal-meta.db got its name by rename of a written, synced and closed tmp
   file and a successful directory fsync followed the rename *)
Theorem fault_full_ok : forall seg ops f, xdiscipline true seg (fs_xtrace seg ops f) = true.
Proof. intros. apply fault_ok. Qed.

(* the same without the two directory clauses: they rest on fs.File.Sync marking the entry synced only
   after the directory fsync succeeded, and on metadb fsyncing the directory when it opens an existing
   db file (commits b0161d2 and 862e6cb of /repo) *)
Corollary fault_core_ok : forall seg ops f, xdiscipline false seg (fs_xtrace seg ops f) = true.
Proof. intros. apply fault_ok. Qed.

(* what every accepted step preserves, of the trace so far and the checker state, holds along a run *)
Lemma xrun_inv : forall (I : list xevent -> xst -> Prop) full seg,
  (forall t c x c', I t c -> xstep full seg c x = inl c' -> I (t ++ [x]) c') ->
  forall t2 t1 c c', I t1 c -> xrun full seg c t2 = inl c' -> I (t1 ++ t2) c'.
Proof.
  intros I full seg Hstep. induction t2 as [|x t2 IH]; intros t1 c c' HI H; cbn [xrun] in H.
  - injection H as <-. rewrite app_nil_r. exact HI.
  - destruct (xstep full seg c x) as [c1|v] eqn:E; [|discriminate].
    replace (t1 ++ x :: t2) with ((t1 ++ [x]) ++ t2) by (rewrite <- app_assoc; reflexivity).
    eapply IH; [|exact H]. eapply Hstep; eauto.
Qed.

(* an accepted nil return: such a property holds of the trace before it, and the return check passed *)
Lemma xret_sound : forall (I : list xevent -> xst -> Prop) full seg,
  I [] x0 -> (forall t c x c', I t c -> xstep full seg c x = inl c' -> I (t ++ [x]) c') ->
  forall t1 o t2, xdiscipline full seg (t1 ++ XRet o true :: t2) = true ->
  exists c1, I t1 c1 /\ xret_check full seg c1 o = None.
Proof.
  intros I full seg I0 Hstep t1 o t2 H. unfold xdiscipline, xdiscipline_res in H.
  destruct (xcheck full seg x0 0 (t1 ++ XRet o true :: t2)) as [c'|v] eqn:E; [|discriminate].
  apply xcheck_xrun in E. rewrite xrun_app in E.
  destruct (xrun full seg x0 t1) as [c1|v] eqn:Hr; [|discriminate]. cbn [xrun xstep] in E.
  exists c1. split; [exact (xrun_inv I full seg Hstep t1 [] x0 c1 I0 Hr)|].
  destruct (xret_check full seg c1 o); [discriminate|reflexivity].
Qed.

Lemma xstep_ret : forall full seg c o ok c', xstep full seg c (XRet o ok) = inl c' -> c' = xs_call c [].
Proof.
  intros full seg c o ok c' H. cbn [xstep] in H.
  destruct ok; [destruct (xret_check full seg c o); [discriminate|]|]; injection H as <-; reflexivity.
Qed.

(* a successful syscall and the parts of the checker state the trace properties speak of:
   only a create / unlink of a segment file and a directory fsync touch the segment sets,
   only the directory fsync and the rename onto wal-meta.db its flags; none touches [x_call] *)
Lemma xok_step_cases : forall c e c1, xok_step c e = inl c1 ->
  x_call c1 = x_call c /\
  ((exists s, e = OpenExcl (Seg s) /\ c1 = xs_segs c (del s (x_gone c)) (del s (x_unl c)) (add s (x_pend c))) \/
   (exists s, e = Unlink (Seg s) /\ c1 = xs_segs c (add s (x_gone c)) (add s (x_unl c)) (del s (x_pend c))) \/
   (e = FsyncDir /\ x_gone c1 = x_gone c /\ x_unl c1 = [] /\ x_pend c1 = [] /\ x_me c1 = x_me c /\ x_ren c1 = false) \/
   ((forall s, e <> OpenExcl (Seg s)) /\ (forall s, e <> Unlink (Seg s)) /\ e <> FsyncDir /\
    x_gone c1 = x_gone c /\ x_unl c1 = x_unl c /\ x_pend c1 = x_pend c /\
    (e = Rename MetaTmp Meta /\ x_me c1 = true /\ x_ren c1 = true \/ x_me c1 = x_me c /\ x_ren c1 = x_ren c))).
Proof.
  intros c e c1 H.
  destruct e as [n|n|n|n m o l|n o l|n l|n|n| |n|a b|n|k op m];
    try (destruct n as [s| | |i]); try (destruct a as [sa| | |ia]; destruct b as [sb| | |ib]);
    cbn [xok_step] in H; brk H; try discriminate; injection H as <-; (split; [reflexivity|]).
  all: try (right; right; right; repeat split; try discriminate; auto; fail).
  - left. eauto.
  - right. right. left. repeat split.
  - right. left. eauto.
Qed.

(* the last successful unlink of [s] in [t] was followed by a successful
   directory fsync, and [s] was not created again *)
Definition last_unlink_dir_synced (s : N) (t : list xevent) : Prop :=
  exists a b, t = a ++ XOk (Unlink (Seg s)) :: b /\
              ~ In (XOk (Unlink (Seg s))) b /\ ~ In (XOk (OpenExcl (Seg s))) b /\
              In (XOk FsyncDir) b.

(* the same with the directory fsync owed while [U] holds *)
Definition gone (s : N) (t : list xevent) (U : Prop) : Prop :=
  exists a b, t = a ++ XOk (Unlink (Seg s)) :: b /\
              ~ In (XOk (Unlink (Seg s))) b /\ ~ In (XOk (OpenExcl (Seg s))) b /\
              (~ U -> In (XOk FsyncDir) b).

(* every name the checker holds as gone was unlinked in [t] and not created since, and a directory
   fsync followed unless the checker still holds the unlink as pending ([x_unl]) *)
Definition G (t : list xevent) (c : xst) : Prop := forall s, In s (x_gone c) -> gone s t (In s (x_unl c)).

Lemma gone_ext : forall s t x (U U' : Prop), gone s t U ->
  x <> XOk (Unlink (Seg s)) -> x <> XOk (OpenExcl (Seg s)) -> (~ U' -> ~ U \/ x = XOk FsyncDir) ->
  gone s (t ++ [x]) U'.
Proof.
  intros s t x U U' (a & b & -> & Hb1 & Hb2 & Hb3) H1 H2 HU.
  exists a, (b ++ [x]). split; [rewrite <- app_assoc; reflexivity|].
  split; [|split]; try (intros Hi; apply in_app_or in Hi; destruct Hi as [Hi|[Hi|[]]]; auto).
  intros Hn. apply in_or_app. destruct (HU Hn) as [Hu| ->]; [left; auto|right; left; reflexivity].
Qed.

Lemma G_step : forall full seg t c x c', G t c -> xstep full seg c x = inl c' -> G (t ++ [x]) c'.
Proof.
  intros full seg t c x c' HG H s Hin. destruct x as [e|e|b|o ok]; cbn [xstep] in H.
  2, 3: injection H as <-; apply (gone_ext s t _ _ _ (HG s Hin)); try discriminate; auto.
  - destruct (xok_step c e) as [c1|v] eqn:E; [|discriminate]. injection H as <-. xproj.
    destruct (xok_step_cases _ _ _ E) as
      [_ [(s' & -> & ->)|[(s' & -> & ->)|[(-> & Hg & Hu & _)|(H1 & H2 & _ & Hg & Hu & _)]]]]; xproj.
    + (* the name is created again: it is not gone any more *)
      apply In_del in Hin. destruct Hin as [Hin Hne].
      apply (gone_ext s t _ _ _ (HG s Hin)); [discriminate|congruence|].
      intros Hn. left. intros Hu. apply Hn. apply In_del. auto.
    + destruct (N.eq_dec s s') as [->|Hne].
      * (* this unlink is the last one *)
        exists t, []. repeat split; auto. intros Hn. exfalso. apply Hn. apply In_add. auto.
      * apply In_add in Hin. destruct Hin as [Hin|Hin]; [congruence|].
        apply (gone_ext s t _ _ _ (HG s Hin)); [congruence|discriminate|].
        intros Hn. left. intros Hu. apply Hn. apply In_add. auto.
    + rewrite Hg in Hin. apply (gone_ext s t _ _ _ (HG s Hin)); [discriminate|discriminate|auto].
    + rewrite Hg in Hin. rewrite Hu.
      apply (gone_ext s t _ _ _ (HG s Hin)); [intros [= He]; eapply H2; eauto|intros [= He]; eapply H1; eauto|auto].
  - apply xstep_ret in H. subst c'. apply (gone_ext s t _ _ _ (HG s Hin)); try discriminate; auto.
Qed.

Lemma G0 : G [] x0.
Proof. intros s []. Qed.

(* C07_fault_delete_ok_sound: in ANY trace the (core or full) discipline
   accepts, a Delete that reports nil comes after a successful unlink of that
   name which was followed by a successful directory fsync (and the name was
   not created again in between) *)
Theorem delete_ok_sound : forall full seg t1 s t2,
  xdiscipline full seg (t1 ++ XRet (FDelete s) true :: t2) = true -> last_unlink_dir_synced s t1.
Proof.
  intros full seg t1 s t2 H.
  destruct (xret_sound G full seg G0 (G_step full seg) _ _ _ H) as (c1 & HG & Hs). cbn [xret_check] in Hs.
  destruct (memb s (x_gone c1)) eqn:Eg; cbn [negb] in Hs; [|discriminate].
  destruct (memb s (x_unl c1)) eqn:Eu; [discriminate|].
  apply memb_In in Eg. apply memb_false in Eu.
  destruct (HG s Eg) as (a & b & Ht & Hb1 & Hb2 & Hb3). exists a, b. auto.
Qed.

(* [b] lies inside one call: no call returns in it *)
Definition no_ret (b : list xevent) : Prop := forall o ok, ~ In (XRet o ok) b.

(* [x_call] holds syscalls of the current call only, each of which succeeded in [t] *)
Definition C (t : list xevent) (c : xst) : Prop :=
  exists a b, t = a ++ b /\ no_ret b /\ forall e, In e (x_call c) -> In (XOk e) b.

Lemma C_step : forall full seg t c x c', C t c -> xstep full seg c x = inl c' -> C (t ++ [x]) c'.
Proof.
  intros full seg t c x c' (a & b & -> & Hn & Hc) H.
  destruct x as [e|e|d|o ok].
  4:{ (* a return: the next call begins, with nothing done yet *)
    apply xstep_ret in H; subst c'. exists ((a ++ b) ++ [XRet o ok]), [].
    split; [rewrite app_nil_r; reflexivity|]. split; [intros o' ok' []|intros e []]. }
  (* inside a call: the call goes on, with one more successful syscall or none *)
  all: eexists a, (b ++ [_]); (split; [rewrite app_assoc; reflexivity|]); split.
  1, 3, 5: intros o ok Hi; apply in_app_or in Hi; destruct Hi as [Hi|[Hi|[]]]; [eapply Hn; eauto|discriminate].
  all: cbn [xstep] in H; intros e' He; apply in_or_app.
  2, 3: (* a failed syscall, an opendir: [x_call] stays *) injection H as <-; left; auto.
  destruct (xok_step c e) as [c1|v] eqn:E; [|discriminate]. injection H as <-.
  destruct (xok_step_cases _ _ _ E) as [Hcall _]. xproj. rewrite Hcall in He.
  destruct He as [<-|He]; [right; left; reflexivity|left; auto].
Qed.

Lemma C0 : C [] x0.
Proof. exists [], []. split; [reflexivity|]. split; [intros o ok []|intros e []]. Qed.

Lemma existsb_In : forall (f : event -> bool) (e0 : event) l,
  (forall e, f e = true -> e = e0) -> existsb f l = true -> In e0 l.
Proof.
  intros f e0 l Hf H. apply existsb_exists in H. destruct H as (e & Hi & He). apply Hf in He. subst. exact Hi.
Qed.
Lemma is_excl_eq : forall s e, is_excl s e = true -> e = OpenExcl (Seg s).
Proof.
  intros s e H. destruct e as [n|n|n|n m o l|n o l|n l|n|n| |n|a b|n|k op m]; try discriminate.
  destruct n; try discriminate. cbn [is_excl] in H. apply N.eqb_eq in H. subst. reflexivity.
Qed.
Lemma is_fsync_eq : forall s e, is_fsync s e = true -> e = Fsync (Seg s).
Proof.
  intros s e H. destruct e as [n|n|n|n m o l|n o l|n l|n|n| |n|a b|n|k op m]; try discriminate.
  destruct n; try discriminate. cbn [is_fsync] in H. apply N.eqb_eq in H. subst. reflexivity.
Qed.
Lemma is_falloc_eq : forall s seg e, is_falloc s seg e = true -> e = Fallocate (Seg s) 0 0 seg.
Proof.
  intros s seg e H. destruct e as [n|n|n|n m o l|n o l|n l|n|n| |n|a b|n|k op m]; try discriminate.
  destruct n; try discriminate. cbn [is_falloc] in H.
  apply andb_true_iff in H. destruct H as [H H4]. apply andb_true_iff in H. destruct H as [H H3].
  apply andb_true_iff in H. destruct H as [H1 H2].
  apply N.eqb_eq in H1, H2, H3, H4. subst. reflexivity.
Qed.

(* C07_fault_create_ok_sound: in any accepted trace a Create that reports nil
   has, within the call itself, successfully opened the name O_CREAT|O_EXCL and
   successfully fallocated (mode 0, offset 0) the requested size *)
Theorem create_ok_sound : forall full seg t1 s t2,
  xdiscipline full seg (t1 ++ XRet (FCreate s) true :: t2) = true ->
  exists a b, t1 = a ++ b /\ no_ret b /\
              In (XOk (OpenExcl (Seg s))) b /\ In (XOk (Fallocate (Seg s) 0 0 seg)) b.
Proof.
  intros full seg t1 s t2 H.
  destruct (xret_sound C full seg C0 (C_step full seg) _ _ _ H) as (c1 & (a & b & Ht & Hn & Hc) & Hs).
  cbn [xret_check] in Hs.
  destruct (existsb (is_excl s) (x_call c1)) eqn:E1; cbn [andb] in Hs; [|discriminate].
  destruct (existsb (is_falloc s seg) (x_call c1)) eqn:E2; [|discriminate].
  exists a, b. split; [exact Ht|]. split; [exact Hn|]. split.
  - apply Hc. eapply existsb_In; [apply is_excl_eq|exact E1].
  - apply Hc. eapply existsb_In; [apply is_falloc_eq|exact E2].
Qed.

Lemma snoc_split : forall (A : Type) (t : list A) x a y b,
  t ++ [x] = a ++ y :: b ->
  (exists b', b = b' ++ [x] /\ t = a ++ y :: b') \/ (a = t /\ y = x /\ b = []).
Proof.
  intros A t x a y b H. destruct b as [|z b0] using rev_ind.
  - right. apply app_inj_tail in H. destruct H as [-> ->]. auto.
  - left. clear IHb0. replace (a ++ y :: b0 ++ [z]) with ((a ++ y :: b0) ++ [z]) in H
      by (rewrite <- app_assoc; reflexivity).
    apply app_inj_tail in H. destruct H as [-> ->]. eauto.
Qed.

(* every successful creation of [s] in [t] was followed by a successful
   directory fsync -- or by an unlink / a later creation of the same name, in
   which case the later creation is the one that counts (the last creation has
   no later one: it is followed by a directory fsync or the file is gone) *)
Definition entry_dir_synced (s : N) (t : list xevent) : Prop :=
  forall a b, t = a ++ XOk (OpenExcl (Seg s)) :: b ->
  In (XOk FsyncDir) b \/ In (XOk (Unlink (Seg s))) b \/ In (XOk (OpenExcl (Seg s))) b.

(* a name the checker does not hold as pending has every creation in [t] settled *)
Definition P (t : list xevent) (c : xst) : Prop :=
  forall s, ~ In s (x_pend c) -> entry_dir_synced s t.

Lemma entry_ext : forall s t x, entry_dir_synced s t -> x <> XOk (OpenExcl (Seg s)) -> entry_dir_synced s (t ++ [x]).
Proof.
  intros s t x H Hx a b Hs. destruct (snoc_split _ _ _ _ _ _ Hs) as [(b' & -> & Ht)|(_ & Hy & _)]; [|congruence].
  destruct (H a b' Ht) as [Hi|[Hi|Hi]]; [left|right; left|right; right]; apply in_or_app; left; exact Hi.
Qed.

(* a directory fsync, an unlink of the name: every earlier creation is settled *)
Lemma entry_closed : forall s t x, x = XOk FsyncDir \/ x = XOk (Unlink (Seg s)) -> entry_dir_synced s (t ++ [x]).
Proof.
  intros s t x Hx a b Hs. destruct (snoc_split _ _ _ _ _ _ Hs) as [(b' & -> & _)|(_ & Hy & _)].
  - destruct Hx as [->| ->]; [left|right; left]; apply in_or_app; right; left; reflexivity.
  - destruct Hx; congruence.
Qed.

Lemma P_step : forall full seg t c x c', P t c -> xstep full seg c x = inl c' -> P (t ++ [x]) c'.
Proof.
  intros full seg t c x c' HP H s Hs. destruct x as [e|e|d|o ok]; cbn [xstep] in H.
  2, 3: injection H as <-; apply entry_ext; [apply HP; exact Hs|discriminate].
  - destruct (xok_step c e) as [c1|v] eqn:E; [|discriminate]. injection H as <-. xproj.
    destruct (xok_step_cases _ _ _ E) as
      [_ [(s' & -> & ->)|[(s' & -> & ->)|[(-> & _)|(H1 & _ & _ & _ & _ & Hp & _)]]]]; xproj.
    + apply entry_ext; [apply HP; intros Hi; apply Hs; apply In_add; auto|].
      intros [= ->]. apply Hs. apply In_add. auto.
    + destruct (N.eq_dec s s') as [->|Hne]; [apply entry_closed; auto|].
      apply entry_ext; [apply HP; intros Hi; apply Hs; apply In_del; auto|discriminate].
    + apply entry_closed. auto.
    + rewrite Hp in Hs. apply entry_ext; [apply HP; exact Hs|]. intros [= He]. eapply H1; eauto.
  - apply xstep_ret in H. subst c'. apply entry_ext; [apply HP; exact Hs|discriminate].
Qed.

Lemma P0 : P [] x0.
Proof. intros s _ a b H. destruct a; discriminate. Qed.

(* C07_fault_sync_ok_sound: in any accepted trace a Sync that reports nil has
   successfully fsynced the file within the call, and (full discipline) every
   successful creation of that name was followed by a successful directory
   fsync (or the file was unlinked / the name created again later) *)
Theorem sync_ok_sound : forall full seg t1 s t2,
  xdiscipline full seg (t1 ++ XRet (FSync s) true :: t2) = true ->
  (exists a b, t1 = a ++ b /\ no_ret b /\ In (XOk (Fsync (Seg s))) b) /\
  (full = true -> entry_dir_synced s t1).
Proof.
  intros full seg t1 s t2 H.
  destruct (xret_sound (fun t c => C t c /\ P t c) full seg (conj C0 P0)
              (fun t c x c' HI Hx => conj (C_step full seg t c x c' (proj1 HI) Hx) (P_step full seg t c x c' (proj2 HI) Hx))
              _ _ _ H) as (c1 & ((a & b & Ht & Hn & Hc) & HP) & Hs).
  cbn [xret_check] in Hs.
  destruct (existsb (is_fsync s) (x_call c1)) eqn:E1; cbn [negb] in Hs; [|discriminate].
  split.
  - exists a, b. split; [exact Ht|]. split; [exact Hn|].
    apply Hc. eapply existsb_In; [apply is_fsync_eq|exact E1].
  - intros ->. cbn [andb] in Hs. destruct (memb s (x_pend c1)) eqn:Ep; [discriminate|].
    apply HP. apply memb_false. exact Ep.
Qed.

(* wal-meta.db: it exists only by the rename, and a clear [x_ren] means a
   successful directory fsync followed the (last) rename *)
Definition M (t : list xevent) (c : xst) : Prop :=
  x_me c = true ->
  exists a b, t = a ++ XOk (Rename MetaTmp Meta) :: b /\ (x_ren c = false -> In (XOk FsyncDir) b).

Lemma M_ext : forall t c c' x, M t c -> x_me c' = x_me c ->
  (x_ren c' = false -> x_ren c = false \/ x = XOk FsyncDir) -> M (t ++ [x]) c'.
Proof.
  intros t c c' x HM Hm Hr Hme. rewrite Hm in Hme. destruct (HM Hme) as (a & b & -> & Hb).
  exists a, (b ++ [x]). split; [rewrite <- app_assoc; reflexivity|].
  intros Hf. apply in_or_app. destruct (Hr Hf) as [H| ->]; [left; auto|right; left; reflexivity].
Qed.

Lemma M_step : forall full seg t c x c', M t c -> xstep full seg c x = inl c' -> M (t ++ [x]) c'.
Proof.
  intros full seg t c x c' HM H. destruct x as [e|e|d|o ok]; cbn [xstep] in H.
  2, 3: injection H as <-; apply (M_ext t c); auto.
  - destruct (xok_step c e) as [c1|v] eqn:E; [|discriminate]. injection H as <-.
    destruct (xok_step_cases _ _ _ E) as
      [_ [(s' & _ & ->)|[(s' & _ & ->)|[(-> & _ & _ & _ & Hm & Hr)|(_ & _ & _ & _ & _ & _ & [(-> & Hm & Hr)|(Hm & Hr)])]]]].
    1, 2: apply (M_ext t c); xproj; auto.
    + apply (M_ext t c); xproj; auto.
    + (* the rename itself *)
      intros _. exists t, []. split; [reflexivity|]. xproj. rewrite Hr. discriminate.
    + apply (M_ext t c); xproj; [exact HM|exact Hm|rewrite Hr; auto].
  - apply xstep_ret in H. subst c'. apply (M_ext t c); auto.
Qed.

(* C07_fault_meta_ok_sound: in any accepted trace a Load that reports nil comes
   after a successful rename of the tmp db onto wal-meta.db (the checker lets
   the name appear in no other way, and only for a written, synced and closed
   tmp file) and, under the full discipline, a successful directory fsync
   followed that rename *)
Theorem meta_ok_sound : forall full seg t1 t2,
  xdiscipline full seg (t1 ++ XRet FMetaInit true :: t2) = true ->
  exists a b, t1 = a ++ XOk (Rename MetaTmp Meta) :: b /\ (full = true -> In (XOk FsyncDir) b).
Proof.
  intros full seg t1 t2 H.
  destruct (xret_sound M full seg (fun H => ltac:(discriminate H)) (M_step full seg) _ _ _ H) as (c1 & HM & Hs).
  cbn [xret_check] in Hs.
  destruct (x_me c1) eqn:Eme; cbn [negb] in Hs; [|discriminate].
  destruct (HM Eme) as (a & b & Ht & Hb). exists a, b. split; [exact Ht|].
  intros ->. cbn [andb] in Hs. destruct (x_ren c1) eqn:Er; [discriminate|]. auto.
Qed.
