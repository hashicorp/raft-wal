(* DisciplineFacts.v -- C07: soundness of the syscall discipline w.r.t. a small
   durable-disk semantics, and the fs-layer model obeys the discipline. *)
From RW Require Import Base.Bytes Fs.Discipline.
From RW Require Import Base.LiaSetup.
Open Scope N_scope.

Lemma memb_In : forall s l, memb s l = true <-> In s l.
Proof.
  intros s l. unfold memb. rewrite existsb_exists. split.
  - intros [x [H1 H2]]. apply N.eqb_eq in H2. subst. exact H1.
  - intros H. exists s. split; [exact H|apply N.eqb_refl].
Qed.
Lemma memb_false : forall s l, memb s l = false <-> ~ In s l.
Proof.
  intros s l. rewrite <- memb_In. destruct (memb s l); split; intros H.
  - discriminate.
  - exfalso. apply H. reflexivity.
  - discriminate.
  - reflexivity.
Qed.
Lemma In_add : forall x s l, In x (add s l) <-> x = s \/ In x l.
Proof.
  intros x s l. unfold add. destruct (memb s l) eqn:E.
  - apply memb_In in E. split; [auto|]. intros [->|H]; auto.
  - cbn. split; intros [H|H]; auto.
Qed.
Lemma In_del : forall x s l, In x (del s l) <-> In x l /\ x <> s.
Proof.
  intros x s l. unfold del. split.
  - intros H. apply in_remove in H. exact H.
  - intros [H1 H2]. apply in_in_remove; auto.
Qed.
Lemma is_nil_true : forall l, is_nil l = true -> l = [].
Proof. intros [|x l] H; [reflexivity|discriminate]. Qed.

(* A file has the writes that an fsync has made durable and the writes still
   pending; its directory entry is durable or not.  A write is the range
   (offset, length).  This is the model of DESIGN.md section 3 (`base` /
   `writes` / `dirst`) with contents abstracted to written ranges. *)
Record file := { f_exists : bool; f_synced : list (N * N); f_pend : list (N * N); f_dur : bool }.
Definition absent : file := {| f_exists := false; f_synced := []; f_pend := []; f_dur := false |}.
Definition fresh : file := {| f_exists := true; f_synced := []; f_pend := []; f_dur := false |}.

Record disk := {
  segs : N -> file;
  t_exists : bool; t_pend : bool; t_open : bool; t_written : bool;   (* wal-meta.db.tmp *)
  meta : option bool;   (* None: the name wal-meta.db is unbound; Some b: bound to a file that
                           was (b = true) / was not complete when it received the name       *)
  m_pend : bool;        (* wal-meta.db has page writes not yet synced                        *)
  m_dur : bool }.       (* the directory entry wal-meta.db is durable                        *)

Definition d0 : disk :=
  {| segs := fun _ => absent; t_exists := false; t_pend := false; t_open := false; t_written := false;
     meta := None; m_pend := false; m_dur := false |}.

Definition upd {A : Type} (f : N -> A) (s : N) (v : A) : N -> A :=
  fun x => if x =? s then v else f x.

Definition with_segs (d : disk) (g : N -> file) : disk :=
  {| segs := g; t_exists := t_exists d; t_pend := t_pend d; t_open := t_open d; t_written := t_written d;
     meta := meta d; m_pend := m_pend d; m_dur := m_dur d |}.
Definition with_tmp (d : disk) (e p o w : bool) : disk :=
  {| segs := segs d; t_exists := e; t_pend := p; t_open := o; t_written := w;
     meta := meta d; m_pend := m_pend d; m_dur := m_dur d |}.
Definition with_meta (d : disk) (m : option bool) (p du : bool) : disk :=
  {| segs := segs d; t_exists := t_exists d; t_pend := t_pend d; t_open := t_open d;
     t_written := t_written d; meta := m; m_pend := p; m_dur := du |}.

Definition is_some {A : Type} (o : option A) : bool := match o with Some _ => true | None => false end.

Definition tmp_touch (d : disk) : disk :=
  if t_exists d then with_tmp d true true (t_open d) true else d.
Definition meta_touch (d : disk) : disk :=
  if is_some (meta d) then with_meta d (meta d) true (m_dur d) else d.

Definition dstep (e : event) (d : disk) : disk :=
  match e with
  | OpenExcl (Seg s) => with_segs d (upd (segs d) s fresh)
  | OpenCreat (Seg s) => if f_exists (segs d s) then d else with_segs d (upd (segs d) s fresh)
  | Pwrite (Seg s) off len =>
      let f := segs d s in
      if f_exists f
      then with_segs d (upd (segs d) s {| f_exists := true; f_synced := f_synced f;
                                          f_pend := f_pend f ++ [(off, len)]; f_dur := f_dur f |})
      else d
  | Fsync (Seg s) | Fdatasync (Seg s) =>
      let f := segs d s in
      with_segs d (upd (segs d) s {| f_exists := f_exists f; f_synced := f_synced f ++ f_pend f;
                                     f_pend := []; f_dur := f_dur f |})
  | FsyncDir =>
      with_meta (with_segs d (fun s => let f := segs d s in
                                       {| f_exists := f_exists f; f_synced := f_synced f;
                                          f_pend := f_pend f; f_dur := f_exists f |}))
                (meta d) (m_pend d) (is_some (meta d))
  | Unlink (Seg s) | Rename (Seg s) _ =>
      with_segs d (upd (segs d) s {| f_exists := false; f_synced := []; f_pend := [];
                                     f_dur := f_dur (segs d s) |})
  | Rename _ (Seg s) => with_segs d (upd (segs d) s fresh)
  (* wal-meta.db.tmp *)
  | OpenExcl MetaTmp | OpenCreat MetaTmp =>
      if t_exists d then with_tmp d true (t_pend d) true (t_written d)
      else with_tmp d true false true false
  | OpenW MetaTmp => if t_exists d then with_tmp d true (t_pend d) true (t_written d) else d
  | Pwrite MetaTmp _ _ | Truncate MetaTmp _ | Fallocate MetaTmp _ _ _ => tmp_touch d
  | Fsync MetaTmp | Fdatasync MetaTmp => with_tmp d (t_exists d) false (t_open d) (t_written d)
  | Close MetaTmp => with_tmp d (t_exists d) (t_pend d) false (t_written d)
  | Unlink MetaTmp => with_tmp d false false false false
  | Rename MetaTmp Meta =>
      if t_exists d
      then with_meta (with_tmp d false false false false)
                     (Some (t_written d && negb (t_pend d) && negb (t_open d))) (t_pend d) false
      else d
  | Rename MetaTmp _ => with_tmp d false false false false
  (* wal-meta.db *)
  | Rename Meta _ => with_meta d None false false
  | Rename _ Meta => with_meta d (Some false) false false
  | OpenExcl Meta | OpenCreat Meta =>
      match meta d with
      | None => with_meta d (Some false) false false   (* created (empty) under its final name *)
      | Some _ => d
      end
  | Pwrite Meta _ _ | Truncate Meta _ | Fallocate Meta _ _ _ => meta_touch d
  | Fsync Meta | Fdatasync Meta => with_meta d (meta d) false (m_dur d)
  | Unlink Meta => with_meta d None false (m_dur d)
  | _ => d
  end.

Definition drun (t : list event) (d : disk) : disk := fold_left (fun d e => dstep e d) t d.

(* the writes a segment file has received since it was created, read off the
   trace alone *)
Definition lwstep (e : event) (lw : N -> list (N * N)) : N -> list (N * N) :=
  match e with
  | OpenExcl (Seg s) | Unlink (Seg s) | Rename (Seg s) _ => upd lw s []
  | Pwrite (Seg s) off len => upd lw s ((off, len) :: lw s)
  | _ => lw
  end.
Definition live_writes (t : list event) : N -> list (N * N) :=
  fold_left (fun lw e => lwstep e lw) t (fun _ => []).

(* What the checker's state [c] knows about the disk [d] after the same trace, with [lw] the live
   writes of that trace: every set or flag of [c] covers the corresponding condition of [d] (a file with
   pending writes is in [dirty], a non-durable entry in [pendent], ..), so an ACK that [ack_check]
   lets pass finds the live writes durable. *)
Record R (c : cst) (d : disk) (lw : N -> list (N * N)) : Prop := {
  r_lw_written : forall s w, In w (lw s) -> In s (written c);
  r_written_known : forall s, In s (written c) -> In s (known c);
  r_lw_file : forall s w, In w (lw s) -> In w (f_synced (segs d s) ++ f_pend (segs d s));
  r_pend_dirty : forall s, f_pend (segs d s) <> [] -> In s (dirty c);
  r_entry : forall s, f_exists (segs d s) = true -> f_dur (segs d s) = false -> In s (pendent c);
  r_unl : forall s, f_dur (segs d s) = true -> f_exists (segs d s) = false -> unl c = true;
  r_known : forall s, In s (known c) -> f_exists (segs d s) = true;
  r_t_exists : t_exists d = tmp_exists c;
  r_t_pend : t_pend d = true -> tmp_dirty c = true;
  r_t_open : t_open d = true -> tmp_open c = true;
  r_t_written : tmp_written c = true -> t_written d = true;
  r_meta : meta d = if meta_exists c then Some true else None;
  r_m_pend : m_pend d = true -> meta_dirty c = true;
  r_m_dur : meta_exists c = true -> m_dur d = false -> ren_pending c = true }.

Lemma R0 : R c0 d0 (fun _ => []).
Proof. constructor; cbn; intros; try contradiction; try discriminate; auto. Qed.

Lemma upd_same : forall (A : Type) (f : N -> A) s v, upd f s v s = v.
Proof. intros. unfold upd. rewrite N.eqb_refl. reflexivity. Qed.
Lemma upd_other : forall (A : Type) (f : N -> A) s v x, x <> s -> upd f s v x = f x.
Proof. intros. unfold upd. destruct (x =? s) eqn:E; [apply N.eqb_eq in E; congruence|reflexivity]. Qed.

(* [x = s] (then [upd _ s v x] is [v]) or not (then it is the old value) *)
Ltac split_eq x s :=
  destruct (N.eq_dec x s) as [->|?];
  [rewrite ?upd_same in *|rewrite ?upd_other in * by assumption].

(* [memb], [add], [del] in hypotheses and goal turned into [In] *)
Ltac sets :=
  repeat match goal with
         | H : memb _ _ = true |- _ => apply memb_In in H
         | H : memb _ _ = false |- _ => apply memb_false in H
         | H : In _ (add _ _) |- _ => apply In_add in H
         | H : In _ (del _ _) |- _ => apply In_del in H
         | |- In _ (add _ _) => apply In_add
         | |- In _ (del _ _) => apply In_del
         end.

(* case split on every [if] condition in [Hs], the condition's value remembered as [E], [E0], .. *)
Ltac conds Hs :=
  repeat match type of Hs with
         | context [if ?b then _ else _] => let E := fresh "E" in destruct b eqn:E
         end.

(* the record projections and setters of [cst], [disk] and [file] computed, nothing else unfolded *)
Ltac proj := cbn [known nofalloc dirty pendent written unl tmp_exists tmp_dirty tmp_open tmp_written
                  meta_exists meta_dirty ren_pending set_segs set_meta
                  segs t_exists t_pend t_open t_written meta m_pend m_dur with_segs with_tmp with_meta
                  f_exists f_synced f_pend f_dur fresh absent] in *.

(* events that only touch the metadata files: segment clauses are inherited *)
Ltac meta_case HR :=
  destruct HR as [H1 H2 H3 H4 H5 H6 H7 M1 M2 M3 M4 M5 M6 M7];
  constructor; proj; auto;
  repeat match goal with
         | H : andb _ _ = true |- _ => apply andb_true_iff in H; destruct H
         | H : negb _ = true |- _ => apply negb_true_iff in H
         end;
  try (intros; congruence).

(* an event on wal-meta.db.tmp ([tmpc]) or wal-meta.db ([metac]): the step is [tmp_write] /
   [meta_write], which rejects the event or sets flags; the disk moves by [tmp_touch] / [meta_touch] *)
Ltac tmpc HR Hs :=
  unfold tmp_write in Hs; conds Hs; try discriminate; injection Hs as <-;
  cbn [dstep lwstep]; unfold tmp_touch; rewrite ?(r_t_exists _ _ _ HR);
  repeat match goal with E : tmp_exists _ = _ |- _ => rewrite ?E end; meta_case HR.
Ltac metac HR Hs :=
  unfold meta_write in Hs; conds Hs; try discriminate; injection Hs as <-;
  cbn [dstep lwstep]; unfold meta_touch; rewrite ?(r_meta _ _ _ HR);
  repeat match goal with E : meta_exists _ = _ |- _ => rewrite ?E end; cbn [is_some];
  first [exact HR | meta_case HR].
(* R's clauses about one segment file, the membership of its id in the checker's
   sets given as propositions *)
Definition Rf (K D P W : Prop) (u : bool) (f : file) (l : list (N * N)) : Prop :=
  (forall w, In w l -> W /\ In w (f_synced f ++ f_pend f)) /\ (W -> K) /\ (K -> f_exists f = true) /\
  (f_pend f <> [] -> D) /\ (f_exists f = true -> f_dur f = false -> P) /\
  (f_dur f = true -> f_exists f = false -> u = true).

Lemma R_Rf : forall c d lw, R c d lw -> forall s,
  Rf (In s (known c)) (In s (dirty c)) (In s (pendent c)) (In s (written c)) (unl c) (segs d s) (lw s).
Proof. intros c d lw [] s. unfold Rf. repeat split; eauto. Qed.

Lemma R_segs : forall c d lw k nf dy p w u g lw',
  R c d lw -> (forall s, Rf (In s k) (In s dy) (In s p) (In s w) u (g s) (lw' s)) ->
  R (set_segs c k nf dy p w u) (with_segs d g) lw'.
Proof.
  intros c d lw k nf dy p w u g lw' [] H. constructor; proj; try assumption.
  all: intros s; destruct (H s) as (H1 & H2 & H3 & H4 & H5 & H6); try assumption.
  - intros x Hx. apply (H1 x Hx).
  - intros x Hx. apply (H1 x Hx).
Qed.

Lemma Rf_ext : forall (K D P W K' D' P' W' : Prop) u u' f l,
  (K <-> K') -> (D -> D') -> (P -> P') -> (W <-> W') -> (u = true -> u' = true) ->
  Rf K D P W u f l -> Rf K' D' P' W' u' f l.
Proof.
  unfold Rf. intros K D P W K' D' P' W' u u' f l HK HD HP HW Hu (H1 & H2 & H3 & H4 & H5 & H6).
  split; [intros w Hw; destruct (H1 w Hw); tauto|]. tauto.
Qed.

Lemma Rf_create : forall (K D P W : Prop) u, K -> P -> Rf K D P W u fresh [].
Proof. unfold Rf. cbn. intros. intuition discriminate. Qed.

Lemma Rf_write : forall (K D P W D' W' : Prop) u f l o n,
  Rf K D P W u f l -> K -> D' -> W' ->
  Rf K D' P W' u {| f_exists := true; f_synced := f_synced f; f_pend := f_pend f ++ [(o, n)]; f_dur := f_dur f |}
     ((o, n) :: l).
Proof.
  unfold Rf. cbn. intros K D P W D' W' u f l o n (H1 & H2 & H3 & H4 & H5 & H6) HK HD HW.
  split; [|repeat split; auto; discriminate].
  intros w Hw. split; [exact HW|]. rewrite app_assoc. apply in_or_app.
  destruct Hw as [<-|Hw]; [right; left; reflexivity|left; apply (H1 w Hw)].
Qed.

Lemma Rf_sync : forall (K D P W D' : Prop) u f l,
  Rf K D P W u f l ->
  Rf K D' P W u {| f_exists := f_exists f; f_synced := f_synced f ++ f_pend f; f_pend := []; f_dur := f_dur f |} l.
Proof.
  unfold Rf. cbn. intros K D P W D' u f l (H1 & H2 & H3 & H4 & H5 & H6).
  split; [|repeat split; auto; congruence].
  intros w Hw. rewrite app_nil_r. apply (H1 w Hw).
Qed.

Lemma Rf_unlink : forall (K D P W : Prop) b, ~ K -> ~ W ->
  Rf K D P W true {| f_exists := false; f_synced := []; f_pend := []; f_dur := b |} [].
Proof. unfold Rf. cbn. intros. intuition congruence. Qed.

(* the files an event does not name: their memberships and the file are as before *)
Ltac frame HR x :=
  eapply Rf_ext; [..|apply (R_Rf _ _ _ HR x)]; try split; intros; sets; cbn [In] in *; intuition congruence.

Lemma step_R : forall seg c d lw e c',
  R c d lw -> step seg c e = inl c' -> R c' (dstep e d) (lwstep e lw).
Proof.
  intros seg c d lw e c' HR Hs.
  (* gone at once: the events the checker rejects, and those that change neither [c] nor [d] *)
  destruct e as [n|n|n|n mode off len|n off len|n len|n|n| |n|a b|n|k op m];
    try (destruct n as [s| | |o]); cbn [step] in Hs; try discriminate;
    try (injection Hs as <-; exact HR).
  - (* OpenExcl Seg *)
    conds Hs; [discriminate|]. injection Hs as <-. cbn [dstep lwstep].
    apply R_segs with (lw := lw); [exact HR|]. intros x. split_eq x s.
    + apply Rf_create; [left; reflexivity|apply In_add; auto].
    + frame HR x.
  - (* OpenExcl Meta *) metac HR Hs.
  - (* OpenExcl MetaTmp *) tmpc HR Hs.
  - (* OpenCreat Meta *) metac HR Hs.
  - (* OpenCreat MetaTmp *) tmpc HR Hs.
  - (* OpenW Seg *) conds Hs; [|discriminate]. injection Hs as <-. exact HR.
  - (* OpenW Meta *) metac HR Hs.
  - (* OpenW MetaTmp *) tmpc HR Hs.
  - (* Fallocate Seg *) conds Hs; [|discriminate]. injection Hs as <-.
    destruct HR as [H1 H2 H3 H4 H5 H6 H7 M1 M2 M3 M4 M5 M6 M7]. constructor; proj; auto.
  - (* Fallocate Meta *) metac HR Hs.
  - (* Fallocate MetaTmp *) tmpc HR Hs.
  - (* Pwrite Seg *)
    conds Hs; try discriminate. injection Hs as <-.
    apply negb_false_iff in E. apply memb_In in E.
    cbn [dstep lwstep]. cbv zeta. rewrite (r_known _ _ _ HR s E).
    apply R_segs with (lw := lw); [exact HR|]. intros x. split_eq x s.
    + apply Rf_write with (D := In s (dirty c)) (W := In s (written c));
        [apply (R_Rf _ _ _ HR s)|exact E|apply In_add; auto|apply In_add; auto].
    + frame HR x.
  - (* Pwrite Meta *) metac HR Hs.
  - (* Pwrite MetaTmp *) tmpc HR Hs.
  - (* Truncate Meta *) metac HR Hs.
  - (* Truncate MetaTmp *) tmpc HR Hs.
  - (* Fsync Seg *)
    conds Hs; [|discriminate]. injection Hs as <-. cbn [dstep lwstep]. cbv zeta.
    apply R_segs with (lw := lw); [exact HR|]. intros x. split_eq x s.
    + apply Rf_sync with (D := In s (dirty c)). apply (R_Rf _ _ _ HR s).
    + frame HR x.
  - (* Fsync Meta *) metac HR Hs.
  - (* Fsync MetaTmp *) tmpc HR Hs.
  - (* Fdatasync Seg *)
    conds Hs; [|discriminate]. injection Hs as <-. cbn [dstep lwstep]. cbv zeta.
    apply R_segs with (lw := lw); [exact HR|]. intros x. split_eq x s.
    + apply Rf_sync with (D := In s (dirty c)). apply (R_Rf _ _ _ HR s).
    + frame HR x.
  - (* Fdatasync Meta *) metac HR Hs.
  - (* Fdatasync MetaTmp *) tmpc HR Hs.
  - (* FsyncDir *)
    injection Hs as <-.
    destruct HR as [H1 H2 H3 H4 H5 H6 H7 M1 M2 M3 M4 M5 M6 M7].
    constructor; cbn [dstep lwstep]; cbv zeta; proj; auto; try (intros; congruence).
    (* r_m_dur: the directory fsync has made the entry of wal-meta.db durable *)
    intros Hm Hd. rewrite M5, Hm in Hd. discriminate.
  - (* Unlink Seg *)
    conds Hs; [|discriminate]. injection Hs as <-. cbn [dstep lwstep].
    apply R_segs with (lw := lw); [exact HR|]. intros x. split_eq x s.
    + apply Rf_unlink; intros H; apply In_del in H; tauto.
    + frame HR x.
  - (* Unlink MetaTmp *) tmpc HR Hs.
  - (* Rename *)
    destruct a as [sa| | |oa], b as [sb| | |ob]; cbn [step] in Hs; try discriminate.
    + (* MetaTmp -> Meta *)
      conds Hs; [|discriminate]. injection Hs as <-.
      cbn [dstep lwstep].
      destruct HR as [R1 R2 R3 R4 R5 R6 R7 M1 M2 M3 M4 M5 M6 M7].
      apply andb_true_iff in E. destruct E as [E Eo]. apply andb_true_iff in E. destruct E as [E Ed].
      apply andb_true_iff in E. destruct E as [Ee Ew].
      apply negb_true_iff in Eo. apply negb_true_iff in Ed.
      assert (Tw : t_written d = true) by auto.
      assert (Tp : t_pend d = false) by (destruct (t_pend d); [specialize (M2 eq_refl); congruence|reflexivity]).
      assert (To : t_open d = false) by (destruct (t_open d); [specialize (M3 eq_refl); congruence|reflexivity]).
      rewrite M1, Ee. constructor; proj; auto; try (intros; congruence).
      rewrite Tw, Tp, To. reflexivity.
    + injection Hs as <-. exact HR.
  - (* Close MetaTmp *) tmpc HR Hs.
  - (* Mark *)
    destruct k; cbn [step] in Hs.
    + injection Hs as <-. exact HR.
    + destruct (ack_check op c); [discriminate|]. injection Hs as <-. exact HR.
Qed.

Lemma check_app : forall seg t1 t2 c i,
  check seg c i (t1 ++ t2) =
  match check seg c i t1 with
  | inl c1 => check seg c1 (i + length t1) t2
  | inr v => inr v
  end.
Proof.
  induction t1 as [|e t1 IH]; intros t2 c i; cbn [app check length].
  - rewrite Nat.add_0_r. reflexivity.
  - destruct (step seg c e) as [c1|v]; [|reflexivity].
    rewrite IH. replace (S i + length t1)%nat with (i + S (length t1))%nat by lia. reflexivity.
Qed.

Definition lwrun (t : list event) (lw : N -> list (N * N)) : N -> list (N * N) :=
  fold_left (fun lw e => lwstep e lw) t lw.

Lemma check_R : forall seg t c d lw i c',
  R c d lw -> check seg c i t = inl c' -> R c' (drun t d) (lwrun t lw).
Proof.
  induction t as [|e t IH]; intros c d lw i c' HR Hc; cbn [check] in Hc.
  - injection Hc as <-. exact HR.
  - destruct (step seg c e) as [c1|v] eqn:Es; [|discriminate].
    cbn [drun lwrun fold_left]. eapply IH; [|exact Hc]. eapply step_R; eauto.
Qed.

(* a passing trace has a passing check on every prefix *)
Lemma discipline_prefix : forall seg t1 t2,
  discipline seg (t1 ++ t2) = true -> exists c1, check seg c0 0 t1 = inl c1.
Proof.
  intros seg t1 t2 H. unfold discipline, discipline_res in H. rewrite check_app in H.
  destruct (check seg c0 0 t1) as [c1|v]; [eauto|discriminate].
Qed.

Lemma ack_ok : forall seg c op n c', step seg c (Mark MAck op n) = inl c' -> ack_check op c = None.
Proof. intros seg c op n c' H. cbn [step] in H. destruct (ack_check op c); [discriminate|reflexivity]. Qed.

Lemma ack_check_none : forall op c, ack_check op c = None ->
  dirty c = [] /\ (forall s, In s (pendent c) -> ~ In s (written c)) /\ unl c = false /\
  ren_pending c = false /\ (op <> op_store -> meta_dirty c = false).
Proof.
  intros op c H. unfold ack_check in H.
  destruct (is_nil (dirty c)) eqn:E1; cbn [negb] in H; [|discriminate].
  destruct (forallb (fun s => negb (memb s (written c))) (pendent c)) eqn:E2; cbn [negb] in H; [|discriminate].
  destruct (unl c); [discriminate|]. destruct (ren_pending c); [discriminate|].
  assert (Hm : op <> op_store -> meta_dirty c = false).
  { intros Hop. destruct (meta_dirty c); [|reflexivity].
    replace (op =? op_store) with false in H by (symmetry; apply N.eqb_neq; exact Hop).
    discriminate. }
  split; [apply is_nil_true; exact E1|]. split; [|auto].
  intros s Hs Hw. rewrite forallb_forall in E2. specialize (E2 s Hs).
  apply negb_true_iff in E2. apply memb_false in E2. contradiction.
Qed.

(* C07_discipline_sound: at every ACK of a trace that obeys the discipline,
   every write a live segment file has received is in the synced content of a
   file that exists with a durable directory entry; nothing is pending in it;
   every deletion is durable; the metadata db is complete and durably named
   and -- at every ACK other than a StoreLogs', which may overlap the
   background rotation's metadata commit -- has no unsynced page. *)
Theorem discipline_sound : forall seg t1 op n t2,
  discipline seg (t1 ++ Mark MAck op n :: t2) = true ->
  let d := drun t1 d0 in
  (forall s w, In w (live_writes t1 s) ->
     f_exists (segs d s) = true /\ In w (f_synced (segs d s)) /\
     f_pend (segs d s) = [] /\ f_dur (segs d s) = true) /\
  (forall s, f_dur (segs d s) = true -> f_exists (segs d s) = true) /\
  (op <> op_store -> m_pend d = false) /\
  (meta d <> None -> meta d = Some true /\ m_dur d = true).
Proof.
  intros seg t1 op n t2 H. cbn zeta.
  replace (t1 ++ Mark MAck op n :: t2) with ((t1 ++ [Mark MAck op n]) ++ t2) in H
    by (rewrite <- app_assoc; reflexivity).
  destruct (discipline_prefix _ _ _ H) as [c2 Hc2].
  rewrite check_app in Hc2. destruct (check seg c0 0 t1) as [c1|v] eqn:Hc1; [|discriminate].
  cbn [check] in Hc2. destruct (step seg c1 (Mark MAck op n)) as [c1'|v] eqn:Hs; [|discriminate].
  pose proof (check_R _ _ _ _ _ _ _ R0 Hc1) as HR. fold (live_writes t1) in HR.
  unfold lwrun in HR. change (fold_left (fun lw e => lwstep e lw) t1 (fun _ => [])) with (live_writes t1) in HR.
  destruct (ack_check_none _ _ (ack_ok _ _ _ _ _ Hs)) as (Hd & Hp & Hu & Hr & Hm).
  destruct HR as [H1 H2 H3 H4 H5 H6 H7 M1 M2 M3 M4 M5 M6 M7].
  assert (Hpend : forall s, f_pend (segs (drun t1 d0) s) = []).
  { intros s. destruct (f_pend (segs (drun t1 d0) s)) eqn:E; [reflexivity|].
    exfalso. assert (Hin : In s (dirty c1)) by (apply H4; rewrite E; discriminate). rewrite Hd in Hin. contradiction. }
  split; [|split; [|split]].
  - intros s w Hw.
    assert (Hk : f_exists (segs (drun t1 d0) s) = true) by eauto.
    split; [exact Hk|]. split.
    + specialize (H3 s w Hw). rewrite Hpend, app_nil_r in H3. exact H3.
    + split; [apply Hpend|].
      destruct (f_dur (segs (drun t1 d0) s)) eqn:E; [reflexivity|].
      exfalso. apply (Hp s); eauto.
  - intros s Hdur. destruct (f_exists (segs (drun t1 d0) s)) eqn:E; [reflexivity|].
    specialize (H6 s Hdur E). congruence.
  - intros Hop. specialize (Hm Hop).
    destruct (m_pend (drun t1 d0)); [specialize (M6 eq_refl); congruence|reflexivity].
  - intros Hne. rewrite M5 in *. destruct (meta_exists c1); [|congruence].
    split; [reflexivity|].
    destruct (m_dur (drun t1 d0)) eqn:E; [reflexivity|]. specialize (M7 eq_refl eq_refl). congruence.
Qed.

(* C07_meta_appears_complete: in no prefix of a trace that obeys the
   discipline is the name wal-meta.db bound to a file that was incomplete
   (unwritten, unsynced or still open for writing) when it received the name *)
Theorem meta_appears_complete : forall seg t1 t2,
  discipline seg (t1 ++ t2) = true -> meta (drun t1 d0) <> Some false.
Proof.
  intros seg t1 t2 H. destruct (discipline_prefix _ _ _ H) as [c1 Hc1].
  pose proof (check_R _ _ _ _ _ _ _ R0 Hc1) as HR.
  rewrite (r_meta _ _ _ HR). destruct (meta_exists c1); discriminate.
Qed.

Lemma h_get_set_same : forall s b h, h_get s (h_set s b h) = Some b.
Proof. intros. unfold h_set. cbn [h_get]. rewrite N.eqb_refl. reflexivity. Qed.
Lemma h_get_del_other : forall s x h, x <> s -> h_get x (h_del s h) = h_get x h.
Proof.
  intros s x h Hne. induction h as [|[s' b] h IH]; cbn [h_del h_get]; [reflexivity|].
  destruct (s' =? s) eqn:E.
  - apply N.eqb_eq in E. subst s'. rewrite IH.
    destruct (s =? x) eqn:E2; [apply N.eqb_eq in E2; congruence|reflexivity].
  - cbn [h_get]. rewrite IH. reflexivity.
Qed.
Lemma h_get_set_other : forall s x b h, x <> s -> h_get x (h_set s b h) = h_get x h.
Proof.
  intros. unfold h_set. cbn [h_get]. destruct (s =? x) eqn:E; [apply N.eqb_eq in E; congruence|].
  apply h_get_del_other. assumption.
Qed.
Lemma del_add_nil : forall s, del s (add s []) = [].
Proof. intros s. unfold add, del. cbn. destruct (N.eq_dec s s); [reflexivity|congruence]. Qed.
Lemma memb_add_nil : forall s, memb s (add s []) = true.
Proof. intros s. apply memb_In. apply In_add. left. reflexivity. Qed.

(* Between two operations of a well-formed caller (its state [w], the handles [h]) the checker state
   [c]: the checker knows exactly the files that exist; nothing awaits a fallocate, a directory fsync
   after an unlink or a rename, or a sync of wal-meta.db; what it holds dirty, or written with a pending entry, the caller holds dirty;
   and an open file whose entry is pending has a handle that will still fsync the directory. *)
Record Q (w : wst) (h : handles) (c : cst) : Prop := {
  q_known : forall s, In s (known c) <-> In s (w_exists w);
  q_nofalloc : nofalloc c = [];
  q_dirty : forall s, In s (dirty c) -> In s (w_dirty w);
  q_pw : forall s, In s (pendent c) -> In s (written c) -> In s (w_dirty w);
  q_handle : forall s, In s (pendent c) -> In s (w_open w) -> h_get s h = Some false;
  q_unl : unl c = false;
  q_ren : ren_pending c = false;
  q_md : meta_dirty c = false;
  q_tmp : tmp_exists c = false;
  q_meta : meta_exists c = w_meta w }.

Lemma Q0 : Q w0 [] c0.
Proof. constructor; cbn; intros; try tauto; auto. Qed.

Ltac wproj := cbn [w_exists w_open w_dirty w_meta] in *.

Lemma fs_step_ok : forall seg w h c o w' i,
  Q w h c -> wf_step w o = Some w' ->
  exists c', check seg c i (fst (fs_step seg h o)) = inl c' /\ Q w' (snd (fs_step seg h o)) c'.
Proof.
  intros seg w h c o w' i HQ Hw.
  destruct HQ as [K NF D PW HH U RP MD TE ME].
  assert (Ek : forall s, memb s (known c) = memb s (w_exists w)).
  { intros s. apply eq_true_iff_eq. rewrite !memb_In. apply K. }
  destruct o as [s|s|s off len|s|s|s| | |k op n]; cbn [wf_step] in Hw; cbn [fs_step fst snd].
  - (* FCreate *)
    destruct (memb s (w_exists w)) eqn:E; [discriminate|]. injection Hw as <-.
    cbn [check step]. rewrite Ek, E. proj. rewrite NF, memb_add_nil, !N.eqb_refl. cbn [andb]. proj.
    rewrite del_add_nil. eexists. split; [reflexivity|].
    apply memb_false in E.
    constructor; proj; wproj; auto.
    + intros x. cbn [In]. rewrite K. tauto.
    + intros x Hx. sets. apply D. tauto.
    + intros x Hp Hwr. sets. destruct Hp as [->|Hp]; [tauto|]. apply PW; tauto.
    + intros x Hp Ho. sets. destruct (N.eq_dec x s) as [->|Hne]; [apply h_get_set_same|].
      rewrite h_get_set_other by assumption. apply HH; tauto.
  - (* FOpenWriter *)
    destruct (memb s (w_exists w)) eqn:E; [|discriminate]. injection Hw as <-.
    cbn [check step]. rewrite Ek, E. eexists. split; [reflexivity|].
    constructor; wproj; auto.
    intros x Hp Ho. sets. destruct (N.eq_dec x s) as [->|Hne]; [apply h_get_set_same|].
    rewrite h_get_set_other by assumption. apply HH; tauto.
  - (* FWrite *)
    destruct (memb s (w_open w) && memb s (w_exists w)) eqn:E; [|discriminate]. injection Hw as <-.
    apply andb_true_iff in E. destruct E as [Eo Ee].
    cbn [check step]. rewrite Ek, Ee, NF. cbn [negb memb existsb]. eexists. split; [reflexivity|].
    constructor; proj; wproj; auto.
    + intros x Hx. sets. destruct Hx; auto.
    + intros x Hp Hwr. sets. destruct Hwr; auto.
  - (* FSync *)
    destruct (memb s (w_open w) && memb s (w_exists w)) eqn:E; [|discriminate]. injection Hw as <-.
    apply andb_true_iff in E. destruct E as [Eo Ee].
    destruct (h_get s h) as [[|]|] eqn:EH; cbn [fst snd check step]; rewrite Ek, Ee; proj.
    all: eexists; (split; [reflexivity|]); constructor; proj; wproj; auto; try (intros; contradiction).
    all: try (intros x Hx; sets; split; [apply D|]; tauto).
    (* no directory fsync in this Sync: a pending entry of [s] would meet a handle that still owes it *)
    all: intros x Hp Hwr; sets; split; [auto|]; intros ->; rewrite (HH s Hp Eo) in EH; discriminate.
  - (* FClose *)
    destruct (memb s (w_open w)) eqn:E; [|discriminate]. injection Hw as <-.
    cbn [check step]. eexists. split; [reflexivity|]. constructor; wproj; auto.
    intros x Hp Ho. sets. destruct Ho as [Ho Hne]. rewrite h_get_del_other by assumption. auto.
  - (* FDelete *)
    destruct (memb s (w_exists w)) eqn:E; [|discriminate]. injection Hw as <-.
    cbn [check step]. rewrite Ek, E. proj. eexists. split; [reflexivity|].
    constructor; proj; wproj; auto; try (intros; contradiction).
    + intros x. split; intros Hx; sets; (split; [apply K|]; tauto).
    + rewrite NF. reflexivity.
    + intros x Hx. sets. split; [apply D|]; tauto.
  - (* FMetaInit *)
    destruct (w_meta w) eqn:E; [discriminate|]. injection Hw as <-.
    (* no tmp file exists: the seven events run on known flags *)
    destruct c as [k nf d p wr u te td to tw me md rp]. proj. subst te.
    eexists. split; [lazy; reflexivity|]. constructor; proj; wproj; auto; intros x Hx; contradiction.
  - (* FMetaCommit *)
    destruct (w_meta w) eqn:E; [|discriminate]. injection Hw as <-.
    unfold meta_commit_events. cbn [check step]. unfold meta_write. rewrite ME. cbn [check step]. proj.
    eexists. split; [reflexivity|]. constructor; proj; wproj; auto.
  - (* FMark *)
    destruct k.
    + injection Hw as <-. cbn [check step]. eexists. split; [reflexivity|]. constructor; auto.
    + destruct (is_nil (w_dirty w)) eqn:E; [|discriminate]. injection Hw as <-.
      apply is_nil_true in E.
      assert (Hd : dirty c = []).
      { destruct (dirty c) as [|x l] eqn:Ed; [reflexivity|]. exfalso.
        assert (Hin : In x (w_dirty w)) by (apply D; left; reflexivity). rewrite E in Hin. contradiction. }
      assert (Hf : forallb (fun s => negb (memb s (written c))) (pendent c) = true).
      { apply forallb_forall. intros x Hx. apply negb_true_iff. apply memb_false. intros Hwr.
        assert (Hin : In x (w_dirty w)) by (apply PW; assumption). rewrite E in Hin. contradiction. }
      cbn [check step]. unfold ack_check. rewrite Hd, Hf, U, RP, MD. cbn.
      eexists. split; [reflexivity|]. constructor; auto.
Qed.

Lemma fs_trace_ok_from : forall seg ops w h c i,
  Q w h c -> wf_ops_from w ops = true ->
  exists c', check seg c i (fs_trace_from seg h ops) = inl c' /\ nofalloc c' = [].
Proof.
  induction ops as [|o ops IH]; intros w h c i HQ Hwf; cbn [fs_trace_from wf_ops_from] in *.
  - exists c. split; [reflexivity|apply (q_nofalloc _ _ _ HQ)].
  - destruct (wf_step w o) as [w'|] eqn:Ew; [|discriminate].
    destruct (fs_step_ok seg w h c o w' i HQ Ew) as (c1 & Hc1 & HQ1).
    destruct (fs_step seg h o) as [ev h'] eqn:Ef. cbn [fst snd] in *.
    rewrite check_app, Hc1. eapply IH; eauto.
Qed.

Theorem model_traces_ok : forall seg ops, wf_ops ops = true -> discipline seg (fs_trace seg ops) = true.
Proof.
  intros seg ops H. unfold discipline, discipline_res, fs_trace.
  destruct (fs_trace_ok_from seg ops w0 [] c0 0%nat Q0 H) as (c' & Hc & Hn).
  rewrite Hc. unfold final_ok. rewrite Hn. reflexivity.
Qed.
