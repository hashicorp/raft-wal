(* SeqFactsTxn.v -- state transactions without faults: segment creation,
   mutateState, the state with a freshly created tail, frame lemmas. *)
From RW Require Import Base.Bytes Base.BytesFacts Fmt.Codec Fmt.CodecFacts Fmt.Frame
  Wal.Model Wal.Spec Wal.SeqInv Wal.ModelFacts Wal.SeqFactsBase Wal.SeqFactsAbs Gen.Constants Base.LiaSetup.
Open Scope N_scope.

Definition wal_with (nid : N) (segs : list seginfo) (tl : option wseg) (w : wal) : wal :=
  {| st_next_id := nid; st_segs := segs; st_tail := tl; st_rotate := st_rotate w;
     st_failed := st_failed w; st_closed := st_closed w |}.

Lemma cfg_seg_size c : cfg_ok c -> c_seg_size c mod two32 = c_seg_size c /\ c_seg_size c < two30.
Proof.
  intros (_ & _ & H1 & H2). split; [|exact H2]. apply N.mod_small. unfold two30, two32 in *. lia.
Qed.

Lemma seg_create_ok si e :
  e_fault e = None -> si_base si <> 0 -> lookup (name_of si) (dk_files (e_disk e)) = None ->
  seg_create si e = (Some (new_wseg si), io_post (ACreate (name_of si) (si_size_limit si)) e).
Proof.
  intros He Hb Hl. unfold seg_create. destruct (N.eqb_spec (si_base si) 0); [contradiction|].
  rewrite Hl, (io_ok _ _ He). reflexivity.
Qed.

Definition commit_env (nid : N) (segs : list seginfo) (e : env) : env :=
  io_post (ACommit {| ps_next_id := nid; ps_segs := segs |}) e.
Definition create_env (si : seginfo) (e : env) : env :=
  io_post (ACreate (name_of si) (si_size_limit si)) e.

Lemma mutate_gen_none defer w t e :
  e_fault e = None -> tx_create t = None ->
  mutate_gen defer w t e =
  (ROk, wal_with (tx_next_id t) (tx_segs t) (tx_tail t) w,
   (if defer then commit_env (tx_next_id t) (tx_segs t) e
    else delete_files (tx_delete t) (commit_env (tx_next_id t) (tx_segs t) e)),
   if defer then tx_delete t else []).
Proof.
  intros He Hc. unfold mutate_gen. rewrite (io_ok _ _ He). cbn [negb]. rewrite Hc. reflexivity.
Qed.

Lemma mutate_gen_some defer w t si e :
  e_fault e = None -> tx_create t = Some si -> si_base si <> 0 ->
  lookup (name_of si) (dk_files (e_disk e)) = None ->
  mutate_gen defer w t e =
  (ROk, wal_with (tx_next_id t) (tx_segs t) (Some (new_wseg si)) w,
   (if defer then create_env si (commit_env (tx_next_id t) (tx_segs t) e)
    else delete_files (tx_delete t) (create_env si (commit_env (tx_next_id t) (tx_segs t) e))),
   if defer then tx_delete t else []).
Proof.
  intros He Hc Hb Hl. unfold mutate_gen. rewrite (io_ok _ _ He). cbn [negb]. rewrite Hc.
  fold (commit_env (tx_next_id t) (tx_segs t) e).
  rewrite seg_create_ok; [reflexivity|reflexivity|exact Hb|exact Hl].
Qed.

Lemma tail_ok_frame c d d' t tw :
  lookup (name_of t) (dk_files d') = lookup (name_of t) (dk_files d) -> tail_ok c d t tw -> tail_ok c d' t tw.
Proof.
  intros E (H1 & H2 & H3 & H4 & H5 & H6 & H7 & H8 & H9 & H10 & H11 & H12 & H13 & H14 & H15 & H16 & H17
            & f & Hf & Hn).
  repeat split; auto. exists f. split; [eapply file_ok_frame; eauto|exact Hn].
Qed.

Lemma abs_frame w d d' :
  (forall s, In s (st_segs w) -> lookup (name_of s) (dk_files d') = lookup (name_of s) (dk_files d)) ->
  abs w d' = abs w d.
Proof. intros E. unfold abs. rewrite (flat_map_visible_frame _ d d' _ E). reflexivity. Qed.

Lemma WInvS_frame c w d d' ss t tw :
  WInvS c w d ss t tw -> dk_meta d' = dk_meta d -> dk_inited d' = dk_inited d ->
  (forall s, In s (ss ++ [t]) -> lookup (name_of s) (dk_files d') = lookup (name_of s) (dk_files d)) ->
  (forall n, lookup n (dk_files d) = None -> lookup n (dk_files d') = None) ->
  WInvS c w d' ss t tw /\ abs w d' = abs w d.
Proof.
  intros (H1 & H2 & H3 & H4 & H5 & H6 & H7 & H8 & H9 & H10 & H11) Em Ei El En. split.
  - apply WInvS_intro; auto; try congruence.
    + intros n Hn. apply En. apply H5. exact Hn.
    + eapply sealed_ok_frame_all; [|exact H8]. intros s Hs. apply El. apply in_or_app. left. exact Hs.
    + eapply tail_ok_frame; [|exact H9]. apply El. apply in_or_app. right. left. reflexivity.
  - apply abs_frame. rewrite H6. exact El.
Qed.

(* deleting files that are not listed *)
Lemma WInvS_delete_files c w e ss t tw dels :
  WInvS c w (e_disk e) ss t tw -> e_fault e = None ->
  (forall s n, In s (ss ++ [t]) -> In n dels -> fname_eqb (name_of s) n = false) ->
  let e' := delete_files dels e in
  WInvS c w (e_disk e') ss t tw /\ abs w (e_disk e') = abs w (e_disk e) /\ e_fault e' = None /\
  dk_stable (e_disk e') = dk_stable (e_disk e) /\ e_m e' = e_m e.
Proof.
  intros HI He Hd. cbn zeta.
  destruct (delete_files_spec dels e He) as (F1 & F2 & F3 & F4 & F5 & F6 & F7).
  destruct (WInvS_frame c w (e_disk e) (e_disk (delete_files dels e)) ss t tw HI F3 F5) as [G1 G2].
  - intros s Hs. apply F6. intros n Hn. apply Hd; assumption.
  - exact F7.
  - split; [exact G1|]. split; [exact G2|]. split; [exact F1|]. split; [exact F4|exact F2].
Qed.

Lemma new_tail_ok c d id base :
  cfg_ok c -> 1 <= base -> base < two64 ->
  lookup (base, id) (dk_files d) =
    Some {| df_ents := []; df_end := 0; df_seal := 0; df_pend := None; df_dir := false;
            df_size := c_seg_size c mod two32 |} ->
  tail_ok c d (new_segment c id base) (new_wseg (new_segment c id base)).
Proof.
  intros Hc Hb1 Hb2 Hl. destruct (cfg_seg_size c Hc) as [Hs1 Hs2].
  unfold tail_ok, new_wseg, new_segment, name_of.
  cbn [si_sealed si_codec si_size_limit si_base si_min ws_n ws_name ws_base ws_limit ws_min
       ws_commit_idx ws_hdr ws_off ws_index_start si_id].
  rewrite Hs1. repeat split; try reflexivity; try lia; try (unfold two32; lia).
  exists {| df_ents := []; df_end := 0; df_seal := 0; df_pend := None; df_dir := false;
            df_size := c_seg_size c |}.
  split; [|repeat split; reflexivity].
  unfold file_ok, name_of. cbn [si_base si_id df_pend df_ents]. rewrite Hl, Hs1.
  repeat split; constructor.
Qed.

Lemma new_tail_inv c w0 d ss' base :
  cfg_ok c -> 1 <= base -> base < two64 -> st_next_id w0 + 1 < two64 ->
  fresh w0 d -> dk_inited d = true ->
  Forall (sealed_ok c d) ss' ->
  let si := new_segment c (st_next_id w0) base in
  linked (ss' ++ [si]) ->
  st_closed w0 = false -> st_failed w0 = false -> st_rotate w0 = None ->
  let d2 := apply_act (apply_act d (ACommit {| ps_next_id := st_next_id w0 + 1; ps_segs := ss' ++ [si] |}))
                      (ACreate (name_of si) (si_size_limit si)) in
  WInvS c (wal_with (st_next_id w0 + 1) (ss' ++ [si]) (Some (new_wseg si)) w0) d2 ss' si (new_wseg si).
Proof.
  intros Hc Hb1 Hb2 Hn Hf Hi HS si HL Hcl Hfa Hro d2.
  assert (Hnew : lookup (name_of si) (dk_files d) = None) by (apply Hf; cbn; lia).
  assert (Hlk : forall m, lookup m (dk_files d2) =
             if fname_eqb m (name_of si)
             then Some {| df_ents := []; df_end := 0; df_seal := 0; df_pend := None; df_dir := false;
                          df_size := si_size_limit si |}
             else lookup m (dk_files d)).
  { intros m. unfold d2. rewrite lookup_create. reflexivity. }
  apply WInvS_intro; unfold wal_with; cbn [st_closed st_failed st_next_id st_segs st_tail st_rotate]; auto.
  - unfold fresh. cbn [st_next_id]. intros n Hn'. rewrite Hlk.
    rewrite fname_neq_id by (cbn; lia). apply Hf. lia.
  - eapply sealed_ok_frame_all; [|exact HS]. intros s Hs. rewrite Hlk.
    destruct (fname_eqb (name_of s) (name_of si)) eqn:E; [|reflexivity].
    apply fname_eqb_eq in E. rewrite Forall_forall in HS.
    destruct (HS s Hs) as (_ & _ & _ & _ & _ & _ & f & (Hl & _) & _). congruence.
  - apply new_tail_ok; auto. change (base, st_next_id w0) with (name_of si).
    rewrite Hlk, fname_eqb_refl. reflexivity.
Qed.

Lemma create_next_snoc c nid l x nb :
  Forall (fun s => si_base s < si_max x + 1) (l ++ [x]) -> si_max x + 1 < two64 -> nid + 1 < two64 ->
  create_next c nid (l ++ [x]) nb =
  (nid + 1, (l ++ [x]) ++ [new_segment c nid (si_max x + 1)], new_segment c nid (si_max x + 1)).
Proof.
  intros HF H1 H2. unfold create_next. rewrite tail_info_snoc.
  rewrite !mod64_small by assumption. rewrite seg_set_add; [reflexivity|exact HF].
Qed.
Lemma create_next_nil c nid nb :
  1 <= nb -> nb < two64 -> nid + 1 < two64 ->
  create_next c nid [] nb = (nid + 1, [new_segment c nid nb], new_segment c nid nb).
Proof.
  intros H0 H1 H2. unfold create_next. cbn [tail_info map last].
  destruct (N.ltb_spec 0 nb); [|lia]. rewrite !mod64_small by assumption. reflexivity.
Qed.

(* the whole transaction that installs a new empty tail after the sealed
   segments ss' *)
Lemma mutate_new_tail c defer w0 e ss' base dels :
  cfg_ok c -> e_fault e = None -> 1 <= base -> base < two64 -> st_next_id w0 + 1 < two64 ->
  fresh w0 (e_disk e) -> dk_inited (e_disk e) = true ->
  Forall (sealed_ok c (e_disk e)) ss' ->
  let si := new_segment c (st_next_id w0) base in
  linked (ss' ++ [si]) ->
  st_closed w0 = false -> st_failed w0 = false -> st_rotate w0 = None ->
  let w' := wal_with (st_next_id w0 + 1) (ss' ++ [si]) (Some (new_wseg si)) w0 in
  let e2 := create_env si (commit_env (st_next_id w0 + 1) (ss' ++ [si]) e) in
  mutate_gen defer w0 {| tx_next_id := st_next_id w0 + 1; tx_segs := ss' ++ [si]; tx_delete := dels;
                         tx_create := Some si; tx_tail := None |} e =
    (ROk, w', (if defer then e2 else delete_files dels e2), if defer then dels else []) /\
  WInvS c w' (e_disk e2) ss' si (new_wseg si) /\ e_fault e2 = None /\
  dk_stable (e_disk e2) = dk_stable (e_disk e) /\ e_m e2 = e_m e /\
  (forall m, lookup m (dk_files (e_disk e)) <> None ->
             lookup m (dk_files (e_disk e2)) = lookup m (dk_files (e_disk e))).
Proof.
  intros Hc He Hb1 Hb2 Hn Hf Hi HS si HL Hcl Hfa Hro w' e2.
  assert (Hnew : lookup (name_of si) (dk_files (e_disk e)) = None) by (apply Hf; cbn; lia).
  split; [|split; [|repeat split]].
  - rewrite (mutate_gen_some defer w0 _ si e He); [reflexivity|reflexivity| |exact Hnew].
    unfold si. cbn [new_segment si_base]. lia.
  - apply new_tail_inv; assumption.
  - intros m Hm. unfold e2, create_env, commit_env. rewrite !io_post_disk, lookup_create.
    rewrite (fresh_neq w0 (e_disk e) m (name_of si) Hf Hm); [reflexivity|]. cbn. lia.
Qed.

(* sealing a listed segment below its last entry and starting a new tail
   after it: what rotation, Open after an interrupted rotation and tail
   truncation have in common *)

(* the segment recorded as sealed with MaxIndex [mx] *)
Definition seal_info (t : seginfo) (mx istart : N) : seginfo :=
  {| si_id := si_id t; si_base := si_base t; si_min := si_min t; si_max := mx; si_codec := si_codec t;
     si_index_start := istart; si_sealed := true; si_size_limit := si_size_limit t |}.

Lemma sealed_cut c d ss t tw s mx istart :
  Forall (sealed_ok c d) ss -> tail_ok c d t tw -> In s (ss ++ [t]) ->
  si_min s <= mx -> mx <= emax (ws_commit_idx tw) s ->
  sealed_ok c d (seal_info s mx istart).
Proof.
  intros HS HT Hs Hm1 Hm2. unfold sealed_ok, seal_info. cbn [si_sealed si_codec si_base si_min si_max].
  apply in_app_or in Hs. destruct Hs as [Hs|[<-|[]]].
  - rewrite Forall_forall in HS. destruct (HS s Hs) as (H1 & H2 & H3 & H4 & H5 & H6 & f & Hf & H7 & H8).
    rewrite (emax_sealed _ _ H1) in Hm2.
    repeat split; auto; try lia. exists f. split; [exact Hf|]. split; [exact H7|lia].
  - destruct (tail_ok_file HT) as (f & Hf & Hn & He & _).
    pose proof (tail_ok_range HT) as Hr. pose proof (tail_ok_off HT) as Ho.
    rewrite (emax_unsealed _ _ (tail_ok_unsealed HT)), (tail_ok_commit HT) in Hm2.
    destruct (N.eqb_spec (ws_n tw) 0) as [E|E]; [lia|].
    split; [reflexivity|]. split; [exact (tail_ok_codec HT)|]. split; [apply Hr|]. split; [apply Hr|].
    split; [lia|]. split; [lia|]. exists f. split; [exact Hf|]. split; lia.
Qed.

Lemma vis_set_max tl tl' d s nmax istart :
  1 <= si_min s -> nmax <= emax tl s ->
  seg_visible tl' d (seal_info s nmax istart) =
  firstn (N.to_nat (nmax + 1 - si_min s)) (seg_visible tl d s).
Proof.
  intros H1 H2. rewrite !seg_visible_eq by (cbn [seal_info si_min]; lia).
  change (name_of (seal_info s nmax istart)) with (name_of s).
  unfold emax at 1. cbn [seal_info si_sealed si_max si_min si_base].
  rewrite firstn_firstn. f_equal. lia.
Qed.

(* the entries up to [nmax], when [sv] is the segment that holds nmax *)
Lemma firstn_content c d ss t tw pre sv post nmax istart d' :
  Forall (sealed_ok c d) ss -> tail_ok c d t tw -> linked (ss ++ [t]) -> ss ++ [t] = pre ++ sv :: post ->
  si_min sv <= nmax -> nmax <= emax (ws_commit_idx tw) sv ->
  (forall s, In s (pre ++ [sv]) -> lookup (name_of s) (dk_files d') = lookup (name_of s) (dk_files d)) ->
  flat_map (seg_visible 0 d') (pre ++ [seal_info sv nmax istart]) =
  firstn (N.to_nat (nmax + 1 - si_min (hd t ss))) (flat_map (seg_visible (ws_commit_idx tw) d) (ss ++ [t])).
Proof.
  intros HS HT HL E Hm1 Hm2 Hlk.
  assert (Hin : In sv (ss ++ [t])) by (rewrite E; apply in_elt).
  destruct (listed_seg _ _ _ _ _ _ HS HT Hin) as (Hb1 & Hb2 & _ & Hvlen & _).
  destruct (bases_before _ _ _ _ _ _ _ HS HL E) as [Hpb HSp].
  rewrite (hd_split _ _ _ _ _ E), E.
  rewrite (firstn_chain c d (ws_commit_idx tw) nmax pre sv post HSp); [|rewrite <- E; exact HL|].
  2:{ eapply Forall_impl; [|exact Hpb]. intros s Hs. cbv beta in Hs. lia. }
  rewrite flat_map_app. f_equal.
  - apply (flat_map_visible_sealed c); [exact HSp|]. intros s Hs. apply Hlk. apply in_or_app. left. exact Hs.
  - cbn [flat_map]. rewrite app_nil_r. rewrite firstn_app_le by (unfold llen in Hvlen; lia).
    rewrite (vis_set_max (ws_commit_idx tw) 0 d' sv nmax istart) by lia. f_equal.
    apply seg_visible_frame. apply Hlk. apply in_or_app. right. left. reflexivity.
Qed.

(* abs of a state whose tail is empty *)
Lemma abs_empty_tail c w d ss t tw :
  WInvS c w d ss t tw -> ws_n tw = 0 ->
  abs w d = match ss with
            | [] => sl_empty
            | s :: _ => {| sl_first := si_min s; sl_ents := flat_map (seg_visible 0 d) ss |}
            end.
Proof.
  intros HI Hn. rewrite (abs_eq _ _ _ _ _ _ HI).
  pose proof (winv_sealed HI) as HS. pose proof (winv_tail_ok HI) as HT. pose proof (winv_linked HI) as HL.
  rewrite (winv_segs HI), (winv_tail HI). rewrite (last_index_inv c d ss _ _ HT), (first_index_inv _ _ _ _ _ HS HT), Hn.
  change (0 =? 0) with true. cbv iota.
  destruct ss as [|s r]; [reflexivity|].
  assert (Hlt := linked_lt _ t (Forall_impl _ (sealed_srange c d) HS) HL).
  inversion Hlt as [|? ? Hs _]; subst. inversion HS as [|? ? Hs' _]; subst.
  destruct Hs' as (_ & _ & ? & ? & ? & _).
  destruct (N.eqb_spec (si_base t - 1) 0); [lia|]. f_equal.
  rewrite flat_map_app.
  change (flat_map (seg_visible (ws_commit_idx tw) d) [t]) with (seg_visible (ws_commit_idx tw) d t ++ []).
  rewrite app_nil_r.
  destruct (vis_tail _ _ _ _ HT) as (f & _ & _ & _ & _ & _ & Hlen & _).
  pose proof (tail_ok_range HT) as Hr.
  rewrite (proj1 (llen_0 (seg_visible (ws_commit_idx tw) d t))) by lia. rewrite app_nil_r.
  apply (flat_map_visible_sealed c); [exact HS|reflexivity].
Qed.

Lemma seal_new_tail c w w0 e ss t tw pre sv post nmax istart dels :
  cfg_ok c -> e_fault e = None -> WInvS c w (e_disk e) ss t tw ->
  st_next_id w0 = st_next_id w -> st_next_id w0 + 1 < two64 ->
  st_closed w0 = false -> st_failed w0 = false -> st_rotate w0 = None ->
  ss ++ [t] = pre ++ sv :: post -> si_min sv <= nmax -> nmax <= emax (ws_commit_idx tw) sv ->
  (forall n, In n dels -> lookup n (dk_files (e_disk e)) <> None /\
                          forall s, In s (pre ++ [sv]) -> fname_eqb (name_of s) n = false) ->
  let t' := seal_info sv nmax istart in
  let si := new_segment c (st_next_id w0) (nmax + 1) in
  let segs' := (pre ++ [t']) ++ [si] in
  let w' := wal_with (st_next_id w0 + 1) segs' (Some (new_wseg si)) w0 in
  let e' := delete_files dels (create_env si (commit_env (st_next_id w0 + 1) segs' e)) in
  seg_set t' (pre ++ [sv]) = pre ++ [t'] /\
  (forall nb, create_next c (st_next_id w0) (pre ++ [t']) nb = (st_next_id w0 + 1, segs', si)) /\
  mutate w0 {| tx_next_id := st_next_id w0 + 1; tx_segs := segs'; tx_delete := dels;
               tx_create := Some si; tx_tail := None |} e = (ROk, w', e') /\
  e_fault e' = None /\ WInvS c w' (e_disk e') (pre ++ [t']) si (new_wseg si) /\
  dk_stable (e_disk e') = dk_stable (e_disk e) /\ e_m e' = e_m e /\
  abs w' (e_disk e') =
    {| sl_first := sl_first (abs w (e_disk e));
       sl_ents := firstn (N.to_nat (nmax + 1 - sl_first (abs w (e_disk e)))) (sl_ents (abs w (e_disk e))) |}.
Proof.
  intros Hc He HI Hid Hnid Hcl0 Hfa0 Hro0 E Hm1 Hm2 Hdels t' si segs' w' e'.
  destruct (abs_props _ _ _ _ _ _ HI) as (_ & _ & _ & _ & Hne).
  destruct HI as (Hcl & Hfa & Hmeta & Hini & Hfr & Hsegs & Htail & HS & HT & HL & Hro).
  assert (Hfr0 : fresh w0 (e_disk e)) by (unfold fresh; rewrite Hid; exact Hfr).
  assert (Hin : In sv (ss ++ [t])) by (rewrite E; apply in_elt).
  destruct (listed_seg _ _ _ _ _ _ HS HT Hin) as (Hb1 & Hb2 & _).
  destruct (bases_before _ _ _ _ _ _ _ HS HL E) as [Hpb HSp].
  assert (Hpbase : Forall (fun s => si_base s < si_base sv) pre).
  { rewrite Forall_forall in *. intros s Hs. specialize (Hpb s Hs). destruct (sealed_srange _ _ _ (HSp s Hs)). lia. }
  assert (HnL : nmax <= last_index (st_segs w) (st_tail w)).
  { assert (Hemax := emax_le_last _ _ _ _ _ HS HT HL). rewrite Forall_forall in Hemax.
    specialize (Hemax sv Hin). rewrite Hsegs, Htail. lia. }
  destruct (Hne ltac:(lia)) as (Ha & HFm & _ & _ & _ & HL1 & _).
  assert (Hlisted : forall s, In s (pre ++ [sv]) -> lookup (name_of s) (dk_files (e_disk e)) <> None).
  { intros s Hs. apply (listed_lookup c _ ss t tw); [exact HS|exact HT|]. rewrite E.
    apply in_app_or in Hs. destruct Hs as [Hs|[<-|[]]]; [apply in_or_app; left; exact Hs|apply in_elt]. }
  split; [apply seg_set_replace_last; [exact Hpbase|reflexivity]|].
  split.
  { intros nb. apply create_next_snoc; [|cbn [t' seal_info si_max]; lia|exact Hnid].
    apply Forall_app. split; [eapply Forall_impl; [|exact Hpbase]; intros s Hs|constructor; [|constructor]];
      cbn [t' seal_info si_max si_base] in *; lia. }
  destruct (mutate_new_tail c false w0 e (pre ++ [t']) (nmax + 1) dels)
    as (Hmut & HI' & He' & Hst' & Hm' & Hlk'); try assumption; try lia.
  { apply Forall_app. split; [exact HSp|]. constructor; [|constructor].
    apply (sealed_cut c _ ss t tw); assumption. }
  { rewrite <- app_assoc. apply linked_app_intro.
    - apply (linked_last_replace pre sv); [reflexivity|reflexivity|].
      rewrite E in HL. apply (linked_app_inv _ _ _ HL).
    - cbn [linked new_segment si_base si_min t' seal_info si_max]. repeat split; reflexivity. }
  fold si segs' w' in Hmut, HI', He', Hst', Hm', Hlk'.
  set (e2 := create_env si (commit_env (st_next_id w0 + 1) segs' e)) in *.
  destruct (WInvS_delete_files c w' e2 (pre ++ [t']) si (new_wseg si) dels HI' He')
    as (G1 & G2 & G3 & G4 & G5).
  { intros s n Hs Hn. destruct (Hdels n Hn) as [Hex Hoth].
    apply in_app_or in Hs. destruct Hs as [Hs|[<-|[]]].
    - apply in_app_or in Hs. destruct Hs as [Hs|[<-|[]]].
      + apply Hoth. apply in_or_app. left. exact Hs.
      + apply (Hoth sv). apply in_or_app. right. left. reflexivity.
    - rewrite fname_eqb_sym. apply (fresh_neq w0 (e_disk e)); [exact Hfr0|exact Hex|]. cbn. lia. }
  unfold e'. split; [unfold mutate; rewrite Hmut; reflexivity|].
  split; [exact G3|]. split; [exact G1|]. split; [rewrite G4; exact Hst'|]. split; [rewrite G5; exact Hm'|].
  rewrite G2, (abs_empty_tail _ _ _ _ _ _ HI' eq_refl), Ha, HFm. cbn [sl_ents sl_first].
  rewrite <- (firstn_content c (e_disk e) ss t tw pre sv post nmax istart (e_disk e2) HS HT HL E Hm1 Hm2)
    by (intros s Hs; apply Hlk', Hlisted, Hs).
  rewrite (hd_split _ _ _ _ _ E). fold t'. destruct pre; reflexivity.
Qed.
