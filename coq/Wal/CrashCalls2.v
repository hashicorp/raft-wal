(* CrashCalls2.v -- call_ok for GetLog.
   Here and in the other files of the family, [clear - H1 .. Hn] before [lia] names the
   arithmetic facts used: lia reads the whole context, and its cost grows with it. *)
From RW Require Import Base.Bytes Base.BytesFacts Fmt.Codec Fmt.CodecFacts Fmt.Frame Wal.Model Wal.Spec Wal.Hist
  Wal.CrashInv Wal.ModelFacts Wal.CrashFacts0 Wal.CrashFacts1 Wal.CrashFacts2 Wal.CrashFacts3 Wal.CrashFacts4 Wal.CrashFacts5
  Wal.CrashFacts6 Wal.CrashGlue Wal.CrashCalls1 Gen.Constants Base.LiaSetup.
Open Scope N_scope.

Lemma find_segment_sealed d S t s idx :
  Forall (sealed_ok d) S -> Forall swf S -> linked (S ++ [t]) -> In s S ->
  si_min s <= idx -> idx <= si_max s ->
  find_segment (S ++ [t]) idx = Some s.
Proof.
  intros Hso Hw Hl Hin H1 H2.
  destruct (in_split _ _ Hin) as (P & Q & ES).
  assert (Hnr : exists n R, Q ++ [t] = n :: R).
  { destruct Q as [|q Q']; [exists t, []; reflexivity|exists q, (Q' ++ [t]); reflexivity]. }
  destruct Hnr as (n & R & EQ).
  assert (Eseg : S ++ [t] = P ++ s :: n :: R).
  { rewrite ES, <- app_assoc. cbn [app]. rewrite EQ. reflexivity. }
  rewrite Eseg in Hl |- *.
  destruct (linked_mid P s n R Hl) as (Hbn & _).
  pose proof (sealed_swf_sst d S Hso Hw) as Hsst.
  rewrite ES in Hsst, Hw. apply Forall_app in Hsst. destruct Hsst as (HsP & HsS).
  inversion HsS as [|? ? Hss _]; subst. unfold sst in Hss.
  assert (HlP : linked (P ++ [s])).
  { replace (P ++ s :: n :: R) with ((P ++ [s]) ++ n :: R) in Hl by (rewrite <- app_assoc; reflexivity).
    eapply linked_app_l; eauto. }
  pose proof (linked_app_lt P s HlP HsP) as HltP.
  assert (HP : Forall (fun x => si_base x < si_base s) P).
  { rewrite Forall_forall in *. intros x Hx. specialize (HltP x Hx). specialize (HsP x Hx). unfold sst in HsP. lia. }
  apply find_segment_complete; [exact HP| | | |]; lia.
Qed.

Lemma sealed_cover d S t idx :
  Forall (sealed_ok d) S -> Forall swf S -> linked (S ++ [t]) -> S <> [] ->
  hd_min S t <= idx -> idx < si_base t ->
  exists s, In s S /\ si_min s <= idx /\ idx <= si_max s.
Proof.
  induction S as [|a S IH]; intros Hso Hw Hl Hne H1 H2; [congruence|].
  unfold hd_min in H1. cbn [hd] in H1.
  destruct (idx <=? si_max a) eqn:E.
  - exists a. split; [left; reflexivity|lia].
  - inversion Hso as [|? ? Ha Hso']; subst. inversion Hw as [|? ? Hwa Hw']; subst.
    destruct S as [|b S'].
    + cbn in Hl. lia.
    + change (linked (a :: b :: S' ++ [t])) in Hl. rewrite linked_cons2 in Hl. destruct Hl as (L1 & L2 & L3).
      destruct (IH Hso' Hw' L3 ltac:(discriminate)) as (s & Hin & Hs); [unfold hd_min; cbn [hd]; lia|exact H2|].
      exists s. split; [right; exact Hin|exact Hs].
Qed.

Lemma lv_nth_tail {c nb w d S t f tw} (V : lview c nb w d S t f tw) idx :
  si_min t <= idx ->
  nth_error (lv_es d S t f) (N.to_nat (idx - hd_min S t)) = nth_error (df_ents f) (N.to_nat (idx - si_base t)).
Proof.
  intros H1. unfold lv_es. pose proof (lv_twf V) as (_ & _ & Hb1 & _ & Hbm & _).
  destruct (list_eq_dec_nil S) as [ES|Hne].
  - subst S. unfold sealed_es, hd_min. cbn [flat_map hd app]. rewrite nth_error_skipn. f_equal. lia.
  - pose proof (sealed_es_len d S t (lv_sealed _ _ _ _ _ _ _ _ V) (lv_Swf V) (lv_linked _ _ _ _ _ _ _ _ V) Hne) as Hl.
    destruct (lv_hd_min_lt V Hne) as (Hlt & Hmt).
    rewrite nth_error_app2 by (unfold llen in Hl; lia).
    rewrite nth_error_skipn. f_equal. unfold llen in Hl. lia.
Qed.

Lemma lv_nth_sealed {c nb w d S t f tw} (V : lview c nb w d S t f tw) s idx :
  In s S -> si_min s <= idx -> idx <= si_max s ->
  nth_error (lv_es d S t f) (N.to_nat (idx - hd_min S t)) =
  nth_error (file_ents (name_of s) d) (N.to_nat (idx - si_base s)).
Proof.
  intros Hin H1 H2. unfold lv_es.
  apply (sealed_es_nth d S t s idx _ (lv_sealed _ _ _ _ _ _ _ _ V) (lv_Swf V) (lv_linked _ _ _ _ _ _ _ _ V) Hin H1 H2).
Qed.

Lemma codec_view_wf l : wf_log l -> codec_view l = l.
Proof.
  intros H. destruct (decode_encode l H) as (bs & E1 & E2). unfold codec_view. rewrite E1, E2. reflexivity.
Qed.

Lemma spec_get_In s i l : spec_get s i = Some l -> In l (sl_ents s).
Proof.
  unfold spec_get. destruct (sl_is_empty s || (i <? sl_first s) || (spec_last s <? i)); [discriminate|].
  apply nth_error_In.
Qed.

Lemma spec_get_slog first es i :
  spec_get (slog_of first es) i =
  if (llen es =? 0) || (i <? first) || (first + llen es - 1 <? i) then None
  else nth_error es (N.to_nat (i - first)).
Proof.
  destruct es as [|x r]; [reflexivity|].
  unfold spec_get, spec_last. cbn [slog_of sl_is_empty sl_ents sl_first orb].
  destruct (llen (x :: r) =? 0) eqn:Z; [rewrite llen_cons in Z; lia|]. reflexivity.
Qed.

Lemma hd_min_le S t s : Forall sst S -> linked (S ++ [t]) -> In s S -> hd_min S t <= si_min s.
Proof.
  intros Hs Hl Hin. destruct S as [|a S']; [destruct Hin|]. unfold hd_min. cbn [hd].
  destruct Hin as [<-|Hin]; [lia|].
  inversion Hs as [|? ? Ha Hs']; subst. unfold sst in Ha.
  pose proof (chain_after S' a t s Hl Hs' Hin). lia.
Qed.

Lemma seg_read_file_ents n base idx d :
  seg_read n base idx d = nth_error (file_ents n d) (N.to_nat (idx - base)).
Proof.
  unfold seg_read, file_ents. destruct (lookup n (dk_files d)); [reflexivity|].
  destruct (N.to_nat (idx - base)); reflexivity.
Qed.

Lemma get_log_ok c nb w e S t f tw a i :
  lview c nb w (e_disk e) S t f tw -> sp_of (e_disk e) = a -> sp_good a ->
  exists r x y, get_log w i e = (r, inc_read e x y) /\
                result_eqb (res_class r) (fst (step_spec a (OGet i))) = true.
Proof.
  intros V Hsp Hg. set (d := e_disk e) in *.
  pose proof (lv_twf V) as (_ & _ & Hb1 & _ & Hbm & _).
  pose proof (lv_tw _ _ _ _ _ _ _ _ V) as (Tn & Tb & Tm & _ & _ & _ & _ & Tc).
  pose proof (lv_min_cond V) as Hmc. pose proof (lv_len V) as Hlen. pose proof (lv_es_nil V) as Hnil.
  pose proof (lv_sealed _ _ _ _ _ _ _ _ V) as Hso. pose proof (lv_Swf V) as Hw.
  pose proof (lv_linked _ _ _ _ _ _ _ _ V) as Hl.
  pose proof (sealed_swf_sst d S Hso Hw) as Hsst.
  set (n := llen (df_ents f)) in *. set (es := lv_es d S t f) in *. set (first := hd_min S t) in *.
  assert (Hspec : spec_get (sp_log a) i =
                  if (llen es =? 0) || (i <? first) || (first + llen es - 1 <? i) then None
                  else nth_error es (N.to_nat (i - first))).
  { rewrite <- Hsp. cbn [sp_of sp_log]. rewrite (lv_read _ _ _ _ _ _ _ _ V). apply spec_get_slog. }
  assert (Hinside : first <= i -> i < first + llen es -> spec_get (sp_log a) i = nth_error es (N.to_nat (i - first))).
  { intros H1 H2. rewrite Hspec. destruct ((llen es =? 0) || (i <? first) || (first + llen es - 1 <? i)) eqn:E; [exfalso; clear - H1 H2 E; lia|reflexivity]. }
  assert (Hout : i < first \/ first + llen es <= i -> spec_get (sp_log a) i = None).
  { intros H. rewrite Hspec. destruct ((llen es =? 0) || (i <? first) || (first + llen es - 1 <? i)) eqn:E; [reflexivity|exfalso; clear - H E; lia]. }
  assert (Hfm : first <= si_min t).
  { destruct (list_eq_dec_nil S) as [->|Hne]; [apply N.le_refl|]. destruct (lv_hd_min_lt V Hne) as (Hx & Hy). clear - Hx Hy. lia. }
  (* how the result is judged *)
  assert (Hhit : forall l, spec_get (sp_log a) i = Some l ->
            result_eqb (res_class (RLog (codec_view l))) (fst (step_spec a (OGet i))) = true).
  { intros l Hs. cbn [step_spec]. rewrite Hs. cbn [fst res_class result_eqb].
    rewrite codec_view_wf; [apply log_eqb_refl|].
    apply spec_get_In in Hs. unfold sp_good in Hg. rewrite Forall_forall in Hg. apply (Hg l Hs). }
  assert (Hmiss : spec_get (sp_log a) i = None ->
            result_eqb (res_class RErrNotFound) (fst (step_spec a (OGet i))) = true).
  { intros Hs. cbn [step_spec]. rewrite Hs. reflexivity. }
  (* the tail lookup *)
  assert (HTL : tail_lookup tw i d =
                if (i <? si_base t) || (i <? ws_min tw) || (tl_of (si_base t) (df_ents f) <? i) then None
                else nth_error (df_ents f) (N.to_nat (i - si_base t))).
  { unfold tail_lookup, seg_read. rewrite Tn, Tb, Tc. fold d. rewrite (lv_file _ _ _ _ _ _ _ _ V).
    unfold cur_ents. rewrite (lv_pend _ _ _ _ _ _ _ _ V). reflexivity. }
  unfold get_log. rewrite (lv_closed _ _ _ _ _ _ _ _ V), (lv_tail _ _ _ _ _ _ _ _ V), (lv_segs _ _ _ _ _ _ _ _ V), tail_info_app.
  fold d.
  (* state.go getLog asks the tail writer only for index >= the tail's current MinIndex: the
     writer's ws_min goes stale after a head truncation inside the tail (tw_ok: ws_min tw <=
     si_min t).  That index also splits es: above it only the tail holds i, below it only S. *)
  destruct (si_min t <=? i) eqn:Emin.
  - (* at or above the tail's first index *)
    destruct ((n =? 0) || (tl_of (si_base t) (df_ents f) <? i)) eqn:Eout.
    + (* beyond the last index *)
      assert (HTN : tail_lookup tw i d = None).
      { rewrite HTL. unfold tl_of in *. fold n in Eout |- *. destruct (n =? 0) eqn:Z.
        - replace (0 <? i) with true by (clear - Emin Hbm Hb1; lia). rewrite orb_true_r. reflexivity.
        - cbn [orb] in Eout. rewrite Eout, orb_true_r. reflexivity. }
      assert (Hnone : spec_get (sp_log a) i = None).
      { apply Hout. unfold tl_of in Eout. fold n in Eout. destruct (n =? 0) eqn:Z; clear - Eout Z Emin Hmc Hlen Hfm; lia. }
      rewrite HTN.
      (* after the miss getLog falls back to find_segment, which must miss too: a sealed s0
         ends below si_base t <= i, and the tail, asked a second time, answers as before *)
      destruct (find_segment (S ++ [t]) i) as [s0|] eqn:Efs.
      * destruct (find_segment_sound _ _ _ Efs) as (Hin & Hm0 & Hx0).
        apply in_app_or in Hin. destruct Hin as [Hin|[<-|[]]].
        -- exfalso. rewrite Forall_forall in Hsst. pose proof (Hsst _ Hin) as Hs0. unfold sst in Hs0.
           pose proof (linked_app_lt S t Hl (sealed_swf_sst d S Hso Hw)) as Hlt. rewrite Forall_forall in Hlt.
           specialize (Hlt _ Hin). rewrite Forall_forall in Hw. destruct (Hw _ Hin) as (Hw1 & _).
           clear - Hx0 Hm0 Hw1 Hs0 Hlt Emin Hbm. lia.
        -- rewrite Tn, fname_eqb_refl. eexists _, _, _. split; [reflexivity|apply Hmiss; exact Hnone].
      * eexists _, _, _. split; [reflexivity|apply Hmiss; exact Hnone].
    + (* inside the tail *)
      assert (Hn0 : n <> 0 /\ i <= si_base t + n - 1).
      { unfold tl_of in Eout. fold n in Eout. destruct (n =? 0) eqn:Z; [discriminate|]. cbn [orb] in Eout. clear - Eout Z. lia. }
      destruct Hn0 as (Hn0 & Hile).
      assert (Hex : exists l, nth_error (df_ents f) (N.to_nat (i - si_base t)) = Some l).
      { destruct (nth_error (df_ents f) (N.to_nat (i - si_base t))) eqn:En; [eauto|].
        apply nth_error_None in En. clear - En Hile Hn0. unfold n, llen in *. lia. }
      destruct Hex as (l & Hl').
      assert (HTS : tail_lookup tw i d = Some l).
      { rewrite HTL. unfold tl_of. fold n. destruct (n =? 0) eqn:Z; [clear - Z Hn0; lia|].
        destruct ((i <? si_base t) || (i <? ws_min tw) || (si_base t + n - 1 <? i)) eqn:E; [clear - E Emin Hbm Tm Hile; lia|exact Hl']. }
      rewrite HTS.
      assert (Hsome : spec_get (sp_log a) i = Some l).
      { rewrite Hinside by (clear - Hfm Emin Hile Hn0 Hlen; lia). unfold es, first. rewrite (lv_nth_tail V i) by (apply N.leb_le; exact Emin). exact Hl'. }
      eexists _, _, _. split; [reflexivity|]. apply (Hhit l Hsome).
  - (* below the tail's first index *)
    destruct (find_segment (S ++ [t]) i) as [s0|] eqn:Efs.
    + destruct (find_segment_sound _ _ _ Efs) as (Hin & Hm0 & Hx0).
      apply in_app_or in Hin. destruct Hin as [Hin|[<-|[]]]; [|clear - Hm0 Emin; lia].
      rewrite Forall_forall in Hsst. pose proof (Hsst _ Hin) as Hs0. unfold sst in Hs0.
      pose proof (linked_app_lt S t Hl (sealed_swf_sst d S Hso Hw)) as Hlt. rewrite Forall_forall in Hlt.
      specialize (Hlt _ Hin).
      assert (Hb0 : 1 <= si_base s0) by (rewrite Forall_forall in Hw; destruct (Hw _ Hin); assumption).
      assert (Him : i <= si_max s0) by (clear - Hx0 Hm0 Hs0 Hb0; lia).
      assert (Hnt : fname_eqb (ws_name tw) (name_of s0) = false).
      { rewrite Tn. apply fname_eqb_neq. unfold name_of. intros E. apply (f_equal fst) in E. cbn [fst] in E. clear - E Hlt Hs0. lia. }
      rewrite Hnt.
      assert (Hfirst : first <= si_min s0).
      { apply hd_min_le; auto. rewrite Forall_forall. exact Hsst. }
      pose proof (lv_nth_sealed V s0 i Hin Hm0 Him) as Hnth. fold es first in Hnth.
      assert (Hsp2 : spec_get (sp_log a) i = nth_error es (N.to_nat (i - first))) by (apply Hinside; [clear - Hfirst Hm0|clear - Him Hlt Hlen]; lia).
      rewrite seg_read_file_ents, <- Hnth.
      destruct (nth_error es (N.to_nat (i - first))) as [l|] eqn:En.
      * eexists _, _, _. split; [reflexivity|]. apply (Hhit l). exact Hsp2.
      * exfalso. apply nth_error_None in En. clear - En Him Hlt Hlen Hfirst Hm0. unfold llen in *. lia.
    + (* find_segment is complete on the sealed chain (sealed_cover, find_segment_sealed): it
         misses below si_min t only when i is below the first index *)
      assert (Hnone : spec_get (sp_log a) i = None).
      { rewrite Hspec. destruct ((llen es =? 0) || (i <? first) || (first + llen es - 1 <? i)) eqn:E; [reflexivity|].
        exfalso. destruct (list_eq_dec_nil S) as [ES|Hne].
        - subst S. unfold first, hd_min in E. cbn [hd] in E. clear - E Emin. lia.
        - destruct (lv_hd_min_lt V Hne) as (Hlt & Hmt).
          destruct (sealed_cover d S t i Hso Hw Hl Hne) as (s1 & Hin1 & Hs1a & Hs1b); [fold first; clear - E; lia|clear - Emin Hmt; lia|].
          rewrite (find_segment_sealed d S t s1 i Hso Hw Hl Hin1 Hs1a Hs1b) in Efs. discriminate. }
      eexists _, _, _. split; [reflexivity|apply Hmiss; exact Hnone].
Qed.

Lemma call_get c i : call_ok c (OGet i).
Proof.
  intros nb s a Hc _ Hnb HL Hf Hsp Hg. cbn [step_model].
  destruct (LInv_view _ _ _ _ HL) as (S & t & f & tw & V).
  destruct (get_log_ok c nb (ss_wal s) (ss_env s) S t f tw a i V Hsp Hg) as (r & x & y & Hgl & Hres).
  rewrite Hgl. eexists _, _. split; [reflexivity|]. cbn [ss_wal ss_env].
  split; [exact Hres|].
  assert (Ea : snd (step_spec a (OGet i)) = a) by (cbn [step_spec]; destruct (spec_get (sp_log a) i); reflexivity).
  rewrite Ea.
  split; [eapply LInv_mono; [apply N.le_add_r|exact HL]|]. split; [exact Hsp|].
  apply ext_add_m. eapply ext_refl_LInv; eauto.
Qed.
