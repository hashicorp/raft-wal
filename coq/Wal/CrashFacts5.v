(* CrashFacts5.v -- decidable equalities of Hist.v are equalities; the spec keeps
   its entries storable; abs of a live state is the reading of its disk. *)
From RW Require Import Base.Bytes Base.BytesFacts Fmt.Codec Fmt.CodecFacts Fmt.Frame Wal.Model Wal.Spec Wal.Hist
  Wal.CrashInv Wal.ModelFacts Wal.CrashFacts0 Wal.CrashFacts1 Wal.CrashFacts2 Wal.CrashFacts3 Wal.CrashFacts4 Gen.Constants
  Base.LiaSetup.
Open Scope N_scope.

Lemma zone_eqb_eq a b : zone_eqb a b = true <-> a = b.
Proof.
  destruct a, b; cbn; split; intros H; try discriminate; try reflexivity.
  - apply Z.eqb_eq in H. subst; reflexivity.
  - inversion H. apply Z.eqb_refl.
Qed.
Lemma time_eqb_eq a b : time_eqb a b = true <-> a = b.
Proof.
  destruct a, b; unfold time_eqb; cbn. rewrite !andb_true_iff, !Z.eqb_eq, zone_eqb_eq.
  split; [intros ((-> & ->) & ->); reflexivity|intros H; inversion H; auto].
Qed.
Lemma log_eqb_eq a b : log_eqb a b = true <-> a = b.
Proof.
  destruct a, b; unfold log_eqb; cbn. rewrite !andb_true_iff, !N.eqb_eq, !beq_bytes_eq, time_eqb_eq.
  split; [intros (((((-> & ->) & ->) & ->) & ->) & ->); reflexivity|intros H; inversion H; tauto].
Qed.
Lemma logs_eqb_eq a : forall b, logs_eqb a b = true <-> a = b.
Proof.
  induction a as [|x a IH]; intros [|y b]; cbn; try (split; [discriminate|intros H; inversion H]); [tauto|].
  rewrite andb_true_iff, log_eqb_eq, IH. split; [intros (-> & ->); reflexivity|intros H; inversion H; auto].
Qed.
Lemma slog_eqb_eq a b : slog_eqb a b = true <-> a = b.
Proof.
  destruct a, b; unfold slog_eqb; cbn. rewrite andb_true_iff, N.eqb_eq, logs_eqb_eq.
  split; [intros (-> & ->); reflexivity|intros H; inversion H; auto].
Qed.
Lemma kvs_eqb_eq a : forall b, kvs_eqb a b = true <-> a = b.
Proof.
  induction a as [|[k v] a IH]; intros [|[k' v'] b]; cbn; try (split; [discriminate|intros H; inversion H]); [tauto|].
  rewrite !andb_true_iff, !beq_bytes_eq, IH. split; [intros ((-> & ->) & ->); reflexivity|intros H; inversion H; auto].
Qed.
Lemma spst_eqb_eq a b : spst_eqb a b = true <-> a = b.
Proof.
  destruct a, b; unfold spst_eqb; cbn. rewrite andb_true_iff, slog_eqb_eq, kvs_eqb_eq.
  split; [intros (-> & ->); reflexivity|intros H; inversion H; auto].
Qed.

(* a read's result is determined by its class *)
Lemma res_class_log r l : result_eqb (res_class r) (RLog l) = true -> r = RLog l.
Proof.
  destruct r; cbn; intros H; try discriminate. apply log_eqb_eq in H. subst. reflexivity.
Qed.
Lemma res_class_notfound r : result_eqb (res_class r) RErrNotFound = true -> r = RErrNotFound.
Proof. destruct r; cbn; intros H; try discriminate; reflexivity. Qed.
Lemma spst_eqb_refl a : spst_eqb a a = true.
Proof. apply spst_eqb_eq. reflexivity. Qed.
Lemma log_eqb_refl a : log_eqb a a = true.
Proof. apply log_eqb_eq. reflexivity. Qed.

Lemma abs_is_gen w d : abs w d = abs_gen (st_segs w) (tail_last (st_tail w)) d.
Proof. reflexivity. Qed.

Lemma LInv_abs c nb w d : LInv c nb w d -> abs w d = dread d.
Proof.
  intros (H1 & H2 & H3 & H4 & H5 & t & f & tw & Ht & Hf & Htw & Hok & Hrot).
  rewrite abs_is_gen. unfold dread. rewrite H5. cbn [persistent ps_segs]. f_equal.
  unfold dtl, persistent. cbn [ps_segs]. rewrite Ht, Htw. cbn [tail_last].
  destruct Hok as (_ & _ & _ & _ & _ & _ & _ & Hci). rewrite Hci.
  unfold file_ents. rewrite Hf. unfold cur_ents. rewrite (H4 _ _ Hf). reflexivity.
Qed.

Lemma LInv_mono c nb nb' w d : nb <= nb' -> LInv c nb w d -> LInv c nb' w d.
Proof.
  intros Hle (H1 & H2 & H3 & H4). split; [exact H1|]. split; [exact H2|]. split; [eapply DIs_mono; eauto|exact H4].
Qed.

Lemma LInv_DP c nb w d (A : spst -> Prop) : LInv c nb w d -> A (sp_of d) -> DP c nb A d.
Proof. intros (_ & _ & H3 & H4 & _) HA. apply DP_no_pend; assumption. Qed.
