(* SeqFactsMain.v -- every sequential history of the WAL model refines the
   contiguous-log specification (the statement seq_refinement_stmt of Hist.v). *)
From RW Require Import Base.Bytes Base.BytesFacts Fmt.Codec Fmt.CodecFacts Fmt.Frame
  Wal.Model Wal.Spec Wal.Hist Wal.SeqInv Wal.ModelFacts Wal.SeqFactsBase Wal.SeqFactsAbs Wal.SeqFactsTxn Wal.SeqFactsOps1
  Wal.SeqFactsOps2 Wal.SeqFactsOps3 Gen.Constants Base.LiaSetup.
Open Scope N_scope.

Definition s_abs (s : sstate) : slog := abs (ss_wal s) (e_disk (ss_env s)).
Definition s_kv (s : sstate) : list kv := dk_stable (e_disk (ss_env s)).
Definition s_nid (s : sstate) : N := st_next_id (ss_wal s).

Lemma initial_inv c s0 : cfg_ok c -> initial c = Some s0 ->
  SInv c s0 /\ s_abs s0 = sl_empty /\ s_kv s0 = [] /\ s_nid s0 = 1 /\ e_m (ss_env s0) = zero_metrics.
Proof.
  intros Hc. unfold initial, open_wal. rewrite (cfg_codec_check c Hc).
  change (dk_inited (e_disk fresh_env)) with false. cbv iota.
  rewrite (io_ok AInitMeta fresh_env eq_refl). cbn [negb].
  change (armed (io_post AInitMeta fresh_env) && fx_list (e_fx (io_post AInitMeta fresh_env))) with false. cbv iota.
  change (dk_meta (e_disk (io_post AInitMeta fresh_env))) with (@None pstate). cbv iota zeta.
  cbn [ps_segs ps_next_id open_segs rev_append]. cbv iota.
  change (dk_files (e_disk (io_post AInitMeta fresh_env))) with (@nil (fname * dfile)).
  cbn [map filter tail_info last]. change ((0 + 1) mod two64) with 1.
  set (si := new_segment c 0 1). cbn [seg_set].
  rewrite (io_ok _ _ (io_post_fault AInitMeta fresh_env)). cbn [negb].
  rewrite seg_create_ok; [|reflexivity|cbn; lia|reflexivity].
  cbn [delete_files fold_left]. intros H. inversion H; subst s0. clear H.
  set (w0 := {| st_next_id := 0; st_segs := []; st_tail := None; st_rotate := None;
                st_failed := false; st_closed := false |}).
  assert (HI := new_tail_inv c w0 (e_disk (io_post AInitMeta fresh_env)) [] 1 Hc ltac:(lia)
                  ltac:(unfold two64; lia) ltac:(unfold two64; cbn; lia)).
  cbv zeta in HI. fold si in HI.
  assert (HI' : WInvS c (wal_with (st_next_id w0 + 1) ([] ++ [si]) (Some (new_wseg si)) w0)
            (apply_act (apply_act (e_disk (io_post AInitMeta fresh_env))
                          (ACommit {| ps_next_id := st_next_id w0 + 1; ps_segs := [] ++ [si] |}))
               (ACreate (name_of si) (si_size_limit si))) [] si (new_wseg si)).
  { apply HI; try reflexivity; try constructor. }
  unfold SInv, s_abs, s_kv, s_nid. cbn [ss_wal ss_env].
  split; [split; [reflexivity|exists [], si, (new_wseg si); exact HI']|].
  split; [exact (abs_empty_tail _ _ _ _ _ _ HI' eq_refl)|]. repeat split; reflexivity.
Qed.

(* the pending rotation runs before a mutating call *)
Lemma settle_ok c s : cfg_ok c -> SInv c s -> s_nid s + 1 < two64 ->
  exists ss t tw,
    e_fault (ss_env (settle c s)) = None /\
    WInvS c (ss_wal (settle c s)) (e_disk (ss_env (settle c s))) ss t tw /\ ws_index_start tw = 0 /\
    s_abs (settle c s) = s_abs s /\ s_kv (settle c s) = s_kv s /\
    s_nid s <= s_nid (settle c s) /\ s_nid (settle c s) <= s_nid s + 1.
Proof.
  intros Hc (He & ss & t & tw & HI) Hnid. unfold settle.
  assert (Hro : st_rotate (ss_wal s) = (if 0 <? ws_index_start tw then Some (ws_index_start tw) else None))
    by apply HI.
  rewrite Hro. destruct (N.ltb_spec 0 (ws_index_start tw)) as [Hp|Hp].
  - destruct (rotate_ok c _ _ ss t tw Hc He HI Hp Hnid)
      as (w' & e' & ss' & t' & tw' & Hr & He' & HI' & His' & Habs & Hst & Hid & _).
    rewrite Hr. exists ss', t', tw'. unfold s_abs, s_kv, s_nid. cbn [ss_wal ss_env].
    split; [exact He'|]. split; [exact HI'|]. split; [exact His'|]. split; [exact Habs|].
    split; [exact Hst|]. split; lia.
  - exists ss, t, tw. split; [exact He|]. split; [exact HI|]. split; [lia|].
    split; [reflexivity|]. split; [reflexivity|]. split; lia.
Qed.

Lemma step_ok c s o sp r s' :
  cfg_ok c -> sop_ok o -> SInv c s -> s_nid s + 2 < two64 ->
  sp_log sp = s_abs s -> sp_kv sp = s_kv s ->
  step_model c s o = (r, s') ->
  SInv c s' /\ res_class r = fst (step_spec sp o) /\
  s_abs s' = sp_log (snd (step_spec sp o)) /\ s_kv s' = sp_kv (snd (step_spec sp o)) /\
  s_nid s <= s_nid s' /\ s_nid s' <= s_nid s + 2.
Proof.
  intros Hc Hop HS Hnid Hlog Hkv Hstep.
  destruct o as [ls|mn mx|i| | |k v n|k|]; cbn [step_model step_spec] in *.
  - (* StoreLogs *)
    destruct (settle_ok c s Hc HS ltac:(lia)) as (ss & t & tw & He & HI & His & Habs & Hst & Hid1 & Hid2).
    destruct Hop as [Hok Hfs].
    destruct (store_logs_ok c _ _ ss t tw ls Hc He HI His ltac:(unfold s_nid in *; lia) Hok Hfs)
      as (r0 & w' & e' & Hsl & He' & HI' & Hst' & Hid3 & Hid4 & Hres).
    rewrite Hsl in Hstep. inversion Hstep; subst r s'. clear Hstep.
    unfold s_abs, s_kv, s_nid in *. cbn [ss_wal ss_env]. rewrite Hlog, <- Habs.
    split; [split; assumption|].
    destruct (spec_store _ ls) as [a'|]; cbn [fst snd sp_log sp_kv]; destruct Hres as (Hr & Ha & _).
    + subst r0. repeat split; auto; try congruence; lia.
    + repeat split; auto; try congruence; lia.
  - (* DeleteRange *)
    destruct (settle_ok c s Hc HS ltac:(lia)) as (ss & t & tw & He & HI & His & Habs & Hst & Hid1 & Hid2).
    destruct (delete_range_ok c _ _ ss t tw mn mx Hc He HI His ltac:(unfold s_nid in *; lia) Hop)
      as (r0 & w' & e' & Hsl & He' & HI' & Hst' & Hid3 & Hid4 & Hres).
    rewrite Hsl in Hstep. inversion Hstep; subst r s'. clear Hstep.
    unfold s_abs, s_kv, s_nid in *. cbn [ss_wal ss_env]. rewrite Hlog, <- Habs.
    split; [split; assumption|].
    destruct (spec_delete _ mn mx) as [a'|]; cbn [fst snd sp_log sp_kv]; destruct Hres as (Hr & Ha & _).
    + subst r0. repeat split; auto; try congruence; lia.
    + repeat split; auto; try congruence; lia.
  - (* GetLog *)
    destruct HS as (He & ss & t & tw & HI).
    destruct (get_log_ok c _ _ ss t tw i HI) as (r0 & e' & Hg & Hd & Hf & Hr & _).
    rewrite Hg in Hstep. inversion Hstep; subst r s'. clear Hstep.
    unfold SInv, s_abs, s_kv, s_nid in *. cbn [ss_wal ss_env]. rewrite Hd, Hf, Hlog.
    split; [split; [exact He|exists ss, t, tw; exact HI]|].
    subst r0. destruct (spec_get _ i); cbn [fst snd res_class]; repeat split; auto; lia.
  - (* FirstIndex *)
    inversion Hstep; subst r s'. destruct HS as (He & ss & t & tw & HI).
    destruct (first_last_ok _ _ _ _ _ _ HI) as [H1 _]. rewrite H1. unfold s_abs in Hlog. rewrite Hlog.
    cbn [fst snd res_class]. split; [split; [exact He|exists ss, t, tw; exact HI]|]. repeat split; auto; lia.
  - (* LastIndex *)
    inversion Hstep; subst r s'. destruct HS as (He & ss & t & tw & HI).
    destruct (first_last_ok _ _ _ _ _ _ HI) as [_ H1]. rewrite H1. unfold s_abs in Hlog. rewrite Hlog.
    cbn [fst snd res_class]. split; [split; [exact He|exists ss, t, tw; exact HI]|]. repeat split; auto; lia.
  - (* Set *)
    destruct HS as (He & ss & t & tw & HI).
    destruct (set_stable_ok c _ _ ss t tw k v n He HI) as (r0 & e' & Hs & He' & HI' & Ha & _ & _ & Hres & _).
    rewrite Hs in Hstep. inversion Hstep; subst r s'. clear Hstep.
    unfold SInv, s_abs, s_kv, s_nid in *. cbn [ss_wal ss_env]. rewrite Ha.
    split; [split; [exact He'|exists ss, t, tw; exact HI']|].
    rewrite Hkv. destruct (key_ok k); inversion Hres; subst; cbn [fst snd sp_log sp_kv].
    + repeat split; auto; try congruence; lia.
    + destruct n; repeat split; auto; try congruence; lia.
  - (* Get *)
    destruct HS as (He & ss & t & tw & HI).
    rewrite (get_stable_ok c _ _ ss t tw k HI) in Hstep. inversion Hstep; subst r s'. clear Hstep.
    unfold SInv, s_abs, s_kv, s_nid in *. cbn [ss_wal ss_env fst snd res_class].
    change (e_disk (inc_stable (ss_env s) false)) with (e_disk (ss_env s)).
    split; [split; [exact He|exists ss, t, tw; exact HI]|]. rewrite Hkv. repeat split; auto; lia.
  - (* Close; Open *)
    destruct HS as (He & ss & t & tw & HI).
    destruct (reopen_ok c _ _ ss t tw Hc He HI ltac:(unfold s_nid in *; lia))
      as (w' & e' & ss' & t' & tw' & Ho & He' & HI' & _ & Ha & Hst & Hid1 & Hid2 & _).
    rewrite Ho in Hstep. inversion Hstep; subst r s'. clear Hstep.
    unfold SInv, s_abs, s_kv, s_nid in *. cbn [ss_wal ss_env fst snd res_class].
    split; [split; [exact He'|exists ss', t', tw'; exact HI']|]. repeat split; auto; try congruence; lia.
Qed.

Lemma run_ok c : forall os s sp,
  cfg_ok c -> Forall sop_ok os -> SInv c s -> s_nid s + 2 * N.of_nat (length os) < two64 ->
  sp_log sp = s_abs s -> sp_kv sp = s_kv s ->
  map res_class (fst (run_model c s os)) = fst (run_spec sp os) /\
  s_abs (snd (run_model c s os)) = sp_log (snd (run_spec sp os)) /\
  s_kv (snd (run_model c s os)) = sp_kv (snd (run_spec sp os)) /\
  SInv c (snd (run_model c s os)) /\
  s_nid (snd (run_model c s os)) <= s_nid s + 2 * N.of_nat (length os).
Proof.
  induction os as [|o os IH]; intros s sp Hc Hops HS Hnid Hlog Hkv.
  - cbn [run_model run_spec fst snd map]. split; [reflexivity|]. split; [auto|]. split; [auto|].
    split; [exact HS|lia].
  - inversion Hops as [|? ? Hop Hops']; subst. cbn [run_model run_spec].
    destruct (step_model c s o) as [r s1] eqn:Estep.
    cbn [length] in Hnid.
    destruct (step_ok c s o sp r s1 Hc Hop HS ltac:(lia) Hlog Hkv Estep) as (HS1 & Hr & Ha & Hk & Hid1 & Hid2).
    destruct (step_spec sp o) as [r' sp1]. cbn [fst snd] in *.
    specialize (IH s1 sp1 Hc Hops' HS1 ltac:(lia) (eq_sym Ha) (eq_sym Hk)).
    destruct (run_model c s1 os) as [rs s2]. destruct (run_spec sp1 os) as [rs' sp2]. cbn [fst snd map] in *.
    destruct IH as (I1 & I2 & I3 & I4 & I5). split; [congruence|]. split; [exact I2|]. split; [exact I3|].
    split; [exact I4|cbn [length]; lia].
Qed.

Theorem seq_refinement : seq_refinement_stmt.
Proof.
  unfold seq_refinement_stmt. intros c os s0 Hc Hops Hshort Hinit.
  destruct (initial_inv c s0 Hc Hinit) as (HS & Ha & Hk & Hid & _).
  assert (H := run_ok c os s0 {| sp_log := sl_empty; sp_kv := [] |} Hc Hops HS).
  destruct (run_model c s0 os) as [rs s1]. destruct (run_spec _ os) as [rs' sp1]. cbn [fst snd] in H.
  destruct H as (H1 & H2 & H3 & _); auto.
  rewrite Hid. unfold short_enough in Hshort. unfold two64. lia.
Qed.

Definition spec_init : spst := {| sp_log := sl_empty; sp_kv := [] |}.

(* what is known about every state a history reaches *)
Lemma reach_inv c os s0 :
  cfg_ok c -> Forall sop_ok os -> short_enough os -> initial c = Some s0 ->
  let s1 := snd (run_model c s0 os) in
  SInv c s1 /\ s_nid s1 + 2 < two64 /\
  s_abs s1 = sp_log (snd (run_spec spec_init os)) /\ s_kv s1 = sp_kv (snd (run_spec spec_init os)).
Proof.
  intros Hc Hops Hshort Hinit. cbv zeta.
  destruct (initial_inv c s0 Hc Hinit) as (HS & Ha & Hk & Hid & _).
  unfold short_enough in Hshort.
  destruct (run_ok c os s0 spec_init Hc Hops HS) as (_ & H2 & H3 & H4 & H5); auto.
  { rewrite Hid. unfold two64. lia. }
  rewrite Hid in H5. split; [exact H4|]. split; [unfold two64; lia|]. split; assumption.
Qed.

Lemma step_reach c s o :
  cfg_ok c -> sop_ok o -> SInv c s -> s_nid s + 2 < two64 ->
  let sp := {| sp_log := s_abs s; sp_kv := s_kv s |} in
  SInv c (snd (step_model c s o)) /\
  res_class (fst (step_model c s o)) = fst (step_spec sp o) /\
  s_abs (snd (step_model c s o)) = sp_log (snd (step_spec sp o)) /\
  s_kv (snd (step_model c s o)) = sp_kv (snd (step_spec sp o)).
Proof.
  intros Hc Hop HS Hnid sp. destruct (step_model c s o) as [r s'] eqn:E.
  destruct (step_ok c s o sp r s' Hc Hop HS Hnid eq_refl eq_refl E) as (H1 & H2 & H3 & H4 & _).
  cbn [fst snd]. auto.
Qed.
