(* FaultThm.v -- every history of calls with injected I/O errors, restarts and
   reopens keeps the invariant FInv; the statement fault_safety_stmt (C10). *)
From RW Require Import Base.Bytes Base.BytesFacts Fmt.Codec Fmt.CodecFacts Fmt.Frame Wal.Model Wal.Spec Wal.Hist Wal.FaultHist
  Wal.CrashInv Wal.ModelFacts Wal.CrashFacts0 Wal.CrashFacts1 Wal.CrashFacts2 Wal.CrashFacts3 Wal.CrashFacts4 Wal.CrashFacts5
  Wal.CrashFacts6 Wal.CrashGlue Wal.CrashCalls1 Wal.CrashCalls2 Wal.CrashCalls3 Wal.CrashCalls4 Wal.CrashCalls5 Wal.CrashCalls6
  Wal.CrashCalls7 Wal.CrashCalls8 Wal.CrashCalls9 Wal.CrashCalls10 Wal.FaultSim Wal.FaultSim2 Wal.FaultInv Wal.FaultFacts2
  Wal.FaultFacts3 Wal.FaultNames Wal.FaultStore Wal.FaultDelete Wal.FaultSteps Gen.Constants.
From RW Require Import Base.LiaSetup.
Open Scope N_scope.

Definition dfr (o : sop) (defer : list sop) : list sop := match o with OStore _ => o :: defer | _ => defer end.

Definition mut_post (c : cfg) (nb : N) (w' : wal) (d' : disk) (nom : spst) (alts : list spst) (defer : list sop)
  (o : sop) (r : result) : Prop :=
  (r = ROk /\ exists nom', spec_accepts nom o = Some nom' /\ Mode c nb w' d' nom' defer /\
                           RD c nb d' (nom' :: app_op o alts) defer) \/
  (r <> ROk /\ Mode c nb w' d' nom (dfr o defer) /\ RD c nb d' (alts ++ app_op o alts) (dfr o defer)) \/
  (* a stable Set that landed *)
  (r <> ROk /\ exists k v n nom', o = OSet k v n /\ spec_accepts nom o = Some nom' /\ Mode c nb w' d' nom' defer /\
                RD c nb d' (alts ++ app_op o alts) defer).

Lemma incl_dfr o defer : incl defer (dfr o defer).
Proof. destruct o; cbn; try apply incl_refl. intros x Hx; right; exact Hx. Qed.

Lemma RV_mono c nb nb' w d nom : nb <= nb' -> RV c nb w d nom -> RV c nb' w d nom.
Proof.
  intros Hn (wc & dc & HL & R). exists wc, dc. split; [eapply LInv_mono; eauto|exact R].
Qed.

Lemma Mode_mono c nb nb' w d nom defer defer' : nb <= nb' -> incl defer defer' ->
  Mode c nb w d nom defer -> Mode c nb' w d nom defer'.
Proof.
  intros Hn Hi [H|(Hcl & [(HL & Hsp)|(Hf & Hr & HRV)])]; [left; exact H|right; split; [exact Hcl|]..].
  - left. split; [eapply Live_mono; eauto|exact Hsp].
  - right. split; [exact Hf|]. split; [exact Hr|]. eapply RV_mono; eauto.
Qed.

Lemma post_mono c nb nb' w' d' nom alts defer o r : nb <= nb' ->
  mut_post c nb w' d' nom alts defer o r -> mut_post c nb' w' d' nom alts defer o r.
Proof.
  intros Hn [(A & nom' & B & C & D)|[(A & B & C)|(A & k & v & n & nom' & B & B' & C & D)]]; [left|right; left|right; right].
  - split; [exact A|]. exists nom'. split; [exact B|]. split; [eapply Mode_mono; [exact Hn|apply incl_refl|exact C]|].
    eapply RD_mono; [exact Hn|apply incl_refl|apply incl_refl|exact D].
  - split; [exact A|]. split; [eapply Mode_mono; [exact Hn|apply incl_refl|exact B]|].
    eapply RD_mono; [exact Hn|apply incl_refl|apply incl_refl|exact C].
  - split; [exact A|]. exists k, v, n, nom'. split; [exact B|]. split; [exact B'|].
    split; [eapply Mode_mono; [exact Hn|apply incl_refl|exact C]|].
    eapply RD_mono; [exact Hn|apply incl_refl|apply incl_refl|exact D].
Qed.

Lemma post_err_unchanged c nb w d nom alts defer o r : r <> ROk ->
  Mode c nb w d nom defer -> RD c nb d alts defer -> mut_post c nb w d nom alts defer o r.
Proof.
  intros Hr HM HRD. right. left. split; [exact Hr|]. split; [eapply Mode_mono; [apply N.le_refl|apply incl_dfr|exact HM]|].
  eapply RD_mono; [apply N.le_refl| |apply incl_dfr|exact HRD]. intros x Hx. apply in_or_app. left. exact Hx.
Qed.

Lemma post_ok_noop c nb w d nom alts defer o : (forall a, spec_accepts a o = Some a) ->
  Mode c nb w d nom defer -> RD c nb d alts defer -> mut_post c nb w d nom alts defer o ROk.
Proof.
  intros Hacc HM HRD. left. split; [reflexivity|]. exists nom. split; [apply Hacc|]. split; [exact HM|].
  rewrite (app_op_noop _ _ Hacc). eapply RD_mono; [apply N.le_refl| |apply incl_refl|exact HRD]. intros x Hx. right. exact Hx.
Qed.

Lemma post_live_ok c nb w' d' nom nom' alts defer o :
  spec_accepts nom o = Some nom' -> Live c nb w' d' defer -> sp_of (sh d') = nom' -> mut_post c nb w' d' nom alts defer o ROk.
Proof.
  intros Hacc HL Hsp. left. split; [reflexivity|]. exists nom'. split; [exact Hacc|].
  apply (live_out c nb w' d' nom' (nom' :: app_op o alts) defer HL Hsp). left. reflexivity.
Qed.

Lemma settle_none c w e : st_rotate w = None -> settle c {| ss_wal := w; ss_env := e |} = {| ss_wal := w; ss_env := e |}.
Proof. intros H. unfold settle. cbn. rewrite H. reflexivity. Qed.

Lemma store_nil c w e : st_closed w = false -> store_logs c w [] e = (ROk, w, e).
Proof. intros H. unfold store_logs. rewrite H. reflexivity. Qed.

(* StoreLogs / DeleteRange from the degraded modes (no settle needed) *)
Lemma store_fail c nb w e nom alts defer ls :
  st_closed w = false -> st_failed w = true -> Mode c nb w (e_disk e) nom defer -> RD c nb (e_disk e) alts defer ->
  exists r, store_logs c w ls e = (r, w, e) /\ mut_post c nb w (e_disk e) nom alts defer (OStore ls) r.
Proof.
  intros Hcl Hfl HM HRD. rewrite (failed_store c w e ls Hcl Hfl). destruct ls as [|l0 ls'].
  - exists ROk. split; [reflexivity|]. apply post_ok_noop; [apply store_nil_accepts|exact HM|exact HRD].
  - exists RErrFailed. split; [reflexivity|]. apply post_err_unchanged; [discriminate|exact HM|exact HRD].
Qed.

Lemma delete_fail c nb w e nom alts defer mn mx :
  st_closed w = false -> st_failed w = true -> Mode c nb w (e_disk e) nom defer -> RD c nb (e_disk e) alts defer ->
  exists r, delete_range c w mn mx e = (r, w, e) /\ mut_post c nb w (e_disk e) nom alts defer (ODelete mn mx) r.
Proof.
  intros Hcl Hfl HM HRD. rewrite (failed_delete c w e mn mx Hcl Hfl). destruct (mx <? mn) eqn:E.
  - exists ROk. split; [reflexivity|]. apply post_ok_noop; [intros a; apply delete_empty_accepts; lia|exact HM|exact HRD].
  - exists RErrFailed. split; [reflexivity|]. apply post_err_unchanged; [discriminate|exact HM|exact HRD].
Qed.

Lemma Mode_fail c nb w d nom defer : st_closed w = false -> st_failed w = true -> st_rotate w = None -> RV c nb w d nom ->
  Mode c nb w d nom defer.
Proof. intros A B C D. right. split; [exact A|]. right. auto. Qed.

Lemma mut_step c nb w e nom alts defer o :
  cfg_ok c -> sop_ok o -> is_mutating o = true -> nb + 2 < two64 -> st_closed w = false ->
  Mode c nb w (e_disk e) nom defer -> RD c nb (e_disk e) alts defer -> In nom alts -> Forall dop_ok defer ->
  exists r w' e', step_model c {| ss_wal := w; ss_env := e |} o = (r, {| ss_wal := w'; ss_env := e' |}) /\
    st_closed w' = false /\ mut_post c (nb + 2) w' (e_disk e') nom alts defer o r.
Proof.
  intros Hc Hop Hmut Hnb Hcl HM HRD Hin Hdef.
  destruct o as [ls|mn mx|i| | |k v n|k|]; try discriminate.
  - (* StoreLogs *)
    destruct Hop as (Hok & HF). cbn [step_model].
    destruct HM as [(K & _)|(_ & [(HLive & Hsp)|(Hfl & Hrot & HRV)])]; [congruence| |].
    + destruct (live_settle c nb w e nom alts defer Hc ltac:(lia) HLive Hsp Hin) as (w1 & e1 & Hset & Hcl1 & Hcase).
      rewrite Hset. cbn [ss_wal ss_env].
      destruct Hcase as [(HL1 & Hr1 & Hsp1 & _)|(Hf1 & Hr1 & Hfl1 & HRV1 & HRD1)].
      * destruct (live_store c (nb + 1) w1 e1 nom alts defer ls Hc Hok HF ltac:(lia) HL1 Hr1 Hsp1 Hin) as (r & w' & e' & Hst & Hcl' & Hres).
        rewrite Hst. exists r, w', e'. split; [reflexivity|]. split; [exact Hcl'|]. replace (nb + 2) with (nb + 1 + 1) by lia.
        destruct Hres as [(-> & nom' & Hacc & HL' & Hsp')|(Hne & HM' & HRD')].
        -- eapply post_live_ok; eauto.
        -- right. left. auto.
      * destruct (store_fail c (nb + 1) w1 e1 nom alts defer ls Hcl1 Hfl1 (Mode_fail _ _ _ _ _ _ Hcl1 Hfl1 Hr1 HRV1) HRD1) as (r & Hst & Hpost). rewrite Hst.
        exists r, w1, e1. split; [reflexivity|]. split; [exact Hcl1|]. eapply post_mono; [|exact Hpost]. lia.
    + rewrite (settle_none c w e Hrot). cbn [ss_wal ss_env].
      destruct (store_fail c nb w e nom alts defer ls Hcl Hfl (Mode_fail _ _ _ _ _ _ Hcl Hfl Hrot HRV) HRD) as (r & Hst & Hpost). rewrite Hst.
      exists r, w, e. split; [reflexivity|]. split; [exact Hcl|]. eapply post_mono; [|exact Hpost]. lia.
  - (* DeleteRange *)
    cbn [step_model]. cbn [sop_ok] in Hop.
    destruct HM as [(K & _)|(_ & [(HLive & Hsp)|(Hfl & Hrot & HRV)])]; [congruence| |].
    + destruct (live_settle c nb w e nom alts defer Hc ltac:(lia) HLive Hsp Hin) as (w1 & e1 & Hset & Hcl1 & Hcase).
      rewrite Hset. cbn [ss_wal ss_env].
      destruct Hcase as [(HL1 & Hr1 & Hsp1 & _)|(Hf1 & Hr1 & Hfl1 & HRV1 & HRD1)].
      * destruct (live_delete c (nb + 1) w1 e1 nom alts defer mn mx Hc Hop ltac:(lia) HL1 Hr1 Hsp1 Hin) as (r & w' & e' & Hst & Hcl' & Hres).
        rewrite Hst. exists r, w', e'. split; [reflexivity|]. split; [exact Hcl'|]. replace (nb + 2) with (nb + 1 + 1) by lia.
        destruct Hres as [(-> & nom' & Hacc & HL' & Hsp')|(Hne & HM' & HRD')].
        -- eapply post_live_ok; eauto.
        -- right. left. auto.
      * destruct (delete_fail c (nb + 1) w1 e1 nom alts defer mn mx Hcl1 Hfl1 (Mode_fail _ _ _ _ _ _ Hcl1 Hfl1 Hr1 HRV1) HRD1) as (r & Hst & Hpost). rewrite Hst.
        exists r, w1, e1. split; [reflexivity|]. split; [exact Hcl1|]. eapply post_mono; [|exact Hpost]. lia.
    + rewrite (settle_none c w e Hrot). cbn [ss_wal ss_env].
      destruct (delete_fail c nb w e nom alts defer mn mx Hcl Hfl (Mode_fail _ _ _ _ _ _ Hcl Hfl Hrot HRV) HRD) as (r & Hst & Hpost). rewrite Hst.
      exists r, w, e. split; [reflexivity|]. split; [exact Hcl|]. eapply post_mono; [|exact Hpost]. lia.
  - (* stable Set *)
    cbn [step_model ss_wal ss_env].
    destruct (set_step c nb w e nom alts defer k v n Hcl HM HRD Hin Hdef) as (r & e' & Hs & Hres). rewrite Hs.
    exists r, w, e'. split; [reflexivity|]. split; [exact Hcl|].
    destruct Hres as [(-> & nom' & Hacc & HM' & HRD')|[(Hne & Hd)|(Hne & nom' & Hacc & HM' & HRD')]].
    + eapply post_mono; [|left; split; [reflexivity|]; exists nom'; split; [exact Hacc|]; split; [exact HM'|exact HRD']]. lia.
    + rewrite Hd. eapply post_mono; [|apply post_err_unchanged; [exact Hne|exact HM|exact HRD]]. lia.
    + eapply post_mono; [|right; right; split; [exact Hne|]; exists k, v, n, nom'; split; [reflexivity|]; split; [exact Hacc|]; split; [exact HM'|]]; [lia|].
      eapply RD_mono; [apply N.le_refl| |apply incl_refl|exact HRD'].
      intros x [<-|Hx]; apply in_or_app; right; [eapply in_app_op; eauto|exact Hx].
Qed.

(* bookkeeping of the ghost state *)
Lemma accepts_good a o a' : sp_good a -> sop_ok o -> spec_accepts a o = Some a' -> sp_good a'.
Proof. intros Hg Ho E. rewrite (spec_accepts_step _ _ _ E). apply step_spec_good; assumption. Qed.

Lemma app_op_good o alts : Forall sp_good alts -> sop_ok o -> Forall sp_good (app_op o alts).
Proof.
  intros Hg Ho. rewrite Forall_forall in *. intros x Hx. unfold app_op in Hx. apply in_flat_map in Hx.
  destruct Hx as (a & Ha & Hx). destruct (spec_accepts a o) as [a'|] eqn:E; [|destruct Hx]. destruct Hx as [<-|[]].
  eapply accepts_good; [apply Hg; exact Ha|exact Ho|exact E].
Qed.

Lemma cand_good alts defer x : Forall sp_good alts -> Forall dop_ok defer -> In x (candidates alts defer) -> sp_good x.
Proof.
  intros Hg Hd Hx. rewrite Forall_forall in *. destruct (cand_inv _ _ _ Hx) as [K|(a & o & Ka & Ko & E)]; [apply Hg; exact K|].
  eapply accepts_good; [apply Hg; exact Ka|apply (Hd o Ko)|exact E].
Qed.

Lemma dfr_ok o defer : sop_ok o -> Forall dop_ok defer -> Forall dop_ok (dfr o defer).
Proof. intros Ho Hd. destruct o; cbn; try exact Hd. constructor; [split; [exact Ho|eexists; reflexivity]|exact Hd]. Qed.

Lemma observed_Mode c nb w e nom defer : Mode c nb w (e_disk e) nom defer -> st_closed w = false ->
  observed {| ss_wal := w; ss_env := e |} = nom.
Proof. intros HM Hcl. eapply observed_RV. eapply Mode_RV; eauto. Qed.

Lemma with_fault_disk s f fx : e_disk (ss_env (with_fault s f fx)) = e_disk (ss_env s) /\ ss_wal (with_fault s f fx) = ss_wal s.
Proof. split; reflexivity. Qed.

Lemma reopen_step c nb h f fx (HcOK : cfg_ok c) : nb + 2 < two64 -> FInv c nb h ->
  let s_in := {| ss_wal := ss_wal (fs_s h);
                 ss_env := {| e_acts := e_acts (ss_env (fs_s h)); e_disk := adopt_disk (e_disk (ss_env (fs_s h)));
                              e_fault := f; e_fx := fx; e_m := e_m (ss_env (fs_s h)) |} |} in
  exists r s1, step_model c s_in OReopen = (r, s1) /\
    ((r = ROk /\ st_closed (ss_wal s1) = false /\
      LInv c (nb + 1) (ss_wal s1) (sh (e_disk (ss_env s1))) /\ no_pend (e_disk (ss_env s1)) /\
      In (sp_of (sh (e_disk (ss_env s1)))) (candidates (fs_alts h) (fs_defer h)) /\
      (f = None -> e_fault (ss_env s1) = None)) \/
     (r <> ROk /\ f <> None /\ st_closed (ss_wal s1) = true /\ st_rotate (ss_wal s1) = None /\
      RD c (nb + 1) (e_disk (ss_env s1)) (fs_alts h) (fs_defer h))).
Proof.
  intros Hnb (Hok & Hf & Hgn & Hin & Hga & Hdo & HRD & HM) s_in. cbn [step_model s_in ss_env ss_wal].
  destruct (reopen_ok c nb _ (fs_alts h) (fs_defer h) (e_acts (ss_env (fs_s h))) f fx (e_m (ss_env (fs_s h))) HcOK ltac:(lia) HRD)
    as (res & e' & Ho & Hcase). rewrite Ho.
  destruct Hcase as [(w' & -> & HL & HN & Hsp & Hfe)|(Hfn & (x & -> & Hx) & HRD')].
  - eexists _, _. split; [reflexivity|]. left. cbn [ss_wal ss_env]. split; [reflexivity|].
    split; [apply (LInv_closed _ _ _ _ HL)|]. split; [exact HL|]. split; [exact HN|]. split; [rewrite Hsp; apply HRD|exact Hfe].
  - eexists _, _. split; [reflexivity|]. right. cbn [ss_wal ss_env close st_closed st_rotate]. auto.
Qed.

Lemma observed_wf s f fx : observed (with_fault s f fx) = observed s.
Proof. reflexivity. Qed.

Definition fop_run (c : cfg) (h : fstate) (f : option nat) (fx : fxmode) (o : sop) : fstate :=
  let '(r, s1) := step_model c (with_fault (fs_s h) f fx) o in
  let s' := with_fault s1 None fx_none in
  if st_closed (ss_wal (fs_s h)) then
    {| fs_s := s'; fs_nom := fs_nom h; fs_alts := fs_alts h; fs_defer := fs_defer h;
       fs_ok := fs_ok h && negb (result_eqb (res_class r) ROk) |}
  else if is_mutating o then
    match r with
    | ROk =>
        match spec_accepts (fs_nom h) o with
        | Some nom' =>
            {| fs_s := s'; fs_nom := nom'; fs_alts := nom' :: app_op o (fs_alts h); fs_defer := fs_defer h;
               fs_ok := fs_ok h && spst_eqb (observed s') nom' |}
        | None => {| fs_s := s'; fs_nom := fs_nom h; fs_alts := fs_alts h; fs_defer := fs_defer h; fs_ok := false |}
        end
    | _ =>
        let nom1 := match o, spec_accepts (fs_nom h) o with
                    | OSet _ _ _, Some nom' => if spst_eqb (observed s') nom' then nom' else fs_nom h
                    | _, _ => fs_nom h
                    end in
        {| fs_s := s'; fs_nom := nom1; fs_alts := fs_alts h ++ app_op o (fs_alts h);
           fs_defer := dfr o (fs_defer h); fs_ok := fs_ok h && spst_eqb (observed s') nom1 |}
    end
  else
    let '(r', _) := step_spec (fs_nom h) o in
    {| fs_s := s'; fs_nom := fs_nom h; fs_alts := fs_alts h; fs_defer := fs_defer h;
       fs_ok := fs_ok h && result_eqb (res_class r) r' |}.

Lemma fstep_run_other c h f fx o : o <> OReopen -> fstep_run c h (FOp f fx o) = fop_run c h f fx o.
Proof. intros Hne. destruct o; try congruence; reflexivity. Qed.

Lemma fop_step c nb h f fx o : cfg_ok c -> sop_ok o -> o <> OReopen -> nb + 2 < two64 -> FInv c nb h ->
  FInv c (nb + 2) (fop_run c h f fx o).
Proof.
  intros Hc Hop Hne Hnb (Hok & Hf & Hgn & Hin & Hga & Hdo & HRD & HM). unfold fop_run.
  destruct (fs_s h) as [w e] eqn:Es. cbn [ss_wal ss_env] in *.
  set (ef := {| e_acts := e_acts e; e_disk := e_disk e; e_fault := f; e_fx := fx; e_m := e_m e |}).
  change (with_fault {| ss_wal := w; ss_env := e |} f fx) with {| ss_wal := w; ss_env := ef |}.
  destruct (st_closed w) eqn:Hcl.
  - (* no WAL: every call fails *)
    assert (Hr : st_rotate w = None) by (destruct HM as [(_ & K)|(K & _)]; [exact K|congruence]).
    destruct (closed_step c w ef o Hcl Hr ltac:(destruct o; try exact I; congruence)) as (r & e' & Hst & Hd & _ & Hres).
    rewrite Hst. unfold FInv. cbn [fs_ok fs_s fs_nom fs_alts fs_defer with_fault ss_env ss_wal e_fault e_disk].
    rewrite Hok, Hres, Hd. cbn [andb negb e_disk ef].
    split; [reflexivity|]. split; [reflexivity|]. split; [exact Hgn|]. split; [exact Hin|]. split; [exact Hga|]. split; [exact Hdo|].
    split; [eapply RD_mono; [| | |exact HRD]; [lia|apply incl_refl|apply incl_refl]|].
    left. auto.
  - destruct (is_mutating o) eqn:Hmut.
    + destruct (mut_step c nb w ef (fs_nom h) (fs_alts h) (fs_defer h) o Hc Hop Hmut Hnb Hcl HM HRD Hin Hdo)
        as (r & w' & e' & Hst & Hcl' & Hpost). rewrite Hst.
      set (s1 := with_fault {| ss_wal := w'; ss_env := e' |} None fx_none).
      (* the nominal state after a failed call *)
      set (nom1 := match o with
                   | OSet k v n => match spec_accepts (fs_nom h) (OSet k v n) with
                                   | Some nom' => if spst_eqb (observed s1) nom' then nom' else fs_nom h
                                   | None => fs_nom h
                                   end
                   | _ => fs_nom h
                   end).
      assert (Hfin : forall nomx deferx, r <> ROk -> nom1 = nomx -> sp_good nomx -> In nomx (fs_alts h ++ app_op o (fs_alts h)) ->
                Mode c (nb + 2) w' (e_disk e') nomx deferx -> incl deferx (dfr o (fs_defer h)) ->
                RD c (nb + 2) (e_disk e') (fs_alts h ++ app_op o (fs_alts h)) (dfr o (fs_defer h)) ->
                FInv c (nb + 2) {| fs_s := s1; fs_nom := nom1;
                      fs_alts := fs_alts h ++ app_op o (fs_alts h); fs_defer := dfr o (fs_defer h);
                      fs_ok := fs_ok h && spst_eqb (observed s1) nom1 |}).
      { intros nomx deferx Hr En Hgx Hinx HMx Hix HRDx. rewrite En. unfold FInv, s1. rewrite observed_wf.
        cbn [fs_ok fs_s fs_nom fs_alts fs_defer with_fault ss_env ss_wal e_fault e_disk].
        rewrite (observed_Mode c (nb + 2) w' _ nomx deferx); [|exact HMx|exact Hcl'].
        rewrite Hok, spst_eqb_refl. split; [reflexivity|]. split; [reflexivity|]. split; [exact Hgx|].
        split; [exact Hinx|].
        split; [apply Forall_app; split; [exact Hga|apply app_op_good; assumption]|].
        split; [apply dfr_ok; assumption|]. split; [exact HRDx|]. eapply Mode_mono; [apply N.le_refl|exact Hix|exact HMx]. }
      destruct Hpost as [(-> & nom' & Hacc & HM' & HRD')|[(Hr & HM' & HRD')|(Hr & k & v & n & nom' & -> & Hacc & HM' & HRD')]].
      * rewrite Hacc. unfold FInv, s1. rewrite observed_wf. cbn [fs_ok fs_s fs_nom fs_alts fs_defer with_fault ss_env ss_wal e_fault e_disk].
        rewrite (observed_Mode c (nb + 2) w' _ nom' (fs_defer h)); [|exact HM'|exact Hcl'].
        rewrite Hok, spst_eqb_refl. split; [reflexivity|]. split; [reflexivity|].
        split; [eapply accepts_good; eauto|]. split; [left; reflexivity|].
        split; [constructor; [eapply accepts_good; eauto|apply app_op_good; assumption]|]. split; [exact Hdo|]. split; [exact HRD'|exact HM'].
      * assert (En : nom1 = fs_nom h).
        { (* readers see the old state: the nominal state stays *)
          pose proof (observed_Mode c (nb + 2) w' e' (fs_nom h) (dfr o (fs_defer h)) HM' Hcl') as Hobs.
          unfold nom1. destruct o; try reflexivity. destruct (spec_accepts (fs_nom h) _) as [nomy|] eqn:Ey; [|reflexivity].
          unfold s1. rewrite observed_wf, Hobs. destruct (spst_eqb (fs_nom h) nomy) eqn:Eq; [|reflexivity].
          apply spst_eqb_eq in Eq. symmetry. exact Eq. }
        destruct r; try congruence;
          (apply (Hfin (fs_nom h) (dfr o (fs_defer h))); [discriminate|exact En|exact Hgn|apply in_or_app; left; exact Hin|exact HM'|apply incl_refl|exact HRD']).
      * assert (En : nom1 = nom').
        { pose proof (observed_Mode c (nb + 2) w' e' nom' (fs_defer h) HM' Hcl') as Hobs.
          unfold nom1. rewrite Hacc. unfold s1. rewrite observed_wf, Hobs, spst_eqb_refl. reflexivity. }
        assert (HRD2 : RD c (nb + 2) (e_disk e') (fs_alts h ++ app_op (OSet k v n) (fs_alts h)) (dfr (OSet k v n) (fs_defer h))).
        { eapply RD_mono; [apply N.le_refl|apply incl_refl|apply incl_dfr|exact HRD']. }
        destruct r; try congruence;
          (apply (Hfin nom' (fs_defer h)); [discriminate|exact En|eapply accepts_good; eauto|apply in_or_app; right; eapply in_app_op; eauto|exact HM'|apply incl_dfr|exact HRD2]).
    + (* a read *)
      assert (Hrd : is_read o) by (destruct o; try exact I; try discriminate; congruence).
      destruct (read_step c nb w ef (fs_nom h) o Hc Hop Hnb Hrd (Mode_RV _ _ _ _ _ _ HM Hcl) Hcl Hgn) as (r & e' & Hst & Hd & _ & Hres).
      rewrite Hst. destruct (step_spec (fs_nom h) o) as [r' sp'] eqn:Esp. cbn [fst] in Hres.
      unfold FInv. cbn [fs_ok fs_s fs_nom fs_alts fs_defer with_fault ss_env ss_wal e_fault e_disk].
      rewrite Hok, Hres, Hd. cbn [andb e_disk ef].
      split; [reflexivity|]. split; [reflexivity|]. split; [exact Hgn|]. split; [exact Hin|]. split; [exact Hga|]. split; [exact Hdo|].
      split; [eapply RD_mono; [| | |exact HRD]; [lia|apply incl_refl|apply incl_refl]|].
      eapply Mode_mono; [| |exact HM]; [lia|apply incl_refl].
Qed.

Lemma FInv_after_open c nb h s1 (sp : spst) :
  nb + 2 < two64 -> FInv c nb h -> st_closed (ss_wal s1) = false ->
  LInv c (nb + 1) (ss_wal s1) (sh (e_disk (ss_env s1))) -> no_pend (e_disk (ss_env s1)) ->
  sp = sp_of (sh (e_disk (ss_env s1))) -> In sp (candidates (fs_alts h) (fs_defer h)) -> e_fault (ss_env s1) = None ->
  FInv c (nb + 2) {| fs_s := s1; fs_nom := sp; fs_alts := [sp]; fs_defer := []; fs_ok := fs_ok h |}.
Proof.
  intros Hnb (Hok & Hf & Hgn & Hin & Hga & Hdo & HRD & HM) Hcl HL HN -> Hc Hfe.
  unfold FInv. cbn [fs_ok fs_s fs_nom fs_alts fs_defer].
  split; [exact Hok|]. split; [exact Hfe|]. split; [eapply cand_good; eauto|]. split; [left; reflexivity|].
  split; [constructor; [eapply cand_good; eauto|constructor]|]. split; [constructor|].
  assert (HL2 : LInv c (nb + 2) (ss_wal s1) (sh (e_disk (ss_env s1)))) by (eapply LInv_mono; [|exact HL]; lia).
  split; [eapply RD_of_clean; [exact HL2|exact HN|left; reflexivity]|].
  apply Mode_live; [apply live_clean; assumption|reflexivity].
Qed.

Lemma observed_clean c nb w e : LInv c nb w (sh (e_disk e)) -> no_pend (e_disk e) ->
  observed {| ss_wal := w; ss_env := e |} = sp_of (sh (e_disk e)).
Proof.
  intros HL HN. apply (observed_RV c nb). apply (RV_of_live c nb w (e_disk e) []). apply live_clean; assumption.
Qed.

Lemma FInv_step c nb h st : cfg_ok c -> fstep_wf st -> nb + 2 < two64 -> FInv c nb h -> FInv c (nb + 2) (fstep_run c h st).
Proof.
  intros Hc Hwf Hnb HI. destruct st as [f fx o|].
  - destruct o as [ls|mn mx|i| | |k v n|k|] eqn:Eo;
      try (rewrite fstep_run_other by discriminate; apply fop_step; auto; discriminate).
    (* Close; Open *)
    cbn [fstep_run].
    
    pose proof HI as (Hok & Hf & Hgn & Hin & Hga & Hdo & HRD & HM).
    match goal with |- context [step_model c (with_fault ?si f fx) OReopen] => 
      change (with_fault si f fx) with {| ss_wal := ss_wal (fs_s h);
                 ss_env := {| e_acts := e_acts (ss_env (fs_s h)); e_disk := adopt_disk (e_disk (ss_env (fs_s h)));
                              e_fault := f; e_fx := fx; e_m := e_m (ss_env (fs_s h)) |} |} end.
    destruct (reopen_step c nb h f fx Hc Hnb HI) as (r & s1 & Hst & Hcase). cbv zeta in Hst. rewrite Hst.
    destruct Hcase as [(-> & Hcl & HL & HN & Hcand & _)|(Hr & Hfn & Hcl & Hrot & HRD')].
    + destruct s1 as [w1 e1]. cbn [ss_wal ss_env] in *.
      rewrite observed_wf, (observed_clean c (nb + 1) w1 e1 HL HN), (matches_in _ _ Hcand).
      apply (FInv_after_open c nb h (with_fault {| ss_wal := w1; ss_env := e1 |} None fx_none) _ Hnb HI Hcl HL HN eq_refl Hcand eq_refl).
    + assert (Ebr : forall (X : fstate), match r with ROk => X | _ =>
                 {| fs_s := with_fault s1 None fx_none; fs_nom := fs_nom h; fs_alts := fs_alts h; fs_defer := fs_defer h;
                    fs_ok := fs_ok h && match f with Some _ => true | None => false end |} end =
                 {| fs_s := with_fault s1 None fx_none; fs_nom := fs_nom h; fs_alts := fs_alts h; fs_defer := fs_defer h;
                    fs_ok := fs_ok h && match f with Some _ => true | None => false end |}).
      { intros X. destruct r; try reflexivity. congruence. }
      rewrite Ebr. unfold FInv. cbn [fs_ok fs_s fs_nom fs_alts fs_defer with_fault ss_env ss_wal e_fault e_disk].
      rewrite Hok. destruct f as [k|]; [|congruence]. split; [reflexivity|]. split; [reflexivity|].
      split; [exact Hgn|]. split; [exact Hin|]. split; [exact Hga|]. split; [exact Hdo|].
      split; [eapply RD_mono; [| | |exact HRD']; [lia|apply incl_refl|apply incl_refl]|]. left. auto.
  - (* restart *)
    cbn [fstep_run]. pose proof HI as (Hok & Hf & Hgn & Hin & Hga & Hdo & HRD & HM).
    destruct (reopen_step c nb h None fx_none Hc Hnb HI) as (r & s1 & Hst & Hcase). cbv zeta in Hst. rewrite Hst.
    destruct Hcase as [(-> & Hcl & HL & HN & Hcand & Hfe)|(_ & Hfn & _)]; [|congruence].
    destruct s1 as [w1 e1]. cbn [ss_wal ss_env] in *.
    rewrite (observed_clean c (nb + 1) w1 e1 HL HN), (matches_in _ _ Hcand).
    apply (FInv_after_open c nb h {| ss_wal := w1; ss_env := e1 |} _ Hnb HI Hcl HL HN eq_refl Hcand (Hfe eq_refl)).
Qed.

Lemma FInv_run c steps : forall nb h, cfg_ok c -> Forall fstep_wf steps ->
  nb + 2 * N.of_nat (length steps) + 2 < two64 -> FInv c nb h ->
  FInv c (nb + 2 * N.of_nat (length steps)) (fault_run c h steps).
Proof.
  unfold fault_run. induction steps as [|st steps IH]; intros nb h Hc Hwf Hnb HI.
  - cbn [length fold_left]. replace (nb + 2 * N.of_nat 0) with nb by lia. exact HI.
  - inversion Hwf as [|? ? Hw1 Hw2]; subst. cbn [fold_left length]. cbn [length] in Hnb.
    replace (nb + 2 * N.of_nat (S (length steps))) with ((nb + 2) + 2 * N.of_nat (length steps)) by lia.
    apply IH; auto; [lia|]. apply FInv_step; auto. lia.
Qed.

Lemma FInv_init c s0 : cfg_ok c -> initial c = Some s0 -> FInv c 1 (fault_init s0).
Proof.
  intros Hc Hinit. destruct (initial_LInv c s0 Hc Hinit) as (HL & Hf & HN & Hsp & _).
  destruct s0 as [w e']. cbn [ss_wal ss_env] in *.
  unfold FInv, fault_init. cbn [fs_ok fs_s fs_nom fs_alts fs_defer ss_env ss_wal].
  split; [reflexivity|]. split; [exact Hf|]. split; [constructor|]. split; [left; reflexivity|].
  split; [constructor; [constructor|constructor]|]. split; [constructor|].
  assert (HLs : LInv c 1 w (sh (e_disk e'))) by (apply LInv_sh; exact HL).
  assert (Hsps : sp_of (sh (e_disk e')) = {| sp_log := sl_empty; sp_kv := [] |}) by (rewrite (sp_of_sh_clean c _ w _ HL); exact Hsp).
  split; [eapply RD_of_clean; [exact HLs|exact HN|rewrite Hsps; left; reflexivity]|].
  apply Mode_live; [apply live_clean; assumption|exact Hsps].
Qed.

Theorem fault_safety : fault_safety_stmt.
Proof.
  unfold fault_safety_stmt. intros c steps s0 Hc Hwf Hshort Hinit.
  pose proof (FInv_init c s0 Hc Hinit) as HI.
  assert (Hb : 1 + 2 * N.of_nat (length steps) + 2 < two64) by (unfold short_enough in Hshort; unfold two64; lia).
  apply (FInv_run c steps 1 (fault_init s0) Hc Hwf Hb HI).
Qed.
