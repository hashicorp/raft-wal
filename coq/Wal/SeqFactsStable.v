(* SeqFactsStable.v -- the stable store: it is a map (the last accepted Set
   wins), SetUint64/GetUint64 round trip, and log and stable operations do not
   touch each other's data (C08). *)
From RW Require Import Base.Bytes Base.BytesFacts Fmt.Codec Fmt.CodecFacts Fmt.Frame
  Wal.Model Wal.Spec Wal.Hist Wal.BasicFacts Wal.SeqInv Wal.ModelFacts Wal.SeqFactsBase Wal.SeqFactsAbs Wal.SeqFactsTxn
  Wal.SeqFactsMain Gen.Constants Base.LiaSetup.
Open Scope N_scope.

Lemma kv_set_in k v m a b : In (a, b) (kv_set k v m) -> In (a, b) m \/ (a = k /\ b = v).
Proof.
  induction m as [|[k' v'] m IH]; cbn [kv_set].
  - destruct v; [intros []|]. intros [H|[]]. inversion H; auto.
  - destruct (bytes_eqb k k').
    + destruct v; [intros H; left; right; exact H|]. intros [H|H]; [inversion H; auto|left; right; exact H].
    + intros [H|H]; [left; left; exact H|]. destruct (IH H) as [H1|H1]; [left; right; exact H1|right; exact H1].
Qed.

Lemma kv_set_unique k v m : kv_keys_unique m -> kv_keys_unique (kv_set k v m).
Proof.
  induction m as [|[k' v'] m IH]; intros Hu; cbn [kv_set].
  - destruct v; cbn [kv_keys_unique]; auto. repeat split; auto. intros k2 v2 [].
  - destruct Hu as (Hn & Hd & Hu'). unfold bytes_eqb. destruct (beq_bytes k k') eqn:E.
    + destruct v as [|b v]; [exact Hu'|]. apply beq_bytes_eq in E. subst k'.
      cbn [kv_keys_unique]. repeat split; auto.
    + cbn [kv_keys_unique]. split; [|split; [|apply IH; exact Hu']].
      * intros v0 Hin. apply kv_set_in in Hin. destruct Hin as [Hin|[Hk _]]; [exact (Hn v0 Hin)|].
        subst k'. rewrite beq_bytes_refl in E. discriminate.
      * intros k2 v2 Hin. apply kv_set_in in Hin. destruct Hin as [Hin|[Hk _]]; [exact (Hd k2 v2 Hin)|].
        subst k2. rewrite beq_bytes_sym. exact E.
Qed.

Lemma kv_get_set_nonempty k v m : v <> [] -> kv_get k (kv_set k v m) = v.
Proof.
  intros Hv. induction m as [|[k' v'] m IH]; cbn [kv_set kv_get].
  - destruct v; [congruence|]. cbn [kv_get]. unfold bytes_eqb. rewrite beq_bytes_refl. reflexivity.
  - unfold bytes_eqb. destruct (beq_bytes k k') eqn:E.
    + destruct v; [congruence|]. cbn [kv_get]. unfold bytes_eqb. rewrite beq_bytes_refl. reflexivity.
    + cbn [kv_get]. unfold bytes_eqb. rewrite E. exact IH.
Qed.

(* the value the history last stored under key k by an accepted Set *)
Fixpoint last_set (k : bytes) (os : list sop) (acc : bytes) : bytes :=
  match os with
  | [] => acc
  | OSet k' v _ :: r => last_set k r (if key_ok k' && beq_bytes k k' then v else acc)
  | _ :: r => last_set k r acc
  end.

Lemma run_spec_kv k : forall os sp, kv_keys_unique (sp_kv sp) ->
  kv_get k (sp_kv (snd (run_spec sp os))) = last_set k os (kv_get k (sp_kv sp)).
Proof.
  induction os as [|o os IH]; intros sp Hu; [reflexivity|].
  cbn [run_spec]. destruct (step_spec sp o) as [x sp1] eqn:Es.
  assert (H1 : kv_keys_unique (sp_kv sp1) /\
               last_set k (o :: os) (kv_get k (sp_kv sp)) = last_set k os (kv_get k (sp_kv sp1))).
  { destruct o; cbn [step_spec last_set] in *;
      try (inversion Es; subst; split; [exact Hu|reflexivity]).
    - destruct (spec_store (sp_log sp) ls); inversion Es; subst; cbn [sp_kv]; split; auto.
    - destruct (spec_delete (sp_log sp) mn mx); inversion Es; subst; cbn [sp_kv]; split; auto.
    - destruct (spec_get (sp_log sp) i); inversion Es; subst; split; auto.
    - destruct (key_ok k0); inversion Es; subst; cbn [sp_kv andb]; [|split; auto].
      split; [apply kv_set_unique; exact Hu|]. destruct (beq_bytes k k0) eqn:E.
      + apply beq_bytes_eq in E. subst k0. rewrite kv_get_set_same by exact Hu. reflexivity.
      + rewrite kv_get_set_other by exact E. reflexivity. }
  destruct H1 as [Hu1 Hl]. specialize (IH sp1 Hu1).
  destruct (run_spec sp1 os) as [xs sp2]. cbn [snd] in *. rewrite IH, Hl. reflexivity.
Qed.

Lemma get_last_set c os s0 k :
  cfg_ok c -> Forall sop_ok os -> short_enough os -> initial c = Some s0 ->
  fst (step_model c (snd (run_model c s0 os)) (OGetS k)) = RBytes (last_set k os []).
Proof.
  intros Hc Hops Hshort Hinit.
  destruct (reach_inv c os s0 Hc Hops Hshort Hinit) as ((He & ss & t & tw & HI) & _ & _ & Hk). cbv zeta in *.
  cbn [step_model]. assert (Hcl : st_closed (ss_wal (snd (run_model c s0 os))) = false) by apply HI.
  unfold get_stable. rewrite Hcl. cbn [fst]. unfold s_kv in Hk. rewrite Hk.
  rewrite (run_spec_kv k os spec_init I). reflexivity.
Qed.

Lemma le64_len v : len (le64 v) = 8.
Proof. unfold len. rewrite le64_length. reflexivity. Qed.

Lemma get_uint64_spec w k e :
  st_closed w = false ->
  fst (get_uint64 w k e) =
  let b := kv_get k (dk_stable (e_disk e)) in
  if len b =? 0 then RVal 0 else if len b =? 8 then RVal (rd64 b) else RErrOther.
Proof.
  intros Hcl. unfold get_uint64, get_stable. rewrite Hcl. cbv zeta.
  destruct (len _ =? 0); [reflexivity|]. destruct (len _ =? 8); reflexivity.
Qed.

Lemma uint64_roundtrip w e k v :
  st_closed w = false -> e_fault e = None -> key_ok k = true -> v < two64 ->
  fst (set_uint64 w k v e) = ROk /\
  fst (get_uint64 w k (snd (set_uint64 w k v e))) = RVal v.
Proof.
  intros Hcl He Hk Hv. rewrite (get_uint64_spec _ _ _ Hcl). unfold set_uint64, set_stable. rewrite Hcl, Hk. cbn [negb].
  rewrite (io_ok _ _ (He : e_fault (inc_stable e true) = None)). cbn [fst snd]. split; [reflexivity|].
  cbn [e_disk io_post apply_act dk_stable].
  rewrite kv_get_set_nonempty by (unfold le64, le32; discriminate).
  rewrite le64_len. cbn [N.eqb Pos.eqb]. rewrite rd64_le64 by exact Hv. reflexivity.
Qed.

Lemma uint64_unset w e k :
  st_closed w = false -> kv_get k (dk_stable (e_disk e)) = [] -> fst (get_uint64 w k e) = RVal 0.
Proof. intros Hcl Hk. rewrite (get_uint64_spec _ _ _ Hcl), Hk. reflexivity. Qed.

Lemma uint64_bad_size w e k :
  st_closed w = false -> len (kv_get k (dk_stable (e_disk e))) <> 0 ->
  len (kv_get k (dk_stable (e_disk e))) <> 8 -> fst (get_uint64 w k e) = RErrOther.
Proof.
  intros Hcl H0 H8. rewrite (get_uint64_spec _ _ _ Hcl). cbv zeta.
  apply N.eqb_neq in H0, H8. rewrite H0, H8. reflexivity.
Qed.

Lemma abs_files w d d' : dk_files d' = dk_files d -> abs w d' = abs w d.
Proof. intros E. apply abs_frame. intros s _. rewrite E. reflexivity. Qed.

Lemma set_stable_frame w k v n e :
  let e' := snd (set_stable w k v n e) in
  dk_files (e_disk e') = dk_files (e_disk e) /\ dk_meta (e_disk e') = dk_meta (e_disk e) /\
  abs w (e_disk e') = abs w (e_disk e).
Proof.
  cbv zeta.
  assert (H : dk_files (e_disk (snd (set_stable w k v n e))) = dk_files (e_disk e) /\
              dk_meta (e_disk (snd (set_stable w k v n e))) = dk_meta (e_disk e)).
  { unfold set_stable. destruct (st_closed w); [split; reflexivity|].
    destruct (key_ok k); cbn [negb]; [|split; reflexivity].
    unfold io. cbn [is_delete]. change (e_fault (inc_stable e true)) with (e_fault e).
    destruct (e_fault e) as [[|f]|]; [cbn [is_txn andb]; destruct (fx_land _)|..]; split; reflexivity. }
  destruct H as [H1 H2]. split; [exact H1|]. split; [exact H2|]. apply abs_files. exact H1.
Qed.

Lemma get_stable_frame w k e : e_disk (snd (get_stable w k e)) = e_disk e.
Proof. unfold get_stable. destruct (st_closed w); reflexivity. Qed.

(* log operations do not touch the stable store (also when I/O fails) *)
Definition SS (e e' : env) : Prop := dk_stable (e_disk e') = dk_stable (e_disk e).
Lemma SS_refl e : SS e e. Proof. reflexivity. Qed.
Lemma SS_trans e1 e2 e3 : SS e1 e2 -> SS e2 e3 -> SS e1 e3.
Proof. unfold SS. congruence. Qed.

Definition not_set (a : act) : Prop := match a with ASetStable _ _ => False | _ => True end.
Lemma io_SS a e : not_set a -> SS e (snd (io a e)).
Proof.
  intros Ha. unfold SS, io.
  destruct (is_delete a); [destruct (armed e && fx_del (e_fx e)); [reflexivity|]; cbn [snd e_disk]; rewrite apply_stable; destruct a; try reflexivity; contradiction|].
  destruct (e_fault e) as [[|f]|]; [destruct (is_txn a && fx_land (e_fx e))|..]; cbn [snd e_disk]; try reflexivity; rewrite apply_stable;
    destruct a; try reflexivity; contradiction.
Qed.
Lemma with_m_SS e m : SS e (with_m e m). Proof. reflexivity. Qed.

(* destruct the next I/O call in the goal, remembering that it keeps the stable store *)
Ltac io_step :=
  match goal with
  | |- context [io ?a ?e] =>
      let H := fresh "Hio" in
      assert (H := io_SS a e I); destruct (io a e) as [? ?]; cbn [snd fst] in H |- *
  end.
Ltac ss_close := first [apply SS_refl | assumption | (eapply SS_trans; [eassumption|]; ss_close)].

Lemma seg_create_SS si e : SS e (snd (seg_create si e)).
Proof.
  unfold seg_create. destruct (si_base si =? 0); [apply SS_refl|].
  destruct (lookup _ _); io_step; [ss_close|]. destruct b; [ss_close|]. cbn [snd].
  destruct (fx_leave (e_fx e)); [|ss_close]. unfold SS, leave_entry in *. cbn [e_disk apply_act dk_stable]. exact Hio.
Qed.
Lemma seg_append_SS w ls e : SS e (snd (seg_append w ls e)).
Proof.
  unfold seg_append. destruct ls; [apply SS_refl|].
  destruct (0 <? ws_index_start w); [apply SS_refl|]. destruct (existsb _ _); [apply SS_refl|].
  destruct (negb _); [apply SS_refl|]. cbv zeta. io_step. destruct b; cbn [negb snd]; [|ss_close].
  io_step. destruct b; cbn [negb snd]; ss_close.
Qed.
Lemma seg_force_seal_SS w e : SS e (snd (seg_force_seal w e)).
Proof.
  unfold seg_force_seal. destruct (0 <? ws_index_start w); [apply SS_refl|].
  destruct (ws_n w =? 0); [apply SS_refl|]. cbv zeta. io_step. destruct b; cbn [negb snd]; [|ss_close].
  io_step. destruct b; cbn [negb snd]; ss_close.
Qed.
Lemma delete_files_SS ns : forall e, SS e (delete_files ns e).
Proof.
  induction ns as [|n ns IH]; intros e; [apply SS_refl|].
  unfold delete_files. cbn [fold_left]. eapply SS_trans; [apply (io_SS (ADelete n) e I)|apply IH].
Qed.
Lemma mutate_gen_SS defer w t e : SS e (snd (fst (mutate_gen defer w t e))).
Proof.
  unfold mutate_gen. io_step. destruct b; cbn [negb fst snd]; [|ss_close].
  destruct (tx_create t) as [si|].
  - assert (Hc := seg_create_SS si e0). destruct (seg_create si e0) as [[sw|] e2]; cbn [fst snd] in *; [|ss_close].
    destruct defer; [ss_close|]. assert (Hd := delete_files_SS (tx_delete t) e2). ss_close.
  - cbn [fst snd]. destruct defer; [ss_close|]. assert (Hd := delete_files_SS (tx_delete t) e0). ss_close.
Qed.
Lemma mutate_SS w t e : SS e (snd (mutate w t e)).
Proof.
  unfold mutate. assert (H := mutate_gen_SS false w t e).
  destruct (mutate_gen false w t e) as [[[r w'] e'] d]. exact H.
Qed.

Lemma reset_first_SS c w nb e : SS e (snd (fst (reset_first c w nb e))).
Proof.
  unfold reset_first. destruct (0 <? last_index _ _); [apply SS_refl|].
  destruct (tail_info (st_segs w)) as [t|].
  - destruct (si_base t =? nb); [apply mutate_gen_SS|].
    destruct (create_next _ _ _ _) as [[nid segs2] si]. apply mutate_gen_SS.
  - destruct (create_next _ _ _ _) as [[nid segs2] si]. apply mutate_gen_SS.
Qed.

Lemma rotate_SS c w e : SS e (snd (rotate c w e)).
Proof.
  unfold rotate. destruct (st_rotate w) as [i|]; [|apply SS_refl].
  destruct (st_closed w); [apply SS_refl|]. destruct (tail_info (st_segs w)) as [t|]; [|unfold SS; reflexivity].
  destruct (create_next _ _ _ _) as [[nid segs2] si].
  match goal with |- context [mutate ?w0 ?t0 ?e0] =>
    assert (H := mutate_SS w0 t0 e0); destruct (mutate w0 t0 e0) as [[r w'] e'] end.
  exact H.
Qed.

Lemma store_go_SS L ls w e : SS e (snd (Wal.SeqFactsOps1.store_go L ls w e)).
Proof.
  unfold Wal.SeqFactsOps1.store_go. destruct (check_logs L ls) as [res nb].
  destruct res; try apply SS_refl. destruct (st_tail w) as [tw|]; [|apply SS_refl].
  assert (H := seg_append_SS tw ls e). destruct (seg_append tw ls e) as [[r tw'] e1]. cbn [snd] in *.
  destruct r; exact H.
Qed.

Lemma store_logs_SS c w ls e : SS e (snd (store_logs c w ls e)).
Proof.
  destruct (st_closed w) eqn:Hcl; [unfold store_logs; rewrite Hcl; apply SS_refl|].
  destruct ls as [|l0 rest]; [unfold store_logs; rewrite Hcl; apply SS_refl|].
  destruct (st_failed w) eqn:Hfa; [unfold store_logs; rewrite Hcl, Hfa; apply SS_refl|].
  destruct (tail_info (st_segs w)) as [ti|] eqn:Hti; [|unfold store_logs; rewrite Hcl, Hfa, Hti; apply SS_refl].
  rewrite (Wal.SeqFactsOps1.store_logs_unfold c w l0 rest e ti Hcl Hfa Hti). cbv zeta.
  destruct (_ && _); [|apply store_go_SS].
  assert (H := reset_first_SS c w (l_index l0) e).
  destruct (reset_first c w (l_index l0) e) as [[[r w1] e1] dels]. cbn [fst snd] in H.
  destruct r; try exact H.
  assert (H2 := store_go_SS (last_index (st_segs w) (st_tail w)) (l0 :: rest) w1 e1).
  destruct (Wal.SeqFactsOps1.store_go _ _ w1 e1) as [[r2 w2] e2]. cbn [snd] in *.
  assert (H3 := delete_files_SS dels e2). ss_close.
Qed.

Lemma truncate_head_SS c w nm e : SS e (snd (truncate_head c w nm e)).
Proof.
  unfold truncate_head. destruct (head_scan _ _ _ _ _) as [[[rest del] ntr] [h|]].
  - match goal with |- context [mutate ?w0 ?t0 (add_m e ?f)] =>
      apply (SS_trans _ _ _ (with_m_SS e (f (e_m e)))); apply (mutate_SS w0 t0) end.
  - destruct (create_next _ _ _ _) as [[nid segs2] si].
    match goal with |- context [mutate ?w0 ?t0 (add_m e ?f)] =>
      apply (SS_trans _ _ _ (with_m_SS e (f (e_m e)))); apply (mutate_SS w0 t0) end.
Qed.

Lemma truncate_tail_SS c w nmax e : SS e (snd (truncate_tail c w nmax e)).
Proof.
  unfold truncate_tail. destruct (tail_scan _ _ _ _ _) as [[rrest del] ntr].
  destruct rrest as [|t rr].
  - destruct (create_next _ _ _ _) as [[nid segs2] si]. apply mutate_SS.
  - destruct (si_sealed t).
    + destruct (create_next _ _ _ _) as [[nid segs2] si].
      match goal with |- context [mutate ?w0 ?t0 (add_m e ?f)] =>
        apply (SS_trans _ _ _ (with_m_SS e (f (e_m e)))); apply (mutate_SS w0 t0) end.
    + destruct (st_tail w) as [tw|]; [|apply SS_refl].
      assert (H := seg_force_seal_SS tw e). destruct (seg_force_seal tw e) as [[r tw'] e1]. cbn [snd] in H.
      destruct r; try exact H.
      destruct (create_next _ _ _ _) as [[nid segs2] si].
      match goal with |- context [mutate ?w0 ?t0 (add_m e1 ?f)] =>
        apply (SS_trans _ _ _ H); apply (SS_trans _ _ _ (with_m_SS e1 (f (e_m e1)))); apply (mutate_SS w0 t0) end.
Qed.

Lemma delete_range_SS c w mn mx e : SS e (snd (delete_range c w mn mx e)).
Proof.
  unfold delete_range. destruct (st_closed w); [apply SS_refl|]. destruct (mx <? mn); [apply SS_refl|].
  destruct (st_failed w); [apply SS_refl|]. destruct (_ || _); [apply SS_refl|].
  destruct (mn <=? _); [apply truncate_head_SS|]. destruct (_ <=? mx); [apply truncate_tail_SS|apply SS_refl].
Qed.

Lemma open_segs_SS c : forall segs acc e, SS e (snd (open_segs c segs acc e)).
Proof.
  induction segs as [|si r IH]; intros acc e; cbn [open_segs]; [apply SS_refl|].
  destruct (negb (si_codec si =? c_codec c)); [apply SS_refl|].
  destruct (negb (si_sealed si)).
  - destruct r; [|apply SS_refl].
    destruct (seg_recover si e) as [x|].
    + destruct x as [sw|]; [|apply SS_refl]. destruct (0 <? ws_index_start sw); apply SS_refl.
    + assert (H := seg_create_SS si e). destruct (seg_create si e) as [[sw|] e1]; cbn [snd] in *; [|exact H].
      destruct (0 <? ws_index_start sw); exact H.
  - destruct (lookup _ _) as [f|]; [|apply SS_refl]. destruct (cur_end f =? 0); [apply SS_refl|apply IH].
Qed.

Lemma open_wal_SS c e : SS e (snd (open_wal c e)).
Proof.
  unfold open_wal. destruct (_ && _); [apply SS_refl|].
  assert (H0 : SS e (snd (if dk_inited (e_disk e) then (true, e) else io AInitMeta e))).
  { destruct (dk_inited (e_disk e)); [apply SS_refl|apply (io_SS AInitMeta e I)]. }
  destruct (if dk_inited (e_disk e) then (true, e) else io AInitMeta e) as [ok0 e0]. cbn [snd] in H0.
  destruct ok0; cbn [negb]; [|exact H0].
  destruct (armed e0 && fx_list (e_fx e0)); [exact H0|]. cbv zeta.
  match goal with |- context [open_segs c ?segs [] e0] =>
    assert (H1 := open_segs_SS c segs [] e0); destruct (open_segs c segs [] e0) as [[[r segs'] tail] e1] end.
  cbn [snd] in H1. destruct r; try (cbn [snd]; ss_close).
  destruct tail as [tw|]; cbn [snd].
  - eapply SS_trans; [|apply delete_files_SS]. ss_close.
  - io_step. destruct b; cbn [negb snd]; [|ss_close].
    match goal with |- context [seg_create ?si ?e2] =>
      assert (H2 := seg_create_SS si e2); destruct (seg_create si e2) as [[sw|] e3] end; cbn [snd] in *; [|ss_close].
    eapply SS_trans; [|apply delete_files_SS]. ss_close.
Qed.

Lemma log_ops_preserve_stable c w e :
  (forall ls, dk_stable (e_disk (snd (store_logs c w ls e))) = dk_stable (e_disk e)) /\
  (forall mn mx, dk_stable (e_disk (snd (delete_range c w mn mx e))) = dk_stable (e_disk e)) /\
  dk_stable (e_disk (snd (rotate c w e))) = dk_stable (e_disk e) /\
  dk_stable (e_disk (snd (open_wal c e))) = dk_stable (e_disk e).
Proof.
  split; [intros ls; exact (store_logs_SS c w ls e)|].
  split; [intros mn mx; exact (delete_range_SS c w mn mx e)|].
  split; [exact (rotate_SS c w e)|exact (open_wal_SS c e)].
Qed.

Lemma stable_ops_preserve_log w k v n e :
  (let e' := snd (set_stable w k v n e) in
   dk_files (e_disk e') = dk_files (e_disk e) /\ dk_meta (e_disk e') = dk_meta (e_disk e) /\
   abs w (e_disk e') = abs w (e_disk e)) /\
  e_disk (snd (get_stable w k e)) = e_disk e.
Proof. split; [exact (set_stable_frame w k v n e)|exact (get_stable_frame w k e)]. Qed.
