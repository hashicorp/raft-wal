(* FaultSim2.v -- lock-step simulation (see FaultSim.v) for the WAL-level
   operations: rotation, StoreLogs, DeleteRange, stable Set, Open. *)
From RW Require Import Base.Bytes Base.BytesFacts Fmt.Codec Fmt.Frame Wal.Model Wal.Spec Wal.Hist
  Wal.CrashInv Wal.ModelFacts Wal.CrashFacts0 Wal.CrashFacts1 Wal.CrashFacts2 Wal.CrashFacts3 Wal.CrashFacts4 Wal.CrashFacts6 Wal.CrashCalls4
  Wal.FaultSim Gen.Constants.
From RW Require Import Base.LiaSetup.
Open Scope N_scope.

Lemma io_files_commit ps e ok e1 : io (ACommit ps) e = (ok, e1) -> dk_files (e_disk e1) = dk_files (e_disk e).
Proof.
  destruct (io_cases3 (ACommit ps) e eq_refl) as [(e' & E & D & _)|[(e' & E & D & _)|(e' & E & _ & D & _)]]; rewrite E; intros K; inversion K; subst; rewrite D; reflexivity.
Qed.

Lemma mutate_gen_ok_facts defer w t e w' e' dl : mutate_gen defer w t e = (ROk, w', e', dl) ->
  st_tail w' = (match tx_create t with None => tx_tail t | Some si => Some (new_wseg si) end) /\
  (forall si, tx_create t = Some si -> lookup (name_of si) (dk_files (e_disk e)) = None) /\
  dl = (if defer then tx_delete t else []) /\
  st_segs w' = tx_segs t /\ st_next_id w' = tx_next_id t /\
  st_rotate w' = st_rotate w /\ st_failed w' = st_failed w /\ st_closed w' = st_closed w.
Proof.
  unfold mutate_gen. destruct (io _ e) as [ok e1] eqn:Eio. destruct ok; cbn [negb]; [|discriminate].
  pose proof (io_files_commit _ _ _ _ Eio) as Hfl.
  destruct (tx_create t) as [si|].
  - destruct (seg_create si e1) as [sw e2] eqn:Es. destruct sw as [sw|]; [|discriminate]. intros [= <- <- <-].
    destruct (seg_create_some _ _ _ _ Es) as (-> & Hl). cbn. repeat split; auto.
    intros si' [= <-]. rewrite <- Hfl. exact Hl.
  - intros [= <- <- <-]. cbn. repeat split; auto. intros si K; discriminate.
Qed.

Definition rot_none (w : wal) : wal :=
  {| st_next_id := st_next_id w; st_segs := st_segs w; st_tail := st_tail w;
     st_rotate := None; st_failed := st_failed w; st_closed := st_closed w |}.

Lemma sh_rotate c w ec w' ec' : e_fault ec = None -> rotate c w ec = (w', ec') -> shok ec ec'.
Proof.
  intros Hf. unfold rotate. destruct (st_rotate w); [|intros [= <- <-]; apply shok_refl; exact Hf].
  destruct (st_closed w); [intros [= <- <-]; apply shok_refl; exact Hf|].
  destruct (tail_info _); [|intros [= <- <-]; apply shok_add_m; exact Hf].
  destruct (create_next _ _ _ _) as [[nid segs2] si].
  match goal with |- context [mutate ?w0 ?t ?e0] => destruct (mutate w0 t e0) as [[r1 w1] e1] eqn:Em end.
  intros [= <- <-]. eapply shok_trans; [apply shok_add_m; exact Hf|].
  eapply sh_mutate; [|exact Em]. exact Hf.
Qed.

Lemma rotate_lock X c w e ec w' e' wc' ec' : R X e ec ->
  rotate c w e = (w', e') -> rotate c w ec = (wc', ec') ->
  (w' = wc' /\ R X e' ec') \/
  (e_fault e' = None /\ st_rotate w <> None /\ st_closed w = false /\ w' = set_failed (rot_none w) /\
   (e_disk e' = e_disk e \/ (exists ps, post_commit X ec ec' (e_disk e') ps) \/ st_failed wc' = true)).
Proof.
  intros HR. unfold rotate. destruct (st_rotate w) as [istart|] eqn:Er; [|intros [= <- <-] [= <- <-]; left; auto].
  destruct (st_closed w) eqn:Ecl; [intros [= <- <-] [= <- <-]; left; auto|].
  destruct (tail_info _); [|intros [= <- <-] [= <- <-]; left; split; [reflexivity|apply R_add_m; exact HR]].
  destruct (create_next _ _ _ _) as [[nid segs2] si].
  match goal with |- context [mutate ?w0 ?t (add_m e ?f)] =>
    destruct (mutate w0 t (add_m e f)) as [[r1 w1] e1] eqn:Em; destruct (mutate w0 t (add_m ec f)) as [[rc1 wc1] ec1] eqn:Emc;
    pose proof (mutate_lock X w0 t (add_m e f) (add_m ec f) _ _ _ _ _ _ (R_add_m X e ec f f HR) Em Emc) as HL end.
  intros [= <- <-] [= <- <-].
  destruct HL as [(A & B & C & _)|(A & B & Ew & Hcf)].
  - left. split; [exact B|]. unfold dels_of in C. cbn [tx_delete] in C. destruct rc1; eapply Rd_nil; exact C.
  - right. split; [exact A|]. split; [discriminate|]. split; [reflexivity|].
    split; [unfold rot_none, set_failed in *; cbn in *; rewrite Ecl; exact Ew|].
    destruct Hcf as [C|[(C0 & C1 & C3 & _)|[(_ & C1 & _)|(_ & C)]]]; [left; exact C| |discriminate C1|right; right; exact C].
    right. left. eexists. eapply post_commit_shift; [apply aext_add_m|reflexivity|exact C3].
Qed.

(* the state transaction it runs: it re-commits the state as it is when the empty tail
   already starts at [nbase], and else replaces the tail by a new segment *)
Definition reset_txn (c : cfg) (w : wal) (nbase : N) : txn :=
  match tail_info (st_segs w) with
  | Some t =>
      if si_base t =? nbase then
        {| tx_next_id := st_next_id w; tx_segs := st_segs w; tx_delete := []; tx_create := None; tx_tail := st_tail w |}
      else
        let '(nid, segs2, si) := create_next c (st_next_id w) (seg_del (si_base t) (st_segs w)) nbase in
        {| tx_next_id := nid; tx_segs := segs2; tx_delete := [name_of t]; tx_create := Some si; tx_tail := None |}
  | None =>
      let '(nid, segs2, si) := create_next c (st_next_id w) (st_segs w) nbase in
      {| tx_next_id := nid; tx_segs := segs2; tx_delete := []; tx_create := Some si; tx_tail := None |}
  end.

Lemma reset_first_eq c w nbase e :
  reset_first c w nbase e =
  if 0 <? last_index (st_segs w) (st_tail w) then (RErrOther, w, e, []) else mutate_gen true w (reset_txn c w nbase) e.
Proof.
  unfold reset_first, reset_txn. destruct (0 <? _); [reflexivity|].
  destruct (tail_info _) as [t|]; [destruct (_ =? _); [reflexivity|]|]; destruct (create_next _ _ _ _) as [[nid segs2] si]; reflexivity.
Qed.

Lemma reset_txn_cases c w nbase :
  (exists ti, tail_info (st_segs w) = Some ti /\ si_base ti = nbase /\
     tx_create (reset_txn c w nbase) = None /\ tx_ps (reset_txn c w nbase) = persistent w) \/
  ((forall ti, tail_info (st_segs w) = Some ti -> si_base ti <> nbase) /\ tx_create (reset_txn c w nbase) <> None /\
   tx_delete (reset_txn c w nbase) = match tail_info (st_segs w) with Some ti => [name_of ti] | None => [] end).
Proof.
  unfold reset_txn. destruct (tail_info _) as [t|].
  - destruct (si_base t =? nbase) eqn:Eb; [left; exists t; repeat split; lia|right].
    destruct (create_next _ _ _ _) as [[nid segs2] si]. split; [intros ti [= <-]; lia|split; [discriminate|reflexivity]].
  - right. destruct (create_next _ _ _ _) as [[nid segs2] si]. split; [discriminate|split; [discriminate|reflexivity]].
Qed.

Lemma sh_reset_first c w nbase ec r w' ec' dl : e_fault ec = None ->
  reset_first c w nbase ec = (r, w', ec', dl) -> shok ec ec'.
Proof.
  intros Hf. rewrite reset_first_eq. destruct (0 <? _); [intros [= _ _ <- _]; apply shok_refl; exact Hf|].
  apply sh_mutate_gen; exact Hf.
Qed.

Lemma reset_first_lock X c w nbase e ec r w1 e1 dl rc wc1 ec1 dlc : R X e ec ->
  reset_first c w nbase e = (r, w1, e1, dl) -> reset_first c w nbase ec = (rc, wc1, ec1, dlc) ->
  (r = rc /\ w1 = wc1 /\ dl = dlc /\ R X e1 ec1 /\
   (rc = ROk -> forall ti, tail_info (st_segs w) = Some ti -> si_base ti <> nbase ->
    dl = [name_of ti] /\ exists si, st_tail w1 = Some (new_wseg si) /\ lookup (name_of si) (dk_files (e_disk e)) = None) /\
   (rc <> ROk -> st_failed wc1 = true \/ (w1 = w /\ e1 = e /\ ec1 = ec))) \/
  (e_fault e1 = None /\ r = RErrIO /\ dl = [] /\ w1 = set_failed w /\
   (e_disk e1 = e_disk e \/
    (rc = ROk /\
     exists ps, post_commit X ec ec1 (e_disk e1) ps /\ dk_meta (e_disk ec1) = Some ps /\
                NoDup (map fst (dk_files (e_disk ec1))) /\
                (forall ti, tail_info (st_segs w) = Some ti -> si_base ti <> nbase -> dlc = [name_of ti]) /\
                (forall ti, tail_info (st_segs w) = Some ti -> si_base ti <> nbase)) \/
    (* the commit of the unchanged state landed *)
    ((exists ti, tail_info (st_segs w) = Some ti /\ si_base ti = nbase) /\
     e_disk e1 = apply_act (e_disk e) (ACommit (persistent w))) \/
    (rc <> ROk /\ st_failed wc1 = true))).
Proof.
  intros HR. rewrite !reset_first_eq. destruct (0 <? _).
  { intros [= <- <- <- <-] [= <- <- <- <-]. left.
    split; [reflexivity|]. split; [reflexivity|]. split; [reflexivity|]. split; [exact HR|]. split; [discriminate|auto]. }
  set (t := reset_txn c w nbase). intros E1 E2.
  pose proof (reset_txn_cases c w nbase) as Ht. fold t in Ht.
  destruct (mutate_gen_lock X true w t e ec _ _ _ _ _ _ _ _ HR E1 E2)
    as [(A & B & C & D & F)|(A & B & C & Ew & Hcf)].
  - left. split; [exact A|]. split; [exact B|]. split; [exact C|].
    split; [apply (Rd_nil X ec); unfold dels_of in D; destruct rc; exact D|]. split; [|intros K; left; apply F; exact K].
    intros Hr ti Hti Hne. subst rc r. destruct (mutate_gen_ok_facts _ _ _ _ _ _ _ E1) as (F1 & F2 & F3 & _).
    destruct Ht as [(ti' & Hti' & Hb & _)|(_ & Hc & Hd)]; [congruence|].
    rewrite F3, Hd, Hti. split; [reflexivity|].
    destruct (tx_create t) as [si|]; [exists si; split; [exact F1|apply F2; reflexivity]|contradiction].
  - right. split; [exact A|]. split; [exact B|]. split; [exact C|]. split; [exact Ew|].
    destruct Hcf as [D|[(D0 & D1 & D3 & D5 & _ & D7)|[(D0 & D1 & D2 & _)|D]]]; [left; exact D| | |right; right; right; exact D].
    + right. left. split; [exact D0|].
      destruct Ht as [(_ & _ & _ & Hc & _)|(Hne & _ & Hd)]; [contradiction|].
      exists (tx_ps t). split; [exact D3|]. split; [exact D5|]. split; [exact D7|]. split; [|exact Hne].
      intros ti Hti _. subst rc. destruct (mutate_gen_ok_facts _ _ _ _ _ _ _ E2) as (_ & _ & F3 & _). rewrite F3, Hd, Hti. reflexivity.
    + right. right. left. destruct Ht as [(ti & Hti & Hb & _ & Hps)|(_ & Hc & _)]; [|contradiction].
      split; [exists ti; auto|rewrite <- Hps; exact D2].
Qed.

(* the loop either stops before any I/O, or runs one Writer.Append on the tail *)
Lemma store_go_cases last ls w e r w' e' : store_go last ls w e = (r, w', e') ->
  (r <> ROk /\ w' = w /\ e' = e) \/
  exists tw tw1 e1, st_tail w = Some tw /\ seg_append tw ls e = (r, tw1, e1) /\ st_segs w' = st_segs w /\
    (e' = e1 \/ exists f, e' = add_m e1 f).
Proof.
  unfold store_go. destruct (check_logs last ls) as [res nbytes].
  destruct (result_ok_dec res) as [->|Hres]; [|rewrite (match_not_ok res _ _ Hres); intros [= <- <- <-]; left; auto].
  destruct (st_tail w) as [tw|]; [|intros [= <- <- <-]; left; split; [discriminate|auto]].
  destruct (seg_append tw ls e) as [[ra tw1] e1] eqn:Ea. intros H. right. exists tw, tw1, e1.
  destruct (result_ok_dec ra) as [->|Hra]; [|rewrite (match_not_ok ra _ _ Hra) in H]; injection H as <- <- <-;
    (split; [reflexivity|]); (split; [exact Ea|]); (split; [reflexivity|]); [right; eexists; reflexivity|left; reflexivity].
Qed.

Lemma sh_store_go last ls w ec r w' ec' : e_fault ec = None -> store_go last ls w ec = (r, w', ec') -> shok ec ec'.
Proof.
  intros Hf E. destruct (store_go_cases _ _ _ _ _ _ _ E) as [(_ & _ & ->)|(tw & tw1 & e1 & _ & Ea & _ & He)]; [apply shok_refl; exact Hf|].
  pose proof (sh_seg_append _ _ _ _ _ _ Hf Ea) as H1. destruct He as [->|(f & ->)]; exact H1.
Qed.

(* what the guards of Writer.Append have checked when it reaches its write *)
Definition app_facts (tw : wseg) (ls : list log) : Prop :=
  exists l0 lr, ls = l0 :: lr /\ l_index l0 = ws_base tw + ws_n tw /\ ws_index_start tw = 0.

(* the outcome of the loop: both runs agree, or the real append failed, with or without leaving
   its batch in the tail file *)
Definition store_go_out (X : list fname) (ls : list log) (w : wal) (e ec : env)
  (r : result) (w' : wal) (e' : env) (rc : result) (wc' : wal) (ec' : env) : Prop :=
  (r = rc /\ w' = wc' /\ R X e' ec' /\
   (rc = ROk -> ls <> [] -> forall tw, st_tail w = Some tw -> R (rem (ws_name tw) X) e' ec') /\
   (rc <> ROk -> e' = e /\ ec' = ec /\ w' = w)) \/
  (rc = ROk /\ ls <> [] /\ r = RErrIO /\ w' = w /\ e_fault e' = None /\
   exists tw, st_tail w = Some tw /\ app_facts tw ls /\
     (e_disk e' = e_disk e \/
      (drel (rem (ws_name tw) X) (e_disk e') (apply_act (e_disk ec) (append_act tw ls)) /\
       pfx ec ec' (apply_act (e_disk ec) (append_act tw ls))))).

Lemma store_go_lock X last ls w e ec r w' e' rc wc' ec' : R X e ec ->
  (forall tw, st_tail w = Some tw -> In (ws_name tw) X -> wguard (e_disk e) (ws_name tw) (ws_off tw)) ->
  store_go last ls w e = (r, w', e') -> store_go last ls w ec = (rc, wc', ec') ->
  store_go_out X ls w e ec r w' e' rc wc' ec'.
Proof.
  intros HR Hg. unfold store_go. destruct (check_logs last ls) as [res nbytes].
  assert (Hsame : forall r0, r0 <> ROk -> (r0, w, e) = (r, w', e') -> (r0, w, ec) = (rc, wc', ec') ->
    store_go_out X ls w e ec r w' e' rc wc' ec').
  { intros r0 Hne [= <- <- <-] [= <- <- <-]. left. split; [reflexivity|]. split; [reflexivity|]. split; [exact HR|].
    split; [intros K; contradiction|auto]. }
  unfold store_go_out in *. destruct (result_ok_dec res) as [->|Hres]; [|rewrite !(match_not_ok res _ _ Hres); apply Hsame; exact Hres].
  destruct (st_tail w) as [tw|] eqn:Et; [|apply Hsame; discriminate].
  rewrite !seg_append_eq. destruct (append_act_form tw ls) as (l & b & Ea). rewrite Ea.
  pose proof (append_guard_cases tw ls) as Hc.
  destruct (guarded_write _ _ tw _ e) as [[r1 tw1] e1] eqn:E1. destruct (guarded_write _ _ tw _ ec) as [[rc1 twc1] ec1] eqn:E2.
  destruct (guarded_write_lock X _ tw _ _ l b e ec _ _ _ _ _ _ HR (Hg tw eq_refl) E1 E2) as [(-> & -> & B3 & B4)|(Eg & -> & -> & -> & F & D)].
  - destruct (append_guard tw ls) as [r0|].
    + (* no I/O *)
      destruct B4 as (-> & -> & -> & ->).
      destruct (result_ok_dec r0) as [->|Hr0]; [|rewrite !(match_not_ok r0 _ _ Hr0); apply Hsame; exact Hr0].
      intros [= <- <- <-] [= <- <- <-]. left. split; [reflexivity|]. split; [reflexivity|]. split; [exact HR|].
      split; [intros _ Hne; elim Hne; apply Hc; reflexivity|congruence].
    + destruct B4 as (-> & B4). intros [= <- <- <-] [= <- <- <-]. left. split; [reflexivity|]. split; [reflexivity|].
      split; [exact B3|]. split; [intros _ _ tw' [= <-]; exact B4|congruence].
  - rewrite Eg in Hc. intros [= <- <- <-] [= <- <- <-]. right.
    split; [reflexivity|]. split; [destruct Hc as (l0 & lr & -> & _); discriminate|]. split; [reflexivity|]. split; [reflexivity|].
    split; [exact F|]. exists tw. split; [reflexivity|]. split; [exact Hc|]. rewrite Ea.
    destruct D as [D|(D1 & D2)]; [left; exact D|right]. split; [exact D1|]. eapply pfx_more; [exact D2|apply aext_add_m].
Qed.

Lemma sh_store_logs c w ls ec r w' ec' : e_fault ec = None -> store_logs c w ls ec = (r, w', ec') -> shok ec ec'.
Proof.
  intros Hf. rewrite store_logs_unfold. destruct (st_closed w); [intros [= <- <- <-]; apply shok_refl; exact Hf|].
  destruct ls as [|l0 ls']; [intros [= <- <- <-]; apply shok_refl; exact Hf|].
  destruct (st_failed w); [intros [= <- <- <-]; apply shok_refl; exact Hf|]. cbv zeta.
  destruct (tail_info _) as [ti|]; [|intros [= <- <- <-]; apply shok_refl; exact Hf].
  destruct (_ && _); [|apply sh_store_go; exact Hf].
  destruct (reset_first c w (l_index l0) ec) as [[[r1 w1] e1] dels] eqn:Er.
  pose proof (sh_reset_first _ _ _ _ _ _ _ _ Hf Er) as H1.
  destruct (result_ok_dec r1) as [->|Hr1]; [|rewrite (match_not_ok r1 _ _ Hr1); intros [= _ _ <-]; exact H1].
  destruct (store_go _ _ w1 e1) as [[r2 w2] e2] eqn:Eg. pose proof (sh_store_go _ _ _ _ _ _ _ (proj2 H1) Eg) as H2.
  intros [= _ _ <-]. eapply shok_trans; [exact H1|]. eapply shok_trans; [exact H2|].
  apply sh_delete_files. apply H2.
Qed.

Lemma update_keys_same n f l g : lookup n l = Some g -> map fst (update n f l) = map fst l.
Proof.
  induction l as [|[m h] r IH]; cbn [lookup update map fst]; [discriminate|].
  destruct (fname_eqb n m) eqn:E; cbn [map fst]; [apply fname_eqb_eq in E; subst; reflexivity|].
  intros H. rewrite IH; auto.
Qed.

Lemma write_sync_keys d a : (match a with AWrite _ _ _ _ | ASync _ => True | _ => False end) ->
  map fst (dk_files (apply_act d a)) = map fst (dk_files d) /\ dk_meta (apply_act d a) = dk_meta d.
Proof.
  destruct a as [n sz|n off l b|n|n|ps|k v| | |a']; intros H; try destruct H; cbn [apply_act];
    (destruct (lookup n (dk_files d)) as [f|] eqn:E; [|auto]); cbn [dk_files dk_meta];
    (split; [eapply update_keys_same; eauto|reflexivity]).
Qed.

Lemma sh_store_go_keys last ls w ec r w' ec' : e_fault ec = None -> store_go last ls w ec = (r, w', ec') ->
  map fst (dk_files (e_disk ec')) = map fst (dk_files (e_disk ec)) /\ dk_meta (e_disk ec') = dk_meta (e_disk ec).
Proof.
  intros Hf E. destruct (store_go_cases _ _ _ _ _ _ _ E) as [(_ & _ & ->)|(tw & tw1 & e1 & _ & Ea & _ & He)]; [auto|].
  assert (H1 : map fst (dk_files (e_disk e1)) = map fst (dk_files (e_disk ec)) /\ dk_meta (e_disk e1) = dk_meta (e_disk ec)).
  { revert Ea. rewrite seg_append_eq. unfold guarded_write. destruct (append_guard tw ls); [intros [= _ _ <-]; auto|].
    destruct (append_act_form tw ls) as (l & b & ->). rewrite (write_sync_ok _ _ _ Hf). intros [= _ _ <-]. cbn [io_env e_disk].
    destruct (write_sync_keys (e_disk ec) (AWrite (ws_name tw) (ws_off tw) l b) I) as (K1 & K2).
    destruct (write_sync_keys (apply_act (e_disk ec) (AWrite (ws_name tw) (ws_off tw) l b)) (ASync (ws_name tw)) I) as (K3 & K4).
    split; congruence. }
  destruct He as [->|(f & ->)]; exact H1.
Qed.

(* what the real run of a failed StoreLogs leaves behind (A to D: the cases of commit_failed for
   the transaction of reset_first) *)
Definition store_failed (X : list fname) (c : cfg) (w : wal) (ls : list log) (e ec : env)
  (w' : wal) (e' : env) (rc : result) (wc' : wal) (ec' : env) : Prop :=
  (* the append failed and changed nothing *)
  (w' = w /\ e_disk e' = e_disk e) \/
  (* A, C: the commit of the reset failed: nothing on the disk changed (but for a commit of
     the unchanged state that landed) *)
  (w' = set_failed w /\
   (e_disk e' = e_disk e \/ e_disk e' = apply_act (e_disk e) (ACommit (persistent w)))) \/
  (* D *) st_failed wc' = true \/
  (* B *)
  (w' = set_failed w /\
   exists ps ti, post_commit X ec ec' (e_disk e') ps /\ dk_meta (e_disk ec') = Some ps /\
                 tail_info (st_segs w) = Some ti /\ lookup (name_of ti) (dk_files (e_disk ec')) = None) \/
  (* the fsync of the append failed: its batch is left pending in the tail file *)
  (w' = w /\ rc = ROk /\ ls <> [] /\
   exists tw, st_tail w = Some tw /\ app_facts tw ls /\
     drel (rem (ws_name tw) X) (e_disk e') (apply_act (e_disk ec) (append_act tw ls)) /\
     pfx ec ec' (apply_act (e_disk ec) (append_act tw ls))) \/
  (* the reset went through in both runs, the append to the new tail failed (with or without
     leaving its batch: [dm]) *)
  (exists l0 ls' w1 ec1 tw1 dm ti,
     ls = l0 :: ls' /\ reset_first c w (l_index l0) ec = (ROk, w1, ec1, [name_of ti]) /\ w' = w1 /\ st_tail w1 = Some tw1 /\
     tail_info (st_segs w) = Some ti /\ st_closed w = false /\ st_failed w = false /\
     (last_index (st_segs w) (st_tail w) =? 0) && negb (l_index l0 =? si_base ti) = true /\
     app_facts tw1 ls /\
     rc = ROk /\ (dm = e_disk ec1 \/ dm = apply_act (e_disk ec1) (append_act tw1 ls)) /\
     pfx ec ec' dm /\ pfx ec ec' (e_disk ec1) /\ lookup (ws_name tw1) (dk_files (e_disk e)) = None /\
     (* the old tail was deleted, or (deletions fail) it stays *)
     (drel (rem (name_of ti) X) (e_disk e') (del_disk [name_of ti] dm) \/ drel X (e_disk e') dm)).

Lemma del_disk_drel X ns : forall d dc, drel X d dc -> drel X (del_disk ns d) (del_disk ns dc).
Proof.
  induction ns as [|n ns IH]; intros d dc H; [exact H|].
  unfold del_disk. cbn [fold_left]. apply IH. apply drel_act_simple; [exact I|exact H].
Qed.

(* the outcome of a StoreLogs: both runs agree, or the real run failed *)
Definition store_out (X : list fname) (c : cfg) (w : wal) (ls : list log) (e ec : env)
  (r : result) (w' : wal) (e' : env) (rc : result) (wc' : wal) (ec' : env) : Prop :=
  (r = rc /\ w' = wc' /\
   ((w' = w /\ e' = e /\ ec' = ec) \/ st_failed wc' = true \/
    (exists tw, st_tail w = Some tw /\ rc = ROk /\ R (rem (ws_name tw) X) e' ec') \/
    (exists ti, tail_info (st_segs w) = Some ti /\ Rd X [name_of ti] ec e' ec'))) \/
  (e_fault e' = None /\ r = RErrIO /\ store_failed X c w ls e ec w' e' rc wc' ec').

Lemma store_out_same X c w ls e ec r0 r w' e' rc wc' ec' :
  (r0, w, e) = (r, w', e') -> (r0, w, ec) = (rc, wc', ec') -> store_out X c w ls e ec r w' e' rc wc' ec'.
Proof. intros [= <- <- <-] [= <- <- <-]. left. auto 10. Qed.

Lemma store_logs_lock X c w ls e ec r w' e' rc wc' ec' : R X e ec ->
  (forall tw, st_tail w = Some tw -> In (ws_name tw) X -> wguard (e_disk e) (ws_name tw) (ws_off tw)) ->
  (forall n, In n X -> lookup n (dk_files (e_disk e)) <> None) ->
  store_logs c w ls e = (r, w', e') -> store_logs c w ls ec = (rc, wc', ec') ->
  store_out X c w ls e ec r w' e' rc wc' ec'.
Proof.
  intros HR Hg Hex. rewrite !store_logs_unfold.
  destruct (st_closed w) eqn:Ecl; [apply store_out_same|].
  destruct ls as [|l0 ls']; [apply store_out_same|].
  set (ls := l0 :: ls') in *.
  destruct (st_failed w) eqn:Efl; [apply store_out_same|]. cbv zeta.
  destruct (tail_info _) as [ti|] eqn:Eti; [|apply store_out_same].
  destruct (_ && _) eqn:Ereset.
  2:{ intros E1 E2. destruct (store_go_lock X _ ls w e ec _ _ _ _ _ _ HR Hg E1 E2) as [(A & B & C & D & D')|(A & B & C & D & E & tw & Et & Ef & F)].
      - left. split; [exact A|]. split; [exact B|].
        destruct (result_ok_dec rc) as [->|Hrc]; [|left; destruct (D' Hrc) as (-> & -> & ->); auto].
        destruct (st_tail w) as [tw|] eqn:Et.
        + right. right. left. exists tw. split; [reflexivity|]. split; [reflexivity|]. apply (D eq_refl ltac:(discriminate) tw eq_refl).
        + exfalso. unfold store_go in E2. rewrite Et in E2. destruct (check_logs _ ls) as [[] ?]; discriminate E2.
      - right. split; [exact E|]. split; [exact C|]. destruct F as [F|(F1 & F2)].
        + left. auto.
        + right. right. right. right. left. split; [exact D|]. split; [exact A|]. split; [exact B|]. exists tw. auto. }
  destruct (reset_first c w (l_index l0) e) as [[[r1 w1] e1] dels] eqn:Er.
  destruct (reset_first c w (l_index l0) ec) as [[[rc1 wc1] ec1] delsc] eqn:Erc.
  assert (Hbase : si_base ti <> l_index l0) by lia.
  pose proof (sh_reset_first _ _ _ _ _ _ _ _ (proj2 HR) Erc) as Hsh1.
  (* the runs can part at the reset's commit, at the creation behind it, or at the append's write or
     fsync; from there the shadow goes on alone, and [pfx], [post_commit] place the real disk on its trace *)
  destruct (reset_first_lock X c w (l_index l0) e ec _ _ _ _ _ _ _ _ HR Er Erc)
    as [(-> & -> & -> & B & C & C')|(A & -> & -> & -> & [C|[(-> & ps & C1 & C3 & C5 & C4 & _)|[((t0 & Kt & Kb) & _)|(Kr & Kf)]]])].
  - destruct (result_ok_dec rc1) as [->|Hrc1].
    2:{ rewrite !(match_not_ok rc1 _ _ Hrc1). intros [= <- <- <-] [= <- <- <-]. left. split; [reflexivity|]. split; [reflexivity|].
        destruct (C' Hrc1) as [K|(-> & -> & ->)]; [right; left; exact K|left; auto]. }
    destruct (C eq_refl ti Eti Hbase) as (-> & si & Ctail & Hl).
    destruct (store_go _ ls wc1 e1) as [[r2 w2] e2] eqn:Eg. destruct (store_go _ ls wc1 ec1) as [[rc2 wc2] ec2] eqn:Egc.
    (* the append after the reset writes to the file the reset created; that name was not on the
       disk before and every name in X was (Hex), so no stale batch can sit at its offset *)
    assert (Hg1 : forall tw, st_tail wc1 = Some tw -> In (ws_name tw) X -> wguard (e_disk e1) (ws_name tw) (ws_off tw)).
    { intros tw Ht Ho. exfalso. rewrite Ctail in Ht. inversion Ht; subst tw. cbn [new_wseg ws_name] in Ho. apply (Hex _ Ho). exact Hl. }
    pose proof (sh_store_go _ _ _ _ _ _ _ (proj2 Hsh1) Egc) as Hsh2.
    pose proof (proj1 (sh_delete_files [name_of ti] ec2 (proj2 Hsh2))) as D2'.
    destruct (store_go_lock X _ ls wc1 e1 ec1 _ _ _ _ _ _ B Hg1 Eg Egc) as [(-> & -> & G3 & G4 & _)|(-> & G0 & -> & -> & G3 & tw & Et & Gf & G4)];
      set (e3 := delete_files [name_of ti] e2); set (ec3 := delete_files [name_of ti] ec2);
      intros [= <- <- <-] [= <- <- <-]; subst e3 ec3.
    + left. split; [reflexivity|]. split; [reflexivity|]. right. right. right. exists ti. split; [exact Eti|].
      apply (delete_files_Rd X [name_of ti] e2 ec2 ec G3). eapply aext_trans; [apply Hsh1|apply Hsh2].
    + right. destruct (delete_files_real [name_of ti] e2) as (D3 & _ & D4).
      split; [rewrite D3; exact G3|]. split; [reflexivity|]. right. right. right. right. right.
      assert (Hp1 : pfx ec (delete_files [name_of ti] ec2) (e_disk ec1)).
      { eapply pfx_more; [apply pfx_end; apply Hsh1|eapply aext_trans; [apply Hsh2|exact D2']]. }
      assert (Hfresh : lookup (ws_name tw) (dk_files (e_disk e)) = None) by (rewrite Ctail in Et; inversion Et; subst tw; exact Hl).
      (* the old tail is deleted from whatever disk the append left, unless deletions fail *)
      assert (Hdel : forall dm, drel X (e_disk e2) dm ->
                drel (rem (name_of ti) X) (e_disk (delete_files [name_of ti] e2)) (del_disk [name_of ti] dm) \/
                drel X (e_disk (delete_files [name_of ti] e2)) dm).
      { intros dm Hd. rewrite D4. destruct (del_fails e2); [right; exact Hd|left].
        unfold del_disk. cbn [fold_left]. apply drel_delete_stale. exact Hd. }
      destruct G4 as [G4|(G4 & G5)].
      * exists l0, ls', wc1, ec1, tw, (e_disk ec1), ti. repeat (split; [first [reflexivity|eassumption|left; reflexivity]|]).
        apply Hdel. rewrite G4. apply B.
      * exists l0, ls', wc1, ec1, tw, (apply_act (e_disk ec1) (append_act tw ls)), ti.
        repeat (split; [first [reflexivity|eassumption|right; reflexivity]|]).
        split; [eapply pfx_shift; [apply Hsh1|]; eapply pfx_more; [exact G5|exact D2']|].
        split; [exact Hp1|]. split; [exact Hfresh|]. apply Hdel. eapply drel_rem_weaken; exact G4.
  - intros [= <- <- <-] _. right. split; [exact A|]. split; [reflexivity|]. right. left. auto.
  - (* the real run stopped behind the reset's commit; the shadow still appends and deletes the old tail.
       Neither touches the metadata, and the append keeps the file names (sh_store_go_keys) *)
    intros [= <- <- <-] E2. right. split; [exact A|]. split; [reflexivity|]. right. right. right. left. split; [reflexivity|].
    exists ps, ti.
    destruct (store_go _ ls wc1 ec1) as [[rc2 wc2] ec2] eqn:Egc.
    pose proof (sh_store_go _ _ _ _ _ _ _ (proj2 Hsh1) Egc) as Hsh2.
    destruct (sh_store_go_keys _ _ _ _ _ _ _ (proj2 Hsh1) Egc) as (K1 & K2).
    specialize (C4 ti Eti Hbase). subst delsc. set (ec3 := delete_files [name_of ti] ec2) in E2. injection E2 as <- <- <-. subst ec3.
    assert (Ha2 : aext ec1 (delete_files [name_of ti] ec2)) by (eapply aext_trans; [apply Hsh2|]; apply sh_delete_files; apply Hsh2).
    split.
    { destruct C1 as (dm & P1 & P2 & P3 & P4 & P5). exists dm. split; [exact P1|]. split; [eapply pfx_more; eauto|]. auto. }
    rewrite (delete_files_disk _ _ (proj2 Hsh2)). destruct (del_disk_meta [name_of ti] (e_disk ec2)) as (M1 & _).
    split; [rewrite M1, K2; exact C3|]. split; [exact Eti|].
    rewrite del_disk_lookup by (rewrite K1; exact C5). cbn [mem_name existsb]. rewrite fname_eqb_refl. reflexivity.
  - exfalso. rewrite Eti in Kt. inversion Kt; subst t0. contradiction.
  - rewrite (match_not_ok rc1 _ _ Kr). intros [= <- <- <-] [= <- <- <-]. right. split; [exact A|]. split; [reflexivity|]. right. right. left. exact Kf.
Qed.

Lemma sh_truncate_head c w nm ec r w' ec' : e_fault ec = None -> truncate_head c w nm ec = (r, w', ec') -> shok ec ec'.
Proof.
  intros Hf. unfold truncate_head. destruct (head_scan _ _ _ _ _) as [[[rest del] ntr] head].
  destruct head as [h|].
  - intros E. eapply shok_trans; [apply shok_add_m; exact Hf|]. eapply sh_mutate; [|exact E]. exact Hf.
  - destruct (create_next _ _ _ _) as [[nid segs2] si].
    intros E. eapply shok_trans; [apply shok_add_m; exact Hf|]. eapply sh_mutate; [|exact E]. exact Hf.
Qed.

(* no segment before the last one carries the name [n]: a deletion of those leaves the tail's file *)
Definition keeps_tail (w : wal) (n : fname) : Prop :=
  forall sk r, st_segs w = sk ++ r -> r <> [] -> ~ In n (map name_of sk).

(* what a successful DeleteRange did to the tail [ti] of [w]: it is still the tail, with
   the same writer and (if its name is unique) the same file; or it was unlisted and is
   among the names [ns] the call deleted or tried to delete *)
Definition tail_fate (w : wal) (e : env) (wc' : wal) (e' : env) (ns : list fname) : Prop :=
  forall ti, tail_info (st_segs w) = Some ti ->
    (exists ti', tail_info (st_segs wc') = Some ti' /\ name_of ti' = name_of ti /\ st_tail wc' = st_tail w /\
                 (keeps_tail w (name_of ti) -> lookup (name_of ti) (dk_files (e_disk e')) = lookup (name_of ti) (dk_files (e_disk e)))) \/
    In (name_of ti) ns.

(* a failed state transaction: the WAL refuses writes; on the disk nothing changed, or the
   transaction is committed and the new tail file is missing (then the tail of [w] is among
   the files the shadow run deleted), or the commit of a transaction that creates nothing
   landed (the real run stopped before the trailing deletions [ns]), or the shadow run failed as
   well: the cases A to D of commit_failed *)
Definition txn_failed (X : list fname) (w0 w : wal) (e ec : env) (w' : wal) (e' : env)
  (rc : result) (wc' : wal) (ec' : env) : Prop :=
  w' = set_failed w0 /\
  ((* A *) e_disk e' = e_disk e \/
   (* B *)
   (exists ps, post_commit X ec ec' (e_disk e') ps /\ dk_meta (e_disk ec') = Some ps /\
               (forall ti, tail_info (st_segs w) = Some ti -> si_sealed ti = false ->
                           lookup (name_of ti) (dk_files (e_disk ec')) = None)) \/
   (* C *)
   (exists ps ns, rc = ROk /\ e_disk e' = apply_act (e_disk e) (ACommit ps) /\ landed X ns ec e' ec' /\
                  tail_fate w e wc' e' ns) \/
   (* D *) (rc <> ROk /\ st_failed wc' = true)).

Lemma tail_info_cons_ne s l : l <> [] -> tail_info (s :: l) = tail_info l.
Proof. unfold tail_info. destruct l; [congruence|reflexivity]. Qed.
Lemma tail_info_app_ne a l : l <> [] -> tail_info (a ++ l) = tail_info l.
Proof. intros H. induction a as [|x a IH]; [reflexivity|]. cbn [app]. rewrite tail_info_cons_ne; [exact IH|]. destruct a; cbn; [exact H|discriminate]. Qed.

Lemma mutate_ok_lookup w t e w' e' n : mutate w t e = (ROk, w', e') -> tx_create t = None ->
  ~ In n (tx_delete t) -> NoDup (map fst (dk_files (e_disk e))) ->
  lookup n (dk_files (e_disk e')) = lookup n (dk_files (e_disk e)).
Proof.
  unfold mutate, mutate_gen. fold (tx_ps t). intros E Hn Hnot ND. rewrite Hn in E.
  destruct (io_cases3 (ACommit (tx_ps t)) e eq_refl) as [(e1 & E1 & D & _)|[(e1 & E1 & _)|(e1 & E1 & _)]]; rewrite E1 in E; cbn [negb] in E; [|inversion E..].
  inversion E; subst. destruct (delete_files_real (tx_delete t) e1) as (_ & _ & K). rewrite K, D.
  destruct (del_fails e1); [reflexivity|]. rewrite del_disk_lookup by exact ND.
  replace (mem_name n (tx_delete t)) with false; [reflexivity|]. symmetry.
  destruct (mem_name n (tx_delete t)) eqn:Em; [|reflexivity]. apply mem_name_spec in Em. contradiction.
Qed.

Lemma mutate_ok_facts w t e w' e' : mutate w t e = (ROk, w', e') ->
  st_segs w' = tx_segs t /\ (tx_create t = None -> st_tail w' = tx_tail t).
Proof.
  unfold mutate. destruct (mutate_gen false w t e) as [[[r0 w1] e0] d0] eqn:Eg. intros [= -> <- _].
  destruct (mutate_gen_ok_facts _ _ _ _ _ _ _ Eg) as (F1 & _ & _ & F4 & _). split; [exact F4|]. intros Hn. rewrite Hn in F1. exact F1.
Qed.

(* a state transaction that creates a new tail and deletes [del], under the simulation *)
Definition creating_failed (X : list fname) (w0 : wal) (del : list fname) (e ec : env) (w' : wal) (e' : env)
  (rc : result) (wc' : wal) (ec' : env) : Prop :=
  w' = set_failed w0 /\
  (e_disk e' = e_disk e \/
   (exists ps, post_commit X ec ec' (e_disk e') ps /\ dk_meta (e_disk ec') = Some ps /\
               forall n, In n del -> lookup n (dk_files (e_disk ec')) = None) \/
   (rc <> ROk /\ st_failed wc' = true)).

Lemma creating_mutate_lock X w0 t del e ec r w' e' rc wc' ec' : tx_create t <> None -> tx_delete t = del -> R X e ec ->
  mutate w0 t e = (r, w', e') -> mutate w0 t ec = (rc, wc', ec') ->
  (r = rc /\ w' = wc' /\ (rc <> ROk -> st_failed wc' = true) /\ Rd X (match rc with ROk => del | _ => [] end) ec e' ec') \/
  (e_fault e' = None /\ r = RErrIO /\ creating_failed X w0 del e ec w' e' rc wc' ec').
Proof.
  intros Hcr Hdl HR E1 E2.
  destruct (mutate_lock X w0 _ _ _ _ _ _ _ _ _ HR E1 E2) as [(A & B & C & F)|(A & B & Ew & Hcf)].
  - left. split; [exact A|]. split; [exact B|]. split; [exact F|]. unfold dels_of in C. rewrite Hdl in C. exact C.
  - right. split; [exact A|]. split; [exact B|]. split; [exact Ew|].
    destruct Hcf as [D|[(_ & _ & D3 & D5 & D6 & _)|[(_ & D1 & _)|D]]]; [left; exact D| |contradiction|right; right; exact D].
    right. left. eexists. split; [exact D3|]. split; [exact D5|]. rewrite <- Hdl. exact (D6 eq_refl).
Qed.

Lemma creating_failed_txn X w del e ec e0 ec0 w' e' rc wc' ec' :
  e_disk e0 = e_disk e -> aext ec ec0 -> e_disk ec0 = e_disk ec ->
  (forall ti, tail_info (st_segs w) = Some ti -> si_sealed ti = false -> In (name_of ti) del) ->
  creating_failed X w del e0 ec0 w' e' rc wc' ec' -> txn_failed X w w e ec w' e' rc wc' ec'.
Proof.
  intros He Ha Hec Hall (Ew & Hcf). split; [exact Ew|].
  destruct Hcf as [D|[(ps & D1 & D2 & D3)|D]]; [left; congruence| |right; right; right; exact D].
  right. left. exists ps. split; [eapply post_commit_shift; eauto|]. split; [exact D2|].
  intros ti Hti Hus. exact (D3 _ (Hall ti Hti Hus)).
Qed.

Lemma truncate_head_lock X c w nm e ec r w' e' rc wc' ec' : R X e ec ->
  truncate_head c w nm e = (r, w', e') -> truncate_head c w nm ec = (rc, wc', ec') ->
  (r = rc /\ w' = wc' /\ (rc <> ROk -> st_failed wc' = true) /\
   exists ns, Rd X (match rc with ROk => ns | _ => [] end) ec e' ec' /\ (rc = ROk -> tail_fate w e wc' e' ns)) \/
  (e_fault e' = None /\ r = RErrIO /\ txn_failed X w w e ec w' e' rc wc' ec').
Proof.
  intros HR. unfold truncate_head. destruct (head_scan _ _ _ _ _) as [[[rest del] ntr] head] eqn:Ehs.
  destruct (head_scan_inv _ _ _ _ _ _ _ _ _ Ehs) as (sk & Hsegs & Hdel & Hhead & _). cbn [app] in Hdel.
  destruct head as [h|].
  - destruct rest as [|h0 r0]; inversion Hhead; subst h0. intros E1 E2.
    (* the tail of [w] stays the tail *)
    assert (Hfate : forall h' ex, name_of h' = name_of h -> si_base h' = si_base h ->
              st_segs wc' = seg_set h' (h :: r0) -> st_tail wc' = st_tail w ->
              (forall ti, tail_info (st_segs w) = Some ti -> keeps_tail w (name_of ti) ->
                          lookup (name_of ti) (dk_files (e_disk ex)) = lookup (name_of ti) (dk_files (e_disk e))) ->
              tail_fate w e wc' ex del).
    { intros h' ex Hn' Hb' E1' E2' Hkeep ti Hti. left. rewrite E1'. cbn [seg_set]. rewrite Hb', N.ltb_irrefl, N.eqb_refl.
      pose proof (Hkeep ti Hti) as Hk.
      rewrite Hsegs in Hti. rewrite tail_info_app_ne in Hti by discriminate.
      destruct r0 as [|x r0].
      - cbn in Hti. inversion Hti; subst ti. eexists. split; [reflexivity|]. split; [exact Hn'|]. split; [exact E2'|exact Hk].
      - rewrite tail_info_cons_ne in Hti by discriminate. exists ti. rewrite tail_info_cons_ne by discriminate. auto. }
    destruct (mutate_lock X w _ (add_m e _) (add_m ec _) _ _ _ _ _ _ HR E1 E2) as [(A & B & C & F)|(A & B & Ew & Hcf)].
    + left. split; [exact A|]. split; [exact B|]. split; [exact F|]. exists del. split; [exact C|]. intros Hr. subst rc r w'.
      destruct (mutate_ok_facts _ _ _ _ _ E2) as (E1' & E2'). specialize (E2' eq_refl).
      eapply Hfate; [| |exact E1'|exact E2'|]; [reflexivity|reflexivity|].
      intros ti Hti Hk.
      (* the deletions spare the tail's file if no earlier segment shares its name; no invariant is known
         here, so that stays the premise keeps_tail (FaultDelete.keeps_tail_view supplies it) *)
      rewrite (mutate_ok_lookup _ _ _ _ _ (name_of ti) E1 eq_refl); [reflexivity| |apply (drel_NoDup _ _ _ (proj1 HR))].
      cbn [tx_delete]. rewrite Hdel. apply (Hk sk (h :: r0) Hsegs ltac:(discriminate)).
    + (* with a head left truncateHeadLocked creates nothing (no postCommit): the runs part at the commit
         only, B is out, and a commit that failed but landed (C) changed the metadata and no file *)
      right. split; [exact A|]. split; [exact B|]. split; [exact Ew|].
      destruct Hcf as [D|[(_ & D1 & _)|[(C1 & _ & C3 & _ & _ & C4 & C5 & C6)|D]]];
        [left; exact D|elim (D1 eq_refl)| |right; right; right; exact D].
      right. right. left. eexists _, del. split; [exact C1|]. split; [exact C3|]. split; [exact C4|].
      eapply Hfate; [| |exact C5|exact C6|]; [reflexivity|reflexivity|].
      intros ti _ _. rewrite C3. reflexivity.
  - destruct rest; [|discriminate Hhead]. rewrite app_nil_r in Hsegs. subst sk.
    destruct (create_next _ _ _ _) as [[nid segs2] si]. intros E1 E2.
    assert (Hall : forall ti, tail_info (st_segs w) = Some ti -> In (name_of ti) del).
    { intros ti Hti. rewrite Hdel. apply in_map_iff. exists ti. split; [reflexivity|]. apply tail_info_In. exact Hti. }
    destruct (creating_mutate_lock X w {| tx_next_id := nid; tx_segs := segs2; tx_delete := del; tx_create := Some si; tx_tail := None |}
                del (add_m e _) (add_m ec _) _ _ _ _ _ _ ltac:(discriminate) eq_refl HR E1 E2) as [(A & B & F & C)|(A & B & C)].
    + left. split; [exact A|]. split; [exact B|]. split; [exact F|]. exists del. split; [exact C|].
      intros _ ti Hti. right. exact (Hall ti Hti).
    + right. split; [exact A|]. split; [exact B|].
      apply (creating_failed_txn X w del e ec _ _ _ _ _ _ _ eq_refl (aext_add_m _ _) eq_refl (fun ti Hti _ => Hall ti Hti) C).
Qed.

Definition set_tail (w : wal) (t : option wseg) : wal :=
  {| st_next_id := st_next_id w; st_segs := st_segs w; st_tail := t; st_rotate := st_rotate w;
     st_failed := st_failed w; st_closed := st_closed w |}.

Lemma set_tail_id w : set_tail w (st_tail w) = w.
Proof. destruct w; reflexivity. Qed.

Lemma tail_info_rev l t : tail_info l = Some t -> exists r, rev l = t :: r.
Proof.
  intros H. destruct (list_eq_dec_nil l) as [->|Hne]; [discriminate|].
  destruct (exists_last Hne) as (l' & x & ->). rewrite tail_info_app in H. inversion H; subst.
  rewrite rev_app_distr. cbn. eexists. reflexivity.
Qed.

(* the state transaction of a tail truncation: a new tail segment after the segments
   [segs1] that stay, the files [del] deleted *)
Definition tt_txn (c : cfg) (w : wal) (segs1 : list seginfo) (del : list fname) : txn :=
  let '(nid, segs2, si) := create_next c (st_next_id w) segs1 0 in
  {| tx_next_id := nid; tx_segs := segs2; tx_delete := del; tx_create := Some si; tx_tail := None |}.

Lemma mutate_tt c w w0 segs1 del e :
  mutate w0 (tt_txn c w segs1 del) e =
  let '(nid, segs2, si) := create_next c (st_next_id w) segs1 0 in
  mutate w0 {| tx_next_id := nid; tx_segs := segs2; tx_delete := del; tx_create := Some si; tx_tail := None |} e.
Proof. unfold tt_txn. destruct (create_next _ _ _ _) as [[nid segs2] si]. reflexivity. Qed.

Lemma tt_txn_facts c w segs1 del : tx_create (tt_txn c w segs1 del) <> None /\ tx_delete (tt_txn c w segs1 del) = del.
Proof. unfold tt_txn. destruct (create_next _ _ _ _) as [[nid segs2] si]. split; [discriminate|reflexivity]. Qed.

(* truncateTailLocked: the segments [sk] above the new end go; what stays is empty, or ends
   in a sealed segment, or ends in the tail, which is then sealed first *)
Lemma truncate_tail_cases c w nm :
  exists sk rrest, rev (st_segs w) = sk ++ rrest /\
    match rrest with
    | [] => forall e, truncate_tail c w nm e = mutate w (tt_txn c w [] (map name_of sk)) e
    | t :: _ =>
        if si_sealed t then
          exists f segs1, forall e, truncate_tail c w nm e = mutate w (tt_txn c w segs1 (map name_of sk)) (add_m e f)
        else
          match st_tail w with
          | None => forall e, truncate_tail c w nm e = (RErrOther, w, e)
          | Some tw =>
              exists f segs1, forall e, truncate_tail c w nm e =
                let '(r, tw', e1) := seg_force_seal tw e in
                match r with
                | ROk => mutate (set_tail w (Some tw')) (tt_txn c w (segs1 tw') (map name_of sk)) (add_m e1 f)
                | _ => (r, set_tail w (Some tw'), e1)
                end
          end
    end.
Proof.
  unfold truncate_tail. destruct (tail_scan _ _ _ _ _) as [[rrest del] ntr] eqn:Ets.
  destruct (tail_scan_inv _ _ _ _ _ _ _ _ Ets) as (sk & Hrev & Hdel & _). cbn [app] in Hdel. subst del.
  exists sk, rrest. split; [exact Hrev|]. destruct rrest as [|t rr]; [intros e; rewrite mutate_tt; reflexivity|].
  destruct (si_sealed t).
  - eexists _, _. intros e. rewrite mutate_tt. fold (set_tail w (st_tail w)). rewrite set_tail_id. reflexivity.
  - destruct (st_tail w) as [tw|]; [|reflexivity]. eexists _, _. intros e.
    destruct (seg_force_seal tw e) as [[r tw'] e1].
    destruct (result_ok_dec r) as [->|Hr]; [rewrite mutate_tt; reflexivity|rewrite !(match_not_ok r _ _ Hr); reflexivity].
Qed.

(* the tail of [w] is among the segments that go, unless what stays ends in it *)
Lemma scan_tail_deleted w sk rrest ti : rev (st_segs w) = sk ++ rrest -> tail_info (st_segs w) = Some ti ->
  match rrest with [] => True | t :: _ => si_sealed t = true /\ si_sealed ti = false end -> In (name_of ti) (map name_of sk).
Proof.
  intros Hrev Hti Hr. destruct (tail_info_rev _ _ Hti) as (r0 & Hr0). rewrite Hr0 in Hrev.
  destruct sk as [|x sk]; cbn [app] in Hrev; [subst rrest; destruct Hr; congruence|].
  injection Hrev as <- _. left. reflexivity.
Qed.

Lemma sh_truncate_tail c w nm ec r w' ec' : e_fault ec = None -> truncate_tail c w nm ec = (r, w', ec') -> shok ec ec'.
Proof.
  intros Hf. destruct (truncate_tail_cases c w nm) as (sk & rrest & _ & Hcase). destruct rrest as [|t rr].
  - rewrite Hcase. apply sh_mutate. exact Hf.
  - destruct (si_sealed t).
    + destruct Hcase as (f & segs1 & ->). apply (sh_mutate _ _ (add_m ec f)). exact Hf.
    + destruct (st_tail w) as [tw|]; [|rewrite Hcase; intros [= _ _ <-]; apply shok_refl; exact Hf].
      destruct Hcase as (f & segs1 & ->).
      destruct (seg_force_seal tw ec) as [[r1 tw1] e1] eqn:Efs. pose proof (sh_seg_force_seal _ _ _ _ _ Hf Efs) as H1.
      destruct (result_ok_dec r1) as [->|Hr1]; [|rewrite (match_not_ok r1 _ _ Hr1); intros [= _ _ <-]; exact H1].
      intros E. eapply shok_trans; [exact H1|]. apply (sh_mutate _ _ (add_m e1 f) _ _ _ (proj2 H1) E).
Qed.

Definition tail_failed (X : list fname) (w : wal) (e ec : env) (w' : wal) (e' : env)
  (rc : result) (wc' : wal) (ec' : env) : Prop :=
  txn_failed X w w e ec w' e' rc wc' ec' \/
  (exists tw, st_tail w = Some tw /\ ws_index_start tw = 0 /\ ws_n tw <> 0 /\ w' = w /\
     (e_disk e' = e_disk e \/
      (drel (rem (ws_name tw) X) (e_disk e') (apply_act (e_disk ec) (force_act tw)) /\
       pfx ec ec' (apply_act (e_disk ec) (force_act tw))))) \/
  (exists tw tw' e1 ec1 X',
     st_tail w = Some tw /\ seg_force_seal tw ec = (ROk, tw', ec1) /\ seg_force_seal tw e = (ROk, tw', e1) /\
     R X' e1 ec1 /\ (X' = X \/ (ws_index_start tw = 0 /\ X' = rem (ws_name tw) X)) /\
     (ws_index_start tw = 0 -> X' = rem (ws_name tw) X) /\ shok ec ec1 /\
     w' = set_failed (set_tail w (Some tw')) /\
     ((e_disk e' = e_disk e1 /\ pfx ec ec' (e_disk ec1)) \/
      (exists ps, post_commit X' ec1 ec' (e_disk e') ps /\ dk_meta (e_disk ec') = Some ps) \/
      (rc <> ROk /\ st_failed wc' = true))).

(* the outcome of a tail truncation: both runs agree, or the real run failed *)
Definition tail_out (X : list fname) (w : wal) (e ec : env) (r : result) (w' : wal) (e' : env)
  (rc : result) (wc' : wal) (ec' : env) : Prop :=
  (r = rc /\ w' = wc' /\
   (rc <> ROk -> st_failed wc' = true \/ (w' = w /\ e' = e /\ ec' = ec)) /\
   (rc = ROk -> exists ns X', Rd X' ns ec e' ec' /\ incl X' X /\
      forall ti tw, tail_info (st_segs w) = Some ti -> si_sealed ti = false ->
         st_tail w = Some tw -> ws_name tw = name_of ti -> ws_index_start tw = 0 -> ~ In (name_of ti) X' \/ In (name_of ti) ns)) \/
  (e_fault e' = None /\ r = RErrIO /\ tail_failed X w e ec w' e' rc wc' ec').

Lemma truncate_tail_lock X c w nm e ec r w' e' rc wc' ec' : R X e ec ->
  (forall tw, st_tail w = Some tw -> In (ws_name tw) X -> wguard (e_disk e) (ws_name tw) (ws_off tw)) ->
  truncate_tail c w nm e = (r, w', e') -> truncate_tail c w nm ec = (rc, wc', ec') ->
  tail_out X w e ec r w' e' rc wc' ec'.
Proof.
  intros HR Hg. destruct (truncate_tail_cases c w nm) as (sk & rrest & Hrev & Hcase).
  set (del := map name_of sk) in *. pose proof (fun ti => scan_tail_deleted w sk rrest ti Hrev) as Hgone. fold del in Hgone.
  (* the state transaction runs at once, from [w] *)
  assert (Hsite : forall t0 e0 ec0, tx_create t0 <> None -> tx_delete t0 = del -> R X e0 ec0 ->
            e_disk e0 = e_disk e -> aext ec ec0 -> e_disk ec0 = e_disk ec ->
            (forall ti, tail_info (st_segs w) = Some ti -> si_sealed ti = false -> In (name_of ti) del) ->
            mutate w t0 e0 = (r, w', e') -> mutate w t0 ec0 = (rc, wc', ec') -> tail_out X w e ec r w' e' rc wc' ec').
  { intros t0 e0 ec0 Hcr Hdl HR0 He Ha Hec Hall E1 E2.
    destruct (creating_mutate_lock X w t0 del _ _ _ _ _ _ _ _ Hcr Hdl HR0 E1 E2) as [(A & B & F & C)|(A & B & C)].
    - left. split; [exact A|]. split; [exact B|]. split; [intros K; left; exact (F K)|].
      intros Hr. rewrite Hr in C. exists del, X. split; [eapply Rd_shift; [exact Ha|exact C]|]. split; [apply incl_refl|].
      intros ti tw Hti Hus _ _ _. right. exact (Hall ti Hti Hus).
    - right. split; [exact A|]. split; [exact B|]. left.
      exact (creating_failed_txn X w del e ec e0 ec0 _ _ _ _ _ He Ha Hec Hall C). }
  destruct rrest as [|t rr].
  - rewrite !Hcase. destruct (tt_txn_facts c w [] del) as (Hcr & Hdl).
    apply (Hsite _ e ec Hcr Hdl HR eq_refl (aext_refl ec) eq_refl). intros ti Hti _. exact (Hgone ti Hti I).
  - destruct (si_sealed t) eqn:Eseal.
    + destruct Hcase as (f & segs1 & Hcase). rewrite !Hcase. destruct (tt_txn_facts c w segs1 del) as (Hcr & Hdl).
      apply (Hsite _ (add_m e f) (add_m ec f) Hcr Hdl HR eq_refl (aext_add_m ec f) eq_refl).
      intros ti Hti Hus. exact (Hgone ti Hti (conj eq_refl Hus)).
    + (* the one shape with I/O before the transaction: ForceSeal writes the index block.  A failure there
         returns from the transaction function with [w] not marked failed (second case of tail_failed) *)
      clear Hsite. destruct (st_tail w) as [tw|] eqn:Etw.
      2:{ rewrite !Hcase. intros [= <- <- <-] [= <- <- <-]; left. split; [reflexivity|]. split; [reflexivity|].
          split; [intros _; right; auto|discriminate]. }
      destruct Hcase as (f & segs1 & Hcase). rewrite !Hcase.
      destruct (seg_force_seal tw e) as [[r1 tw1] e1] eqn:Efs. destruct (seg_force_seal tw ec) as [[rc1 twc1] ec1] eqn:Efsc.
      pose proof (sh_seg_force_seal _ _ _ _ _ (proj2 HR) Efsc) as (A1 & A2).
      pose proof (force_guard_cases tw) as Hc. pose proof Efs as G1. pose proof Efsc as G2.
      rewrite seg_force_seal_eq in G1, G2. destruct (force_act_form tw) as (l & b & Ea). rewrite Ea in G1, G2.
      destruct (guarded_write_lock X _ tw _ _ l b e ec _ _ _ _ _ _ HR (Hg tw eq_refl) G1 G2) as [(-> & -> & B3 & B4)|(Eg & -> & -> & -> & B3 & B4)].
      * destruct (result_ok_dec rc1) as [->|Hrc1].
        2:{ rewrite !(match_not_ok rc1 _ _ Hrc1). destruct (force_guard tw) as [r0|]; [|destruct B4; contradiction].
            destruct B4 as (_ & -> & -> & ->). rewrite <- Etw, set_tail_id.
            intros [= <- <- <-] [= <- <- <-]. left. split; [reflexivity|]. split; [reflexivity|].
            split; [intros _; right; auto|contradiction]. }
        (* a seal written and synced in both runs takes the tail's name out of X; on a writer sealed
           already ForceSeal does no I/O and X stays.  ws_index_start tw = 0 tells the two apart *)
        assert (Ho' : exists X', R X' e1 ec1 /\ (X' = X \/ (ws_index_start tw = 0 /\ X' = rem (ws_name tw) X)) /\
                                 (ws_index_start tw = 0 -> X' = rem (ws_name tw) X)).
        { destruct (force_guard tw) as [r0|].
          - destruct B4 as (<- & _). exists X. split; [exact B3|]. split; [left; reflexivity|]. intros K. elim (Hc eq_refl K).
          - destruct Hc as (Z & _). exists (rem (ws_name tw) X). split; [apply B4|]. split; [right; auto|auto]. }
        destruct Ho' as (X' & HR1 & Ho' & Ho'').
        intros E1 E2.
        destruct (tt_txn_facts c w (segs1 twc1) del) as (Hcr & Hdl).
        destruct (creating_mutate_lock X' _ _ del (add_m e1 f) (add_m ec1 f) _ _ _ _ _ _ Hcr Hdl HR1 E1 E2) as [(A & B & F & C)|(A & B & Ew & Hcf)].
        -- left. split; [exact A|]. split; [exact B|]. split; [intros K; left; exact (F K)|].
           intros Hr. rewrite Hr in C. exists del, X'. split; [eapply Rd_shift; [exact A1|]; eapply Rd_shift; [apply aext_add_m|exact C]|].
           split; [destruct Ho' as [->|(_ & ->)]; [apply incl_refl|apply rem_incl]|].
           intros ti tw0 Hti Hus Htw0 Hname His. rewrite Etw in Htw0. injection Htw0 as <-. left. rewrite (Ho'' His), <- Hname. apply rem_not.
        -- right. split; [exact A|]. split; [exact B|]. right. right.
           exists tw, twc1, e1, ec1, X'. split; [exact Etw|]. split; [exact Efsc|]. split; [exact Efs|]. split; [exact HR1|].
           split; [exact Ho'|]. split; [exact Ho''|]. split; [split; [exact A1|exact A2]|]. split; [exact Ew|].
           destruct Hcf as [D|[(ps & D1 & D2 & _)|D]];
             [left|right; left; exists ps; split; [eapply post_commit_shift; [apply aext_add_m|reflexivity|exact D1]|exact D2]|right; right; exact D].
           split; [exact D|]. eapply pfx_more; [apply pfx_end; exact A1|]. apply (sh_mutate _ _ (add_m ec1 f) _ _ _ A2 E2).
      * rewrite Eg in Hc. destruct Hc as (B0 & Bn). rewrite <- Ea in B4. intros [= <- <- <-] E2. right.
        split; [exact B3|]. split; [reflexivity|]. right. left. exists tw. split; [exact Etw|]. split; [exact B0|]. split; [exact Bn|].
        split; [rewrite <- Etw; apply set_tail_id|].
        destruct B4 as [B4|(B4 & B5)]; [left; exact B4|right; split; [exact B4|]].
        eapply pfx_more; [exact B5|]. apply (sh_mutate _ _ (add_m ec1 f) _ _ _ A2 E2).
Qed.

Lemma sh_delete_range c w mn mx ec r w' ec' : e_fault ec = None -> delete_range c w mn mx ec = (r, w', ec') -> shok ec ec'.
Proof.
  intros Hf. unfold delete_range. destruct (st_closed w); [intros [= <- <- <-]; apply shok_refl; exact Hf|].
  destruct (mx <? mn); [intros [= <- <- <-]; apply shok_refl; exact Hf|].
  destruct (st_failed w); [intros [= <- <- <-]; apply shok_refl; exact Hf|]. cbv zeta.
  destruct (_ || _); [intros [= <- <- <-]; apply shok_refl; exact Hf|].
  destruct (mn <=? _); [apply sh_truncate_head; exact Hf|].
  destruct (_ <=? mx); [apply sh_truncate_tail; exact Hf|].
  intros [= <- <- <-]; apply shok_refl; exact Hf.
Qed.

(* the outcome of a DeleteRange on which both runs agree *)
Definition delete_same (X : list fname) (w : wal) (e ec : env) (rc : result) (wc' : wal) (e' ec' : env) : Prop :=
  (rc <> ROk -> st_failed wc' = true \/ (wc' = w /\ e' = e /\ ec' = ec)) /\
  (rc = ROk ->
     (wc' = w /\ e' = e /\ ec' = ec) \/
     (* head truncation: the stale set is unchanged; the tail survives or is among ns *)
     (exists ns, Rd X ns ec e' ec' /\ tail_fate w e wc' e' ns) \/
     (* tail truncation: the tail was written (forced seal) or is among ns *)
     (exists ns X', Rd X' ns ec e' ec' /\ incl X' X /\
        forall ti tw, tail_info (st_segs w) = Some ti -> si_sealed ti = false ->
           st_tail w = Some tw -> ws_name tw = name_of ti -> ws_index_start tw = 0 -> ~ In (name_of ti) X' \/ In (name_of ti) ns)).

Lemma delete_range_lock X c w mn mx e ec r w' e' rc wc' ec' : R X e ec ->
  (forall tw, st_tail w = Some tw -> In (ws_name tw) X -> wguard (e_disk e) (ws_name tw) (ws_off tw)) ->
  delete_range c w mn mx e = (r, w', e') -> delete_range c w mn mx ec = (rc, wc', ec') ->
  (r = rc /\ w' = wc' /\ delete_same X w e ec rc wc' e' ec') \/
  (e_fault e' = None /\ r = RErrIO /\ tail_failed X w e ec w' e' rc wc' ec').
Proof.
  intros HR Hg. unfold delete_range.
  assert (Hsame : forall r0, (r0, w, e) = (r, w', e') -> (r0, w, ec) = (rc, wc', ec') ->
    (r = rc /\ w' = wc' /\ delete_same X w e ec rc wc' e' ec') \/
    (e_fault e' = None /\ r = RErrIO /\ tail_failed X w e ec w' e' rc wc' ec')).
  { intros r0 E1 E2. inversion E1; inversion E2; subst. left. split; [reflexivity|]. split; [reflexivity|].
    split; [intros _; right; auto|intros _; left; auto]. }
  destruct (st_closed w); [apply Hsame|]. destruct (mx <? mn); [apply Hsame|]. destruct (st_failed w); [apply Hsame|]. cbv zeta.
  destruct (_ || _); [apply Hsame|].
  destruct (mn <=? _).
  - intros E1 E2. destruct (truncate_head_lock X c w _ e ec _ _ _ _ _ _ HR E1 E2) as [(A & B & F & ns & C & D)|(A & B & C)].
    + left. split; [exact A|]. split; [exact B|]. split; [intros K; left; apply F; exact K|].
      intros Hr. rewrite Hr in C. right. left. exists ns. split; [exact C|apply D; exact Hr].
    + right. split; [exact A|]. split; [exact B|]. left. exact C.
  - destruct (_ <=? mx); [|apply Hsame].
    intros E1 E2. destruct (truncate_tail_lock X c w _ e ec _ _ _ _ _ _ HR Hg E1 E2) as [(A & B & F & D)|F].
    + left. split; [exact A|]. split; [exact B|]. subst w'. split; [exact F|]. intros Hr. right. right. apply (D Hr).
    + right. exact F.
Qed.

Lemma sh_set_stable w k v nl ec r ec' : e_fault ec = None -> set_stable w k v nl ec = (r, ec') -> shok ec ec'.
Proof.
  intros Hf. unfold set_stable. destruct (st_closed w); [intros [= <- <-]; apply shok_refl; exact Hf|].
  assert (H0 : shok ec (inc_stable ec true)) by (unfold inc_stable; apply shok_add_m; exact Hf).
  destruct (negb (key_ok k)); [intros [= <- <-]; exact H0|].
  rewrite (io_ok _ (inc_stable ec true) Hf). intros [= <- <-].
  eapply shok_trans; [exact H0|apply shok_io].
Qed.

Lemma set_stable_lock X w k v nl e ec r e' rc ec' : R X e ec ->
  set_stable w k v nl e = (r, e') -> set_stable w k v nl ec = (rc, ec') ->
  (r = rc /\ R X e' ec') \/
  (e_fault e' = None /\ r = RErrIO /\ rc = ROk /\ (e_disk e' = e_disk e \/ R X e' ec')).
Proof.
  intros HR. unfold set_stable. destruct (st_closed w); [intros [= <- <-] [= <- <-]; left; auto|].
  destruct (negb (key_ok k)); [intros [= <- <-] [= <- <-]; left; split; [reflexivity|exact HR]|].
  assert (HR0 : R X (inc_stable e true) (inc_stable ec true)) by exact HR.
  destruct (io_lock X (ASetStable k v) _ _ HR0 (conj I eq_refl)) as (Ec & [(e1 & Er & HR1 & _)|[(e1 & Er & D & F & _)|(e1 & Er & _ & HR1 & _ & F & _)]]); rewrite Ec, Er;
    intros [= <- <-] [= <- <-]; [left; auto|right; auto|right; auto].
Qed.

(* Open (reads file contents: needs the strict relation) *)
Lemma drel_cur d dc n : drel [] d dc ->
  match lookup n (dk_files d), lookup n (dk_files dc) with
  | Some f, Some g => cur_ents f = cur_ents g /\ cur_end f = cur_end g /\ cur_seal f = cur_seal g
  | None, None => True
  | _, _ => False
  end.
Proof.
  intros (H1 & _ & _ & _ & _ & H6). pose proof (lrel_lookup n _ _ H1) as K.
  destruct (lookup n (dk_files d)) as [f|] eqn:Ef, (lookup n (dk_files dc)) as [g|] eqn:Eg; auto.
  destruct K as (K1 & K2 & K3 & _). specialize (H6 n f g Ef Eg ltac:(intros [])).
  unfold cur_ents, cur_end, cur_seal. rewrite H6, K1, K2, K3. auto.
Qed.

Lemma seg_recover_rel si e ec : drel [] (e_disk e) (e_disk ec) -> seg_recover si e = seg_recover si ec.
Proof.
  intros H. unfold seg_recover. pose proof (drel_cur _ _ (name_of si) H) as K.
  destruct (lookup _ (dk_files (e_disk e))) as [f|], (lookup _ (dk_files (e_disk ec))) as [g|]; [|destruct K|destruct K|reflexivity].
  destruct K as (K1 & K2 & K3). rewrite K1, K2, K3. reflexivity.
Qed.

Lemma sh_open_segs c : forall segs acc ec r sl tl ec', e_fault ec = None ->
  open_segs c segs acc ec = (r, sl, tl, ec') -> shok ec ec'.
Proof.
  induction segs as [|si segs IH]; intros acc ec r sl tl ec' Hf; cbn [open_segs].
  - intros [= <- <- <- <-]. apply shok_refl; exact Hf.
  - destruct (negb (si_codec si =? c_codec c)); [intros [= <- <- <- <-]; apply shok_refl; exact Hf|].
    destruct (negb (si_sealed si)).
    + destruct segs; [|intros [= <- <- <- <-]; apply shok_refl; exact Hf].
      destruct (seg_recover si ec) as [x|].
      * destruct x as [sw|]; [|intros [= <- <- <- <-]; apply shok_refl; exact Hf].
        destruct (0 <? _); intros [= <- <- <- <-]; apply shok_refl; exact Hf.
      * destruct (seg_create si ec) as [sw e1] eqn:Es. pose proof (sh_seg_create _ _ _ _ Hf Es) as H1.
        destruct sw as [sw|]; [|intros [= <- <- <- <-]; exact H1].
        destruct (0 <? _); intros [= <- <- <- <-]; exact H1.
    + destruct (lookup _ _) as [f|]; [|intros [= <- <- <- <-]; apply shok_refl; exact Hf].
      destruct (cur_end f =? 0); [intros [= <- <- <- <-]; apply shok_refl; exact Hf|]. apply IH. exact Hf.
Qed.

(* Open failed: the real disk is related to a disk the shadow run passes through *)
Definition open_failed (e1 ec1 : env) (res : open_res) (e' ec' : env) : Prop :=
  (exists x, res = OErr x) /\ exists dm, drel [] (e_disk e') dm /\ pfx ec1 ec' dm.

Lemma open_segs_lock c : forall segs acc e ec r sl tl e' rc slc tlc ec', R [] e ec ->
  open_segs c segs acc e = (r, sl, tl, e') -> open_segs c segs acc ec = (rc, slc, tlc, ec') ->
  (r = rc /\ sl = slc /\ tl = tlc /\ R [] e' ec') \/
  (r = RErrIO /\ exists dm, drel [] (e_disk e') dm /\ pfx ec ec' dm).
Proof.
  induction segs as [|si segs IH]; intros acc e ec r sl tl e' rc slc tlc ec' HR; cbn [open_segs].
  - intros [= <- <- <- <-] [= <- <- <- <-]. left. auto.
  - destruct (negb (si_codec si =? c_codec c)); [intros [= <- <- <- <-] [= <- <- <- <-]; left; auto|].
    destruct (negb (si_sealed si)).
    + destruct segs; [|intros [= <- <- <- <-] [= <- <- <- <-]; left; auto].
      rewrite (seg_recover_rel si e ec (proj1 HR)).
      destruct (seg_recover si ec) as [x|].
      * destruct x as [sw|]; [|intros [= <- <- <- <-] [= <- <- <- <-]; left; auto].
        destruct (0 <? _); intros [= <- <- <- <-] [= <- <- <- <-]; left; auto.
      * destruct (seg_create si e) as [sw e1] eqn:Es. destruct (seg_create si ec) as [swc ec1] eqn:Esc.
        destruct (seg_create_lock [] si e ec _ _ _ _ HR Es Esc) as (A1 & A2 & [(-> & HR1)|(-> & -> & F & Dc & Hreal)]).
        -- destruct swc as [sw|]; [|intros [= <- <- <- <-] [= <- <- <- <-]; left; auto].
           destruct (0 <? _); intros [= <- <- <- <-] [= <- <- <- <-]; left; auto.
        -- intros E1 E2. inversion E1; subst. right. split; [reflexivity|].
           assert (Hec' : ec' = ec1) by (cbn [new_wseg ws_index_start] in E2; change (0 <? 0) with false in E2; inversion E2; reflexivity).
           subst ec'.
           destruct Hreal as [Hd|Hd].
           ++ exists (e_disk ec). split; [rewrite Hd; apply HR|apply pfx_start; exact A1].
           ++ exists (e_disk ec1). split; [exact Hd|apply pfx_end; exact A1].
    + pose proof (drel_cur _ _ (name_of si) (proj1 HR)) as K.
      destruct (lookup _ (dk_files (e_disk e))) as [f|], (lookup _ (dk_files (e_disk ec))) as [g|];
        [|destruct K|destruct K|intros [= <- <- <- <-] [= <- <- <- <-]; left; auto].
      destruct K as (_ & K2 & _). rewrite K2.
      destruct (cur_end g =? 0); [intros [= <- <- <- <-] [= <- <- <- <-]; left; auto|].
      apply IH. exact HR.
Qed.

(* the outcome of an Open on which both runs agree: related, up to the garbage
   collection at its end (which fails as a whole while deletion faults are armed) *)
Definition open_same (ec0 : env) (e' ec' : env) : Prop := exists ns, Rd [] ns ec0 e' ec'.

(* Open creates a new tail: the metadata commit, the file creation, the garbage collection *)
Definition newtail_si (c : cfg) (nid : N) (segs : list seginfo) : seginfo :=
  new_segment c nid (match tail_info segs with Some t => (si_max t + 1) mod two64 | None => 1 end).
Definition newtail_ps (c : cfg) (nid : N) (segs : list seginfo) : pstate :=
  {| ps_next_id := (nid + 1) mod two64; ps_segs := seg_set (newtail_si c nid segs) segs |}.

Lemma sh_open_newtail c nid segs garbage ec res ec' : e_fault ec = None ->
  open_newtail c nid segs garbage ec = (res, ec') -> shok (io_env (ACommit (newtail_ps c nid segs)) ec) ec'.
Proof.
  intros Hf. unfold open_newtail. fold (newtail_si c nid segs). fold (newtail_ps c nid segs). rewrite (io_ok _ _ Hf). cbn [negb].
  destruct (seg_create _ _) as [sw ec3] eqn:Es. pose proof (sh_seg_create _ _ _ _ (io_env_fault _ _) Es) as H3.
  destruct sw; intros [= _ <-]; [|exact H3]. eapply shok_trans; [exact H3|]. apply sh_delete_files. apply H3.
Qed.

Lemma open_newtail_lock c nid segs garbage e1 ec1 res e' resc ec' : R [] e1 ec1 ->
  open_newtail c nid segs garbage e1 = (res, e') -> open_newtail c nid segs garbage ec1 = (resc, ec') ->
  (res = resc /\ open_same ec1 e' ec') \/ open_failed e1 ec1 res e' ec'.
Proof.
  intros HR E1 E2. pose proof (sh_open_newtail _ _ _ _ _ _ _ (proj2 HR) E2) as (Hsh & _). revert E1 E2.
  unfold open_newtail. fold (newtail_si c nid segs). fold (newtail_ps c nid segs).
  set (ps := newtail_ps c nid segs) in *.
  destruct (io_lock [] (ACommit ps) e1 ec1 HR (conj I eq_refl)) as (Ec & [(e2 & Er & HR2 & _)|[(e2 & Er & D & F & _)|(e2 & Er & _ & HR2 & D & F & _)]]);
    rewrite Ec, Er; cbn [negb]; set (ec2 := io_env (ACommit ps) ec1) in *.
  - destruct (seg_create _ e2) as [sw e3] eqn:Es. destruct (seg_create _ ec2) as [swc ec3] eqn:Esc.
    destruct (seg_create_lock [] _ e2 ec2 _ _ _ _ HR2 Es Esc) as (A1 & A2 & [(-> & HR3)|(-> & -> & F & Dc & Hreal)]).
    + destruct swc as [sw|]; intros [= <- <-] [= <- <-]; left; [|split; [reflexivity|exists []; left; exact HR3]].
      split; [reflexivity|]. exists garbage. apply (delete_files_Rd [] garbage e3 ec3 ec1 HR3).
      eapply aext_trans; [apply aext_io|exact A1].
    + intros [= <- <-] [= _ <-]. right. split; [eexists; reflexivity|].
      pose proof (proj1 (sh_delete_files garbage ec3 A2)) as Ha3.
      destruct Hreal as [Hd|Hd].
      * exists (e_disk ec2). split; [rewrite Hd; apply HR2|]. eapply pfx_more; [apply (pfx_end ec1 ec2); apply aext_io|exact Hsh].
      * exists (e_disk ec3). split; [exact Hd|].
        eapply pfx_more; [apply (pfx_end ec1 ec3); eapply aext_trans; [apply aext_io|exact A1]|exact Ha3].
  - intros [= <- <-] _. right. split; [eexists; reflexivity|].
    exists (e_disk ec1). split; [rewrite D; apply HR|]. apply pfx_start. eapply aext_trans; [apply aext_io|exact Hsh].
  - (* the commit landed *)
    intros [= <- <-] _. right. split; [eexists; reflexivity|].
    exists (e_disk ec2). split; [apply HR2|]. eapply pfx_more; [apply (pfx_end ec1 ec2); apply aext_io|exact Hsh].
Qed.

Lemma sh_open_rest c ec res ec' : e_fault ec = None -> open_rest c ec = (res, ec') -> shok ec ec'.
Proof.
  intros Hf. unfold open_rest.
  destruct (open_segs c _ [] ec) as [[[r segs] tail] ec1] eqn:Eo. pose proof (sh_open_segs _ _ _ _ _ _ _ _ Hf Eo) as H1.
  destruct (result_ok_dec r) as [->|Hr]; [|rewrite (match_not_ok r _ _ Hr); intros [= _ <-]; exact H1].
  destruct tail as [tw|].
  - intros [= _ <-]. eapply shok_trans; [exact H1|]. apply sh_delete_files. apply H1.
  - intros E. eapply shok_trans; [exact H1|]. eapply shok_trans; [apply shok_io|apply (sh_open_newtail _ _ _ _ _ _ _ (proj2 H1) E)].
Qed.

Lemma open_same_shift ec0 ec1 e' ec' : aext ec0 ec1 -> open_same ec1 e' ec' -> open_same ec0 e' ec'.
Proof. intros Ha (ns & H). exists ns. eapply Rd_shift; eauto. Qed.

Lemma open_failed_shift e0 e1 ec0 ec1 res e' ec' : aext ec0 ec1 -> open_failed e1 ec1 res e' ec' -> open_failed e0 ec0 res e' ec'.
Proof. intros Ha (A & dm & B & C). split; [exact A|]. exists dm. split; [exact B|eapply pfx_shift; eauto]. Qed.

Lemma open_rest_lock c e0 ec0 res e' resc ec' : R [] e0 ec0 ->
  open_rest c e0 = (res, e') -> open_rest c ec0 = (resc, ec') ->
  (res = resc /\ open_same ec0 e' ec') \/ open_failed e0 ec0 res e' ec'.
Proof.
  intros HR. unfold open_rest. pose proof HR as ((Hl & Hm & _) & Hf). rewrite Hm, (lrel_keys _ _ Hl).
  set (ps := match dk_meta (e_disk ec0) with Some ps => ps | None => {| ps_next_id := 0; ps_segs := [] |} end).
  destruct (open_segs c (ps_segs ps) [] e0) as [[[r segs] tail] e1] eqn:Eo.
  destruct (open_segs c (ps_segs ps) [] ec0) as [[[rc segsc] tailc] ec1] eqn:Eoc.
  pose proof (sh_open_segs _ _ _ _ _ _ _ _ Hf Eoc) as H1.
  destruct (open_segs_lock c _ _ _ _ _ _ _ _ _ _ _ _ HR Eo Eoc) as [(-> & -> & -> & HR1)|(-> & dm & D1 & D2)].
  - destruct (result_ok_dec rc) as [->|Hrc].
    2:{ rewrite !(match_not_ok rc _ _ Hrc). intros [= <- <-] [= <- <-]. left. split; [reflexivity|exists []; left; exact HR1]. }
    destruct tailc as [tw|].
    + intros [= <- <-] [= <- <-]. left. split; [reflexivity|].
      eexists. apply (delete_files_Rd [] _ e1 ec1 ec0 HR1). apply H1.
    + intros E1 E2. destruct (open_newtail_lock c _ _ _ e1 ec1 _ _ _ _ HR1 E1 E2) as [(G1 & G2)|G].
      * left. split; [exact G1|]. eapply open_same_shift; [apply H1|exact G2].
      * right. eapply open_failed_shift; [apply H1|exact G].
  - intros [= <- <-] E2. right. split; [eexists; reflexivity|].
    exists dm. split; [exact D1|]. eapply pfx_more; [exact D2|].
    (* the shadow run continues after open_segs *)
    destruct (result_ok_dec rc) as [->|Hrc]; [|rewrite (match_not_ok rc _ _ Hrc) in E2; injection E2 as _ <-; apply aext_refl].
    destruct tailc as [tw|].
    + injection E2 as _ <-. apply sh_delete_files. apply H1.
    + eapply aext_trans; [apply aext_io|apply (sh_open_newtail _ _ _ _ _ _ _ (proj2 H1) E2)].
Qed.

Lemma sh_open_wal c ec res ec' : e_fault ec = None -> open_wal c ec = (res, ec') -> shok ec ec'.
Proof.
  intros Hf. rewrite open_wal_unfold. destruct (_ && _); [intros [= <- <-]; apply shok_refl; exact Hf|].
  destruct (dk_inited (e_disk ec)); cbn [negb].
  - unfold armed. rewrite Hf. cbn [andb]. apply sh_open_rest; exact Hf.
  - rewrite (io_ok _ _ Hf). cbn [negb]. change (armed (io_env AInitMeta ec) && fx_list (e_fx (io_env AInitMeta ec))) with false. cbv iota.
    intros E. eapply shok_trans; [apply shok_io|]. eapply sh_open_rest; [|exact E]. reflexivity.
Qed.

Lemma open_wal_lock c e ec res e' resc ec' : R [] e ec ->
  open_wal c e = (res, e') -> open_wal c ec = (resc, ec') ->
  (res = resc /\ open_same ec e' ec') \/ open_failed e ec res e' ec'.
Proof.
  intros HR. rewrite !open_wal_unfold. destruct (_ && _); [intros [= <- <-] [= <- <-]; left; split; [reflexivity|exists []; left; exact HR]|].
  pose proof HR as ((_ & _ & _ & Hin & _) & Hf). rewrite Hin.
  assert (Hlist : forall e0 ec0, R [] e0 ec0 -> aext ec ec0 ->
            (if armed e0 && fx_list (e_fx e0) then (OErr RErrIO, list_failed e0) else open_rest c e0) = (res, e') ->
            open_rest c ec0 = (resc, ec') ->
            (res = resc /\ open_same ec e' ec') \/ open_failed e ec res e' ec').
  { intros e0 ec0 HR0 Ha E1 E2. destruct (armed e0 && fx_list (e_fx e0)).
    - inversion E1; subst. right. split; [eexists; reflexivity|]. exists (e_disk ec0). split; [apply HR0|].
      eapply pfx_shift; [exact Ha|]. apply pfx_start. eapply sh_open_rest; [apply HR0|exact E2].
    - destruct (open_rest_lock c _ _ _ _ _ _ HR0 E1 E2) as [(G1 & G2)|G].
      + left. split; [exact G1|]. eapply open_same_shift; eauto.
      + right. eapply open_failed_shift; eauto. }
  destruct (dk_inited (e_disk ec)).
  - cbn [negb]. unfold armed at 2. rewrite Hf. cbn [andb]. apply (Hlist e ec HR (aext_refl ec)).
  - destruct (io_lock [] AInitMeta e ec HR (conj I eq_refl)) as (Ec & [(e1 & Er & HR1 & _)|[(e1 & Er & D & F & _)|(e1 & _ & K & _)]]); [| |discriminate K]; rewrite Ec, Er; cbn [negb].
    + change (armed (io_env AInitMeta ec) && fx_list (e_fx (io_env AInitMeta ec))) with false. cbv iota.
      apply (Hlist e1 _ HR1 (aext_io _ _)).
    + change (armed (io_env AInitMeta ec) && fx_list (e_fx (io_env AInitMeta ec))) with false. cbv iota.
      intros E1 E2. inversion E1; subst. right. split; [eexists; reflexivity|].
      exists (e_disk ec). split; [rewrite D; apply HR|]. apply pfx_start.
      eapply aext_trans; [apply aext_io|]. eapply sh_open_rest; [|exact E2]. reflexivity.
Qed.
