(* SeqFactsCor.v -- consequences of the sequential refinement theorem stated
   in plain terms (C05 corollaries, C12 store/get). *)
From RW Require Import Base.Bytes Base.BytesFacts Fmt.Codec Fmt.CodecFacts Fmt.Frame
  Wal.Model Wal.Spec Wal.Hist Wal.SeqInv Wal.ModelFacts Wal.SeqFactsBase Wal.SeqFactsAbs Wal.SeqFactsTxn Wal.SeqFactsOps1
  Wal.SeqFactsOps2 Wal.SeqFactsOps3 Wal.SeqFactsMain Gen.Constants Base.LiaSetup.
Open Scope N_scope.

Lemma sinv_log c s : SInv c s ->
  let a := s_abs s in
  Forall log_ok (sl_ents a) /\
  (sl_is_empty a = true -> sl_ents a = []) /\
  (sl_is_empty a = false ->
     1 <= sl_first a /\ spec_last a + 1 = sl_first a + llen (sl_ents a) /\ spec_last a + 1 < two64 /\
     sl_first a <= spec_last a /\ consecutive (sl_first a) (sl_ents a) = true).
Proof.
  intros (He & ss & t & tw & HI). cbv zeta. unfold s_abs.
  destruct (abs_props _ _ _ _ _ _ HI) as (Hsf & Hsl & Hemp & Hok & Hne).
  split; [exact Hok|]. split.
  - unfold sl_is_empty. destruct (sl_ents _); [reflexivity|discriminate].
  - intros Hnz. assert (HL0 : last_index (st_segs (ss_wal s)) (st_tail (ss_wal s)) <> 0).
    { intros E. apply Hemp in E. congruence. }
    destruct (Hne HL0) as (Ha & HFm & HF1 & HFL & HLlen & HL1 & Hcons).
    rewrite Hsl. rewrite Ha in *. cbn [sl_first sl_ents] in *. repeat split; auto.
Qed.

(* in a contiguous log an entry is found under its own index *)
Lemma spec_get_in a l :
  sl_is_empty a = false -> consecutive (sl_first a) (sl_ents a) = true -> In l (sl_ents a) ->
  spec_get a (l_index l) = Some l.
Proof.
  intros Hne Hc Hin. assert (Hpos := consecutive_In_nth _ _ _ Hc Hin).
  apply In_nth_error in Hin. destruct Hin as [k Hk].
  assert (Hik := consecutive_nth _ _ _ _ Hc Hk).
  assert (Hklen : (k < length (sl_ents a))%nat) by (apply nth_error_Some; congruence).
  unfold spec_get, spec_last. rewrite Hne. cbn [orb]. unfold llen.
  destruct (N.ltb_spec (l_index l) (sl_first a)); [lia|]. cbn [orb].
  destruct (N.ltb_spec (sl_first a + N.of_nat (length (sl_ents a)) - 1) (l_index l)); [lia|]. exact Hpos.
Qed.

Lemma spec_get_some a i l :
  spec_get a i = Some l ->
  sl_is_empty a = false /\ sl_first a <= i /\ i <= spec_last a /\
  nth_error (sl_ents a) (N.to_nat (i - sl_first a)) = Some l.
Proof.
  unfold spec_get. destruct (sl_is_empty a); [discriminate|]. cbn [orb].
  destruct (N.ltb_spec i (sl_first a)); [discriminate|]. cbn [orb].
  destruct (N.ltb_spec (spec_last a) i); [discriminate|]. auto.
Qed.

(* C05 corollaries *)
Lemma get_in_range c os s0 i :
  cfg_ok c -> Forall sop_ok os -> short_enough os -> initial c = Some s0 ->
  let s1 := snd (run_model c s0 os) in
  let lg := sp_log (snd (run_spec spec_init os)) in
  fst (step_model c s1 (OGet i)) =
    match spec_get lg i with Some l => RLog l | None => RErrNotFound end /\
  (forall l, spec_get lg i = Some l -> l_index l = i /\ log_ok l) /\
  (sl_is_empty lg = false -> (spec_get lg i <> None <-> sl_first lg <= i <= spec_last lg)) /\
  (sl_is_empty lg = true -> spec_get lg i = None).
Proof.
  intros Hc Hops Hshort Hinit. cbv zeta.
  destruct (reach_inv c os s0 Hc Hops Hshort Hinit) as (HS & Hnid & Ha & Hk). cbv zeta in *.
  set (s1 := snd (run_model c s0 os)) in *. rewrite <- Ha.
  destruct (sinv_log c s1 HS) as (Hok & Hemp & Hne). cbv zeta in *.
  split; [|split; [|split]].
  - destruct HS as (He & ss & t & tw & HI). cbn [step_model].
    destruct (get_log_ok c _ _ ss t tw i HI) as (r0 & e' & Hg & _ & _ & Hr & _).
    rewrite Hg. cbn [fst]. exact Hr.
  - intros l Hl. destruct (spec_get_some _ _ _ Hl) as (Hnz & H1 & H2 & Hn).
    destruct (Hne Hnz) as (_ & _ & _ & _ & Hcons).
    rewrite (consecutive_nth _ _ _ _ Hcons Hn). split; [lia|].
    rewrite Forall_forall in Hok. apply Hok. eapply nth_error_In; eauto.
  - intros Hnz. destruct (Hne Hnz) as (HF1 & Hlen & _ & _ & Hcons).
    unfold spec_get. rewrite Hnz. cbn [orb].
    destruct (N.ltb_spec i (sl_first (s_abs s1))); cbn [orb]; [split; [congruence|lia]|].
    destruct (N.ltb_spec (spec_last (s_abs s1)) i); cbn [orb]; [split; [congruence|lia]|].
    split; [intros _; lia|]. intros _. apply nth_error_Some. unfold llen in Hlen. lia.
  - intros Hz. unfold spec_get. rewrite Hz. reflexivity.
Qed.

Lemma reopen_id c os s0 :
  cfg_ok c -> Forall sop_ok os -> short_enough os -> initial c = Some s0 ->
  let s1 := snd (run_model c s0 os) in
  fst (step_model c s1 OReopen) = ROk /\
  s_abs (snd (step_model c s1 OReopen)) = s_abs s1 /\ s_kv (snd (step_model c s1 OReopen)) = s_kv s1.
Proof.
  intros Hc Hops Hshort Hinit. cbv zeta.
  destruct (reach_inv c os s0 Hc Hops Hshort Hinit) as (HS & Hnid & _ & _). cbv zeta in *.
  destruct (step_reach c _ OReopen Hc I HS Hnid) as (_ & Hr & Ha & Hk). cbv zeta in *.
  cbn [step_spec fst snd sp_log sp_kv] in *. split; [apply res_class_ok; exact Hr|]. split; assumption.
Qed.

Lemma errors_change_nothing c os s0 o :
  cfg_ok c -> Forall sop_ok os -> short_enough os -> initial c = Some s0 -> sop_ok o ->
  let s1 := snd (run_model c s0 os) in
  let lg := sp_log (snd (run_spec spec_init os)) in
  match o with
  | OStore ls => spec_store lg ls = None
  | ODelete mn mx => spec_delete lg mn mx = None
  | _ => False
  end ->
  res_class (fst (step_model c s1 o)) = RErrOther /\
  s_abs (snd (step_model c s1 o)) = lg /\ s_kv (snd (step_model c s1 o)) = s_kv s1.
Proof.
  intros Hc Hops Hshort Hinit Hop. cbv zeta.
  destruct (reach_inv c os s0 Hc Hops Hshort Hinit) as (HS & Hnid & Ha & _). cbv zeta in *.
  destruct (step_reach c _ o Hc Hop HS Hnid) as (_ & Hr & Ha' & Hk). cbv zeta in *.
  rewrite <- Ha. intros Hrej.
  destruct o; try contradiction; cbn [step_spec sp_log sp_kv] in *; rewrite Hrej in *;
    cbn [fst snd sp_log sp_kv] in *; auto.
Qed.

Lemma empty_accepts_any_start c os s0 l0 rest :
  cfg_ok c -> Forall sop_ok os -> short_enough os -> initial c = Some s0 ->
  let s1 := snd (run_model c s0 os) in
  let ls := l0 :: rest in
  sl_is_empty (sp_log (snd (run_spec spec_init os))) = true ->
  logs_ok ls -> frames_size ls < two30 -> consecutive (l_index l0) ls = true ->
  fst (step_model c s1 (OStore ls)) = ROk /\
  s_abs (snd (step_model c s1 (OStore ls))) = {| sl_first := l_index l0; sl_ents := ls |}.
Proof.
  intros Hc Hops Hshort Hinit. cbv zeta.
  destruct (reach_inv c os s0 Hc Hops Hshort Hinit) as (HS & Hnid & Ha & _). cbv zeta in *.
  rewrite <- Ha. intros Hemp Hok Hfs Hcons.
  destruct (step_reach c _ (OStore (l0 :: rest)) Hc (conj Hok Hfs) HS Hnid) as (_ & Hr & Ha' & _).
  cbv zeta in *. cbn [step_spec sp_log] in *. unfold spec_store in *. rewrite Hcons, Hemp in *.
  cbn [andb orb fst snd sp_log] in *.
  destruct (sinv_log c _ HS) as (_ & He & _). cbv zeta in He. rewrite (He Hemp) in Ha'.
  split; [apply res_class_ok; exact Hr|exact Ha'].
Qed.

(* C12: what StoreLogs acknowledged, GetLog returns field for field *)
Lemma store_get c os s0 ls :
  cfg_ok c -> Forall sop_ok os -> short_enough os -> initial c = Some s0 ->
  let s1 := snd (run_model c s0 os) in
  logs_ok ls -> frames_size ls < two30 ->
  spec_store (sp_log (snd (run_spec spec_init os))) ls <> None ->
  fst (step_model c s1 (OStore ls)) = ROk /\
  forall l, In l ls -> fst (step_model c (snd (step_model c s1 (OStore ls))) (OGet (l_index l))) = RLog l.
Proof.
  intros Hc Hops Hshort Hinit. cbv zeta.
  destruct (reach_inv c os s0 Hc Hops Hshort Hinit) as (HS & Hnid & Ha & _). cbv zeta in *.
  rewrite <- Ha. intros Hok Hfs Hacc.
  destruct (step_reach c _ (OStore ls) Hc (conj Hok Hfs) HS Hnid) as (HS2 & Hr & Ha' & _).
  cbv zeta in *. cbn [step_spec sp_log] in *.
  destruct (spec_store (s_abs (snd (run_model c s0 os))) ls) as [lg'|] eqn:Es; [|congruence].
  cbn [fst snd sp_log] in *. split; [apply res_class_ok; exact Hr|].
  intros l Hl. set (s2 := snd (step_model c (snd (run_model c s0 os)) (OStore ls))) in *.
  assert (Hin : In l (sl_ents (s_abs s2))).
  { rewrite Ha'. unfold spec_store in Es. destruct ls as [|l0 rest]; [destruct Hl|].
    destruct (_ && _); [|discriminate]. inversion Es; subst lg'. cbn [sl_ents]. apply in_or_app. right. exact Hl. }
  destruct (sinv_log c s2 HS2) as (_ & Hemp & Hne). cbv zeta in *.
  assert (Hnz : sl_is_empty (s_abs s2) = false).
  { destruct (sl_is_empty (s_abs s2)) eqn:E; [|reflexivity]. rewrite (Hemp eq_refl) in Hin. destruct Hin. }
  destruct (Hne Hnz) as (_ & _ & _ & _ & Hcons).
  assert (Hget := spec_get_in _ _ Hnz Hcons Hin).
  destruct HS2 as (He & ss & t & tw & HI). cbn [step_model].
  destruct (get_log_ok c _ _ ss t tw (l_index l) HI) as (r0 & e' & Hg & _ & _ & Hr0 & _).
  rewrite Hg. cbn [fst]. rewrite Hr0. unfold s_abs in Hget. rewrite Hget. reflexivity.
Qed.
