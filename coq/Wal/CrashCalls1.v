(* CrashCalls1.v -- call_ok for the calls that do not change the log:
   FirstIndex, LastIndex, stable store Get/Set, Close+Open. *)
From RW Require Import Base.Bytes Base.BytesFacts Fmt.Codec Fmt.CodecFacts Fmt.Frame Wal.Model Wal.Spec Wal.Hist
  Wal.CrashInv Wal.ModelFacts Wal.CrashFacts0 Wal.CrashFacts1 Wal.CrashFacts2 Wal.CrashFacts3 Wal.CrashFacts4 Wal.CrashFacts5
  Wal.CrashFacts6 Wal.CrashGlue Gen.Constants Base.LiaSetup.
Open Scope N_scope.

Lemma DP_mono c nb nb' (A B : spst -> Prop) d :
  nb <= nb' -> (forall x, A x -> B x) -> DP c nb A d -> DP c nb' B d.
Proof. intros Hle HAB (H1 & H2 & H3). split; [eapply DIs_mono; eauto|]. split; auto. Qed.

Lemma LInv_closed c nb w d : LInv c nb w d -> st_closed w = false.
Proof. intros (H & _). exact H. Qed.

Lemma LInv_same c nb w d d' :
  dk_files d' = dk_files d -> dk_meta d' = dk_meta d -> LInv c nb w d -> LInv c nb w d'.
Proof.
  intros Hf Hm (H1 & H2 & H3 & H4 & H5 & H6). split; [exact H1|]. split; [exact H2|].
  split; [eapply DIs_same; eauto|]. split; [eapply no_pend_same; eauto|]. split; [congruence|].
  rewrite Hf. exact H6.
Qed.

(* a call without I/O: the trace is empty *)
Lemma ext_refl_LInv c nb w e (A : spst -> Prop) :
  LInv c nb w (e_disk e) -> e_fault e = None -> A (sp_of (e_disk e)) -> ext (DP c (nb + 2) A) e e.
Proof.
  intros HL Hf HA. apply ext_refl; [exact Hf|]. eapply LInv_DP; [eapply LInv_mono; [|exact HL]; lia|exact HA].
Qed.

Lemma call_first c : call_ok c OFirst.
Proof.
  intros nb s a Hc _ Hnb HL Hf Hsp Hg. exists (first_index_op (ss_wal s)), s. split; [reflexivity|].
  cbn [step_spec fst snd]. split.
  - unfold first_index_op. rewrite (LInv_closed _ _ _ _ HL). cbn [res_class result_eqb].
    destruct (LInv_view _ _ _ _ HL) as (S & t & f & tw & V). rewrite (lv_first V). rewrite <- Hsp. cbn. apply N.eqb_refl.
  - split; [eapply LInv_mono; [|exact HL]; lia|]. split; [exact Hsp|].
    eapply ext_refl_LInv; eauto.
Qed.

Lemma call_last c : call_ok c OLast.
Proof.
  intros nb s a Hc _ Hnb HL Hf Hsp Hg. exists (last_index_op (ss_wal s)), s. split; [reflexivity|].
  cbn [step_spec fst snd]. split.
  - unfold last_index_op. rewrite (LInv_closed _ _ _ _ HL). cbn [res_class result_eqb].
    destruct (LInv_view _ _ _ _ HL) as (S & t & f & tw & V). rewrite (lv_last V). rewrite <- Hsp. cbn. apply N.eqb_refl.
  - split; [eapply LInv_mono; [|exact HL]; lia|]. split; [exact Hsp|].
    eapply ext_refl_LInv; eauto.
Qed.

Lemma call_gets c k : call_ok c (OGetS k).
Proof.
  intros nb s a Hc _ Hnb HL Hf Hsp Hg. cbn [step_model step_spec fst snd].
  unfold get_stable. rewrite (LInv_closed _ _ _ _ HL).
  eexists _, _. split; [reflexivity|]. cbn [ss_wal ss_env].
  split; [cbn [res_class result_eqb]; rewrite <- Hsp; cbn; apply beq_bytes_refl|].
  split; [eapply LInv_mono; [|exact HL]; lia|]. split; [exact Hsp|].
  apply ext_add_m. eapply ext_refl_LInv; eauto.
Qed.

Lemma call_set c k v n : call_ok c (OSet k v n).
Proof.
  intros nb s a Hc _ Hnb HL Hf Hsp Hg. cbn [step_model step_spec].
  unfold set_stable. rewrite (LInv_closed _ _ _ _ HL).
  destruct (key_ok k) eqn:Ek; cbn [negb fst snd].
  - assert (Hf0 : e_fault (inc_stable (ss_env s) true) = None) by exact Hf.
    rewrite (io_ok _ _ Hf0).
    eexists _, _. split; [reflexivity|]. cbn [ss_wal ss_env].
    split; [reflexivity|].
    set (d := e_disk (ss_env s)) in *.
    assert (HL' : LInv c (nb + 2) (ss_wal s) (apply_act d (ASetStable k v))).
    { eapply LInv_same; [reflexivity|reflexivity|]. eapply LInv_mono; [|exact HL]; lia. }
    assert (Hsp' : sp_of (apply_act d (ASetStable k v)) = {| sp_log := sp_log a; sp_kv := kv_set k v (sp_kv a) |}).
    { rewrite sp_of_setstable. rewrite <- Hsp. reflexivity. }
    split; [exact HL'|]. split; [exact Hsp'|].
    apply ext_io; [|exact I|].
    + apply ext_add_m. eapply ext_refl_LInv; eauto.
    + eapply LInv_DP; [exact HL'|]. right. exact Hsp'.
  - eexists _, _. split; [reflexivity|]. cbn [ss_wal ss_env].
    split; [destruct n; reflexivity|].
    split; [eapply LInv_mono; [|exact HL]; lia|].
    split; [exact Hsp|].
    apply ext_add_m. eapply ext_refl_LInv; eauto.
Qed.

Lemma call_reopen c : call_ok c OReopen.
Proof.
  intros nb s a Hc _ Hnb HL Hf Hsp Hg. cbn [step_model step_spec fst snd].
  pose proof HL as (_ & _ & HD & HN & _).
  destruct (open_wal_ok c nb (ss_env s) Hc Hf HD HN) as (w & e' & Ho & Hext & HL' & Hde); [lia|].
  rewrite Ho. eexists _, _. split; [reflexivity|]. cbn [ss_wal ss_env].
  split; [reflexivity|]. split; [eapply LInv_mono; [|exact HL']; lia|].
  pose proof (ext_final _ _ _ Hext) as (_ & _ & Hs'). split; [congruence|].
  eapply ext_mono; [|exact Hext]. intros d HQ. apply OQ_DP in HQ.
  eapply DP_mono; [| |exact HQ]; [lia|]. intros x Hx. left. congruence.
Qed.
