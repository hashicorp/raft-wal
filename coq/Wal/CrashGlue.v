(* CrashGlue.v -- from the per-call lemma [call_ok] (every call refines the spec,
   keeps the live invariant, and every disk it passes through recovers to the
   old or the new spec state) to the master statement over crash histories. *)
From RW Require Import Base.Bytes Base.BytesFacts Fmt.Codec Fmt.CodecFacts Fmt.Frame Wal.Model Wal.Spec Wal.Hist
  Wal.CrashInv Wal.ModelFacts Wal.CrashFacts0 Wal.CrashFacts1 Wal.CrashFacts2 Wal.CrashFacts3 Wal.CrashFacts4 Wal.CrashFacts5
  Gen.Constants Base.LiaSetup.
Open Scope N_scope.

(* nb bounds the file ids handed out so far ([LInv c nb], [DIs c nb]: next id <= nb);
   a call takes at most two new ids (one to settle a pending rotation, one of its own).
   [DIs] has both bounds because they do different work: ps_next_id is what the disk says,
   it jumps at every ACommit and is what makes a new file name fresh; nb is fixed over a
   whole call, so that one predicate [DP c (nb + 2) _] fits every disk the call passes
   through, and nb < two64 is what keeps next_id + 1 from wrapping.  The per-call lemmas
   only weaken nb ([LInv_mono], [DIs_mono]); it advances in [GI_step] alone, by 2 per
   history step, and [short_enough] keeps the total below two64. *)
Definition call_ok (c : cfg) (o : sop) : Prop :=
  forall nb s a, cfg_ok c -> sop_ok o -> nb + 2 < two64 ->
    LInv c nb (ss_wal s) (e_disk (ss_env s)) -> e_fault (ss_env s) = None ->
    sp_of (e_disk (ss_env s)) = a -> sp_good a ->
    exists r s', step_model c s o = (r, s') /\
      result_eqb (res_class r) (fst (step_spec a o)) = true /\
      LInv c (nb + 2) (ss_wal s') (e_disk (ss_env s')) /\
      sp_of (e_disk (ss_env s')) = snd (step_spec a o) /\
      ext (DP c (nb + 2) (fun x => x = a \/ x = snd (step_spec a o))) (ss_env s) (ss_env s').

Lemma step_spec_good a o : sp_good a -> sop_ok o -> sp_good (snd (step_spec a o)).
Proof.
  intros Hg Ho. unfold sp_good in *. destruct o; cbn [step_spec]; try exact Hg.
  - destruct Ho as (Hl & _). unfold spec_store. destruct ls as [|l0 r]; [exact Hg|].
    destruct (consecutive (l_index l0) (l0 :: r) && (sl_is_empty (sp_log a) || (l_index l0 =? spec_last (sp_log a) + 1))); [|exact Hg].
    cbn. apply Forall_app. split; assumption.
  - unfold spec_delete.
    destruct ((mx <? mn) || sl_is_empty (sp_log a) || (mx <? sl_first (sp_log a)) || (spec_last (sp_log a) <? mn)); [exact Hg|].
    destruct (mn <=? sl_first (sp_log a)).
    + destruct (spec_last (sp_log a) <=? mx); cbn; [constructor|apply Forall_skipn; exact Hg].
    + destruct (spec_last (sp_log a) <=? mx); cbn; [apply Forall_firstn; exact Hg|exact Hg].
  - destruct (spec_get (sp_log a) i); exact Hg.
  - destruct (key_ok k); [exact Hg|]. destruct is_nil; exact Hg.
Qed.

(* the invariant of histories: the check has passed so far; a running state is live and
   reads as the acked ledger; a crashed disk reads as acked or may.  nb as in [call_ok]. *)
Definition GI (c : cfg) (nb : N) (h : hstate) : Prop :=
  hs_ok h = true /\ sp_good (hs_acked h) /\ sp_good (hs_may h) /\
  match hs_mode h with
  | Up s => hs_may h = hs_acked h /\ LInv c nb (ss_wal s) (e_disk (ss_env s)) /\
            e_fault (ss_env s) = None /\ sp_of (e_disk (ss_env s)) = hs_acked h /\
            Forall not_fail (e_acts (ss_env s))
  | Down d => DIs c nb d /\ no_pend d /\ (sp_of d = hs_acked h \/ sp_of d = hs_may h)
  end.

Lemma ext_nofail P e0 e : ext P e0 e -> Forall not_fail (e_acts e0) -> Forall not_fail (e_acts e).
Proof.
  intros (_ & acts & Ea & Hnf & _) H0. rewrite Ea. apply Forall_app. split; [|exact H0].
  rewrite Forall_forall in *. intros a Ha. apply Hnf. apply in_rev. exact Ha.
Qed.

Lemma GI_mono c nb nb' h : nb <= nb' -> GI c nb h -> GI c nb' h.
Proof.
  intros Hle (H1 & H2 & H3 & H4). split; [exact H1|]. split; [exact H2|]. split; [exact H3|].
  destruct (hs_mode h).
  - destruct H4 as (A & B & C). split; [exact A|]. split; [eapply LInv_mono; eauto|exact C].
  - destruct H4 as (A & B). split; [eapply DIs_mono; eauto|exact B].
Qed.

Lemma GI_init c : GI c 0 hist_init.
Proof.
  split; [reflexivity|]. split; [constructor|]. split; [constructor|]. cbn.
  split; [split; [constructor|reflexivity]|]. split; [intros n f H; discriminate|left; reflexivity].
Qed.

Lemma env_of_acts d : e_acts (env_of d) = []. Proof. reflexivity. Qed.

Lemma GI_step c nb h st :
  cfg_ok c -> (forall o, call_ok c o) -> nb + 2 < two64 ->
  hstep_wf st -> GI c nb h -> GI c (nb + 2) (hstep_run c h st).
Proof.
  intros Hc Hcall Hnb Hwf HG.
  assert (Hmono : GI c (nb + 2) h) by (eapply GI_mono; [|exact HG]; lia).
  destruct HG as (Hok & Hga & Hgm & HM).
  unfold hstep_run. destruct (hs_mode h) as [s|d] eqn:Emode.
  - destruct HM as (Hma & HL & Hf & Hsp & Hnofail).
    destruct st as [o|o j cc| |j cc]; try exact Hmono.
    + (* a complete call *)
      destruct (Hcall o nb s (hs_acked h) Hc Hwf Hnb HL Hf Hsp Hga) as (r & s' & Hst & Hres & HL' & Hsp' & Hext).
      rewrite Hst. destruct (step_spec (hs_acked h) o) as [r' sp'] eqn:Espec. cbn [fst snd] in *.
      pose proof (step_spec_good (hs_acked h) o Hga Hwf) as Hg'. rewrite Espec in Hg'. cbn [snd] in Hg'.
      split; [cbn [hs_ok]|].
      { rewrite Hok, Hres. cbn [andb]. rewrite (LInv_abs _ _ _ _ HL'). fold (sp_of (e_disk (ss_env s'))).
        rewrite Hsp'. apply spst_eqb_refl. }
      cbn [hs_acked hs_may hs_mode]. split; [exact Hg'|]. split; [exact Hg'|].
      split; [reflexivity|]. split; [exact HL'|]. split; [apply (ext_fault _ _ _ Hext)|]. split; [exact Hsp'|].
      apply (ext_nofail _ _ _ Hext Hnofail).
    + (* a crash inside a call *)
      destruct (Hcall o nb s (hs_acked h) Hc Hwf Hnb HL Hf Hsp Hga) as (r & s' & Hst & Hres & HL' & Hsp' & Hext).
      rewrite Hst. destruct (step_spec (hs_acked h) o) as [r' sp'] eqn:Espec. cbn [fst snd] in *.
      pose proof (step_spec_good (hs_acked h) o Hga Hwf) as Hg'. rewrite Espec in Hg'. cbn [snd] in Hg'.
      destruct (ext_acts _ _ _ Hext) as (acts & Ea & Hnf & Hdisk & Hpre). rewrite Ea.
      set (dj := fold_left apply_act (firstn j acts) (e_disk (ss_env s))).
      destruct (Hpre j) as (HDj & Haj & Huj). fold dj in HDj, Haj, Huj.
      pose proof (DIs_crash c (nb + 2) cc dj HDj) as HDc.
      pose proof (crash_no_pend cc dj (DIs_NoDup _ _ _ HDj)) as HNc.
      (* cc keeps or drops pending batches file by file; [DP] speaks of two readings only,
         all kept (Haj) and all lost (Huj).  They suffice: only the tail's batch is read. *)
      pose proof (crash_reading c (nb + 2) cc dj HDj) as Hrd.
      (* j past the last action: the call had returned, its result counts as acknowledged,
         and old-or-new is not enough; the final disk has nothing pending, so it reads new *)
      destruct (Nat.leb (length acts) j) eqn:Ej.
      * apply Nat.leb_le in Ej.
        assert (Edj : dj = e_disk (ss_env s')).
        { unfold dj. rewrite firstn_all2 by exact Ej. symmetry. exact Hdisk. }
        assert (Hfin : sp_of (crash_disk cc dj) = sp').
        { destruct HL' as (_ & _ & _ & HN' & _). rewrite <- Edj in HN'.
          rewrite (sp_of_no_pend dj HN') in Hrd. rewrite Edj in Hrd. rewrite Hsp' in Hrd. rewrite Edj. destruct Hrd; assumption. }
        split; [exact Hok|]. cbn [hs_acked hs_may hs_mode]. split; [exact Hg'|]. split; [exact Hg'|].
        split; [exact HDc|]. split; [exact HNc|left; exact Hfin].
      * split; [exact Hok|]. cbn [hs_acked hs_may hs_mode]. split; [exact Hga|]. split; [exact Hg'|].
        split; [exact HDc|]. split; [exact HNc|].
        destruct Hrd as [-> | ->]; [destruct Haj|destruct Huj]; auto.
  - destruct HM as (HD & HN & Hsp).
    destruct st as [o|o j cc| |j cc]; try exact Hmono.
    + (* Open *)
      destruct (open_wal_ok c nb (env_of d) Hc eq_refl HD HN) as (w & e' & Ho & Hext & HL & Hde); [lia|].
      rewrite Ho. cbn [env_of e_disk] in Hext.
      pose proof (ext_final _ _ _ Hext) as (_ & _ & Hs').
      assert (Hgot : {| sp_log := abs w (e_disk e'); sp_kv := dk_stable (e_disk e') |} = sp_of d).
      { rewrite (LInv_abs _ _ _ _ HL). exact Hs'. }
      rewrite Hgot.
      set (now := if spst_eqb (sp_of d) (hs_acked h) then hs_acked h else hs_may h).
      assert (Hnow : sp_of d = now /\ spst_eqb (sp_of d) (hs_acked h) || spst_eqb (sp_of d) (hs_may h) = true).
      { unfold now. destruct (spst_eqb (sp_of d) (hs_acked h)) eqn:E1.
        - apply spst_eqb_eq in E1. auto.
        - destruct Hsp as [Hsp|Hsp]; [rewrite Hsp, spst_eqb_refl in E1; discriminate|].
          split; [exact Hsp|]. rewrite Hsp, spst_eqb_refl. reflexivity. }
      destruct Hnow as (Hn1 & Hn2).
      assert (Hgn : sp_good now) by (unfold now; destruct (spst_eqb (sp_of d) (hs_acked h)); assumption).
      split; [cbn [hs_ok]; rewrite Hok, Hn2, Hde; reflexivity|].
      cbn [hs_acked hs_may hs_mode]. split; [exact Hgn|]. split; [exact Hgn|].
      split; [reflexivity|]. split; [eapply LInv_mono; [|exact HL]; lia|].
      cbn [ss_env]. split; [apply (ext_fault _ _ _ Hext)|]. split; [rewrite Hs'; exact Hn1|].
      apply (ext_nofail _ _ _ Hext). constructor.
    + (* a crash inside Open *)
      destruct (open_wal_ok c nb (env_of d) Hc eq_refl HD HN) as (w & e' & Ho & Hext & HL & Hde); [lia|].
      rewrite Ho. cbn [env_of e_disk] in Hext.
      destruct (ext_acts _ _ _ Hext) as (acts & Ea & Hnf & Hdisk & Hpre).
      assert (Eacts : rev_append (e_acts e') [] = acts).
      { rewrite <- Ea. unfold new_acts. rewrite env_of_acts. cbn [length]. rewrite Nat.sub_0_r, firstn_all. reflexivity. }
      rewrite Eacts. cbn [env_of e_disk] in Hpre.
      destruct (Hpre j) as (HDj & HNj & Hsj).
      set (dj := fold_left apply_act (firstn j acts) d) in *.
      split; [exact Hok|]. cbn [hs_acked hs_may hs_mode]. split; [exact Hga|]. split; [exact Hgm|].
      split; [eapply DIs_mono; [|apply DIs_crash; exact HDj]; lia|].
      split; [apply crash_no_pend; eapply DIs_NoDup; eauto|].
      (* OQ: every disk Open passes through has nothing pending and reads as d, so the
         ledger stands; Open takes at most one id (a new tail), hence nb + 1 *)
      destruct (crash_reading c (nb + 1) cc dj HDj) as [Hr|Hr]; rewrite Hr; [|rewrite (sp_of_no_pend dj HNj)]; rewrite Hsj; exact Hsp.
Qed.

Lemma GI_run c steps : forall nb h,
  cfg_ok c -> (forall o, call_ok c o) ->
  nb + 2 * N.of_nat (length steps) < two64 ->
  Forall hstep_wf steps -> GI c nb h ->
  GI c (nb + 2 * N.of_nat (length steps)) (hist_run c h steps).
Proof.
  unfold hist_run. induction steps as [|st steps IH]; intros nb h Hc Hcall Hnb Hwf HG.
  - cbn [length fold_left]. replace (nb + 2 * N.of_nat 0) with nb by lia. exact HG.
  - inversion Hwf as [|? ? Hw1 Hw2]; subst.
    cbn [fold_left length]. cbn [length] in Hnb.
    replace (nb + 2 * N.of_nat (S (length steps))) with ((nb + 2) + 2 * N.of_nat (length steps)) by lia.
    apply IH; auto; [lia|].
    eapply GI_step; eauto. lia.
Qed.

Theorem GI_hist c steps :
  cfg_ok c -> (forall o, call_ok c o) -> Forall hstep_wf steps -> short_enough steps ->
  GI c (2 * N.of_nat (length steps)) (hist_run c hist_init steps).
Proof.
  intros Hc Hcall Hwf Hshort.
  assert (Hb : 0 + 2 * N.of_nat (length steps) < two64).
  { unfold short_enough in Hshort. unfold two64. lia. }
  apply (GI_run c steps 0 hist_init Hc Hcall Hb Hwf (GI_init c)).
Qed.
