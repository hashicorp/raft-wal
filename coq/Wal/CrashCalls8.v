(* CrashCalls8.v -- truncateHead. *)
From RW Require Import Base.Bytes Base.BytesFacts Fmt.Codec Fmt.CodecFacts Fmt.Frame Wal.Model Wal.Spec Wal.Hist
  Wal.CrashInv Wal.ModelFacts Wal.CrashFacts0 Wal.CrashFacts1 Wal.CrashFacts2 Wal.CrashFacts3 Wal.CrashFacts4 Wal.CrashFacts5
  Wal.CrashFacts6 Wal.CrashGlue Wal.CrashCalls1 Wal.CrashCalls3 Wal.CrashCalls4 Wal.CrashCalls6 Wal.CrashCalls7
  Gen.Constants Base.LiaSetup.
Open Scope N_scope.

Lemma lv_Ssst {c nb w d S t f tw} (V : lview c nb w d S t f tw) : Forall sst S.
Proof. apply (sealed_swf_sst d S (lv_sealed _ _ _ _ _ _ _ _ V) (lv_Swf V)). Qed.

Lemma slog_of_nil first : slog_of first [] = sl_empty. Proof. reflexivity. Qed.

(* head = a sealed segment *)
Lemma trunc_head_sealed c nb (A : spst -> Prop) w e0 e D h R t f tw new_min :
  lview c nb w (e_disk e) (D ++ h :: R) t f tw -> ext (DP c nb A) e0 e ->
  Forall (fun s => si_max s < new_min) D -> new_min <= si_max h -> hd_min (D ++ h :: R) t < new_min ->
  let d := e_disk e in
  let a1 := {| sp_log := slog_of new_min (skipn (N.to_nat (new_min - hd_min (D ++ h :: R) t)) (lv_es d (D ++ h :: R) t f));
               sp_kv := dk_stable d |} in
  A a1 ->
  exists w' e',
    mutate w {| tx_next_id := st_next_id w; tx_segs := with_min h new_min :: R ++ [t]; tx_delete := map name_of D;
                tx_create := None; tx_tail := st_tail w |} e = (ROk, w', e') /\
    ext (DP c nb A) e0 e' /\ LInv c nb w' (e_disk e') /\ sp_of (e_disk e') = a1.
Proof.
  intros V He HD Hh Hfirst d a1 HA. set (S := D ++ h :: R) in *.
  pose proof (lv_sealed _ _ _ _ _ _ _ _ V) as Hso. pose proof (lv_Swf V) as Hw. pose proof (lv_Ssst V) as Hsst.
  pose proof (lv_linked _ _ _ _ _ _ _ _ V) as Hl. pose proof (lv_wf _ _ _ _ _ _ _ _ V) as Hwf.
  assert (HsoD := Hso). unfold S in HsoD. apply Forall_app in HsoD. destruct HsoD as (HsoD & HsoH).
  inversion HsoH as [|? ? Hsh HsoR]; subst.
  assert (HwD := Hw). unfold S in HwD. apply Forall_app in HwD. destruct HwD as (HwD & HwH).
  inversion HwH as [|? ? (Hhb1 & Hhbm) HwR]; subst.
  pose proof Hsh as (Hhs & Hhmm & _).
  pose proof (sealed_prefix_len d D h R t Hso Hw Hl) as Hplen. fold S in Hplen.
  (* min h <= new_min *)
  assert (Hminh : si_min h <= new_min).
  { destruct (list_eq_dec_nil D) as [->|Hne].
    - unfold S, hd_min in Hfirst. cbn in Hfirst. clear - Hfirst. lia.
    - destruct (exists_last Hne) as (D' & x & ->). rewrite Forall_forall in HD.
      specialize (HD x ltac:(apply in_or_app; right; left; reflexivity)).
      unfold S in Hl. rewrite <- !app_assoc in Hl. cbn [app] in Hl.
      destruct (linked_mid D' x h (R ++ [t]) Hl) as (Hb & Hm). clear - Hb Hm HD. lia. }
  assert (Hsegs : with_min h new_min :: R ++ [t] = (with_min h new_min :: R) ++ [t]) by reflexivity.
  rewrite Hsegs.
  assert (Hlh : linked (h :: R ++ [t])).
  { unfold S in Hl. rewrite <- app_assoc in Hl. cbn [app] in Hl. eapply linked_app_r; eauto. }
  assert (Er : slog_of (hd_min (with_min h new_min :: R) t) (sealed_es d (with_min h new_min :: R) ++ tail_es d t) =
               slog_of new_min (skipn (N.to_nat (new_min - hd_min S t)) (lv_es d S t f))).
  { unfold hd_min at 1. cbn [hd with_min si_min]. f_equal.
    unfold lv_es. rewrite <- (lv_tail_es V). unfold S at 2. rewrite sealed_es_app, !sealed_es_cons, <- !app_assoc.
    rewrite (seg_visible_with_min d h new_min Hhs Hhb1 Hhbm Hminh Hh).
    destruct (seg_visible_sealed_facts d h Hsh Hhb1 Hhbm) as (Hvl & _).
    replace (N.to_nat (new_min - hd_min S t)) with (length (sealed_es d D) + N.to_nat (new_min - si_min h))%nat
      by (clear - Hplen Hminh; unfold llen in Hplen; lia).
    rewrite (skipn_app_plus (sealed_es d D) _ (length (sealed_es d D)) _ eq_refl).
    rewrite skipn_app_le by (clear - Hvl Hh; unfold llen in Hvl; lia). reflexivity. }
  destruct (mutate_keep_ok c nb A w e0 e S t f tw (with_min h new_min :: R) t (map name_of D) V He eq_refl eq_refl (N.le_refl _) eq_refl)
    as (w' & e' & Hmut & He' & HL' & Hs').
  - (* wf *)
    unfold S in Hwf. rewrite <- app_assoc in Hwf. cbn [app] in Hwf. apply Forall_app in Hwf. destruct Hwf as (_ & Hwf).
    inversion Hwf as [|? ? Hwh Hwr]; subst. cbn [app]. constructor; [|exact Hwr].
    destruct Hwh as (W1 & W2 & W3 & W4 & W5 & W6). unfold seg_wf. cbn [with_min si_codec si_size_limit si_base si_min si_id].
    repeat split; auto. clear - W5 Hminh. lia.
  - cbn [app]. apply (linked_replace_head h (with_min h new_min)); [exact Hlh|reflexivity].
  - fold d. constructor; [apply sealed_ok_with_min; assumption|exact HsoR].
  - apply (lv_tok _ _ _ _ _ _ _ _ V).
  - (* the deleted files are no longer listed *)
    intros n Hin. apply in_map_iff in Hin. destruct Hin as (x & <- & Hx). apply not_listed_by_base.
    intros y Hy. cbn [name_of fst].
    assert (Hyb : exists y0, In y0 (h :: R ++ [t]) /\ si_base y0 = si_base y).
    { cbn [app] in Hy. destruct Hy as [<-|Hy]; [exists h; split; [left; reflexivity|reflexivity]|exists y; split; [right; exact Hy|reflexivity]]. }
    destruct Hyb as (y0 & Hy0 & <-).
    pose proof (chain_sorted S t Hl Hsst) as Hsorted. unfold S in Hsorted. rewrite <- app_assoc in Hsorted.
    pose proof (sorted_app_lt D (h :: R ++ [t]) x y0 Hsorted Hx Hy0) as Hxy. clear - Hxy. lia.
  - fold d. rewrite Er. exact HA.
  - exists w', e'. split; [exact Hmut|]. split; [exact He'|]. split; [exact HL'|].
    rewrite Hs'. fold d. unfold a1. rewrite Er. reflexivity.
Qed.

(* head = the (unsealed, non-empty) tail *)
Lemma trunc_head_tail c nb (A : spst -> Prop) w e0 e S t f tw new_min :
  lview c nb w (e_disk e) S t f tw -> ext (DP c nb A) e0 e ->
  Forall (fun s => si_max s < new_min) S -> new_min <= tl_of (si_base t) (df_ents f) -> 1 <= new_min ->
  (lv_es (e_disk e) S t f <> [] -> hd_min S t < new_min) ->
  let d := e_disk e in
  let a1 := {| sp_log := slog_of new_min (skipn (N.to_nat (new_min - hd_min S t)) (lv_es d S t f)); sp_kv := dk_stable d |} in
  A a1 ->
  exists w' e',
    mutate w {| tx_next_id := st_next_id w; tx_segs := [with_min t new_min]; tx_delete := map name_of S;
                tx_create := None; tx_tail := st_tail w |} e = (ROk, w', e') /\
    ext (DP c nb A) e0 e' /\ LInv c nb w' (e_disk e') /\ sp_of (e_disk e') = a1.
Proof.
  intros V He HS Htl Hnm1 Hfirst d a1 HA. subst d. set (d := e_disk e) in *.
  pose proof (lv_sealed _ _ _ _ _ _ _ _ V) as Hso. pose proof (lv_Swf V) as Hw. pose proof (lv_Ssst V) as Hsst.
  pose proof (lv_linked _ _ _ _ _ _ _ _ V) as Hl. pose proof (lv_twf V) as Htwf.
  pose proof Htwf as (W1 & W2 & W3 & W4 & W5 & W6).
  pose proof (lv_min_cond V) as Hmc. pose proof (lv_file _ _ _ _ _ _ _ _ V) as Hfile.
  assert (Hn : (llen (df_ents f) =? 0) = false /\ tl_of (si_base t) (df_ents f) = si_base t + llen (df_ents f) - 1).
  { unfold tl_of in *. destruct (llen (df_ents f) =? 0) eqn:Z; [clear - Htl Hnm1; lia|auto]. }
  destruct Hn as (Hn0 & Etl). rewrite Etl in Htl. rewrite Hn0 in Hmc.
  assert (Hne : lv_es d S t f <> []).
  { intros E. apply (lv_es_nil V) in E. clear - E Hn0. lia. }
  specialize (Hfirst Hne).
  assert (Hmint : si_min t <= new_min).
  { destruct (list_eq_dec_nil S) as [->|HneS]; [unfold hd_min in Hfirst; cbn in Hfirst; clear - Hfirst; lia|].
    destruct (lv_hd_min_lt V HneS) as (_ & Hmt).
    destruct (exists_last HneS) as (S' & x & ES). rewrite ES in HS, Hl. rewrite Forall_forall in HS.
    specialize (HS x ltac:(apply in_or_app; right; left; reflexivity)).
    rewrite <- app_assoc in Hl. cbn [app] in Hl. destruct (linked_mid S' x t [] Hl) as (Hb & _). clear - Hb HS Hmt. lia. }
  assert (Er : slog_of (hd_min [] (with_min t new_min)) (sealed_es d [] ++ tail_es d (with_min t new_min)) =
               slog_of new_min (skipn (N.to_nat (new_min - hd_min S t)) (lv_es d S t f))).
  { unfold hd_min at 1. cbn [hd with_min si_min]. f_equal. unfold sealed_es at 1. cbn [flat_map app].
    unfold tail_es. change (name_of (with_min t new_min)) with (name_of t). cbn [with_min si_min si_base].
    unfold file_ents. rewrite Hfile. unfold cur_ents. rewrite (lv_pend _ _ _ _ _ _ _ _ V).
    unfold lv_es.
    destruct (list_eq_dec_nil S) as [->|HneS].
    - unfold sealed_es, hd_min. cbn [flat_map hd app]. rewrite skipn_skipn'. f_equal. clear - Hmint W5. lia.
    - destruct (lv_hd_min_lt V HneS) as (Hlt & Hmt).
      pose proof (sealed_es_len d S t Hso Hw Hl HneS) as Hlen.
      replace (N.to_nat (new_min - hd_min S t)) with (length (sealed_es d S) + N.to_nat (new_min - si_base t))%nat
        by (clear - Hlen Hmint Hmt; unfold llen in Hlen; lia).
      rewrite (skipn_app_plus (sealed_es d S) _ (length (sealed_es d S)) _ eq_refl).
      rewrite skipn_skipn'. f_equal. clear - Hmint Hmt. lia. }
  change [with_min t new_min] with ([] ++ [with_min t new_min]).
  destruct (mutate_keep_ok c nb A w e0 e S t f tw [] (with_min t new_min) (map name_of S) V He eq_refl eq_refl Hmint eq_refl)
    as (w' & e' & Hmut & He' & HL' & Hs').
  - cbn [app]. constructor; [|constructor]. unfold seg_wf. cbn [with_min si_codec si_size_limit si_base si_min si_id].
    repeat split; auto. clear - W5 Hmint. lia.
  - exact I.
  - constructor.
  - (* the tail with its raised min *)
    pose proof (lv_tok _ _ _ _ _ _ _ _ V) as (Hu & Ht'). split; [exact Hu|].
    change (name_of (with_min t new_min)) with (name_of t). fold d. rewrite Hfile in *.
    destruct Ht' as (T1 & T2 & T3 & T4 & T5 & T6). cbn [with_min si_min si_base].
    rewrite Hn0. repeat split; try apply T1; try apply T2; auto.
  - intros n Hin. apply in_map_iff in Hin. destruct Hin as (x & <- & Hx). apply not_listed_by_base.
    intros y [<-|[]]. cbn [name_of fst with_min si_base].
    pose proof (lv_bases_lt V) as Hlt. rewrite Forall_forall in Hlt. specialize (Hlt x Hx). clear - Hlt. lia.
  - fold d. rewrite Er. exact HA.
  - exists w', e'. split; [exact Hmut|]. split; [exact He'|]. split; [exact HL'|].
    rewrite Hs'. fold d. unfold a1. rewrite Er. reflexivity.
Qed.

(* nothing remains: a fresh tail is created *)
Lemma trunc_head_none c nb (A : spst -> Prop) w e0 e S t f tw new_min :
  cfg_ok c -> lview c nb w (e_disk e) S t f tw -> ext (DP c nb A) e0 e -> st_rotate w = None ->
  st_next_id w + 1 <= nb -> nb < two64 ->
  Forall (fun s => si_max s < new_min) S -> tl_of (si_base t) (df_ents f) < new_min ->
  let d := e_disk e in
  let a1 := {| sp_log := slog_of new_min (skipn (N.to_nat (new_min - hd_min S t)) (lv_es d S t f)); sp_kv := dk_stable d |} in
  let si := new_segment c (st_next_id w) (spec_last (dread d) + 1) in
  A a1 ->
  exists w' e',
    mutate w {| tx_next_id := st_next_id w + 1; tx_segs := [si]; tx_delete := map name_of S ++ [name_of t];
                tx_create := Some si; tx_tail := None |} e = (ROk, w', e') /\
    ext (DP c nb A) e0 e' /\ LInv c nb w' (e_disk e') /\ sp_of (e_disk e') = a1.
Proof.
  intros Hc V He Hrot Hnid Hnb HS Htl d a1 si HA. subst d. set (d := e_disk e) in *.
  pose proof (lv_len V) as Hlen. pose proof (lv_twf V) as (_ & _ & Hb1 & _ & Hbm & _).
  destruct (lv_fsz V) as (_ & Hbd).
  (* everything is below new_min *)
  assert (Hall : (length (lv_es d S t f) <= N.to_nat (new_min - hd_min S t))%nat).
  { destruct (lv_log_cases V) as [(Ees & _)|(Ees & _ & Hlast & H2)]; [fold d in Ees; rewrite Ees; apply Nat.le_0_l|].
    fold d in Ees, Hlast. unfold tl_of in Htl. destruct (llen (df_ents f) =? 0) eqn:Z.
    - destruct (list_eq_dec_nil S) as [->|HneS]; [exfalso; apply Ees; apply (lv_es_nil V); split; [reflexivity|clear - Z; lia]|].
      destruct (exists_last HneS) as (S' & x & ES). pose proof (lv_linked _ _ _ _ _ _ _ _ V) as Hl.
      rewrite ES in HS, Hl. rewrite Forall_forall in HS. specialize (HS x ltac:(apply in_or_app; right; left; reflexivity)).
      rewrite <- app_assoc in Hl. cbn [app] in Hl. destruct (linked_mid S' x t [] Hl) as (Hb & _).
      clear - Hlen HS Hb Z. unfold llen in *. lia.
    - clear - Hlen Htl Z. unfold llen in *. lia. }
  pose proof (lv_last_bound V) as Hlast1. fold d in Hlast1.
  unfold mutate.
  destruct (mutate_newtail_view c nb A false w w e0 e S t f tw [] (spec_last (dread d) + 1) (map name_of S ++ [name_of t]) Hc V He)
    as (w' & e' & Hmut & He' & HL' & Hs' & _).
  - exact Hrot.
  - apply (lv_failed _ _ _ _ _ _ _ _ V).
  - apply (lv_closed _ _ _ _ _ _ _ _ V).
  - exact Hnid.
  - constructor.
  - constructor.
  - apply Hlast1.
  - apply Hlast1.
  - exact I.
  - intros n Hin. apply not_listed_by_id. intros y [<-|[]]. cbn [new_segment si_id].
    assert (Hn : exists s, In s (S ++ [t]) /\ name_of s = n).
    { apply in_app_or in Hin. destruct Hin as [Hin|[<-|[]]].
      - apply in_map_iff in Hin. destruct Hin as (x & <- & Hx). exists x. split; [apply in_or_app; left; exact Hx|reflexivity].
      - exists t. split; [apply in_or_app; right; left; reflexivity|reflexivity]. }
    destruct Hn as (s & Hs & <-). pose proof (lv_wf _ _ _ _ _ _ _ _ V) as Hwf. rewrite Forall_forall in Hwf.
    destruct (Hwf s Hs) as (_ & _ & _ & _ & _ & Hid). cbn [name_of snd]. clear - Hid. lia.
  - fold d. cbn [app]. unfold sealed_es. cbn [flat_map]. rewrite slog_of_nil.
    unfold a1 in HA. rewrite skipn_all2 in HA by exact Hall. exact HA.
  - cbn [app] in Hmut. fold d in Hmut. fold si in Hmut. rewrite Hmut. exists w', e'.
    split; [reflexivity|]. split; [exact He'|]. split; [exact HL'|]. rewrite Hs'. fold d. unfold a1.
    unfold sealed_es. cbn [flat_map]. rewrite slog_of_nil. rewrite skipn_all2 by exact Hall. reflexivity.
Qed.

Lemma truncate_head_ok c nb (A : spst -> Prop) w e S t f tw new_min :
  cfg_ok c -> lview c nb w (e_disk e) S t f tw -> e_fault e = None -> st_rotate w = None ->
  st_next_id w + 1 <= nb -> nb < two64 -> 1 <= new_min ->
  (lv_es (e_disk e) S t f <> [] -> hd_min S t < new_min) ->
  let d := e_disk e in
  let a1 := {| sp_log := slog_of new_min (skipn (N.to_nat (new_min - hd_min S t)) (lv_es d S t f)); sp_kv := dk_stable d |} in
  A (sp_of d) -> A a1 ->
  exists w' e', truncate_head c w new_min e = (ROk, w', e') /\ ext (DP c nb A) e e' /\
                LInv c nb w' (e_disk e') /\ sp_of (e_disk e') = a1.
Proof.
  intros Hc V Hf Hrot Hnid Hnb Hnm1 Hfirst d a1 HAa HA. subst d. set (d := e_disk e) in *.
  pose proof (LInv_of_view V) as HLd.
  assert (He0 : forall m, ext (DP c nb A) e (add_m e m)).
  { intros m. apply ext_add_m. apply ext_refl; [exact Hf|]. eapply LInv_DP; [exact HLd|exact HAa]. }
  pose proof (lv_sealed _ _ _ _ _ _ _ _ V) as Hso.
  pose proof (lv_tok _ _ _ _ _ _ _ _ V) as (Hu & _).
  unfold truncate_head. rewrite (lv_last V), (lv_tail_last V), (lv_segs _ _ _ _ _ _ _ _ V).
  (* D: segments wholly below new_min (toDelete in wal.go truncateHeadLocked), h the first that
     keeps an entry.  No file is rewritten: seg_visible starts at si_min, so the one ACommit is
     the commit point (old log before it, a1 from it on); D's files go afterwards, unlisted. *)
  destruct (prefix_split (fun s => si_max s <? new_min) S) as [Hall|(D & h & R & ES & Hh & HD)].
  - assert (HS : Forall (fun s => si_sealed s = true /\ si_max s < new_min) S).
    { rewrite Forall_forall in *. intros s Hs. split; [apply (Hso s Hs)|]. apply N.ltb_lt, (Hall s Hs). }
    assert (HS' : Forall (fun s => si_max s < new_min) S) by (eapply Forall_impl; [|exact HS]; intros s Hs; apply Hs).
    destruct (head_scan_skip new_min (tl_of (si_base t) (df_ents f)) S [t] [] 0 HS) as (ntr' & Ehs).
    rewrite Ehs. cbn [head_scan app]. rewrite Hu.
    destruct (new_min <=? tl_of (si_base t) (df_ents f)) eqn:Etl.
    + (* the tail becomes the head *)
      fold (with_min t new_min). rewrite (seg_set_head (with_min t new_min) t [] eq_refl).
      match goal with |- context [mutate _ _ (add_m e ?m)] =>
        destruct (trunc_head_tail c nb A w e (add_m e m) S t f tw new_min V (He0 m) HS' (proj1 (N.leb_le _ _) Etl) Hnm1 Hfirst HA)
          as (w' & e' & Hmut & He' & HL' & Hs') end.
      rewrite Hmut. exists w', e'. auto.
    + (* nothing remains: wal.go gives the fresh tail the base oldLastIndex + 1, not new_min
         (the log is empty either way); the only head truncation that takes a file id *)
      unfold create_next. change (tail_info []) with (@None seginfo).
      pose proof (lv_last_bound V) as Hl1. fold d in Hl1.
      rewrite (N.mod_small (spec_last (dread d) + 1) two64) by apply Hl1.
      replace (0 <? spec_last (dread d) + 1) with true by (clear; lia).
      rewrite (N.mod_small (spec_last (dread d) + 1) two64) by apply Hl1.
      rewrite (N.mod_small (st_next_id w + 1) two64) by (clear - Hnid Hnb; lia). cbn [seg_set].
      match goal with |- context [mutate _ _ (add_m e ?m)] =>
        destruct (trunc_head_none c nb A w e (add_m e m) S t f tw new_min Hc V (He0 m) Hrot Hnid Hnb HS' (proj1 (N.leb_gt _ _) Etl) HA)
          as (w' & e' & Hmut & He' & HL' & Hs') end.
      cbn [add_m with_m e_disk] in Hmut, Hs'. fold d in Hmut, Hs'. rewrite Hmut. exists w', e'. auto.
  - (* a sealed segment becomes the head *)
    subst S.
    assert (HD' : Forall (fun s => si_sealed s = true /\ si_max s < new_min) D).
    { rewrite Forall_forall in *. intros s Hs. split; [apply (Hso s); apply in_or_app; left; exact Hs|].
      apply N.ltb_lt, (HD s Hs). }
    assert (HD'' : Forall (fun s => si_max s < new_min) D) by (eapply Forall_impl; [|exact HD']; intros s Hs; apply Hs).
    rewrite <- app_assoc. cbn [app].
    destruct (head_scan_skip new_min (tl_of (si_base t) (df_ents f)) D (h :: R ++ [t]) [] 0 HD') as (ntr' & Ehs).
    rewrite Ehs. cbn [head_scan app].
    assert (Hhs : si_sealed h = true).
    { rewrite Forall_forall in Hso. apply (Hso h). apply in_or_app. right. left. reflexivity. }
    assert (Hhm : new_min <= si_max h) by (apply N.ltb_ge; exact Hh).
    rewrite Hhs, (proj2 (N.leb_le _ _) Hhm).
    fold (with_min h new_min). rewrite (seg_set_head (with_min h new_min) h (R ++ [t]) eq_refl).
    assert (Hne : lv_es d (D ++ h :: R) t f <> []).
    { intros E. apply (lv_es_nil V) in E. destruct E as (E & _). destruct D; discriminate. }
    match goal with |- context [mutate _ _ (add_m e ?m)] =>
      destruct (trunc_head_sealed c nb A w e (add_m e m) D h R t f tw new_min V (He0 m) HD'' Hhm (Hfirst Hne) HA)
        as (w' & e' & Hmut & He' & HL' & Hs') end.
    rewrite Hmut. exists w', e'. auto.
Qed.
