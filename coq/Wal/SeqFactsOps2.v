(* SeqFactsOps2.v -- DeleteRange: head and tail truncation on invariant states. *)
From RW Require Import Base.Bytes Base.BytesFacts Fmt.Codec Fmt.CodecFacts Fmt.Frame
  Wal.Model Wal.Spec Wal.SeqInv Wal.ModelFacts Wal.SeqFactsBase Wal.SeqFactsAbs Wal.SeqFactsTxn Wal.SeqFactsOps1
  Gen.Constants Base.LiaSetup.
Open Scope N_scope.

Lemma span {A} (P : A -> bool) (l : list A) :
  exists pre rest, l = pre ++ rest /\ Forall (fun x => P x = true) pre /\
                   match rest with [] => True | h :: _ => P h = false end.
Proof.
  induction l as [|x l IH].
  - exists [], []. repeat split. constructor.
  - destruct (P x) eqn:E.
    + destruct IH as (pre & rest & -> & HF & Hr). exists (x :: pre), rest.
      repeat split; auto.
    + exists [], (x :: l). repeat split; auto.
Qed.

Definition set_min (h : seginfo) (nm : N) : seginfo :=
  {| si_id := si_id h; si_base := si_base h; si_min := nm; si_max := si_max h;
     si_codec := si_codec h; si_index_start := si_index_start h; si_sealed := si_sealed h;
     si_size_limit := si_size_limit h |}.

Lemma vis_set_min tl d h nm :
  1 <= si_min h -> si_base h <= si_min h -> si_min h <= nm ->
  seg_visible tl d (set_min h nm) = skipn (N.to_nat (nm - si_min h)) (seg_visible tl d h).
Proof.
  intros H1 H2 H3. rewrite !seg_visible_eq by (cbn [set_min si_min]; lia).
  change (emax tl (set_min h nm)) with (emax tl h).
  change (name_of (set_min h nm)) with (name_of h). cbn [set_min si_min si_base].
  rewrite skipn_firstn_comm, skipn_skipn'. f_equal; [lia|]. f_equal. lia.
Qed.

Definition head_sum (tl : N) (pre : list seginfo) (ntr : N) : N :=
  fold_left (fun a s => if si_min s <=? emax tl s then (a + (emax tl s - si_min s + 1)) mod two64 else a)
            pre ntr.

Lemma head_scan_split nm tl : forall pre rest del ntr,
  Forall (fun s => (emax tl s <? nm) = true) pre ->
  match rest with [] => True | h :: _ => (emax tl h <? nm) = false end ->
  head_scan nm tl (pre ++ rest) del ntr = (rest, del ++ map name_of pre, head_sum tl pre ntr, hd_error rest).
Proof.
  induction pre as [|s pre IH]; intros rest del ntr HF Hr.
  - cbn [app map head_sum fold_left]. rewrite app_nil_r. destruct rest as [|h r]; [reflexivity|].
    cbn [head_scan hd_error]. fold (emax tl h). destruct (N.leb_spec nm (emax tl h)); [reflexivity|lia].
  - inversion HF as [|? ? Hs HF']; subst. cbn [app head_scan]. fold (emax tl s).
    destruct (N.leb_spec nm (emax tl s)); [lia|].
    rewrite IH by assumption. cbn [map head_sum fold_left]. rewrite <- app_assoc. reflexivity.
Qed.

Definition add_head (k : N) (m : metrics) : metrics :=
  {| m_bytes_written := m_bytes_written m; m_entries_written := m_entries_written m;
     m_appends := m_appends m; m_bytes_read := m_bytes_read m;
     m_entries_read := m_entries_read m; m_rotations := m_rotations m;
     m_head_trunc := (m_head_trunc m + k) mod two64; m_tail_trunc := m_tail_trunc m;
     m_stable_gets := m_stable_gets m; m_stable_sets := m_stable_sets m |}.

(* the tail as head of the remaining log *)
Lemma tail_set_min c d t tw nm :
  tail_ok c d t tw -> si_min t <= nm -> nm <= ws_commit_idx tw -> tail_ok c d (set_min t nm) tw.
Proof.
  intros (Hunsl & Hcodec & Hslim & Hb1 & Hbmin & Hminn & Hn64 & Hname & Hbase & Hlimit & Hwmin & Hcommit
          & Hhdr & Hn8 & Hoff32 & Hfit & Hnonempty
          & f & Hf & Hn) Hm Hc.
  unfold tail_ok. cbn [set_min si_sealed si_codec si_size_limit si_base si_min].
  change (name_of (set_min t nm)) with (name_of t).
  assert (Hx : nm <= si_base t + (ws_n tw - 1)).
  { rewrite Hcommit in Hc. destruct (N.eqb_spec (ws_n tw) 0); lia. }
  repeat split; auto; try lia. exists f. split; [exact Hf|exact Hn].
Qed.

Lemma sealed_set_min c d h nm :
  sealed_ok c d h -> si_min h <= nm -> nm <= si_max h -> sealed_ok c d (set_min h nm).
Proof.
  intros (H1 & H2 & H3 & H4 & H5 & H6 & f & Hf & H7) Hm Hc.
  unfold sealed_ok. cbn [set_min si_sealed si_codec si_base si_min si_max].
  repeat split; auto; try lia. exists f. split; [exact Hf|exact H7].
Qed.

(* the listed segments from [h] on, with the MinIndex of h raised to nm:
   h is the tail, or a sealed segment followed by the rest *)
Lemma listed_set_min c d ss t tw pre h r nm :
  Forall (sealed_ok c d) ss -> tail_ok c d t tw -> linked (ss ++ [t]) -> ss ++ [t] = pre ++ h :: r ->
  si_min h <= nm -> nm <= emax (ws_commit_idx tw) h ->
  exists ss' t', set_min h nm :: r = ss' ++ [t'] /\ Forall (sealed_ok c d) ss' /\ tail_ok c d t' tw /\
                 linked (ss' ++ [t']) /\ si_min (hd t' ss') = nm.
Proof.
  intros HS HT HL E Hm1 Hm2.
  destruct (listed_at c d ss t pre h r HS E) as [(-> & -> & ->)|(r2 & -> & E2 & Hsh & HSr)].
  - exists [], (set_min t nm). pose proof (tail_ok_unsealed HT) as Hu.
    rewrite (emax_unsealed _ _ Hu) in Hm2.
    split; [reflexivity|]. split; [constructor|]. split; [apply tail_set_min; assumption|].
    split; [exact I|reflexivity].
  - exists (set_min h nm :: r2), t. assert (Hsl : si_sealed h = true) by apply Hsh.
    rewrite (emax_sealed _ _ Hsl) in Hm2.
    split; [reflexivity|]. split; [constructor; [apply sealed_set_min; assumption|exact HSr]|].
    split; [exact HT|]. split; [|reflexivity].
    cbn [app]. apply (linked_head_replace h); [reflexivity|]. rewrite E in HL. apply (linked_app_r pre). exact HL.
Qed.

(* a transaction that only changes the segment list (same tail writer) *)
Lemma mutate_keep_tail c w e ss' t' tw dels :
  e_fault e = None -> st_closed w = false -> st_failed w = false -> dk_inited (e_disk e) = true ->
  fresh w (e_disk e) -> st_tail w = Some tw ->
  Forall (sealed_ok c (e_disk e)) ss' -> tail_ok c (e_disk e) t' tw -> linked (ss' ++ [t']) ->
  st_rotate w = (if 0 <? ws_index_start tw then Some (ws_index_start tw) else None) ->
  (forall s n, In s (ss' ++ [t']) -> In n dels -> fname_eqb (name_of s) n = false) ->
  exists w' e',
    mutate w {| tx_next_id := st_next_id w; tx_segs := ss' ++ [t']; tx_delete := dels;
                tx_create := None; tx_tail := st_tail w |} e = (ROk, w', e') /\
    e_fault e' = None /\ WInvS c w' (e_disk e') ss' t' tw /\
    dk_stable (e_disk e') = dk_stable (e_disk e) /\ st_next_id w' = st_next_id w /\ e_m e' = e_m e /\
    (forall s, In s (ss' ++ [t']) ->
               lookup (name_of s) (dk_files (e_disk e')) = lookup (name_of s) (dk_files (e_disk e))).
Proof.
  intros He Hcl Hfa Hini Hfr Htail HS HT HL Hro Hd.
  unfold mutate. rewrite (mutate_gen_none false w _ e He) by reflexivity.
  cbn [tx_next_id tx_segs tx_tail tx_delete].
  set (w' := wal_with (st_next_id w) (ss' ++ [t']) (st_tail w) w).
  set (e1 := commit_env (st_next_id w) (ss' ++ [t']) e).
  assert (HI1 : WInvS c w' (e_disk e1) ss' t' tw).
  { apply WInvS_intro; unfold w', wal_with; cbn [st_closed st_failed st_next_id st_segs st_tail st_rotate]; auto. }
  assert (He1 : e_fault e1 = None) by reflexivity.
  destruct (WInvS_delete_files c w' e1 ss' t' tw dels HI1 He1 Hd) as (G1 & G2 & G3 & G4 & G5).
  destruct (delete_files_spec dels e1 He1) as (_ & _ & _ & _ & _ & F6 & _).
  eexists _, _. split; [reflexivity|]. split; [exact G3|]. split; [exact G1|].
  split; [exact G4|]. split; [reflexivity|]. split; [exact G5|].
  intros s Hs. rewrite F6; [reflexivity|]. intros n Hn. apply Hd; assumption.
Qed.

Lemma min_head_le c d pre h r nm :
  Forall (sealed_ok c d) pre -> linked (pre ++ h :: r) -> Forall (fun s => si_max s < nm) pre ->
  si_min (hd h pre) < nm -> si_min h <= nm.
Proof.
  intros HS HL HM HF. destruct pre as [|p0 pre0] using rev_ind; [cbn [hd] in HF; lia|].
  clear IHpre0. rewrite <- app_assoc in HL. cbn [app] in HL. apply linked_app_r in HL.
  destruct HL as (E1 & E2 & _). apply Forall_app in HM. destruct HM as [_ HM].
  inversion HM; subst. lia.
Qed.

(* nTruncated: both scans count the entries of the segments they drop *)
Definition tail_sum (lastidx : N) (rpost : list seginfo) (ntr : N) : N :=
  fold_left (fun a s => (a + sub64 (emax lastidx s) (si_min s) + 1) mod two64) rpost ntr.

Section Counts.
Variables (c : cfg) (d : disk) (ss : list seginfo) (t : seginfo) (tw : wseg).
Hypotheses (HS : Forall (sealed_ok c d) ss) (HT : tail_ok c d t tw) (HL : linked (ss ++ [t])).
Let vis := seg_visible (ws_commit_idx tw) d.
Let L := last_index (ss ++ [t]) (Some tw).

Lemma head_sum_len : forall l a, incl l (ss ++ [t]) -> a + llen (flat_map vis l) < two64 ->
  head_sum (ws_commit_idx tw) l a = a + llen (flat_map vis l).
Proof.
  induction l as [|s l IH]; intros a Hl Ha; [cbn [head_sum fold_left flat_map]; rewrite llen_nil; lia|].
  cbn [flat_map] in *. rewrite llen_app in *. unfold head_sum in *. cbn [fold_left].
  destruct (listed_seg _ _ _ _ _ _ HS HT (Hl s (or_introl eq_refl))) as (_ & _ & _ & Hlen & _). fold vis in Hlen.
  rewrite IH; [|intros x Hx; apply Hl; right; exact Hx|];
    (destruct (N.leb_spec (si_min s) (emax (ws_commit_idx tw) s)); [rewrite mod64_small by lia|]; lia).
Qed.

(* the tail scan measures the tail by LastIndex; an empty tail after sealed segments wraps to 0 entries *)
Lemma tail_term s a : L <> 0 -> L + 1 < two64 -> In s (ss ++ [t]) -> a + llen (vis s) < two64 ->
  (a + sub64 (emax L s) (si_min s) + 1) mod two64 = a + llen (vis s).
Proof.
  intros HL0 HL1 Hs Ha.
  destruct (listed_seg _ _ _ _ _ _ HS HT Hs) as (Hb1 & Hb2 & _ & Hlen & _). fold vis in Hlen. rewrite Hlen in *.
  assert (He : emax (ws_commit_idx tw) s + 1 - si_min s = emax L s + 1 - si_min s /\
               si_min s <= emax L s + 1 /\ emax L s <= L).
  { assert (Hle := emax_le_last _ _ _ _ _ HS HT HL). rewrite Forall_forall in Hle. specialize (Hle s Hs). fold L in Hle.
    apply in_app_or in Hs. destruct Hs as [Hs|[<-|[]]].
    - rewrite Forall_forall in HS. destruct (sealed_srange _ _ _ (HS s Hs)). destruct (HS s Hs) as (Hsl & _).
      rewrite !(emax_sealed _ _ Hsl) in *. lia.
    - pose proof (tail_ok_unsealed HT) as Hu. rewrite !(emax_unsealed _ _ Hu) in *.
      destruct (tail_commit _ _ _ _ HT) as [Hci _]. pose proof (tail_ok_range HT) as Hr.
      unfold L in *. rewrite (last_index_inv c d ss _ _ HT) in *. rewrite Hci.
      destruct (N.eqb_spec (ws_n tw) 0); [|lia].
      destruct ss as [|s0 r0] using rev_ind; [congruence|]. rewrite <- app_assoc in HL.
      destruct (linked_next _ _ _ _ HL). destruct r0; cbn [app] in *; lia. }
  destruct He as (He0 & He1 & He2). rewrite He0 in *. clear He0 Hlen.
  destruct (N.eq_dec (si_min s) (emax L s + 1)) as [E|E].
  - unfold sub64. rewrite (N.mod_small (si_min s)) by lia.
    replace (emax L s + two64 - si_min s) with (two64 - 1) by lia.
    rewrite (N.mod_small (two64 - 1)) by (unfold two64; lia).
    replace (a + (two64 - 1) + 1) with (a + 1 * two64) by (unfold two64; lia).
    rewrite N.mod_add by (unfold two64; lia). rewrite N.mod_small by lia. lia.
  - rewrite sub64_small by lia. rewrite mod64_small by lia. lia.
Qed.

Lemma tail_sum_len : L <> 0 -> L + 1 < two64 -> forall l a,
  incl l (ss ++ [t]) -> a + llen (flat_map vis l) < two64 ->
  tail_sum L (rev l) a = a + llen (flat_map vis l).
Proof.
  intros HL0 HL1. induction l as [|s l IH]; intros a Hl Ha; [cbn [rev tail_sum fold_left flat_map]; rewrite llen_nil; lia|].
  cbn [flat_map rev] in *. rewrite llen_app in *. unfold tail_sum. rewrite fold_left_app. cbn [fold_left].
  fold (tail_sum L (rev l) a). rewrite IH; [|intros x Hx; apply Hl; right; exact Hx|lia].
  rewrite tail_term; [lia|assumption|assumption|apply Hl; left; reflexivity|lia].
Qed.
End Counts.

Lemma truncate_head_ok c w e ss t tw nm :
  cfg_ok c -> e_fault e = None -> WInvS c w (e_disk e) ss t tw -> ws_index_start tw = 0 ->
  st_next_id w + 1 < two64 ->
  first_index (st_segs w) (st_tail w) < nm -> nm < two64 ->
  exists w' e',
    truncate_head c w nm e = (ROk, w', e') /\ e_fault e' = None /\ WInv c w' (e_disk e') /\
    dk_stable (e_disk e') = dk_stable (e_disk e) /\
    st_next_id w <= st_next_id w' /\ st_next_id w' <= st_next_id w + 1 /\
    abs w' (e_disk e') =
      (if last_index (st_segs w) (st_tail w) <? nm then sl_empty
       else {| sl_first := nm;
               sl_ents := skipn (N.to_nat (nm - first_index (st_segs w) (st_tail w)))
                                (sl_ents (abs w (e_disk e))) |}) /\
    e_m e' = add_head (if last_index (st_segs w) (st_tail w) <? nm then llen (sl_ents (abs w (e_disk e)))
                       else nm - first_index (st_segs w) (st_tail w)) (e_m e).
Proof.
  intros Hc He HI His Hnid HF Hnm.
  assert (HI0 := HI).
  assert (Hro0 := WInvS_rotate_none _ _ _ _ _ _ HI His).
  destruct (abs_props _ _ _ _ _ _ HI) as (_ & _ & _ & _ & Hne).
  destruct HI as (Hcl & Hfa & Hmeta & Hini & Hfr & Hsegs & Htail & HS & HT & HL & Hro).
  assert (Hemax := emax_le_last _ _ _ _ _ HS HT HL).
  unfold truncate_head.
  set (L := last_index (st_segs w) (st_tail w)) in *.
  set (F := first_index (st_segs w) (st_tail w)) in *.
  assert (HLeq : last_index (ss ++ [t]) (Some tw) = L) by (unfold L; rewrite Hsegs, Htail; reflexivity).
  rewrite HLeq in Hemax.
  rewrite Htail. cbn [tail_last]. rewrite Hsegs.
  destruct (span (fun s => emax (ws_commit_idx tw) s <? nm) (ss ++ [t])) as (pre & rest & E & HFp & Hr).
  rewrite E. rewrite (head_scan_split nm (ws_commit_idx tw) pre rest [] 0 HFp Hr). cbn [app].
  destruct rest as [|h r]; cbn [hd_error].
  - (* every segment goes: a new empty tail after the old last index *)
    rewrite app_nil_r in E. subst pre.
    assert (HLnm : L < nm).
    { destruct (N.eq_dec L 0) as [E0|E0]; [lia|].
      rewrite <- HLeq in *. rewrite (last_index_inv c (e_disk e) ss _ _ HT) in *.
      destruct (tail_commit _ _ _ _ HT) as [Hci Hb].
      apply Forall_app in HFp. destruct HFp as [HFs HFt]. inversion HFt as [|? ? Hft _]; subst.
      pose proof (tail_ok_unsealed HT) as Hu. rewrite (emax_unsealed _ _ Hu), Hci in Hft.
      destruct (N.eqb_spec (ws_n tw) 0) as [En|En]; [|lia].
      destruct ss as [|s0 r0] using rev_ind; [congruence|]. clear IHr0.
      apply Forall_app in HFs. destruct HFs as [_ HFs]. inversion HFs as [|? ? Hfs _]; subst.
      apply Forall_app in HS. destruct HS as [_ HS]. inversion HS as [|? ? (Hsl & _) _]; subst.
      rewrite (emax_sealed _ _ Hsl) in Hfs. rewrite <- app_assoc in HL. apply linked_app_r in HL.
      destruct HL as (E1 & _). destruct r0; cbn [app] in E0 |- *; lia. }
    assert (HL1 : L + 1 < two64).
    { destruct (N.eq_dec L 0) as [E0|E0]; [rewrite E0; unfold two64; lia|]. apply Hne. exact E0. }
    rewrite mod64_small by exact HL1.
    rewrite (create_next_nil c _ (L + 1) ltac:(lia) HL1 Hnid).
    set (e0 := add_m e _).
    destruct (mutate_new_tail c false w e0 [] (L + 1) (map name_of (ss ++ [t])))
      as (Hmut & HI' & He' & Hst' & Hm' & Hlk'); try assumption; try reflexivity; try lia;
      try (solve [constructor]).
    unfold mutate. cbn [app] in Hmut. rewrite Hmut.
    set (si := new_segment c (st_next_id w) (L + 1)) in *.
    set (e2 := create_env si _) in *.
    assert (Hdn : forall s n, In s ([] ++ [si]) -> In n (map name_of (ss ++ [t])) ->
                              fname_eqb (name_of s) n = false).
    { intros s n [<-|[]] Hn. apply in_map_iff in Hn. destruct Hn as (x & <- & Hx). rewrite fname_eqb_sym.
      apply (fresh_neq w (e_disk e)); [exact Hfr|exact (listed_lookup c _ ss t tw x HS HT Hx)|cbn; lia]. }
    destruct (WInvS_delete_files c _ e2 [] si _ _ HI' He' Hdn) as (G1 & G2 & G3 & G4 & G5).
    eexists _, _. split; [reflexivity|]. split; [exact G3|]. split; [eexists [], si, _; exact G1|].
    split; [rewrite G4; exact Hst'|]. cbn [wal_with st_next_id]. split; [lia|]. split; [lia|].
    assert (Hae := abs_empty_tail _ _ _ _ _ _ HI' eq_refl).
    cbn [app] in G2, Hae. rewrite G2, Hae.
    destruct (N.ltb_spec L nm); [|lia]. split; [reflexivity|].
    rewrite G5, Hm'. rewrite (abs_ents _ _ _ _ _ _ HI0). unfold e0. cbn [add_m with_m e_m].
    rewrite (head_sum_len c (e_disk e) ss t tw HS HT (ss ++ [t]) 0 (incl_refl _)); [reflexivity|].
    destruct (content_chain _ _ _ _ HT ss HS HL) as (_ & Hlen & _).
    assert (si_base t + ws_n tw < two64) by apply HT. lia.
  - (* head segment h survives with a larger MinIndex *)
    apply N.ltb_ge in Hr.
    assert (Hin : In h (ss ++ [t])) by (rewrite E; apply in_elt).
    assert (HhL : emax (ws_commit_idx tw) h <= L).
    { rewrite Forall_forall in Hemax. apply Hemax. exact Hin. }
    destruct (Hne ltac:(lia)) as (Ha & HFm & HF1 & HFL & HLlen & HL1 & Hcons).
    destruct (bases_before _ _ _ _ _ _ _ HS HL E) as [Hpb HSp].
    destruct (listed_seg _ _ _ _ _ _ HS HT Hin) as (Hb1 & Hb2 & _ & Hvlen & _).
    assert (Hlinked : linked (pre ++ h :: r)) by (rewrite <- E; exact HL).
    assert (Hpm : Forall (fun s => si_max s < nm) pre).
    { rewrite Forall_forall in *. intros s Hs. specialize (HFp s Hs). cbv beta in HFp.
      destruct (HSp s Hs) as (Hsl & _). rewrite (emax_sealed _ _ Hsl) in HFp. lia. }
    assert (Hhd : hd t ss = hd h pre) by (eapply hd_split; exact E).
    assert (Hminh : si_min h <= nm).
    { eapply min_head_le; eauto. rewrite <- Hhd, <- HFm. exact HF. }
    fold (set_min h nm). rewrite (seg_set_head (set_min h nm) h r eq_refl).
    set (e0 := add_m e _).
    destruct (listed_set_min c (e_disk e) ss t tw pre h r nm HS HT HL E Hminh Hr)
      as (ss' & t' & Esm & HS' & HT' & HL' & Hmin').
    rewrite Esm.
    destruct (mutate_keep_tail c w e0 ss' t' tw (map name_of pre) He Hcl Hfa Hini Hfr Htail HS' HT' HL' Hro)
      as (w' & e' & Hmut & He' & HI' & Hst' & Hid' & Hme' & Hlk').
    { intros s n Hs Hn. apply in_map_iff in Hn. destruct Hn as (x & <- & Hx). rewrite <- Esm in Hs.
      rewrite fname_eqb_sym. destruct Hs as [<-|Hs].
      - apply (names_split c (e_disk e) ss t pre (h :: r) x h HS HL E Hx). left; reflexivity.
      - apply (names_split c (e_disk e) ss t pre (h :: r) x s HS HL E Hx). right; exact Hs. }
    rewrite Htail in Hmut. rewrite Hmut.
    exists w', e'. split; [reflexivity|]. split; [exact He'|]. split; [exists ss', t', tw; exact HI'|].
    split; [exact Hst'|]. split; [lia|]. split; [lia|].
    destruct (N.ltb_spec L nm); [lia|]. split.
    + (* what is left is the old content without its first nm - F entries *)
      assert (Hcont : flat_map (seg_visible (ws_commit_idx tw) (e_disk e')) (ss' ++ [t']) =
                      skipn (N.to_nat (nm - F)) (sl_ents (abs w (e_disk e)))).
      { rewrite Ha. cbn [sl_ents]. rewrite E, HFm, Hhd.
        rewrite (skipn_chain c (e_disk e) (ws_commit_idx tw) nm pre h r HSp Hlinked Hpm).
        cbn [flat_map]. rewrite skipn_app_le by (unfold llen in Hvlen; lia).
        rewrite <- (vis_set_min _ _ h nm) by lia.
        change (seg_visible (ws_commit_idx tw) (e_disk e) (set_min h nm) ++ flat_map (seg_visible (ws_commit_idx tw) (e_disk e)) r)
          with (flat_map (seg_visible (ws_commit_idx tw) (e_disk e)) (set_min h nm :: r)).
        rewrite Esm. apply flat_map_visible_frame. exact Hlk'. }
      rewrite (abs_nonempty _ _ _ _ _ _ HI'), Hmin', Hcont; [reflexivity|].
      rewrite Hcont. intros Hnil. apply (f_equal (@length _)) in Hnil. rewrite skipn_length in Hnil.
      unfold llen in HLlen. cbn [length] in Hnil. lia.
    + (* nTruncated: the sealed segments before h hold the indexes F .. MinIndex h - 1 *)
      rewrite Hme'. unfold e0. cbn [add_m with_m e_m].
      replace ((head_sum (ws_commit_idx tw) pre 0 + sub64 nm (si_min h)) mod two64) with (nm - F); [reflexivity|].
      rewrite sub64_small by lia.
      assert (Hch := chain_len c (e_disk e) (ws_commit_idx tw) pre h HSp (proj1 (linked_app_inv _ _ _ Hlinked))).
      rewrite <- Hhd, <- HFm in Hch.
      rewrite (head_sum_len c (e_disk e) ss t tw HS HT pre 0); [|rewrite E; apply incl_appl, incl_refl|lia].
      rewrite mod64_small by lia. lia.
Qed.

Lemma tail_scan_split nm li : forall rpost rpre del ntr,
  Forall (fun s => (nm <? si_base s) = true) rpost ->
  match rpre with [] => True | s :: _ => (nm <? si_base s) = false end ->
  tail_scan nm li (rpost ++ rpre) del ntr = (rpre, del ++ map name_of rpost, tail_sum li rpost ntr).
Proof.
  induction rpost as [|s rpost IH]; intros rpre del ntr HF Hr.
  - cbn [app map tail_sum fold_left]. rewrite app_nil_r. destruct rpre as [|h r]; [reflexivity|].
    cbn [tail_scan]. destruct (N.leb_spec (si_base h) nm); [reflexivity|lia].
  - inversion HF as [|? ? Hs HF']; subst. cbn [app tail_scan].
    destruct (N.leb_spec (si_base s) nm); [lia|]. fold (emax li s).
    rewrite IH by assumption. cbn [map tail_sum fold_left]. rewrite <- app_assoc. reflexivity.
Qed.

Definition add_tail (k : N) (m : metrics) : metrics :=
  {| m_bytes_written := m_bytes_written m; m_entries_written := m_entries_written m;
     m_appends := m_appends m; m_bytes_read := m_bytes_read m;
     m_entries_read := m_entries_read m; m_rotations := m_rotations m;
     m_head_trunc := m_head_trunc m; m_tail_trunc := (m_tail_trunc m + k) mod two64;
     m_stable_gets := m_stable_gets m; m_stable_sets := m_stable_sets m |}.

Lemma force_seal_arith off n lim (hdr : bool) :
  lim < two30 -> off <= lim -> 8 * n <= off -> 0 < n ->
  let total := (if hdr then 32 else 0) + index_frame_size n + 8 in
  (off + total) mod two32 = off + total /\ off + total < two32 /\ 8 * n <= off + total /\
  (off + total =? 0) = false /\ 0 < off + (if hdr then 32 else 0) + 8.
Proof.
  intros H1 H2 H3 H4. cbv zeta. assert (Hifs := index_frame_size_bounds n H4).
  unfold two30, two32 in *. rewrite N.mod_small by (destruct hdr; lia).
  repeat split; destruct hdr; lia.
Qed.

Lemma seg_force_seal_ok c e t tw :
  cfg_ok c -> e_fault e = None -> tail_ok c (e_disk e) t tw -> ws_index_start tw = 0 -> 0 < ws_n tw ->
  exists tw' e',
    seg_force_seal tw e = (ROk, tw', e') /\ e_fault e' = None /\ e_m e' = e_m e /\
    tail_ok c (e_disk e') t tw' /\ ws_n tw' = ws_n tw /\ 0 < ws_index_start tw' /\
    dk_meta (e_disk e') = dk_meta (e_disk e) /\ dk_stable (e_disk e') = dk_stable (e_disk e) /\
    dk_inited (e_disk e') = dk_inited (e_disk e) /\
    (forall m, fname_eqb m (name_of t) = false ->
               lookup m (dk_files (e_disk e')) = lookup m (dk_files (e_disk e))) /\
    file_ents (name_of t) (e_disk e') = file_ents (name_of t) (e_disk e) /\
    (forall m, lookup m (dk_files (e_disk e)) = None -> lookup m (dk_files (e_disk e')) = None).
Proof.
  intros Hc He HT His Hn.
  pose proof (tail_ok_name HT) as Hname. pose proof (tail_ok_off HT) as Hn8.
  assert (Hoff : ws_off tw <= c_seg_size c) by (apply (tail_ok_seal HT), His).
  destruct (cfg_seg_size c Hc) as [_ Hs2].
  destruct (force_seal_arith (ws_off tw) (ws_n tw) (c_seg_size c) (ws_hdr tw) Hs2 Hoff (proj1 Hn8) Hn)
    as (A1 & A2 & A3 & A4 & A5).
  unfold seg_force_seal. rewrite His. change (0 <? 0) with false. cbv iota.
  destruct (N.eqb_spec (ws_n tw) 0) as [|_]; [lia|]. cbv zeta.
  set (total := (if ws_hdr tw then 32 else 0) + index_frame_size (ws_n tw) + 8) in *.
  rewrite A1. clear A1. rewrite (io_ok _ _ He). cbn [negb]. rewrite (io_ok _ _ (io_post_fault _ _)). cbn [negb].
  eexists _, _. split; [reflexivity|]. split; [reflexivity|]. split; [reflexivity|].
  set (istart := ws_off tw + (if ws_hdr tw then 32 else 0) + 8) in *.
  change (e_disk (io_post (ASync ?n) (io_post (AWrite ?n ?o ?k ?b) e))) with (wsync (e_disk e) n o k b).
  rewrite Hname.
  destruct (tail_ok_wsync c (e_disk e) t tw [] (ws_n tw) total (ws_off tw + total) istart HT)
    as (HT' & Ho1 & Ho2 & Ho3 & Hlk' & Hfe & Hno);
    [rewrite llen_nil; lia|assumption|apply (tail_ok_range HT)|lia|lia|lia|lia|reflexivity|constructor|].
  rewrite Hname in HT'. rewrite app_nil_r in Hfe.
  split; [exact HT'|]. split; [reflexivity|]. split; [exact A5|]. split; [exact Ho1|]. split; [exact Ho2|].
  split; [exact Ho3|]. split; [exact Hlk'|]. split; [exact Hfe|exact Hno].
Qed.

Lemma truncate_tail_ok c w e ss t tw nmax :
  cfg_ok c -> e_fault e = None -> WInvS c w (e_disk e) ss t tw -> ws_index_start tw = 0 ->
  st_next_id w + 1 < two64 ->
  first_index (st_segs w) (st_tail w) <= nmax -> nmax < last_index (st_segs w) (st_tail w) ->
  exists w' e',
    truncate_tail c w nmax e = (ROk, w', e') /\ e_fault e' = None /\ WInv c w' (e_disk e') /\
    dk_stable (e_disk e') = dk_stable (e_disk e) /\
    st_next_id w <= st_next_id w' /\ st_next_id w' <= st_next_id w + 1 /\
    abs w' (e_disk e') =
      {| sl_first := first_index (st_segs w) (st_tail w);
         sl_ents := firstn (N.to_nat (nmax + 1 - first_index (st_segs w) (st_tail w)))
                           (sl_ents (abs w (e_disk e))) |} /\
    e_m e' = add_tail (last_index (st_segs w) (st_tail w) - nmax) (e_m e).
Proof.
  intros Hc He HI His Hnid HFn HnL.
  assert (HI0 := HI).
  assert (Hro0 := WInvS_rotate_none _ _ _ _ _ _ HI His).
  destruct (abs_props _ _ _ _ _ _ HI) as (_ & _ & _ & _ & Hne).
  destruct HI as (Hcl & Hfa & Hmeta & Hini & Hfr & Hsegs & Htail & HS & HT & HL & Hro).
  unfold truncate_tail.
  set (L := last_index (st_segs w) (st_tail w)) in *.
  set (F := first_index (st_segs w) (st_tail w)) in *.
  assert (HLeq : last_index (ss ++ [t]) (Some tw) = L) by (unfold L; rewrite Hsegs, Htail; reflexivity).
  destruct (Hne ltac:(lia)) as (Ha & HFm & HF1 & HFL & HLlen & HL1 & Hcons).
  replace (rev (st_segs w)) with (t :: rev ss) by (rewrite Hsegs, rev_unit; reflexivity).
  destruct (span (fun s => nmax <? si_base s) (t :: rev ss)) as (rpost & rpre & E & HFp & Hr).
  rewrite E. rewrite (tail_scan_split nmax L rpost rpre [] 0 HFp Hr). cbn [app].
  (* the first segment survives: the scan stops at a segment sv *)
  destruct rpre as [|sv rpre'].
  { exfalso. rewrite app_nil_r in E. subst rpost. rewrite Forall_forall in HFp.
    assert (Hhd : In (hd t ss) (t :: rev ss)).
    { destruct ss as [|s0 r0]; [left; reflexivity|]. right. apply in_rev. rewrite rev_involutive. left; reflexivity. }
    specialize (HFp _ Hhd). cbv beta in HFp.
    destruct (listed_seg c (e_disk e) ss t tw (hd t ss) HS HT) as (_ & Hbm & _); [destruct ss; cbn; auto|]. lia. }
  apply N.ltb_ge in Hr.
  assert (E' : ss ++ [t] = rev rpre' ++ sv :: rev rpost).
  { apply (f_equal (@rev _)) in E. cbn [rev] in E. rewrite rev_involutive in E. rewrite E.
    rewrite rev_app_distr. cbn [rev]. rewrite <- app_assoc. reflexivity. }
  change (rev (sv :: rpre')) with (rev rpre' ++ [sv]).
  set (pre := rev rpre') in *. clearbody pre.
  assert (Hpost : Forall (fun s => nmax < si_base s) (rev rpost)).
  { apply Forall_rev. eapply Forall_impl; [|exact HFp]. intros s Hs. cbv beta in Hs. lia. }
  assert (Hminsv : si_min sv <= nmax).
  { destruct pre as [|p0 pre0] using rev_ind.
    - rewrite (hd_split _ _ _ _ _ E') in HFm. cbn [hd] in HFm. lia.
    - rewrite <- app_assoc in E'. rewrite E' in HL. destruct (linked_next _ _ _ _ HL). lia. }
  assert (Hdels : forall n, In n (map name_of rpost) -> lookup n (dk_files (e_disk e)) <> None /\
                    forall s, In s (pre ++ [sv]) -> fname_eqb (name_of s) n = false).
  { intros n Hn. apply in_map_iff in Hn. destruct Hn as (x & <- & Hx). apply in_rev in Hx. split.
    - apply (listed_lookup c _ ss t tw _ HS HT). rewrite E'. apply in_or_app. right. right. exact Hx.
    - intros s Hs. apply (names_split c (e_disk e) ss t (pre ++ [sv]) (rev rpost) s x HS HL); auto.
      rewrite <- app_assoc. exact E'. }
  destruct (listed_at c (e_disk e) ss t pre sv (rev rpost) HS E') as [(Ep & -> & ->)|(r2 & Ep & E2 & Hsv & HSr)].
  - (* the tail segment itself is cut: force-seal it, then seal its record at nmax *)
    assert (Hrp : rpost = []).
    { apply (f_equal (@rev _)) in Ep. rewrite rev_involutive in Ep. exact Ep. }
    subst rpost. cbn [rev map tail_sum fold_left] in E' |- *. clear Ep Hpost Hdels HFp E.
    pose proof (tail_ok_unsealed HT) as Hu. rewrite Hu, Htail.
    destruct (tail_commit _ _ _ _ HT) as [Hci Hb].
    pose proof (tail_ok_range HT) as Hbm.
    assert (Hn : 0 < ws_n tw /\ L = si_base t + ws_n tw - 1).
    { rewrite <- HLeq in *. rewrite (last_index_inv c (e_disk e) ss _ _ HT) in *.
      destruct (N.eqb_spec (ws_n tw) 0); [destruct ss; lia|lia]. }
    destruct Hn as [Hn HLt]. destruct (N.eqb_spec (ws_n tw) 0) as [|_]; [lia|].
    destruct (seg_force_seal_ok c e t tw Hc He HT His Hn)
      as (tw' & e1 & Hfs & He1 & Hm1 & HT1 & Hn1 & His1 & Hme1 & Hst1 & Hin1 & Hlk1 & Hfe1 & Hno1).
    rewrite Hfs.
    destruct (tail_write_inv c w (e_disk e) (e_disk e1) ss t tw tw' HI0 HT1 Hme1 Hin1 Hlk1) as [HI1 Hoth].
    assert (Hci1 : ws_commit_idx tw' = ws_commit_idx tw).
    { destruct (tail_commit _ _ _ _ HT1) as [Hci1 _]. rewrite Hci1, Hn1, Hci.
      destruct (N.eqb_spec (ws_n tw) 0); [lia|reflexivity]. }
    assert (Habs1 : abs (appended w tw') (e_disk e1) = abs w (e_disk e)).
    { apply abs_ext; [reflexivity|rewrite Htail; exact Hci1|]. rewrite Hsegs. intros s Hs.
      apply in_app_or in Hs. destruct Hs as [Hs|[<-|[]]]; [|exact Hfe1].
      unfold file_ents. rewrite (Hoth s Hs). reflexivity. }
    fold (seal_info t nmax (ws_index_start tw')).
    set (w0 := {| st_next_id := st_next_id w; st_segs := st_segs w; st_tail := Some tw';
                  st_rotate := st_rotate w; st_failed := st_failed w; st_closed := st_closed w |}).
    set (e0 := add_m e1 _).
    destruct (seal_new_tail c (appended w tw') w0 e0 ss t tw' ss t [] nmax (ws_index_start tw') []
                Hc He1 HI1 eq_refl Hnid Hcl Hfa Hro0 E' Hminsv)
      as (Eset & Ecn & Hmut & He' & HI' & Hst' & Hm' & Habs);
      [rewrite (emax_unsealed _ _ Hu), Hci1, Hci; lia|intros n []|].
    rewrite Eset, Ecn. cbv iota. rewrite Hmut.
    eexists _, _. split; [reflexivity|]. split; [exact He'|]. split; [eexists _, _, _; exact HI'|].
    split; [rewrite Hst'; exact Hst1|]. split; [cbn [wal_with st_next_id w0]; lia|].
    split; [cbn [wal_with st_next_id w0]; lia|].
    split; [rewrite Habs; change (e_disk e0) with (e_disk e1); rewrite Habs1, Ha; reflexivity|].
    rewrite Hm'. unfold e0. cbn [add_m with_m e_m]. rewrite Hm1.
    rewrite sub64_small by lia. rewrite N.add_0_l, (mod64_small (L - nmax)) by lia. reflexivity.
  - (* a sealed segment becomes the last one *)
    assert (Hsl : si_sealed sv = true) by apply Hsv. rewrite Hsl.
    fold (seal_info sv nmax (si_index_start sv)).
    set (w0 := {| st_next_id := st_next_id w; st_segs := st_segs w; st_tail := st_tail w;
                  st_rotate := st_rotate w; st_failed := st_failed w; st_closed := st_closed w |}).
    set (e0 := add_m e _).
    assert (Hx : exists x rest, rev rpost = x :: rest) by (rewrite Ep; destruct r2; cbn [app]; eauto).
    destruct Hx as (x & rest & Ex).
    assert (HLs : ss ++ [t] = (pre ++ [sv]) ++ x :: rest) by (rewrite <- app_assoc, <- Ex; exact E').
    assert (HLx : linked ((pre ++ [sv]) ++ x :: rest)) by (rewrite <- HLs; exact HL).
    assert (Hxb : si_min x = si_max sv + 1).
    { rewrite <- app_assoc in HLx. destruct (linked_next _ _ _ _ HLx). lia. }
    assert (Hmaxsv : nmax <= si_max sv).
    { rewrite Ex in Hpost. apply Forall_inv in Hpost. assert (si_base x <= si_min x); [|lia].
      apply (listed_seg c (e_disk e) ss t tw x HS HT). rewrite E', Ex. apply in_or_app. right. right. left. reflexivity. }
    destruct (seal_new_tail c w w0 e0 ss t tw pre sv (rev rpost) nmax (si_index_start sv)
                (map name_of rpost) Hc He HI0 eq_refl Hnid Hcl Hfa Hro0 E' Hminsv)
      as (Eset & Ecn & Hmut & He' & HI' & Hst' & Hm' & Habs);
      [rewrite (emax_sealed _ _ Hsl); exact Hmaxsv|exact Hdels|].
    rewrite Eset, Ecn. cbv iota. rewrite Hmut.
    eexists _, _. split; [reflexivity|]. split; [exact He'|]. split; [eexists _, _, _; exact HI'|].
    split; [exact Hst'|]. split; [cbn [wal_with st_next_id w0]; lia|]. split; [cbn [wal_with st_next_id w0]; lia|].
    split; [rewrite Habs; change (e_disk e0) with (e_disk e); rewrite Ha; reflexivity|].
    rewrite Hm'. unfold e0. cbn [add_m with_m e_m].
    (* the dropped segments hold the indexes MaxIndex sv + 1 .. L *)
    destruct (bases_before _ _ _ _ _ _ _ HS HL HLs) as [_ HSps].
    assert (Hch := chain_len c (e_disk e) (ws_commit_idx tw) (pre ++ [sv]) x HSps (proj1 (linked_app_inv _ _ _ HLx))).
    rewrite <- (hd_split _ _ _ _ _ HLs), <- HFm, Hxb in Hch.
    assert (Hcnt : F + llen (flat_map (seg_visible (ws_commit_idx tw) (e_disk e)) (pre ++ [sv]))
                     + llen (flat_map (seg_visible (ws_commit_idx tw) (e_disk e)) (x :: rest)) = L + 1).
    { rewrite HLlen, Ha. cbn [sl_ents]. rewrite HLs, (flat_map_app _ (pre ++ [sv]) (x :: rest)), llen_app. lia. }
    rewrite <- (rev_involutive rpost), Ex, <- HLeq.
    rewrite (tail_sum_len c (e_disk e) ss t tw HS HT HL); rewrite ?HLeq;
      [|lia|exact HL1|rewrite HLs; apply incl_appr, incl_refl|lia].
    rewrite sub64_small by lia. rewrite (mod64_small (0 + _ + (si_max sv - nmax))) by lia.
    unfold add_tail. do 2 f_equal. lia.
Qed.

(* how DeleteRange moves the truncation counters: by the number of entries it removes *)
Definition del_m (a a' : slog) (mn : N) (m m' : metrics) : Prop :=
  (m' = m /\ llen (sl_ents a') = llen (sl_ents a)) \/
  (mn <= sl_first a /\ m' = add_head (llen (sl_ents a) - llen (sl_ents a')) m) \/
  (sl_first a < mn /\ m' = add_tail (llen (sl_ents a) - llen (sl_ents a')) m).

Lemma delete_range_ok c w e ss t tw mn mx :
  cfg_ok c -> e_fault e = None -> WInvS c w (e_disk e) ss t tw -> ws_index_start tw = 0 ->
  st_next_id w + 1 < two64 -> mx + 1 < two64 ->
  exists r w' e',
    delete_range c w mn mx e = (r, w', e') /\ e_fault e' = None /\ WInv c w' (e_disk e') /\
    dk_stable (e_disk e') = dk_stable (e_disk e) /\
    st_next_id w <= st_next_id w' /\ st_next_id w' <= st_next_id w + 1 /\
    match spec_delete (abs w (e_disk e)) mn mx with
    | Some a' => r = ROk /\ abs w' (e_disk e') = a' /\ del_m (abs w (e_disk e)) a' mn (e_m e) (e_m e')
    | None => res_class r = RErrOther /\ abs w' (e_disk e') = abs w (e_disk e) /\ e_m e' = e_m e
    end.
Proof.
  intros Hc He HI His Hnid Hmx.
  assert (Hsame : exists r w' e', (ROk, w, e) = (r, w', e') /\ e_fault e' = None /\ WInv c w' (e_disk e') /\
            dk_stable (e_disk e') = dk_stable (e_disk e) /\
            st_next_id w <= st_next_id w' /\ st_next_id w' <= st_next_id w + 1 /\
            r = ROk /\ abs w' (e_disk e') = abs w (e_disk e) /\
            del_m (abs w (e_disk e)) (abs w (e_disk e)) mn (e_m e) (e_m e')).
  { exists ROk, w, e. split; [reflexivity|]. split; [exact He|]. split; [exists ss, t, tw; exact HI|].
    split; [reflexivity|]. split; [lia|]. split; [lia|]. split; [reflexivity|]. split; [reflexivity|].
    left. split; reflexivity. }
  destruct (abs_props _ _ _ _ _ _ HI) as (Hsf & Hsl & Hemp & _ & Hne).
  assert (Habs := abs_eq _ _ _ _ _ _ HI).
  pose proof (winv_closed HI) as Hcl. pose proof (winv_failed HI) as Hfa.
  unfold delete_range. rewrite Hcl.
  set (L := last_index (st_segs w) (st_tail w)) in *.
  set (F := first_index (st_segs w) (st_tail w)) in *.
  set (a := abs w (e_disk e)) in *.
  destruct (abs_bounds _ _ _ _ _ _ HI) as [Hempb Hfirst]. fold a L F in Hempb, Hfirst.
  unfold spec_delete. rewrite Hempb, Hsl, Hfirst.
  destruct (N.ltb_spec mx mn) as [Hmm|Hmm]; cbn [orb]; [exact Hsame|].
  rewrite Hfa.
  destruct (N.eqb_spec L 0) as [EL|EL]; cbn [orb].
  - (* empty log *)
    assert (EF : F = 0).
    { rewrite Habs in Hsf. cbn in Hsf. symmetry. exact Hsf. }
    assert (Ha0 : a = sl_empty) by (rewrite Habs; reflexivity).
    rewrite EL, EF. destruct (N.ltb_spec mx 0) as [|_]; [lia|]. cbn [orb].
    destruct (N.ltb_spec 0 mn) as [_|Hmn]; [exact Hsame|].
    destruct (N.leb_spec mn 0) as [_|]; [|lia].
    rewrite mod64_small by exact Hmx.
    destruct (truncate_head_ok c w e ss t tw (mx + 1) Hc He HI His Hnid ltac:(fold F; lia) Hmx)
      as (w' & e' & Hth & He' & HI' & Hst' & Hid1 & Hid2 & Habs' & Hm').
    exists ROk, w', e'. rewrite Hth. fold L a in Habs', Hm'. rewrite EL in Habs', Hm'.
    destruct (N.ltb_spec 0 (mx + 1)); [|lia].
    split; [reflexivity|]. split; [exact He'|]. split; [exact HI'|]. split; [exact Hst'|].
    split; [exact Hid1|]. split; [exact Hid2|]. split; [reflexivity|].
    split; [rewrite Habs', Ha0; reflexivity|].
    right. left. rewrite Hfirst, EF. split; [lia|]. rewrite Hm'. rewrite N.sub_diag, Ha0. reflexivity.
  - destruct (Hne EL) as (Ha & HFm & HF1 & HFL & HLlen & HL1 & Hcons).
    destruct (N.ltb_spec mx F) as [|HmF]; cbn [orb]; [exact Hsame|].
    destruct (N.ltb_spec L mn) as [|HLm]; cbn [orb]; [exact Hsame|].
    destruct (N.leb_spec mn F) as [HmnF|HmnF].
    + rewrite mod64_small by exact Hmx.
      destruct (truncate_head_ok c w e ss t tw (mx + 1) Hc He HI His Hnid ltac:(fold F; lia) Hmx)
        as (w' & e' & Hth & He' & HI' & Hst' & Hid1 & Hid2 & Habs' & Hm').
      exists ROk, w', e'. rewrite Hth. fold L F a in Habs', Hm'.
      split; [reflexivity|]. split; [exact He'|]. split; [exact HI'|]. split; [exact Hst'|].
      split; [exact Hid1|]. split; [exact Hid2|].
      destruct (N.ltb_spec L (mx + 1)); destruct (N.leb_spec L mx); try lia.
      * split; [reflexivity|]. split; [exact Habs'|]. right. left. rewrite Hfirst. split; [exact HmnF|].
        rewrite Hm'. cbn [sl_empty sl_ents]. rewrite llen_nil, N.sub_0_r. reflexivity.
      * split; [reflexivity|]. split; [exact Habs'|]. right. left. rewrite Hfirst. split; [exact HmnF|].
        rewrite Hm'. cbn [sl_ents]. f_equal. unfold llen in *. rewrite skipn_length. lia.
    + destruct (N.leb_spec L mx) as [HLmx|HLmx].
      * destruct (truncate_tail_ok c w e ss t tw (mn - 1) Hc He HI His Hnid ltac:(fold F; lia) ltac:(fold L; lia))
          as (w' & e' & Hth & He' & HI' & Hst' & Hid1 & Hid2 & Habs' & Hm').
        exists ROk, w', e'. rewrite Hth. fold L F a in Habs', Hm'.
        split; [reflexivity|]. split; [exact He'|]. split; [exact HI'|]. split; [exact Hst'|].
        split; [exact Hid1|]. split; [exact Hid2|]. split; [reflexivity|].
        split; [rewrite Habs'; f_equal; f_equal; lia|].
        right. right. rewrite Hfirst. split; [exact HmnF|]. rewrite Hm'. cbn [sl_ents]. f_equal.
        unfold llen in *. rewrite firstn_length. lia.
      * exists RErrMiddle, w, e. split; [reflexivity|]. split; [exact He|]. split; [exists ss, t, tw; exact HI|].
        repeat split; auto; lia.
Qed.
