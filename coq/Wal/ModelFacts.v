(* ModelFacts.v -- what the refinement proofs need to know about the small definitions of
   Model.v and Spec.v: lists indexed by N, file names, the file map, consecutive index lists,
   frame sizes, [res_class], segment lists and the searches over them. *)
From RW Require Import Base.Bytes Base.BytesFacts Fmt.Codec Fmt.Frame Wal.Model Wal.Spec Gen.Constants Base.LiaSetup.
Open Scope N_scope.

Lemma In_firstn_sub {A} (l : list A) k x : In x (firstn k l) -> In x l.
Proof. intros H. rewrite <- (firstn_skipn k l). apply in_or_app. left. exact H. Qed.
Lemma In_skipn_sub {A} (l : list A) k x : In x (skipn k l) -> In x l.
Proof. intros H. rewrite <- (firstn_skipn k l). apply in_or_app. right. exact H. Qed.
Lemma Forall_firstn {A} (P : A -> Prop) n l : Forall P l -> Forall P (firstn n l).
Proof. intros H. rewrite <- (firstn_skipn n l) in H. apply Forall_app in H. apply H. Qed.
Lemma Forall_skipn {A} (P : A -> Prop) n l : Forall P l -> Forall P (skipn n l).
Proof. intros H. rewrite <- (firstn_skipn n l) in H. apply Forall_app in H. apply H. Qed.

Lemma llen_nil {A} : llen (@nil A) = 0. Proof. reflexivity. Qed.
Lemma llen_cons {A} (x : A) l : llen (x :: l) = llen l + 1.
Proof. unfold llen; cbn [length]; lia. Qed.
Lemma llen_app {A} (a b : list A) : llen (a ++ b) = llen a + llen b.
Proof. unfold llen; rewrite app_length; lia. Qed.
Lemma llen_0 {A} (l : list A) : llen l = 0 <-> l = [].
Proof. unfold llen; destruct l; cbn [length]; split; intros; try reflexivity; try discriminate; lia. Qed.
Lemma llen_pos {A} (l : list A) : l <> [] <-> 0 < llen l.
Proof. rewrite <- llen_0. lia. Qed.

Lemma fname_eqb_eq a b : fname_eqb a b = true <-> a = b.
Proof.
  destruct a as [a1 a2], b as [b1 b2]; unfold fname_eqb; cbn [fst snd].
  rewrite andb_true_iff, !N.eqb_eq. split; [intros [-> ->]; reflexivity|intros H; inversion H; auto].
Qed.
Lemma fname_eqb_refl a : fname_eqb a a = true.
Proof. apply fname_eqb_eq; reflexivity. Qed.
Lemma fname_eqb_neq a b : fname_eqb a b = false <-> a <> b.
Proof.
  split; intros H.
  - intros E. apply fname_eqb_eq in E. congruence.
  - destruct (fname_eqb a b) eqn:E; [apply fname_eqb_eq in E; contradiction|reflexivity].
Qed.
Lemma fname_eqb_sym a b : fname_eqb a b = fname_eqb b a.
Proof.
  destruct (fname_eqb a b) eqn:E.
  - apply fname_eqb_eq in E; subst; symmetry; apply fname_eqb_refl.
  - apply fname_eqb_neq in E. symmetry. apply fname_eqb_neq. congruence.
Qed.
Lemma fname_neq_base (a b : fname) : fst a <> fst b -> fname_eqb a b = false.
Proof. intros H. apply fname_eqb_neq. congruence. Qed.
Lemma fname_neq_id (a b : fname) : snd a <> snd b -> fname_eqb a b = false.
Proof. intros H. apply fname_eqb_neq. congruence. Qed.

Lemma lookup_In n f fs : lookup n fs = Some f -> In (n, f) fs.
Proof.
  induction fs as [|[m g] r IH]; cbn [lookup]; [discriminate|].
  destruct (fname_eqb n m) eqn:E.
  - apply fname_eqb_eq in E; subst. intros H; inversion H; left; reflexivity.
  - intros H; right; auto.
Qed.
Lemma lookup_None n fs : lookup n fs = None <-> ~ In n (map fst fs).
Proof.
  induction fs as [|[m g] r IH]; cbn [lookup map fst In]; [tauto|].
  destruct (fname_eqb n m) eqn:E.
  - apply fname_eqb_eq in E; subst. split; [discriminate|intros H; exfalso; apply H; left; reflexivity].
  - apply fname_eqb_neq in E. rewrite IH. split; intros H; [intros [K|K]; [congruence|tauto]|tauto].
Qed.
Lemma In_lookup n f fs : NoDup (map fst fs) -> In (n, f) fs -> lookup n fs = Some f.
Proof.
  induction fs as [|[m g] r IH]; cbn [lookup map fst In]; [tauto|].
  intros ND [H|H].
  - inversion H; subst. rewrite fname_eqb_refl. reflexivity.
  - inversion ND as [|? ? Hn ND']; subst.
    destruct (fname_eqb n m) eqn:E.
    + apply fname_eqb_eq in E; subst. exfalso; apply Hn. apply in_map_iff. exists (m, f); auto.
    + auto.
Qed.

Lemma lookup_some_in n f fs : lookup n fs = Some f -> In n (map fst fs).
Proof. intros H. apply lookup_In in H. apply in_map_iff. exists (n, f). auto. Qed.
Lemma in_lookup_not_none n fs : In n (map fst fs) -> lookup n fs <> None.
Proof. intros H E. apply lookup_None in E. contradiction. Qed.

Lemma lookup_update_eq n f fs : lookup n (update n f fs) = Some f.
Proof.
  induction fs as [|[m g] r IH]; cbn [update lookup].
  - rewrite fname_eqb_refl; reflexivity.
  - destruct (fname_eqb n m) eqn:E; cbn [lookup]; [rewrite fname_eqb_refl; reflexivity|rewrite E; exact IH].
Qed.
Lemma lookup_update_neq n m f fs : n <> m -> lookup n (update m f fs) = lookup n fs.
Proof.
  intros Hne. induction fs as [|[k g] r IH]; cbn [update lookup].
  - apply fname_eqb_neq in Hne. rewrite Hne. reflexivity.
  - destruct (fname_eqb m k) eqn:E; cbn [lookup].
    + apply fname_eqb_eq in E; subst. apply fname_eqb_neq in Hne. rewrite Hne. reflexivity.
    + rewrite IH. reflexivity.
Qed.
Lemma lookup_update n m f fs :
  lookup n (update m f fs) = if fname_eqb n m then Some f else lookup n fs.
Proof.
  destruct (fname_eqb n m) eqn:E.
  - apply fname_eqb_eq in E; subst; apply lookup_update_eq.
  - apply fname_eqb_neq in E. apply lookup_update_neq; exact E.
Qed.
Lemma update_keys_in n f fs k : In k (map fst (update n f fs)) <-> k = n \/ In k (map fst fs).
Proof.
  induction fs as [|[m g] r IH]; cbn [update map fst In].
  - split; intros [H|H]; auto.
  - destruct (fname_eqb n m) eqn:E; cbn [map fst In].
    + apply fname_eqb_eq in E; subst. split; intros H; intuition.
    + rewrite IH. intuition.
Qed.
Lemma update_NoDup n f fs : NoDup (map fst fs) -> NoDup (map fst (update n f fs)).
Proof.
  induction fs as [|[m g] r IH]; cbn [update map fst]; intros ND.
  - constructor; [intros []|constructor].
  - inversion ND as [|? ? Hn ND']; subst.
    destruct (fname_eqb n m) eqn:E; cbn [map fst].
    + apply fname_eqb_eq in E; subst. constructor; assumption.
    + constructor; [|auto]. rewrite update_keys_in. apply fname_eqb_neq in E. intros [K|K]; [congruence|contradiction].
Qed.

Lemma remove_keys_in n fs k : In k (map fst (remove n fs)) -> In k (map fst fs).
Proof.
  induction fs as [|[m g] r IH]; cbn [remove map fst In]; [tauto|].
  destruct (fname_eqb n m); cbn [map fst In]; intuition.
Qed.
Lemma remove_NoDup n fs : NoDup (map fst fs) -> NoDup (map fst (remove n fs)).
Proof.
  induction fs as [|[m g] r IH]; cbn [remove map fst]; intros ND; [constructor|].
  inversion ND as [|? ? Hn ND']; subst.
  destruct (fname_eqb n m); cbn [map fst]; [assumption|].
  constructor; [|auto]. intros K; apply Hn. eapply remove_keys_in; eauto.
Qed.
Lemma lookup_remove_eq n fs : NoDup (map fst fs) -> lookup n (remove n fs) = None.
Proof.
  induction fs as [|[m g] r IH]; cbn [remove lookup map fst]; intros ND; [reflexivity|].
  inversion ND as [|? ? Hn ND']; subst.
  destruct (fname_eqb n m) eqn:E.
  - apply fname_eqb_eq in E; subst. apply lookup_None. exact Hn.
  - cbn [lookup]. rewrite E. auto.
Qed.
Lemma lookup_remove_neq n m fs : n <> m -> lookup n (remove m fs) = lookup n fs.
Proof.
  intros Hne. induction fs as [|[k g] r IH]; cbn [remove lookup]; [reflexivity|].
  destruct (fname_eqb m k) eqn:E; cbn [lookup].
  - apply fname_eqb_eq in E; subst. apply fname_eqb_neq in Hne. rewrite Hne. reflexivity.
  - rewrite IH. reflexivity.
Qed.
Lemma lookup_remove n m fs : NoDup (map fst fs) ->
  lookup n (remove m fs) = if fname_eqb n m then None else lookup n fs.
Proof.
  intros ND. destruct (fname_eqb n m) eqn:E.
  - apply fname_eqb_eq in E; subst; apply lookup_remove_eq; exact ND.
  - apply fname_eqb_neq in E. apply lookup_remove_neq; exact E.
Qed.
Lemma lookup_remove_none m n fs : lookup m fs = None -> lookup m (remove n fs) = None.
Proof.
  induction fs as [|[k g] r IH]; [reflexivity|]. cbn [remove lookup].
  destruct (fname_eqb m k) eqn:E2; [discriminate|]. intros H.
  destruct (fname_eqb n k) eqn:E1; [exact H|]. cbn [lookup]. rewrite E2. auto.
Qed.
Lemma consecutive_app b l1 l2 :
  consecutive b (l1 ++ l2) = consecutive b l1 && consecutive (b + llen l1) l2.
Proof.
  revert b. induction l1 as [|x l1 IH]; intros b.
  - cbn [app consecutive]. rewrite llen_nil, N.add_0_r. reflexivity.
  - cbn [app consecutive]. rewrite IH, llen_cons.
    replace (b + 1 + llen l1) with (b + (llen l1 + 1)) by lia. rewrite andb_assoc. reflexivity.
Qed.
Lemma consecutive_nth b l k x :
  consecutive b l = true -> nth_error l k = Some x -> l_index x = b + N.of_nat k.
Proof.
  revert b k. induction l as [|y l IH]; intros b k Hc Hn; [destruct k; discriminate|].
  cbn [consecutive] in Hc. apply andb_true_iff in Hc. destruct Hc as [Hy Hc]. apply N.eqb_eq in Hy.
  destruct k as [|k]; cbn [nth_error] in Hn.
  - inversion Hn; subst. lia.
  - rewrite (IH _ _ Hc Hn). lia.
Qed.
Lemma consecutive_skipn b l k :
  consecutive b l = true -> consecutive (b + N.of_nat k) (skipn k l) = true.
Proof.
  revert b l. induction k as [|k IH]; intros b l Hc.
  - cbn [skipn]. replace (b + N.of_nat 0) with b by lia. exact Hc.
  - destruct l as [|y l]; [reflexivity|]. cbn [skipn]. cbn [consecutive] in Hc.
    apply andb_true_iff in Hc. destruct Hc as [_ Hc].
    replace (b + N.of_nat (S k)) with (b + 1 + N.of_nat k) by lia. apply IH. exact Hc.
Qed.
Lemma consecutive_firstn b l k : consecutive b l = true -> consecutive b (firstn k l) = true.
Proof.
  revert b l. induction k as [|k IH]; intros b l Hc; [reflexivity|].
  destruct l as [|y l]; [reflexivity|]. cbn [firstn consecutive] in *.
  apply andb_true_iff in Hc. destruct Hc as [Hy Hc]. rewrite Hy. cbn [andb]. apply IH. exact Hc.
Qed.
Lemma consecutive_hd b l0 ls : consecutive b (l0 :: ls) = true -> l_index l0 = b.
Proof. cbn [consecutive]. intros H. apply andb_true_iff in H. destruct H as [H _]. apply N.eqb_eq. exact H. Qed.
(* an element of a consecutive list sits at the position its index says *)
Lemma consecutive_In_nth b l x :
  consecutive b l = true -> In x l -> nth_error l (N.to_nat (l_index x - b)) = Some x.
Proof.
  intros Hc Hin. apply In_nth_error in Hin. destruct Hin as [k Hk].
  rewrite (consecutive_nth _ _ _ _ Hc Hk). replace (N.to_nat (b + N.of_nat k - b)) with k by lia. exact Hk.
Qed.

Lemma pad_len_le n : pad_len n <= 7.
Proof.
  unfold pad_len. assert (H := N.mod_upper_bound (8 - n mod 8) 8). lia.
Qed.
Lemma enc_frame_size_bounds n : 8 + n <= enc_frame_size n <= n + 15.
Proof. unfold enc_frame_size. assert (H := pad_len_le n). lia. Qed.
Lemma index_frame_size_le n : index_frame_size n <= 4 * n + 15.
Proof.
  unfold index_frame_size. destruct (n =? 0); [lia|]. assert (H := enc_frame_size_bounds (n * 4)). lia.
Qed.
Lemma index_frame_size_bounds n : 0 < n -> 8 <= index_frame_size n <= 4 * n + 15.
Proof.
  intros H. split; [|apply index_frame_size_le]. unfold index_frame_size. destruct (N.eqb_spec n 0); [lia|].
  assert (H1 := enc_frame_size_bounds (n * 4)). lia.
Qed.
Lemma frames_size_fold ls a :
  fold_left (fun a l => a + enc_frame_size (enc_len l)) ls a = a + frames_size ls.
Proof.
  unfold frames_size. revert a. induction ls as [|l ls IH]; intros a; cbn [fold_left]; [lia|].
  rewrite IH. rewrite (IH (0 + _)). lia.
Qed.
Lemma frames_size_cons l ls : frames_size (l :: ls) = enc_frame_size (enc_len l) + frames_size ls.
Proof. unfold frames_size at 1. cbn [fold_left]. rewrite frames_size_fold. lia. Qed.
Lemma frames_size_ge ls : 8 * llen ls <= frames_size ls.
Proof.
  induction ls as [|l ls IH]; [unfold llen; cbn [length]; lia|].
  rewrite frames_size_cons, llen_cons. assert (H := enc_frame_size_bounds (enc_len l)). lia.
Qed.

(* a result is used in two ways only: as ROk, or as anything else *)
Lemma result_ok_dec (r : result) : {r = ROk} + {r <> ROk}.
Proof. destruct r; (left; reflexivity) || (right; discriminate). Qed.
Lemma match_not_ok {A} (r : result) (a b : A) : r <> ROk -> match r with ROk => a | _ => b end = b.
Proof. destruct r; congruence. Qed.
Lemma res_class_ok r : res_class r = ROk -> r = ROk.
Proof. destruct r; cbn; intros H; try discriminate; reflexivity. Qed.

Lemma tail_info_app S t : tail_info (S ++ [t]) = Some t.
Proof. unfold tail_info. rewrite map_app. cbn [map]. apply last_last. Qed.
Lemma tail_info_none l : tail_info l = None -> l = [].
Proof.
  destruct l as [|x r]; [reflexivity|]. intros H. exfalso.
  destruct (exists_last (l := x :: r)) as (l' & y & E); [discriminate|]. rewrite E, tail_info_app in H. discriminate.
Qed.
Lemma tail_info_In l t : tail_info l = Some t -> In t l.
Proof.
  unfold tail_info. induction l as [|x r IH]; [discriminate|].
  cbn [map]. destruct r as [|y r'].
  - cbn. intros H; inversion H; left; reflexivity.
  - intros H. right. apply IH. exact H.
Qed.
Lemma seg_set_head x h r : si_base x = si_base h -> seg_set x (h :: r) = x :: r.
Proof. intros E. cbn [seg_set]. rewrite E, N.ltb_irrefl, N.eqb_refl. reflexivity. Qed.
Lemma seg_visible_sealed tl tl' d s : si_sealed s = true -> seg_visible tl d s = seg_visible tl' d s.
Proof. intros H. unfold seg_visible. rewrite H. reflexivity. Qed.
Lemma seg_visible_ext tl d d' s :
  file_ents (name_of s) d' = file_ents (name_of s) d -> seg_visible tl d' s = seg_visible tl d s.
Proof. unfold seg_visible. intros ->. reflexivity. Qed.

Lemma seek_split_app idx : forall l1 l2 before,
  Forall (fun x => si_base x < idx) l1 ->
  seek_split idx before (l1 ++ l2) = seek_split idx (rev l1 ++ before) l2.
Proof.
  induction l1 as [|x l1 IH]; intros l2 before HF; [reflexivity|].
  inversion HF as [|? ? Hx HF']; subst. cbn [app seek_split].
  destruct (N.leb_spec idx (si_base x)); [lia|]. rewrite IH by exact HF'.
  cbn [rev]. rewrite <- app_assoc. reflexivity.
Qed.
Lemma seek_split_in idx l : forall acc b r,
  seek_split idx acc l = (b, r) ->
  (forall x, In x b -> In x acc \/ In x l) /\ (forall x, In x r -> In x l).
Proof.
  induction l as [|y l IH]; intros acc b r H; cbn [seek_split] in H.
  - inversion H; subst. split; [auto|intros x []].
  - destruct (idx <=? si_base y).
    + inversion H; subst. split; [auto|auto].
    + destruct (IH _ _ _ H) as (H1 & H2). split.
      * intros x Hx. destruct (H1 x Hx) as [[<-|Ha]|Hl]; [right; left; reflexivity|left; exact Ha|right; right; exact Hl].
      * intros x Hx. right. apply H2. exact Hx.
Qed.

Lemma find_segment_sound segs idx s :
  find_segment segs idx = Some s ->
  In s segs /\ si_min s <= idx /\ (si_max s = 0 \/ idx <= si_max s).
Proof.
  unfold find_segment. destruct (seek_split idx [] segs) as [b r] eqn:E.
  destruct (seek_split_in _ _ _ _ _ E) as (H1 & H2).
  destruct r as [|x r']; [discriminate|].
  set (cand := if idx <? si_base x then match b with p :: _ => Some p | [] => None end else Some x).
  assert (Hc : forall y, cand = Some y -> In y segs).
  { unfold cand. intros y. destruct (idx <? si_base x).
    - destruct b as [|p b']; [discriminate|]. intros Hy; inversion Hy; subst.
      destruct (H1 y (or_introl eq_refl)) as [[]|Hl]; exact Hl.
    - intros Hy; inversion Hy; subst. apply H2. left; reflexivity. }
  destruct cand as [y|]; [|discriminate].
  destruct ((si_min y <=? idx) && ((si_max y =? 0) || (idx <=? si_max y))) eqn:Ec; [|discriminate].
  intros Hy; inversion Hy; subst. split; [apply Hc; reflexivity|]. lia.
Qed.

Lemma find_segment_complete pre s x post idx :
  Forall (fun p => si_base p < si_base s) pre -> si_base s <= idx -> idx < si_base x ->
  si_min s <= idx -> idx <= si_max s ->
  find_segment (pre ++ s :: x :: post) idx = Some s.
Proof.
  intros Hpre Hb Hx Hmin Hmax. unfold find_segment.
  rewrite seek_split_app by (eapply Forall_impl; [|exact Hpre]; intros p Hp; cbv beta in *; lia).
  assert (Hchk : (si_min s <=? idx) && ((si_max s =? 0) || (idx <=? si_max s)) = true).
  { destruct (N.leb_spec (si_min s) idx); [|lia]. destruct (N.leb_spec idx (si_max s)); [|lia].
    cbn [andb]. apply orb_true_r. }
  cbn [seek_split]. destruct (N.leb_spec idx (si_base s)).
  - destruct (N.ltb_spec idx (si_base s)); [lia|]. rewrite Hchk. reflexivity.
  - destruct (N.leb_spec idx (si_base x)); [|lia].
    destruct (N.ltb_spec idx (si_base x)); [|lia]. cbn [rev app]. rewrite Hchk. reflexivity.
Qed.

(* each splits its list into the segments it drops, all beyond the new bound, and the rest,
   whose first segment is not *)
Lemma head_scan_inv nm tl : forall segs del ntr rest del' ntr' head,
  head_scan nm tl segs del ntr = (rest, del', ntr', head) ->
  exists D, segs = D ++ rest /\ del' = del ++ map name_of D /\ head = hd_error rest /\
    Forall (fun s => (if si_sealed s then si_max s else tl) < nm) D /\
    match rest with [] => True | h :: _ => nm <= (if si_sealed h then si_max h else tl) end.
Proof.
  induction segs as [|s r IH]; intros del ntr rest del' ntr' head H; cbn [head_scan] in H.
  - inversion H; subst. exists []. cbn [map app]. rewrite app_nil_r. repeat (split; [reflexivity|]). split; [constructor|exact I].
  - destruct (nm <=? (if si_sealed s then si_max s else tl)) eqn:E.
    + inversion H; subst. exists []. cbn [map app]. rewrite app_nil_r. split; [reflexivity|]. split; [reflexivity|].
      split; [reflexivity|]. split; [constructor|lia].
    + apply IH in H. destruct H as (D & E1 & E2 & E3 & E4 & E5). exists (s :: D).
      split; [cbn; rewrite E1; reflexivity|]. split; [rewrite E2, <- app_assoc; reflexivity|].
      split; [exact E3|]. split; [constructor; [lia|exact E4]|exact E5].
Qed.

Lemma tail_scan_inv nm li : forall rsegs del ntr rrest del' ntr',
  tail_scan nm li rsegs del ntr = (rrest, del', ntr') ->
  exists X, rsegs = X ++ rrest /\ del' = del ++ map name_of X /\
    Forall (fun s => nm < si_base s) X /\
    match rrest with [] => True | t0 :: _ => si_base t0 <= nm end.
Proof.
  induction rsegs as [|s r IH]; intros del ntr rrest del' ntr' H; cbn [tail_scan] in H.
  - inversion H; subst. exists []. cbn [map app]. rewrite app_nil_r. repeat (split; [reflexivity|]). split; [constructor|exact I].
  - destruct (si_base s <=? nm) eqn:E.
    + inversion H; subst. exists []. cbn [map app]. rewrite app_nil_r. split; [reflexivity|]. split; [reflexivity|].
      split; [constructor|lia].
    + apply IH in H. destruct H as (X & E1 & E2 & E3 & E4). exists (s :: X).
      split; [cbn; rewrite E1; reflexivity|]. split; [rewrite E2, <- app_assoc; reflexivity|].
      split; [constructor; [lia|exact E3]|exact E4].
Qed.
