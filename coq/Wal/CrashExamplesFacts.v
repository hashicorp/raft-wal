(* CrashExamplesFacts.v -- the example histories satisfy the guards of the theorems. *)
From RW Require Import Base.Bytes Base.BytesFacts Fmt.Codec Fmt.Frame Wal.Model Wal.Spec Wal.Hist
  Wal.CrashInv Wal.CrashThm Wal.CrashExamples Gen.Constants Base.LiaSetup.
Open Scope N_scope.

Ltac solve_log_ok :=
  unfold log_ok, wf_log, ex_log, wf_time, ex_time, wf_bytes, wf_byte, two64, two63, len;
  cbn [l_index l_term l_type l_data l_ext l_time t_sec t_nsec t_zone repeat length];
  repeat split; try lia; try (repeat constructor; lia); try (vm_compute; discriminate).

Lemma ex_log_ok_1_1 : log_ok (ex_log 1 1). Proof. solve_log_ok. Qed.
Lemma ex_log_ok_2_1 : log_ok (ex_log 2 1). Proof. solve_log_ok. Qed.
Lemma ex_log_ok_3_1 : log_ok (ex_log 3 1). Proof. solve_log_ok. Qed.
Lemma ex_log_ok_3_2 : log_ok (ex_log 3 2). Proof. solve_log_ok. Qed.
Lemma ex_log_ok_3_7 : log_ok (ex_log 3 7). Proof. solve_log_ok. Qed.
Lemma ex_log_ok_4_1 : log_ok (ex_log 4 1). Proof. solve_log_ok. Qed.

Lemma cfg128_ok : cfg_ok cfg128.
Proof. unfold cfg_ok, cfg128, two64, two30. cbn. repeat split; try lia. left. reflexivity. Qed.
Lemma cfg256_ok : cfg_ok cfg256.
Proof. unfold cfg_ok, cfg256, two64, two30. cbn. repeat split; try lia. left. reflexivity. Qed.

Ltac solve_sop_ok :=
  cbn [hstep_wf sop_ok];
  first [ exact I
        | split; [repeat (apply Forall_cons; [first [exact ex_log_ok_1_1|exact ex_log_ok_2_1|exact ex_log_ok_3_1
                                            |exact ex_log_ok_3_2|exact ex_log_ok_3_7|exact ex_log_ok_4_1]|]); apply Forall_nil
                 | vm_compute; reflexivity ]
        | unfold two64; lia
        | unfold wf_bytes, wf_byte, two31, len; cbn [length]; repeat split; try (repeat constructor; lia); lia ].

Ltac solve_hist_ok cfgok :=
  split; [exact cfgok|]; split; [repeat (apply Forall_cons; [solve_sop_ok|]); apply Forall_nil | unfold short_enough; cbn [length]; lia].

Lemma hist_rotation_before_commit_ok : hist_ok cfg128 hist_rotation_before_commit.
Proof. unfold hist_rotation_before_commit. solve_hist_ok cfg128_ok. Qed.
Lemma hist_rotation_after_commit_ok : hist_ok cfg128 hist_rotation_after_commit.
Proof. unfold hist_rotation_after_commit. solve_hist_ok cfg128_ok. Qed.
Lemma hist_batch_kept_ok : hist_ok cfg128 hist_batch_kept.
Proof. unfold hist_batch_kept. solve_hist_ok cfg128_ok. Qed.
Lemma hist_batch_lost_ok : hist_ok cfg128 hist_batch_lost.
Proof. unfold hist_batch_lost. solve_hist_ok cfg128_ok. Qed.
Lemma hist_trunc_after_forceseal_ok : hist_ok cfg256 hist_trunc_after_forceseal.
Proof. unfold hist_trunc_after_forceseal. solve_hist_ok cfg256_ok. Qed.
Lemma hist_trunc_after_commit_ok : hist_ok cfg256 hist_trunc_after_commit.
Proof. unfold hist_trunc_after_commit. solve_hist_ok cfg256_ok. Qed.
Lemma hist_nested_ok : hist_ok cfg128 hist_nested.
Proof. unfold hist_nested. solve_hist_ok cfg128_ok. Qed.
Lemma hist_head_trunc_ok : hist_ok cfg128 hist_head_trunc.
Proof. unfold hist_head_trunc. solve_hist_ok cfg128_ok. Qed.
