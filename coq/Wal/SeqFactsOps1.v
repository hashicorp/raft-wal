(* SeqFactsOps1.v -- rotation (settle) and StoreLogs on invariant states. *)
From RW Require Import Base.Bytes Base.BytesFacts Fmt.Codec Fmt.CodecFacts Fmt.Frame
  Wal.Model Wal.Spec Wal.SeqInv Wal.ModelFacts Wal.SeqFactsBase Wal.SeqFactsAbs Wal.SeqFactsTxn Gen.Constants Base.LiaSetup.
Open Scope N_scope.

Definition inc_rot (m : metrics) : metrics :=
  {| m_bytes_written := m_bytes_written m; m_entries_written := m_entries_written m;
     m_appends := m_appends m; m_bytes_read := m_bytes_read m;
     m_entries_read := m_entries_read m; m_rotations := m_rotations m + 1;
     m_head_trunc := m_head_trunc m; m_tail_trunc := m_tail_trunc m;
     m_stable_gets := m_stable_gets m; m_stable_sets := m_stable_sets m |}.

Lemma rotate_ok c w e ss t tw :
  cfg_ok c -> e_fault e = None -> WInvS c w (e_disk e) ss t tw ->
  0 < ws_index_start tw -> st_next_id w + 1 < two64 ->
  exists w' e' ss' t' tw',
    rotate c w e = (w', e') /\ e_fault e' = None /\ WInvS c w' (e_disk e') ss' t' tw' /\
    ws_index_start tw' = 0 /\ abs w' (e_disk e') = abs w (e_disk e) /\
    dk_stable (e_disk e') = dk_stable (e_disk e) /\ st_next_id w' = st_next_id w + 1 /\
    e_m e' = inc_rot (e_m e).
Proof.
  intros Hc He HI Hpos Hnid.
  assert (HI0 := HI).
  destruct HI as (Hcl & Hfa & Hmeta & Hini & Hfr & Hsegs & Htail & HS & HT & HL & Hro).
  destruct (N.ltb_spec 0 (ws_index_start tw)) as [_|]; [|lia].
  assert (Hn : 0 < ws_n tw) by (apply (tail_ok_seal HT), Hpos).
  destruct (tail_commit _ _ _ _ HT) as [Hci Hb].
  destruct (N.eqb_spec (ws_n tw) 0) as [|_]; [lia|].
  pose proof (tail_ok_range HT) as Hr. pose proof (tail_ok_unsealed HT) as Hu.
  assert (HLc : last_index (st_segs w) (st_tail w) = ws_commit_idx tw).
  { rewrite Hsegs, Htail, (last_index_inv c (e_disk e) ss _ _ HT), Hci.
    destruct (N.eqb_spec (ws_n tw) 0); [lia|reflexivity]. }
  unfold rotate. rewrite Hro.
  set (w0 := {| st_next_id := st_next_id w; st_segs := st_segs w; st_tail := st_tail w; st_rotate := None;
                st_failed := st_failed w; st_closed := st_closed w |}).
  rewrite Hcl, Hsegs, tail_info_snoc, Htail. cbn [tail_last].
  fold (seal_info t (ws_commit_idx tw) (ws_index_start tw)).
  set (e0 := add_m e _).
  (* the tail is sealed at its last index: every entry stays *)
  destruct (seal_new_tail c w w0 e0 ss t tw ss t [] (ws_commit_idx tw) (ws_index_start tw) []
              Hc He HI0 eq_refl Hnid Hcl Hfa eq_refl eq_refl)
    as (Eset & Ecn & Hmut & He' & HI' & Hst' & Hm' & Habs);
    [lia|rewrite (emax_unsealed _ _ Hu); lia|intros n []|].
  rewrite Eset, Ecn. cbv iota. rewrite Hmut.
  eexists _, _, _, _, _.
  split; [reflexivity|]. split; [exact He'|]. split; [exact HI'|]. split; [reflexivity|].
  split; [|split; [exact Hst'|split; [reflexivity|exact Hm']]].
  rewrite Habs, <- HLc. apply (abs_upto_last _ _ _ _ _ _ HI0). lia.
Qed.

Lemma existsb_false {A} (f : A -> bool) l : Forall (fun x => f x = false) l -> existsb f l = false.
Proof. induction 1 as [|x l Hx _ IH]; [reflexivity|]. cbn [existsb]. rewrite Hx, IH. reflexivity. Qed.

Lemma append_arith off n k fs lim (hdr : bool) :
  lim < two30 -> off <= lim -> 8 * n <= off -> 8 * k <= fs -> 0 < k -> fs < two30 ->
  let n' := n + k in
  let buf := (if hdr then 32 else 0) + fs in
  (off + (buf + index_frame_size n') mod two32) mod two32 = off + buf + index_frame_size n' /\
  forall seal : bool, seal = (lim <? off + buf + index_frame_size n') ->
    let total := (if seal then buf + index_frame_size n' else buf) + 8 in
    (off + total) mod two32 = off + total /\ (off + total =? 0) = false /\
    8 * n' <= off + total /\ off + total < two32 /\
    ((if seal then off + buf + 8 else 0) = 0 -> off + total <= lim).
Proof.
  intros H1 H2 H3 H4 H5 H6 n' buf.
  assert (Hbuf : fs <= buf /\ buf <= 32 + fs) by (unfold buf; destruct hdr; lia).
  assert (Hifs := index_frame_size_bounds n' ltac:(unfold n'; lia)).
  clearbody buf. unfold n' in *. clear n'. unfold two30, two32 in *.
  split.
  - rewrite (N.mod_small (buf + _)) by lia. rewrite N.mod_small by lia. lia.
  - intros seal Hseal.
    destruct (N.ltb_spec lim (off + buf + index_frame_size (n + k))); subst seal.
    + rewrite N.mod_small by lia. repeat split; lia.
    + rewrite N.mod_small by lia. repeat split; lia.
Qed.

(* the tail after a batch was written at the end of its file and fsynced *)
Lemma tail_ok_wsync c d t tw ls n' total off' istart :
  tail_ok c d t tw -> n' = ws_n tw + llen ls -> 0 < n' -> si_base t + n' < two64 ->
  8 * n' <= off' -> 0 < off' -> off' < two32 -> (istart = 0 -> off' <= c_seg_size c) ->
  consecutive (si_base t + ws_n tw) ls = true -> Forall log_ok ls ->
  let d' := wsync d (name_of t) (ws_off tw) total {| pb_ents := ls; pb_end := off'; pb_seal := istart |} in
  tail_ok c d' t {| ws_name := ws_name tw; ws_base := ws_base tw; ws_min := ws_min tw; ws_limit := ws_limit tw;
                    ws_n := n'; ws_off := off'; ws_hdr := false; ws_index_start := istart;
                    ws_commit_idx := ws_base tw + n' - 1 |} /\
  dk_meta d' = dk_meta d /\ dk_stable d' = dk_stable d /\ dk_inited d' = dk_inited d /\
  (forall m, fname_eqb m (name_of t) = false -> lookup m (dk_files d') = lookup m (dk_files d)) /\
  file_ents (name_of t) d' = file_ents (name_of t) d ++ ls /\
  (forall m, lookup m (dk_files d) = None -> lookup m (dk_files d') = None).
Proof.
  intros HT Hn' Hpos Hlast Hoff1 Hoff2 Hoff3 Hlim Hcons Hok d'.
  destruct (vis_tail _ _ _ _ HT) as (f & Hf & Hlen & _).
  destruct HT as (Hunsl & Hcodec & Hslim & Hb1 & Hbmin & Hminn & Hn64 & Hname & Hbase & Hlimit & Hwmin & Hcommit
          & Hhdr & Hn8 & Hoff32 & Hfit & Hnonempty & _).
  destruct Hf as (Hlk & Hpend & Hfc & Hfok).
  assert (Hlk' := fun m => lookup_wsync d (name_of t) (ws_off tw) total
                            {| pb_ents := ls; pb_end := off'; pb_seal := istart |} f m Hlk Hpend).
  fold d' in Hlk'. cbn [pb_ents pb_end pb_seal] in Hlk'.
  destruct (wsync_other d (name_of t) (ws_off tw) total {| pb_ents := ls; pb_end := off'; pb_seal := istart |})
    as (Ho1 & Ho2 & Ho3). fold d' in Ho1, Ho2, Ho3.
  set (f' := {| df_ents := df_ents f ++ ls; df_end := off'; df_seal := istart;
                df_pend := None; df_dir := true; df_size := df_size f |}) in *.
  assert (Hf' : file_ok d' t f').
  { unfold file_ok. rewrite Hlk', fname_eqb_refl. cbn [f' df_pend df_ents].
    split; [reflexivity|]. split; [reflexivity|]. split.
    - rewrite consecutive_app, Hfc, Hlen. exact Hcons.
    - apply Forall_app. split; assumption. }
  split.
  { unfold tail_ok. cbn [ws_n ws_name ws_base ws_min ws_limit ws_off ws_hdr ws_index_start ws_commit_idx].
    replace (n' =? 0) with false by lia. replace (off' =? 0) with false by lia.
    clear Hlk' Hfok Hok Hcons Hfc Hlk.
    repeat split; auto; try lia.
    exists f'. split; [exact Hf'|]. cbn [f' df_ents df_end df_seal].
    rewrite llen_app, Hlen, Hn'. repeat split; reflexivity. }
  split; [exact Ho1|]. split; [exact Ho2|]. split; [exact Ho3|].
  split; [intros m Hm; rewrite Hlk', Hm; reflexivity|].
  split.
  - unfold file_ents. rewrite Hlk', fname_eqb_refl, Hlk. unfold cur_ents. cbn [f' df_pend df_ents].
    rewrite Hpend. reflexivity.
  - intros m Hm. rewrite Hlk'. destruct (fname_eqb m (name_of t)) eqn:Em; [|exact Hm].
    apply fname_eqb_eq in Em. subst m. congruence.
Qed.

Lemma seg_append_ok c e t tw ls :
  cfg_ok c -> e_fault e = None -> tail_ok c (e_disk e) t tw -> ws_index_start tw = 0 ->
  ls <> [] -> logs_ok ls -> frames_size ls < two30 -> consecutive (si_base t + ws_n tw) ls = true ->
  exists tw' e',
    seg_append tw ls e = (ROk, tw', e') /\ e_fault e' = None /\ e_m e' = e_m e /\
    tail_ok c (e_disk e') t tw' /\ ws_n tw' = ws_n tw + llen ls /\
    dk_meta (e_disk e') = dk_meta (e_disk e) /\ dk_stable (e_disk e') = dk_stable (e_disk e) /\
    dk_inited (e_disk e') = dk_inited (e_disk e) /\
    (forall m, fname_eqb m (name_of t) = false ->
               lookup m (dk_files (e_disk e')) = lookup m (dk_files (e_disk e))) /\
    seg_visible (ws_commit_idx tw') (e_disk e') t = seg_visible (ws_commit_idx tw) (e_disk e) t ++ ls.
Proof.
  intros Hc He HT His Hne Hok Hfs Hcons.
  destruct (vis_tail _ _ _ _ HT) as (f & Hf & Hlen & Hend & Hseal & Hvis & _).
  assert (HT0 := HT).
  destruct HT as (Hunsl & Hcodec & Hslim & Hb1 & Hbmin & Hminn & Hn64 & Hname & Hbase & Hlimit & Hwmin & Hcommit
          & Hhdr & Hn8 & Hoff32 & Hfit & Hnonempty & _).
  destruct (cfg_seg_size c Hc) as [Hs1 Hs2].
  destruct ls as [|l0 rest]; [congruence|]. set (ls := l0 :: rest) in *.
  assert (Hl0 : l_index l0 = si_base t + ws_n tw) by (eapply consecutive_hd; exact Hcons).
  assert (Hbig : existsb (fun l => MaxEntrySize <? enc_len l) ls = false).
  { apply existsb_false. eapply Forall_impl; [|exact Hok]. intros l (_ & _ & _ & Hl). cbv beta. lia. }
  assert (Hlast : si_base t + ws_n tw + llen ls < two64).
  { assert (Hx : exists x, nth_error ls (length ls - 1) = Some x).
    { destruct (nth_error ls (length ls - 1)) eqn:E; [eauto|].
      apply nth_error_None in E. unfold ls in E. cbn [length] in E. lia. }
    destruct Hx as [x Hx]. assert (Hi := consecutive_nth _ _ _ _ Hcons Hx).
    apply nth_error_In in Hx. unfold logs_ok in Hok. rewrite Forall_forall in Hok.
    destruct (Hok x Hx) as (_ & _ & Hu & _). unfold llen, ls in *. cbn [length] in *. lia. }
  assert (Hllen : 0 < llen ls) by (unfold ls; rewrite llen_cons; lia).
  assert (Hfg := frames_size_ge ls).
  assert (Hoff : ws_off tw <= c_seg_size c) by (apply Hfit; exact His).
  unfold seg_append. unfold ls at 1. cbv iota. rewrite His. change (0 <? 0) with false. cbv iota.
  rewrite Hbig, Hbase, Hl0, N.eqb_refl. cbn [negb]. cbv zeta.
  set (n' := ws_n tw + llen ls).
  set (buf := (if ws_hdr tw then 32 else 0) + frames_size ls).
  destruct (append_arith (ws_off tw) (ws_n tw) (llen ls) (frames_size ls) (c_seg_size c) (ws_hdr tw)
              Hs2 Hoff Hn8 Hfg Hllen Hfs) as [Hnw1 Hnw2].
  fold n' buf in Hnw1, Hnw2.
  rewrite Hnw1, Hlimit. clear Hnw1.
  set (seal := c_seg_size c <? ws_off tw + buf + index_frame_size n') in *.
  specialize (Hnw2 seal eq_refl). cbv zeta in Hnw2.
  set (total := (if seal then buf + index_frame_size n' else buf) + 8) in *.
  destruct Hnw2 as (Hnw2 & Ht0 & Ht1 & Ht2 & Ht3).
  rewrite Hnw2. clear Hnw2. rewrite (io_ok _ _ He). cbn [negb]. rewrite (io_ok _ _ (io_post_fault _ _)). cbn [negb].
  eexists _, _. split; [reflexivity|]. split; [reflexivity|]. split; [reflexivity|].
  change (e_disk (io_post (ASync ?n) (io_post (AWrite ?n ?o ?k ?b) e))) with (wsync (e_disk e) n o k b).
  rewrite Hname.
  assert (Hn' : n' = ws_n tw + llen ls) by reflexivity.
  clearbody total seal buf n'. clear Hbig Hfg Hfs Hoff Hn8 Hoff32 Hfit Hnonempty Hhdr Hs1 Hs2.
  destruct (tail_ok_wsync c (e_disk e) t tw ls n' total (ws_off tw + total)
              (if seal then ws_off tw + buf + 8 else 0) HT0 Hn')
    as (HT' & Ho1 & Ho2 & Ho3 & Hlk' & Hfe & _); [lia|lia|lia|lia|lia|exact Ht3|exact Hcons|exact Hok|].
  rewrite Hname, Hbase, Hlimit in HT'.
  split; [exact HT'|]. split; [reflexivity|]. split; [exact Ho1|]. split; [exact Ho2|]. split; [exact Ho3|].
  split; [exact Hlk'|].
  cbn [ws_commit_idx]. rewrite Hvis.
  rewrite seg_visible_eq by lia. rewrite (emax_unsealed _ _ Hunsl), Hfe, (file_ents_ok _ _ _ Hf).
  rewrite firstn_all2.
  - apply skipn_app_le. unfold llen in Hlen. lia.
  - rewrite skipn_length, app_length. unfold llen in *. lia.
Qed.

Lemma check_logs_inner : forall r i, logs_ok r -> 1 <= i -> i + 1 < two64 ->
  fst (check_logs i r) = if consecutive (i + 1) r then ROk else RErrNonMono.
Proof.
  induction r as [|l r IH]; intros i Hok Hi1 Hi2; [reflexivity|].
  inversion Hok as [|? ? Hl Hr]; subst. cbn [check_logs consecutive].
  destruct (N.ltb_spec 0 i); [|lia]. rewrite mod64_small by exact Hi2. cbn [andb].
  destruct (N.eqb_spec (l_index l) (i + 1)) as [E|E]; cbn [negb andb]; [|reflexivity].
  destruct (log_ok_codec l Hl) as (_ & b & Hb). rewrite Hb.
  destruct Hl as (_ & Hl1 & Hl2 & _).
  specialize (IH (l_index l) Hr Hl1 Hl2). destruct (check_logs (l_index l) r) as [res n].
  cbn [fst] in *. rewrite IH, E. reflexivity.
Qed.

Lemma check_logs_fst last l0 rest : logs_ok (l0 :: rest) -> last + 1 < two64 ->
  fst (check_logs last (l0 :: rest)) =
  if ((last =? 0) || (l_index l0 =? last + 1)) && consecutive (l_index l0) (l0 :: rest)
  then ROk else RErrNonMono.
Proof.
  intros Hok Hlast. inversion Hok as [|? ? Hl Hr]; subst. cbn [check_logs consecutive].
  rewrite mod64_small by exact Hlast. rewrite N.eqb_refl. cbn [andb].
  destruct (N.eqb_spec last 0) as [E0|E0]; cbn [orb].
  - subst last. cbn [N.ltb andb]. change (0 <? 0) with false. cbn [andb].
    destruct (log_ok_codec l0 Hl) as (_ & b & Hb). rewrite Hb.
    destruct Hl as (_ & Hl1 & Hl2 & _).
    assert (IH := check_logs_inner rest (l_index l0) Hr Hl1 Hl2).
    destruct (check_logs (l_index l0) rest) as [res n]. cbn [fst] in *. exact IH.
  - destruct (N.ltb_spec 0 last); [|lia]. cbn [andb].
    destruct (N.eqb_spec (l_index l0) (last + 1)) as [E|E]; cbn [negb andb]; [|reflexivity].
    destruct (log_ok_codec l0 Hl) as (_ & b & Hb). rewrite Hb.
    destruct Hl as (_ & Hl1 & Hl2 & _).
    assert (IH := check_logs_inner rest (l_index l0) Hr Hl1 Hl2).
    destruct (check_logs (l_index l0) rest) as [res n]. cbn [fst] in *. exact IH.
Qed.

(* total encoded size of a batch, as StoreLogs accounts it *)
Definition bytes_sum (ls : list log) : N := fold_right (fun l a => enc_len l + a) 0 ls.

Lemma check_logs_snd : forall r i, fst (check_logs i r) = ROk ->
  snd (check_logs i r) = bytes_sum r mod two64.
Proof.
  induction r as [|l r IH]; intros i; [reflexivity|]. cbn [check_logs bytes_sum fold_right].
  destruct (_ && _); [discriminate|]. unfold enc_len at 1.
  destruct (encode_log l) as [b|]; [|discriminate].
  specialize (IH (l_index l)). destruct (check_logs (l_index l) r) as [res n]. cbn [fst snd] in *.
  intros Hr. rewrite (IH Hr). fold (bytes_sum r). apply N.add_mod_idemp_r. unfold two64. lia.
Qed.

(* the state after a successful append to the tail *)
Definition appended (w : wal) (tw' : wseg) : wal :=
  {| st_next_id := st_next_id w; st_segs := st_segs w; st_tail := Some tw';
     st_rotate := if 0 <? ws_index_start tw' then Some (ws_index_start tw') else None;
     st_failed := st_failed w; st_closed := st_closed w |}.

(* the invariant after the tail's file and writer changed *)
Lemma tail_write_inv c w d d' ss t tw tw' :
  WInvS c w d ss t tw -> tail_ok c d' t tw' ->
  dk_meta d' = dk_meta d -> dk_inited d' = dk_inited d ->
  (forall m, fname_eqb m (name_of t) = false -> lookup m (dk_files d') = lookup m (dk_files d)) ->
  WInvS c (appended w tw') d' ss t tw' /\
  (forall s, In s ss -> lookup (name_of s) (dk_files d') = lookup (name_of s) (dk_files d)).
Proof.
  intros (Hcl & Hfa & Hmeta & Hini & Hfr & Hsegs & Htail & HS & HT & HL & Hro) HT' Em Ei El.
  assert (Hlt := linked_base_lt ss t (Forall_impl _ (sealed_srange c d) HS) HL).
  assert (Hoth : forall s, In s ss -> lookup (name_of s) (dk_files d') = lookup (name_of s) (dk_files d)).
  { intros s Hs. apply El. apply fname_neq_base. rewrite Forall_forall in Hlt. specialize (Hlt s Hs).
    cbn [name_of fst]. lia. }
  split; [|exact Hoth].
  apply WInvS_intro; unfold appended; cbn [st_closed st_failed st_segs st_tail st_rotate st_next_id]; auto.
  - rewrite Em, Hmeta. reflexivity.
  - congruence.
  - intros n Hn. destruct (fname_eqb n (name_of t)) eqn:E; [|rewrite El by exact E; apply Hfr; exact Hn].
    apply fname_eqb_eq in E. subst n. exfalso.
    apply (listed_lookup c d ss t tw t HS HT); [apply in_or_app; right; left; reflexivity|]. apply Hfr. exact Hn.
  - eapply sealed_ok_frame_all; eassumption.
Qed.

Lemma append_state c w d d' ss t tw tw' ls :
  WInvS c w d ss t tw -> tail_ok c d' t tw' ->
  dk_meta d' = dk_meta d -> dk_inited d' = dk_inited d ->
  (forall m, fname_eqb m (name_of t) = false -> lookup m (dk_files d') = lookup m (dk_files d)) ->
  seg_visible (ws_commit_idx tw') d' t = seg_visible (ws_commit_idx tw) d t ++ ls ->
  ws_n tw' = ws_n tw + llen ls -> ls <> [] ->
  WInvS c (appended w tw') d' ss t tw' /\
  abs (appended w tw') d' =
    {| sl_first := if last_index (st_segs w) (st_tail w) =? 0 then si_base t
                   else first_index (st_segs w) (st_tail w);
       sl_ents := sl_ents (abs w d) ++ ls |}.
Proof.
  intros HI HT' Em Ei El Ev En Hne.
  assert (HI0 := HI).
  destruct (tail_write_inv c w d d' ss t tw tw' HI HT' Em Ei El) as [HI' Hoth].
  destruct HI as (Hcl & Hfa & Hmeta & Hini & Hfr & Hsegs & Htail & HS & HT & HL & Hro).
  assert (Hlt := linked_base_lt ss t (Forall_impl _ (sealed_srange c d) HS) HL).
  assert (HS' : Forall (sealed_ok c d') ss) by apply HI'.
  split; [exact HI'|].
  assert (Hllen : 0 < llen ls).
  { destruct ls; [congruence|]. rewrite llen_cons. lia. }
  rewrite (abs_eq _ _ _ _ _ _ HI'). unfold appended at 1 2 3 4. cbn [st_segs st_tail].
  rewrite Hsegs.
  rewrite (last_index_inv c d' ss _ _ HT'), (first_index_inv _ _ _ _ _ HS' HT').
  assert (Hb : 1 <= si_base t) by apply HT.
  destruct (N.eqb_spec (ws_n tw') 0) as [|_]; [lia|].
  destruct (N.eqb_spec (si_base t + ws_n tw' - 1) 0) as [|_]; [lia|].
  rewrite (abs_eq _ _ _ _ _ _ HI0), Hsegs, Htail.
  assert (Econt : flat_map (seg_visible (ws_commit_idx tw') d') (ss ++ [t])
                  = flat_map (seg_visible (ws_commit_idx tw) d) (ss ++ [t]) ++ ls).
  { rewrite !flat_map_app. cbn [flat_map]. rewrite !app_nil_r, Ev, <- app_assoc. f_equal.
    apply (flat_map_visible_sealed c); assumption. }
  rewrite Econt.
  assert (Hne0 := content_nonempty _ _ _ _ _ HT HS HL).
  rewrite (first_index_inv _ _ _ _ _ HS HT).
  destruct (N.eqb_spec (last_index (ss ++ [t]) (Some tw)) 0) as [E0|E0].
  - rewrite (proj2 Hne0 E0). cbn [sl_ents sl_empty app]. f_equal.
    rewrite (last_index_inv c d ss _ _ HT) in E0.
    assert (Hr : si_base t <= si_min t /\ si_min t <= si_base t + (ws_n tw - 1)) by (split; apply HT).
    destruct ss as [|s r].
    + destruct (N.eqb_spec (ws_n tw) 0); lia.
    + exfalso. inversion HS as [|? ? Hs' _]; subst. inversion Hlt as [|? ? Hs _]; subst.
      destruct Hs' as (_ & _ & ? & ? & ? & _). destruct (N.eqb_spec (ws_n tw) 0); lia.
  - cbn [sl_ents]. f_equal. destruct ss as [|s r]; [|reflexivity].
    rewrite (last_index_inv c d [] _ _ HT) in E0.
    destruct (N.eqb_spec (ws_n tw) 0); [congruence|reflexivity].
Qed.

Definition inc_write (nbytes k : N) (m : metrics) : metrics :=
  {| m_bytes_written := (m_bytes_written m + nbytes) mod two64;
     m_entries_written := m_entries_written m + k;
     m_appends := m_appends m + 1; m_bytes_read := m_bytes_read m;
     m_entries_read := m_entries_read m; m_rotations := m_rotations m;
     m_head_trunc := m_head_trunc m; m_tail_trunc := m_tail_trunc m;
     m_stable_gets := m_stable_gets m; m_stable_sets := m_stable_sets m |}.

(* the check-and-append part of StoreLogs; [last] is LastIndex at call time *)
Definition store_go (last : N) (ls : list log) (w : wal) (e : env) : result * wal * env :=
  let '(res, nbytes) := check_logs last ls in
  match res with
  | ROk =>
      match st_tail w with
      | None => (RErrOther, w, e)
      | Some tw =>
          let '(r, tw', e1) := seg_append tw ls e in
          match r with
          | ROk => (ROk, appended w tw', add_m e1 (inc_write nbytes (llen ls)))
          | _ => (r, w, e1)
          end
      end
  | _ => (res, w, e)
  end.

Lemma store_logs_unfold c w l0 rest e ti :
  st_closed w = false -> st_failed w = false -> tail_info (st_segs w) = Some ti ->
  store_logs c w (l0 :: rest) e =
  let last := last_index (st_segs w) (st_tail w) in
  if (last =? 0) && negb (l_index l0 =? si_base ti) then
    let '(r, w1, e1, dels) := reset_first c w (l_index l0) e in
    match r with
    | ROk => let '(r2, w2, e2) := store_go last (l0 :: rest) w1 e1 in (r2, w2, delete_files dels e2)
    | _ => (r, w1, e1)
    end
  else store_go last (l0 :: rest) w e.
Proof.
  intros H1 H2 H3. unfold store_logs, store_go, appended, inc_write. rewrite H1, H2, H3. cbv zeta.
  destruct ((last_index (st_segs w) (st_tail w) =? 0) && negb (l_index l0 =? si_base ti)); [|reflexivity].
  destruct (reset_first c w (l_index l0) e) as [[[r w1] e1] dels]. destruct r; reflexivity.
Qed.

Lemma last_zero c d ss t tw :
  Forall (sealed_ok c d) ss -> tail_ok c d t tw -> linked (ss ++ [t]) ->
  last_index (ss ++ [t]) (Some tw) = 0 -> ss = [] /\ ws_n tw = 0.
Proof.
  intros HS HT HL E. rewrite (last_index_inv c d ss _ _ HT) in E.
  assert (Hb : 1 <= si_base t) by apply HT.
  assert (Hlt := linked_lt ss t (Forall_impl _ (sealed_srange c d) HS) HL).
  destruct (N.eqb_spec (ws_n tw) 0) as [E0|E0]; [|lia].
  split; [|exact E0]. destruct ss as [|s r]; [reflexivity|]. exfalso.
  inversion HS as [|? ? Hs' _]; subst. inversion Hlt as [|? ? Hs _]; subst.
  destruct Hs' as (_ & _ & ? & ? & ? & _). lia.
Qed.

Lemma store_go_ok c L l0 rest w e ss t tw :
  let ls := l0 :: rest in
  let good := ((L =? 0) || (l_index l0 =? L + 1)) && consecutive (l_index l0) ls in
  cfg_ok c -> e_fault e = None -> WInvS c w (e_disk e) ss t tw -> ws_index_start tw = 0 ->
  logs_ok ls -> frames_size ls < two30 -> L + 1 < two64 ->
  (good = true -> l_index l0 = si_base t + ws_n tw) ->
  exists r w' e',
    store_go L ls w e = (r, w', e') /\ e_fault e' = None /\
    dk_stable (e_disk e') = dk_stable (e_disk e) /\ st_next_id w' = st_next_id w /\
    e_m e' = (if good then inc_write (bytes_sum ls mod two64) (llen ls) (e_m e) else e_m e) /\
    if good then
      r = ROk /\ exists tw', WInvS c w' (e_disk e') ss t tw' /\
      abs w' (e_disk e') =
        {| sl_first := if last_index (st_segs w) (st_tail w) =? 0 then si_base t
                       else first_index (st_segs w) (st_tail w);
           sl_ents := sl_ents (abs w (e_disk e)) ++ ls |}
    else r = RErrNonMono /\ w' = w /\ e' = e.
Proof.
  intros ls good Hc He HI His Hok Hfs HL Hgood.
  assert (Hfst := check_logs_fst L l0 rest Hok HL). fold ls good in Hfst.
  assert (Hsnd := check_logs_snd ls L).
  unfold store_go. destruct (check_logs L ls) as [res nb]. cbn [fst snd] in Hfst, Hsnd. subst res.
  destruct good eqn:Eg.
  - pose proof (winv_tail HI) as Htail. pose proof (winv_tail_ok HI) as HT.
    rewrite Htail.
    assert (Hcons : consecutive (si_base t + ws_n tw) ls = true).
    { rewrite <- (Hgood eq_refl). unfold good in Eg. apply andb_true_iff in Eg. apply Eg. }
    destruct (seg_append_ok c e t tw ls Hc He HT His ltac:(discriminate) Hok Hfs Hcons)
      as (tw' & e' & Happ & He' & Hm' & HT' & Hn' & Hme & Hst & Hin & Hlk & Hvis).
    rewrite Happ.
    eexists _, _, _. split; [reflexivity|]. split; [exact He'|]. split; [exact Hst|].
    split; [reflexivity|]. split; [cbn [add_m with_m e_m]; rewrite Hm', (Hsnd eq_refl); reflexivity|].
    split; [reflexivity|]. exists tw'.
    change (e_disk (add_m e' (inc_write nb (llen ls)))) with (e_disk e').
    destruct (append_state c w (e_disk e) (e_disk e') ss t tw tw' ls) as [G1 G2]; auto; [discriminate|].
    rewrite Htail in G2. split; assumption.
  - eexists _, _, _. split; [reflexivity|]. repeat split; auto.
Qed.

Definition is_nil {A} (l : list A) : bool := match l with [] => true | _ => false end.

Lemma WInvS_rotate_none c w d ss t tw : WInvS c w d ss t tw -> ws_index_start tw = 0 -> st_rotate w = None.
Proof. intros HI H. rewrite (winv_rotate HI), H. reflexivity. Qed.

Lemma reset_first_ok c w e t tw nb :
  cfg_ok c -> e_fault e = None -> WInvS c w (e_disk e) [] t tw -> ws_index_start tw = 0 -> ws_n tw = 0 ->
  st_next_id w + 1 < two64 -> 1 <= nb -> nb < two64 -> nb <> si_base t ->
  let si := new_segment c (st_next_id w) nb in
  exists w1 e1,
    reset_first c w nb e = (ROk, w1, e1, [name_of t]) /\ e_fault e1 = None /\
    WInvS c w1 (e_disk e1) [] si (new_wseg si) /\
    dk_stable (e_disk e1) = dk_stable (e_disk e) /\ st_next_id w1 = st_next_id w + 1 /\ e_m e1 = e_m e.
Proof.
  intros Hc He HI His Hn Hnid Hnb1 Hnb2 Hnb3 si.
  assert (Hro := WInvS_rotate_none _ _ _ _ _ _ HI His).
  destruct HI as (Hcl & Hfa & Hmeta & Hini & Hfr & Hsegs & Htail & HS & HT & HL & _).
  cbn [app] in Hsegs.
  assert (HL0 : last_index (st_segs w) (st_tail w) = 0).
  { rewrite Hsegs, Htail. assert (X := last_index_inv c (e_disk e) [] t tw HT). cbn [app] in X.
    rewrite X, Hn. reflexivity. }
  unfold reset_first. rewrite HL0. change (0 <? 0) with false. cbv iota.
  rewrite Hsegs. change (tail_info [t]) with (Some t). cbv iota.
  destruct (N.eqb_spec (si_base t) nb) as [E|_]; [congruence|].
  cbn [seg_del]. rewrite N.eqb_refl.
  rewrite (create_next_nil c _ nb Hnb1 Hnb2 Hnid).
  destruct (mutate_new_tail c true w e [] nb [name_of t]) as (Hmut & HI' & He' & Hst' & Hm' & Hlk');
    try assumption; try reflexivity.
  cbn [app] in Hmut. rewrite Hmut.
  eexists _, _. split; [reflexivity|]. split; [exact He'|]. split; [exact HI'|].
  split; [exact Hst'|]. split; [reflexivity|exact Hm'].
Qed.

Lemma store_logs_ok c w e ss t tw ls :
  cfg_ok c -> e_fault e = None -> WInvS c w (e_disk e) ss t tw -> ws_index_start tw = 0 ->
  st_next_id w + 1 < two64 -> logs_ok ls -> frames_size ls < two30 ->
  exists r w' e',
    store_logs c w ls e = (r, w', e') /\ e_fault e' = None /\ WInv c w' (e_disk e') /\
    dk_stable (e_disk e') = dk_stable (e_disk e) /\
    st_next_id w <= st_next_id w' /\ st_next_id w' <= st_next_id w + 1 /\
    match spec_store (abs w (e_disk e)) ls with
    | Some a' => r = ROk /\ abs w' (e_disk e') = a' /\
                 e_m e' = (if is_nil ls then e_m e else inc_write (bytes_sum ls mod two64) (llen ls) (e_m e))
    | None => res_class r = RErrOther /\ abs w' (e_disk e') = abs w (e_disk e) /\ e_m e' = e_m e
    end.
Proof.
  intros Hc He HI His Hnid Hok Hfs.
  assert (HI0 := HI).
  destruct (abs_props _ _ _ _ _ _ HI) as (Hsf & Hsl & Hemp & Haok & Hne).
  destruct HI as (Hcl & Hfa & Hmeta & Hini & Hfr & Hsegs & Htail & HS & HT & HL & Hro).
  destruct ls as [|l0 rest].
  { unfold store_logs. rewrite Hcl. exists ROk, w, e. cbn [spec_store is_nil].
    repeat split; auto; try lia. exists ss, t, tw. exact HI0. }
  assert (Hti : tail_info (st_segs w) = Some t) by (rewrite Hsegs; apply tail_info_snoc).
  rewrite (store_logs_unfold c w l0 rest e t Hcl Hfa Hti). cbv zeta.
  set (ls := l0 :: rest) in *.
  set (L := last_index (st_segs w) (st_tail w)) in *.
  set (a := abs w (e_disk e)) in *.
  assert (Hl0 : log_ok l0) by (inversion Hok; assumption).
  assert (HL1 : L + 1 < two64).
  { destruct (N.eq_dec L 0) as [E|E]; [rewrite E; unfold two64; lia|]. apply Hne. exact E. }
  destruct (abs_bounds _ _ _ _ _ _ HI0) as [Hempb _]. fold a L in Hempb.
  assert (Hspec : spec_store a ls =
            if ((L =? 0) || (l_index l0 =? L + 1)) && consecutive (l_index l0) ls
            then Some {| sl_first := if L =? 0 then l_index l0 else sl_first a; sl_ents := sl_ents a ++ ls |}
            else None).
  { unfold spec_store, ls. fold ls. rewrite Hempb, Hsl. rewrite andb_comm. reflexivity. }
  rewrite Hspec. clear Hspec.
  destruct ((L =? 0) && negb (l_index l0 =? si_base t)) eqn:Ereset.
  - (* the empty log restarts at a new base index *)
    apply andb_true_iff in Ereset. destruct Ereset as [EL Enb]. apply N.eqb_eq in EL.
    apply negb_true_iff in Enb. apply N.eqb_neq in Enb.
    assert (HL0 : last_index (ss ++ [t]) (Some tw) = 0) by (unfold L in EL; rewrite Hsegs, Htail in EL; exact EL).
    destruct (last_zero _ _ _ _ _ HS HT HL HL0) as [-> Hn].
    destruct Hl0 as (_ & Hi1 & Hi2 & _).
    destruct (reset_first_ok c w e t tw (l_index l0) Hc He HI0 His Hn Hnid Hi1 ltac:(lia) Enb)
      as (w1 & e1 & Hrf & He1 & HI1 & Hst1 & Hid1 & Hm1).
    rewrite Hrf.
    set (si := new_segment c (st_next_id w) (l_index l0)) in *.
    destruct (store_go_ok c L l0 rest w1 e1 [] si (new_wseg si) Hc He1 HI1 eq_refl Hok Hfs HL1)
      as (r & w2 & e2 & Hgo & He2 & Hst2 & Hid2 & Hm2 & Hres).
    { intros _. cbn [si new_segment si_base new_wseg ws_n]. lia. }
    fold ls in Hgo, Hres, Hm2. rewrite Hgo. rewrite EL in *. cbn [N.eqb orb andb] in Hres, Hm2 |- *.
    assert (Ha : a = sl_empty).
    { unfold a. rewrite (abs_eq _ _ _ _ _ _ HI0). fold L. rewrite EL. reflexivity. }
    assert (Ha1 : abs w1 (e_disk e1) = sl_empty) by apply (abs_empty_tail _ _ _ _ _ _ HI1 eq_refl).
    assert (HL1' : last_index (st_segs w1) (st_tail w1) = 0).
    { rewrite (winv_segs HI1), (winv_tail HI1), (last_index_inv c (e_disk e1) [] _ _ (winv_tail_ok HI1)).
      reflexivity. }
    assert (Hdn : forall s n, In s ([] ++ [si]) -> In n [name_of t] -> fname_eqb (name_of s) n = false).
    { intros s n [<-|[]] [<-|[]]. apply fname_neq_base. cbn. exact Enb. }
    (* accepted or refused, the state is an invariant one with tail si; then the old tail's file goes *)
    assert (HI2 : exists tw2, WInvS c w2 (e_disk e2) [] si tw2).
    { destruct (consecutive (l_index l0) ls); [destruct Hres as (_ & tw2 & HI2 & _)|destruct Hres as (_ & -> & ->)]; eauto. }
    destruct HI2 as (tw2 & HI2).
    destruct (WInvS_delete_files c w2 e2 [] si tw2 [name_of t] HI2 He2 Hdn) as (G1 & G2 & G3 & G4 & G5).
    eexists _, _, _. split; [reflexivity|]. split; [exact G3|]. split; [exists [], si, tw2; exact G1|].
    split; [congruence|]. split; [lia|]. split; [lia|]. rewrite G2, G5, Hm2, Hm1.
    destruct (consecutive (l_index l0) ls); [destruct Hres as (-> & _ & _ & ->)|destruct Hres as (-> & -> & ->)];
      rewrite ?HL1', Ha1, Ha; repeat split; reflexivity.
  - (* append to the current tail *)
    destruct (store_go_ok c L l0 rest w e ss t tw Hc He HI0 His Hok Hfs HL1)
      as (r & w2 & e2 & Hgo & He2 & Hst2 & Hid2 & Hm2 & Hres).
    { intros Hg. apply andb_true_iff in Hg. destruct Hg as [Hg _].
      assert (HLi : L = last_index (ss ++ [t]) (Some tw)) by (unfold L; rewrite Hsegs, Htail; reflexivity).
      rewrite (last_index_inv c (e_disk e) ss _ _ HT) in HLi.
      destruct (N.eqb_spec L 0) as [EL|EL].
      - cbn [andb] in Ereset. apply negb_false_iff in Ereset. apply N.eqb_eq in Ereset.
        assert (HL0 : last_index (ss ++ [t]) (Some tw) = 0) by (unfold L in EL; rewrite Hsegs, Htail in EL; exact EL).
        destruct (last_zero _ _ _ _ _ HS HT HL HL0) as [_ Hn]. lia.
      - cbn [orb] in Hg. apply N.eqb_eq in Hg. pose proof (tail_ok_range HT) as Hr.
        destruct (N.eqb_spec (ws_n tw) 0); [|lia]. destruct ss; lia. }
    fold ls in Hgo, Hres, Hm2. rewrite Hgo.
    destruct (((L =? 0) || (l_index l0 =? L + 1)) && consecutive (l_index l0) ls) eqn:Eg.
    + destruct Hres as (-> & tw2 & HI2 & Habs2).
      eexists _, _, _. split; [reflexivity|]. split; [exact He2|]. split; [exists ss, t, tw2; exact HI2|].
      split; [exact Hst2|]. split; [lia|]. split; [lia|]. split; [reflexivity|]. split; [|exact Hm2].
      rewrite Habs2. fold L a. f_equal.
      destruct (N.eqb_spec L 0) as [EL|EL].
      * cbn [andb] in Ereset. apply negb_false_iff in Ereset. apply N.eqb_eq in Ereset. congruence.
      * destruct (Hne EL) as (Ha & _). rewrite Ha. reflexivity.
    + destruct Hres as (-> & -> & ->).
      eexists _, _, _. split; [reflexivity|]. split; [exact He|]. split; [exists ss, t, tw; exact HI0|].
      repeat split; auto; lia.
Qed.
