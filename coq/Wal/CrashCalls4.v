(* CrashCalls4.v -- StoreLogs: arithmetic of the segment writer (no uint32/uint64
   wrap under the guards), check_logs, the append, the base-index reset. *)
From RW Require Import Base.Bytes Base.BytesFacts Fmt.Codec Fmt.CodecFacts Fmt.Frame Wal.Model Wal.Spec Wal.Hist
  Wal.CrashInv Wal.ModelFacts Wal.CrashFacts0 Wal.CrashFacts1 Wal.CrashFacts2 Wal.CrashFacts3 Wal.CrashFacts4 Wal.CrashFacts5
  Wal.CrashFacts6 Wal.CrashGlue Wal.CrashCalls1 Wal.CrashCalls3 Gen.Constants Base.LiaSetup.
Open Scope N_scope.

(* the monotonicity test of StoreLogs as a boolean; last = 0 stands for the empty log *)
Fixpoint chk (last : N) (ls : list log) : bool :=
  match ls with
  | [] => true
  | l :: r => ((last =? 0) || (l_index l =? last + 1)) && chk (l_index l) r
  end.

Lemma log_ok_encodes l : log_ok l -> exists b, encode_log l = Some b.
Proof. intros (Hw & _). destruct (decode_encode l Hw) as (b & E & _). eauto. Qed.

Lemma check_logs_spec ls : forall last, last + 1 < two64 -> Forall log_ok ls ->
  exists n, check_logs last ls = (if chk last ls then ROk else RErrNonMono, n).
Proof.
  induction ls as [|l r IH]; intros last Hlast Hok; [exists 0; reflexivity|].
  inversion Hok as [|? ? Hl Hr]; subst. cbn [check_logs chk].
  destruct (log_ok_encodes l Hl) as (b & Eb). destruct Hl as (_ & Hl1 & Hl2 & _).
  rewrite (N.mod_small (last + 1) two64) by exact Hlast.
  destruct (last =? 0) eqn:Z.
  - replace (0 <? last) with false by lia. cbn [andb orb]. rewrite Eb.
    destruct (IH (l_index l) Hl2 Hr) as (n & En). rewrite En. eexists. reflexivity.
  - replace (0 <? last) with true by lia. cbn [andb orb].
    destruct (l_index l =? last + 1) eqn:E.
    + cbn [negb andb]. rewrite Eb. destruct (IH (l_index l) Hl2 Hr) as (n & En). rewrite En. eexists. reflexivity.
    + cbn [negb andb]. eexists. reflexivity.
Qed.

Lemma chk_consecutive r : forall i, 1 <= i -> chk i r = consecutive (i + 1) r.
Proof.
  induction r as [|l r IH]; intros i Hi; [reflexivity|].
  cbn [chk consecutive]. replace (i =? 0) with false by lia. cbn [orb].
  destruct (l_index l =? i + 1) eqn:E; [|reflexivity]. cbn [andb].
  apply N.eqb_eq in E. rewrite E. apply IH. lia.
Qed.

Lemma chk_store last l0 r : 1 <= l_index l0 ->
  chk last (l0 :: r) = ((last =? 0) || (l_index l0 =? last + 1)) && consecutive (l_index l0) (l0 :: r).
Proof.
  intros H. cbn [chk consecutive]. rewrite N.eqb_refl. cbn [andb]. rewrite chk_consecutive by exact H. reflexivity.
Qed.

Lemma consecutive_bound ls : forall i, ls <> [] -> consecutive i ls = true ->
  Forall log_ok ls -> i + llen ls < two64.
Proof.
  induction ls as [|l r IH]; intros i Hne Hc Hok; [congruence|].
  cbn [consecutive] in Hc. apply andb_true_iff in Hc. destruct Hc as (Hi & Hc). apply N.eqb_eq in Hi.
  inversion Hok as [|? ? (_ & _ & Hl & _) Hr]; subst. rewrite llen_cons.
  destruct r as [|l' r'].
  - change (llen (@nil log)) with 0. lia.
  - specialize (IH (l_index l + 1) ltac:(discriminate) Hc Hr). lia.
Qed.

Lemma append_sizes L off n k F h :
  L < two30 -> 8 * n <= off -> off <= L + 8 -> 8 * k <= F -> F < two30 -> 1 <= k -> (h = 0 \/ h = 32) ->
  let n' := n + k in
  let buf := h + F in
  let seal := L <? (off + (buf + index_frame_size n') mod two32) mod two32 in
  let buf2 := if seal then buf + index_frame_size n' else buf in
  let istart := if seal then off + buf + 8 else 0 in
  let total := buf2 + 8 in
  let end' := (off + total) mod two32 in
  8 * n' <= end' /\ end' < two32 /\ (istart = 0 -> end' <= L + 8) /\ end' <> 0.
Proof.
  intros HL Hn Hoff Hk HF Hk1 Hh. cbv zeta.
  pose proof (index_frame_size_le (n + k)) as Hidx. revert Hidx. generalize (index_frame_size (n + k)). intros X Hidx.
  assert (T32 : two32 = 4294967296) by reflexivity. assert (T30 : two30 = 1073741824) by reflexivity.
  rewrite (N.mod_small (h + F + X) two32) by lia.
  rewrite (N.mod_small (off + (h + F + X)) two32) by lia.
  destruct (L <? off + (h + F + X)) eqn:Es.
  - rewrite (N.mod_small (off + (h + F + X + 8)) two32) by lia. repeat split; lia.
  - rewrite (N.mod_small (off + (h + F + 8)) two32) by lia. repeat split; lia.
Qed.

Lemma toobig_false ls : Forall log_ok ls -> existsb (fun l => MaxEntrySize <? enc_len l) ls = false.
Proof.
  induction ls as [|l r IH]; intros H; [reflexivity|]. inversion H as [|? ? (_ & _ & _ & Hl) Hr]; subst.
  cbn [existsb]. rewrite IH by exact Hr. destruct (MaxEntrySize <? enc_len l) eqn:E; [lia|reflexivity].
Qed.

Lemma no_pend_update d d' n f' :
  dk_files d' = update n f' (dk_files d) -> df_pend f' = None ->
  (forall m g, m <> n -> lookup m (dk_files d) = Some g -> df_pend g = None) -> no_pend d'.
Proof.
  intros Hf Hp H m g. rewrite Hf, lookup_update. destruct (fname_eqb m n) eqn:E.
  - intros Hg; inversion Hg; subst. exact Hp.
  - apply fname_eqb_neq in E. apply H. exact E.
Qed.

(* ---- a batch written at the end of the tail file and synced ----
   After the write the disk reads as the log with the batch appended and, once pending
   batches are dropped, as the old log; the sync settles it.  Append and ForceSeal
   differ only in the batch. *)
Lemma tail_batch_ok c nb (A : spst -> Prop) w e0 e S t f tw off len b :
  lview c nb w (e_disk e) S t f tw -> ext (DP c nb A) e0 e -> df_seal f = 0 ->
  fsz_ok (c_seg_size c) (df_ents f ++ pb_ents b) (pb_end b) (pb_seal b) ->
  si_base t + llen (df_ents f ++ pb_ents b) < two64 ->
  let a' := {| sp_log := slog_of (hd_min S t) (lv_es (e_disk e) S t f ++ pb_ents b); sp_kv := dk_stable (e_disk e) |} in
  A (sp_of (e_disk e)) -> A a' ->
  let e2 := io_env (ASync (name_of t)) (io_env (AWrite (name_of t) off len b) e) in
  let f2 := synced_file (with_pend f b) in
  ext (DP c nb A) e0 e2 /\ sp_of (e_disk e2) = a' /\ lookup (name_of t) (dk_files (e_disk e2)) = Some f2 /\
  forall tw', tw_ok t f2 tw' ->
    LInv c nb {| st_next_id := st_next_id w; st_segs := st_segs w; st_tail := Some tw';
                 st_rotate := if 0 <? pb_seal b then Some (pb_seal b) else None;
                 st_failed := st_failed w; st_closed := st_closed w |} (e_disk e2).
Proof.
  intros V He Hse Hfz Hbound a' HAa HAa' e2 f2. set (d := e_disk e) in *.
  set (e1 := io_env (AWrite (name_of t) off len b) e) in *.
  pose proof (lv_file _ _ _ _ _ _ _ _ V) as Hfile. pose proof (lv_pend _ _ _ _ _ _ _ _ V) as Hp.
  pose proof (lv_dis _ _ _ _ _ _ _ _ V) as HD. pose proof (lv_meta _ _ _ _ _ _ _ _ V) as Hm.
  set (ps := {| ps_next_id := st_next_id w; ps_segs := S ++ [t] |}) in *.
  assert (Hneq : forall s, In s S -> name_of s <> name_of t) by (intros s Hs; apply (DIs_sealed_neq c nb d ps S t s HD Hm eq_refl Hs)).
  assert (Ea' : forall es, es = df_ents f ++ pb_ents b ->
            {| sp_log := slog_of (hd_min S t) (sealed_es d S ++ skipn (N.to_nat (si_min t - si_base t)) es);
               sp_kv := dk_stable d |} = a').
  { intros es ->. unfold a', lv_es. fold d. rewrite <- app_assoc, skipn_app_le; [reflexivity|].
    pose proof (lv_min_cond V) as Hmc. unfold llen in Hmc. destruct (N.of_nat (length (df_ents f)) =? 0) eqn:Z; lia. }
  (* after the write *)
  assert (Ed1 : e_disk e1 = {| dk_files := update (name_of t) (with_pend f b) (dk_files d); dk_meta := dk_meta d;
                              dk_stable := dk_stable d; dk_inited := dk_inited d |})
    by apply (apply_write d (name_of t) off len b f Hfile Hp).
  assert (HD1 : DIs c nb (e_disk e1)) by apply (DIs_write_tail c nb d ps S t f off len b HD Hm eq_refl Hfile Hp Hse Hfz Hbound).
  assert (Hm1 : dk_meta (e_disk e1) = Some ps) by (rewrite Ed1; exact Hm).
  assert (Hf1 : lookup (name_of t) (dk_files (e_disk e1)) = Some (with_pend f b)) by (rewrite Ed1; apply lookup_update_eq).
  assert (HS1 : forall s, In s S -> lookup (name_of s) (dk_files (e_disk e1)) = lookup (name_of s) (dk_files d)).
  { intros s Hs. rewrite Ed1. apply lookup_update_neq, Hneq, Hs. }
  destruct (sp_of_tail_file c nb d (e_disk e1) ps S t _ HD1 Hm1 eq_refl Hf1 ltac:(rewrite Ed1; reflexivity) HS1) as (Hs1 & Hs1u).
  rewrite (Ea' (cur_ents (with_pend f b)) eq_refl) in Hs1. change (df_ents (with_pend f b)) with (df_ents f) in Hs1u.
  rewrite <- (lv_read _ _ _ _ _ _ _ _ V) in Hs1u. fold (sp_of d) in Hs1u.
  assert (He1 : ext (DP c nb A) e0 e1).
  { apply ext_io; [exact He|exact I|]. change (DP c nb A (e_disk e1)). split; [exact HD1|]. rewrite Hs1, Hs1u. auto. }
  (* after the sync *)
  assert (Ed2 : e_disk e2 = {| dk_files := update (name_of t) f2 (dk_files (e_disk e1)); dk_meta := dk_meta (e_disk e1);
                              dk_stable := dk_stable (e_disk e1); dk_inited := dk_inited (e_disk e1) |})
    by apply (apply_sync (e_disk e1) (name_of t) (with_pend f b) Hf1).
  assert (HD2 : DIs c nb (e_disk e2)) by apply (DIs_sync_tail c nb (e_disk e1) ps S t (with_pend f b) HD1 Hm1 eq_refl Hf1).
  assert (Hm2 : dk_meta (e_disk e2) = Some ps) by (rewrite Ed2; exact Hm1).
  assert (Hf2 : lookup (name_of t) (dk_files (e_disk e2)) = Some f2) by (rewrite Ed2; apply lookup_update_eq).
  assert (HN2 : no_pend (e_disk e2)).
  { apply (no_pend_update (e_disk e1) (e_disk e2) (name_of t) f2); [rewrite Ed2; reflexivity|reflexivity|].
    intros m g Hmn. rewrite Ed1. cbn [dk_files]. rewrite lookup_update_neq by exact Hmn.
    apply (lv_nopend _ _ _ _ _ _ _ _ V). }
  destruct (sp_of_tail_file c nb d (e_disk e2) ps S t _ HD2 Hm2 eq_refl Hf2 ltac:(rewrite Ed2, Ed1; reflexivity)) as (Hs2 & _).
  { intros s Hs. rewrite Ed2. cbn [dk_files]. rewrite lookup_update_neq by apply Hneq, Hs. apply HS1, Hs. }
  rewrite (Ea' (cur_ents f2) eq_refl) in Hs2.
  split; [apply ext_io; [exact He1|exact I|apply (DP_no_pend c nb A (e_disk e2) HD2 HN2); rewrite Hs2; exact HAa']|].
  split; [exact Hs2|]. split; [exact Hf2|]. intros tw' Htw.
  split; [apply (lv_closed _ _ _ _ _ _ _ _ V)|]. split; [apply (lv_failed _ _ _ _ _ _ _ _ V)|].
  split; [exact HD2|]. split; [exact HN2|].
  split; [rewrite Hm2; unfold persistent, ps; cbn; rewrite (lv_segs _ _ _ _ _ _ _ _ V); reflexivity|].
  exists t, f2, tw'. split; [cbn [st_segs]; rewrite (lv_segs _ _ _ _ _ _ _ _ V); apply tail_info_app|]. auto.
Qed.

Lemma seg_append_ok c nb (A : spst -> Prop) w e0 e S t f tw l0 r :
  cfg_ok c -> lview c nb w (e_disk e) S t f tw -> ext (DP c nb A) e0 e ->
  df_seal f = 0 -> Forall log_ok (l0 :: r) -> frames_size (l0 :: r) < two30 ->
  l_index l0 = si_base t + llen (df_ents f) -> consecutive (l_index l0) (l0 :: r) = true ->
  let a' := {| sp_log := slog_of (hd_min S t) (lv_es (e_disk e) S t f ++ (l0 :: r)); sp_kv := dk_stable (e_disk e) |} in
  A (sp_of (e_disk e)) -> A a' ->
  exists tw' e',
    seg_append tw (l0 :: r) e = (ROk, tw', e') /\ ext (DP c nb A) e0 e' /\
    LInv c nb {| st_next_id := st_next_id w; st_segs := st_segs w; st_tail := Some tw';
                 st_rotate := if 0 <? ws_index_start tw' then Some (ws_index_start tw') else None;
                 st_failed := st_failed w; st_closed := st_closed w |} (e_disk e') /\
    sp_of (e_disk e') = a' /\ e_m e' = e_m e.
Proof.
  intros Hc V He Hse Hok HF Hidx Hcons a' HAa HAa'.
  set (ls := l0 :: r) in *. set (d := e_disk e) in *.
  pose proof (ext_fault _ _ _ He) as Hf.
  pose proof (lv_tw _ _ _ _ _ _ _ _ V) as (Tn & Tb & Tm & Tl & Tnn & To & Ti & Tc).
  pose proof (lv_twf V) as (_ & Hlim & _).
  destruct (lv_fsz V) as ((Z1 & _ & Z3 & _) & _). specialize (Z3 Hse).
  destruct Hc as (_ & _ & _ & Hc4).
  assert (Hk1 : 1 <= llen ls) by (unfold ls; rewrite llen_cons; lia).
  assert (Hh : (if ws_hdr tw then 32 else 0) = 0 \/ (if ws_hdr tw then 32 else 0) = 32) by (destruct (ws_hdr tw); auto).
  destruct (append_sizes (c_seg_size c) (df_end f) (llen (df_ents f)) (llen ls) (frames_size ls)
              (if ws_hdr tw then 32 else 0) Hc4 Z1 Z3 (frames_size_ge ls) HF Hk1 Hh) as (Q1 & Q2 & Q3 & Q4).
  assert (Hbound : si_base t + llen (df_ents f ++ ls) < two64).
  { rewrite llen_app. pose proof (consecutive_bound ls (l_index l0) ltac:(discriminate) Hcons Hok) as Hcb.
    clear - Hcb Hidx. lia. }
  assert (Hn'0 : (llen (df_ents f) + llen ls =? 0) = false) by (clear - Hk1; lia).
  unfold seg_append. fold ls. unfold ls at 1.
  rewrite Ti, Hse. change (0 <? 0) with false. cbn iota.
  rewrite (toobig_false ls Hok). rewrite Tb, Tnn, Hidx, N.eqb_refl. cbn [negb].
  rewrite Tl, Hlim, To, Tn.
  set (n' := llen (df_ents f) + llen ls) in *.
  set (buf := (if ws_hdr tw then 32 else 0) + frames_size ls) in *.
  set (seal := c_seg_size c <? (df_end f + (buf + index_frame_size n') mod two32) mod two32) in *.
  set (buf2 := if seal then buf + index_frame_size n' else buf) in *.
  set (istart := if seal then df_end f + buf + 8 else 0) in *.
  set (total := buf2 + 8) in *.
  set (b := {| pb_ents := ls; pb_end := (df_end f + total) mod two32; pb_seal := istart |}).
  rewrite (io_ok _ e Hf). cbn [negb]. rewrite (io_ok _ (io_env _ e) eq_refl). cbn [negb].
  destruct (tail_batch_ok c nb A w e0 e S t f tw (df_end f) total b V He Hse) as (He2 & Hs2 & _ & HL2); auto.
  - cbn [b pb_ents pb_end pb_seal]. unfold fsz_ok. rewrite llen_app. fold n'.
    split; [exact Q1|]. split; [exact Q2|]. split; [exact Q3|].
    split; [intros _; exact Q4|]. intros _. unfold ls. destruct (df_ents f); discriminate.
  - eexists _, _. split; [reflexivity|]. split; [exact He2|]. split; [|split; [exact Hs2|reflexivity]].
    apply HL2. unfold tw_ok. cbn. rewrite llen_app. fold n'.
    repeat split; auto. unfold tl_of. rewrite llen_app. fold n'. rewrite Hn'0. reflexivity.
Qed.

Definition store_go (last : N) (ls : list log) (w : wal) (e : env) : result * wal * env :=
  let '(res, nbytes) := check_logs last ls in
  match res with
  | ROk =>
      match st_tail w with
      | None => (RErrOther, w, e)
      | Some tw =>
          let '(r, tw', e1) := seg_append tw ls e in
          match r with
          | ROk =>
              let e2 := add_m e1 (fun m =>
                {| m_bytes_written := (m_bytes_written m + nbytes) mod two64;
                   m_entries_written := m_entries_written m + llen ls;
                   m_appends := m_appends m + 1; m_bytes_read := m_bytes_read m;
                   m_entries_read := m_entries_read m; m_rotations := m_rotations m;
                   m_head_trunc := m_head_trunc m; m_tail_trunc := m_tail_trunc m;
                   m_stable_gets := m_stable_gets m; m_stable_sets := m_stable_sets m |}) in
              (ROk, {| st_next_id := st_next_id w; st_segs := st_segs w; st_tail := Some tw';
                       st_rotate := if 0 <? ws_index_start tw' then Some (ws_index_start tw') else None;
                       st_failed := st_failed w; st_closed := st_closed w |}, e2)
          | _ => (r, w, e1)
          end
      end
  | _ => (res, w, e)
  end.

Lemma store_logs_unfold c w ls e :
  store_logs c w ls e =
  if st_closed w then (RErrClosed, w, e)
  else match ls with
  | [] => (ROk, w, e)
  | l0 :: _ =>
      if st_failed w then (RErrFailed, w, e)
      else
        let last := last_index (st_segs w) (st_tail w) in
        match tail_info (st_segs w) with
        | None => (RErrOther, w, e)
        | Some ti =>
            if (last =? 0) && negb (l_index l0 =? si_base ti) then
              let '(r, w1, e1, dels) := reset_first c w (l_index l0) e in
              match r with
              | ROk => let '(r2, w2, e2) := store_go last ls w1 e1 in (r2, w2, delete_files dels e2)
              | _ => (r, w1, e1)
              end
            else store_go last ls w e
        end
  end.
Proof. reflexivity. Qed.

Lemma store_go_ok c nb (A : spst -> Prop) w e0 e S t f tw last l0 r :
  cfg_ok c -> lview c nb w (e_disk e) S t f tw -> ext (DP c nb A) e0 e ->
  df_seal f = 0 -> Forall log_ok (l0 :: r) -> frames_size (l0 :: r) < two30 -> last + 1 < two64 ->
  (chk last (l0 :: r) = true -> l_index l0 = si_base t + llen (df_ents f)) ->
  let a'' := {| sp_log := slog_of (hd_min S t) (lv_es (e_disk e) S t f ++ (l0 :: r)); sp_kv := dk_stable (e_disk e) |} in
  A (sp_of (e_disk e)) -> (chk last (l0 :: r) = true -> A a'') ->
  exists res w' e', store_go last (l0 :: r) w e = (res, w', e') /\ ext (DP c nb A) e0 e' /\
    LInv c nb w' (e_disk e') /\ st_segs w' = st_segs w /\
    (if chk last (l0 :: r) then res = ROk /\ sp_of (e_disk e') = a''
     else res_class res = RErrOther /\ sp_of (e_disk e') = sp_of (e_disk e)).
Proof.
  intros Hc V He Hse Hok HF Hlast Hidx a'' HA HA'.
  pose proof (LInv_of_view V) as HL.
  unfold store_go. destruct (check_logs_spec (l0 :: r) last Hlast Hok) as (nbytes & Ech). rewrite Ech.
  destruct (chk last (l0 :: r)) eqn:Echk.
  - rewrite (lv_tail _ _ _ _ _ _ _ _ V).
    assert (Hcons : consecutive (l_index l0) (l0 :: r) = true).
    { inversion Hok as [|? ? (_ & H1 & _) _]; subst. rewrite (chk_store last l0 r H1) in Echk.
      apply andb_true_iff in Echk. apply Echk. }
    destruct (seg_append_ok c nb A w e0 e S t f tw l0 r Hc V He Hse Hok HF (Hidx eq_refl) Hcons HA (HA' eq_refl))
      as (tw' & e1 & Happ & He1 & HL1 & Hs1 & _).
    rewrite Happ. eexists _, _, _. split; [reflexivity|]. split; [apply ext_add_m; exact He1|].
    split; [exact HL1|]. split; [reflexivity|]. split; [reflexivity|exact Hs1].
  - eexists _, _, _. split; [reflexivity|]. split; [exact He|]. split; [exact HL|]. split; [reflexivity|]. split; reflexivity.
Qed.

Lemma lv_log_cases {c nb w d S t f tw} (V : lview c nb w d S t f tw) :
  (lv_es d S t f = [] /\ S = [] /\ llen (df_ents f) = 0 /\ dread d = sl_empty /\ si_min t = si_base t)
  \/ (lv_es d S t f <> [] /\ dread d = {| sl_first := hd_min S t; sl_ents := lv_es d S t f |} /\
      spec_last (dread d) = si_base t + llen (df_ents f) - 1 /\ 2 <= si_base t + llen (df_ents f)).
Proof.
  pose proof (lv_read _ _ _ _ _ _ _ _ V) as Hr. fold (lv_es d S t f) in Hr.
  pose proof (lv_es_nil V) as Hn. pose proof (lv_len V) as Hl. pose proof (lv_min_cond V) as Hmc.
  pose proof (lv_twf V) as (_ & _ & Hb1 & _ & Hbm & _).
  destruct (list_eq_dec_nil (lv_es d S t f)) as [Ee|Ee].
  - left. destruct Hn as (Hn & _). destruct (Hn Ee) as (ES & Hz). rewrite Ee in Hr.
    rewrite Hz in Hmc. cbn in Hmc. auto.
  - right. split; [exact Ee|]. destruct (slog_of_first (hd_min S t) _ Ee) as (E1 & E2 & E3).
    assert (Hd : dread d = {| sl_first := hd_min S t; sl_ents := lv_es d S t f |}).
    { rewrite Hr. destruct (lv_es d S t f); [congruence|reflexivity]. }
    split; [exact Hd|]. rewrite Hd. unfold spec_last. cbn [sl_ents sl_first].
    assert (Hie : sl_is_empty {| sl_first := hd_min S t; sl_ents := lv_es d S t f |} = false).
    { unfold sl_is_empty. cbn [sl_ents]. destruct (lv_es d S t f); [congruence|reflexivity]. }
    rewrite Hie.
    assert (Hpos : 0 < llen (lv_es d S t f)) by (apply llen_pos; exact Ee).
    destruct (list_eq_dec_nil S) as [ES|Hne].
    + subst S. unfold hd_min in *. cbn [hd] in *. lia.
    + destruct (lv_hd_min_lt V Hne) as (Hlt & Hmt).
      assert (1 <= hd_min S t).
      { pose proof (lv_Swf V) as Hw. destruct S as [|s S']; [congruence|]. inversion Hw as [|? ? (Hsb & Hsm) _]; subst.
        unfold hd_min. cbn [hd]. lia. }
      lia.
Qed.

Lemma lv_last_bound {c nb w d S t f tw} (V : lview c nb w d S t f tw) :
  spec_last (dread d) + 1 < two64 /\ 1 <= spec_last (dread d) + 1.
Proof.
  split; [|apply N.le_add_l]. destruct (lv_log_cases V) as [(_ & _ & _ & -> & _)|(_ & _ & -> & H2)]; [reflexivity|].
  destruct (lv_fsz V) as (_ & Hb). clear - Hb H2. lia.
Qed.

Lemma lv_last_zero {c nb w d S t f tw} (V : lview c nb w d S t f tw) :
  (spec_last (dread d) =? 0) = sl_is_empty (dread d).
Proof.
  destruct (lv_log_cases V) as [(_ & _ & _ & -> & _)|(Ees & Hdr & Hlast & H2)]; [reflexivity|].
  rewrite Hlast, Hdr. unfold sl_is_empty. cbn [sl_ents]. destruct (lv_es d S t f); [congruence|lia].
Qed.

(* the spec's verdict on a StoreLogs against what store_go reports *)
Lemma store_verdict a ls (ck : bool) a'' res sp :
  step_spec a (OStore ls) = (if ck then (ROk, a'') else (RErrOther, a)) ->
  (if ck then res = ROk /\ sp = a'' else res_class res = RErrOther /\ sp = a) ->
  result_eqb (res_class res) (fst (step_spec a (OStore ls))) = true /\ sp = snd (step_spec a (OStore ls)).
Proof. intros -> H. destruct ck; destruct H as (Hr & ->); [subst res|rewrite Hr]; split; reflexivity. Qed.

Lemma store_logs_ok c nb w e ls a :
  cfg_ok c -> LInv c nb w (e_disk e) -> e_fault e = None -> st_rotate w = None -> nb + 1 < two64 ->
  sp_of (e_disk e) = a -> logs_ok ls -> frames_size ls < two30 ->
  exists r w' e', store_logs c w ls e = (r, w', e') /\
    result_eqb (res_class r) (fst (step_spec a (OStore ls))) = true /\
    LInv c (nb + 1) w' (e_disk e') /\ sp_of (e_disk e') = snd (step_spec a (OStore ls)) /\
    ext (DP c (nb + 1) (fun x => x = a \/ x = snd (step_spec a (OStore ls)))) e e'.
Proof.
  intros Hc HL Hf Hrot Hnb Hsp Hok HF. set (d := e_disk e) in *.
  pose proof (LInv_nid _ _ _ _ HL) as Hnid.
  assert (Hn1 : st_next_id w + 1 <= nb + 1) by (clear - Hnid; lia).
  assert (HL1 : LInv c (nb + 1) w d) by (eapply LInv_mono; [apply N.le_add_r|exact HL]).
  destruct (LInv_view _ _ _ _ HL1) as (S & t & f & tw & V).
  set (a' := snd (step_spec a (OStore ls))).
  set (A := fun x : spst => x = a \/ x = a').
  assert (He0 : ext (DP c (nb + 1) A) e e).
  { apply ext_refl; [exact Hf|]. eapply LInv_DP; [exact HL1|left; exact Hsp]. }
  rewrite store_logs_unfold. rewrite (lv_closed _ _ _ _ _ _ _ _ V).
  destruct ls as [|l0 r].
  - exists ROk, w, e. split; [reflexivity|]. cbn [step_spec spec_store fst snd] in *. split; [reflexivity|].
    split; [exact HL1|]. split; [fold d; rewrite Hsp; unfold a'; destruct a; reflexivity|exact He0].
  - rewrite (lv_failed _ _ _ _ _ _ _ _ V). cbv zeta. rewrite (lv_segs _ _ _ _ _ _ _ _ V), tail_info_app.
    rewrite <- (lv_segs _ _ _ _ _ _ _ _ V). rewrite (lv_last V).
    pose proof (lv_rot_none V Hrot) as Hse.
    pose proof (Forall_inv Hok) as (_ & Hl0a & Hl0b & _).
    set (last := spec_last (dread d)) in *.
    (* the spec accepts the batch exactly when check_logs does *)
    set (a1 := {| sp_log := {| sl_first := if sl_is_empty (dread d) then l_index l0 else sl_first (dread d);
                               sl_ents := sl_ents (dread d) ++ (l0 :: r) |}; sp_kv := dk_stable d |}).
    assert (Hspec : step_spec a (OStore (l0 :: r)) = if chk last (l0 :: r) then (ROk, a1) else (RErrOther, a)).
    { cbn [step_spec spec_store]. rewrite <- Hsp. cbn [sp_of sp_log sp_kv]. fold last.
      rewrite (chk_store last l0 r Hl0a). unfold last at 2. rewrite (lv_last_zero V).
      destruct (consecutive (l_index l0) (l0 :: r)), (sl_is_empty (dread d) || (l_index l0 =? last + 1)); reflexivity. }
    assert (HA1 : chk last (l0 :: r) = true -> A a1).
    { intros Hck. right. unfold a'. rewrite Hspec, Hck. reflexivity. }
    destruct ((last =? 0) && negb (l_index l0 =? si_base t)) eqn:Ereset.
    + (* the log is empty and starts elsewhere: the empty first segment is re-based first *)
      apply andb_true_iff in Ereset. destruct Ereset as (Z & Eb). apply negb_true_iff in Eb. apply N.eqb_eq in Z.
      destruct (lv_log_cases V) as [(Ees & ES & Hn0 & Hdr & Hmb)|(_ & _ & Hlast & H2)]; [|exfalso; fold last in Hlast; clear - Z Hlast H2; lia].
      subst S. cbn [app] in *. rewrite Z in Hspec, HA1 |- *.
      assert (Ha : a = {| sp_log := sl_empty; sp_kv := dk_stable d |}) by (rewrite <- Hsp; unfold sp_of; rewrite Hdr; reflexivity).
      assert (Ea1 : a1 = {| sp_log := {| sl_first := l_index l0; sl_ents := l0 :: r |}; sp_kv := dk_stable d |})
        by (unfold a1; rewrite Hdr; reflexivity).
      unfold reset_first. rewrite (lv_last V). fold last. rewrite Z. change (0 <? 0) with false. cbn iota.
      rewrite (lv_segs _ _ _ _ _ _ _ _ V). rewrite tail_info_app. cbn [app].
      rewrite (N.eqb_sym (si_base t) (l_index l0)), Eb.
      cbn [seg_del]. rewrite N.eqb_refl. unfold create_next. change (tail_info []) with (@None seginfo).
      replace (0 <? l_index l0) with true by (clear - Hl0a; lia).
      rewrite (N.mod_small (l_index l0) two64) by (clear - Hl0b; lia).
      rewrite (N.mod_small (st_next_id w + 1) two64) by (clear - Hnid Hnb; lia). cbn [seg_set].
      set (si := new_segment c (st_next_id w) (l_index l0)).
      assert (Hdel : forall n, In n [name_of t] -> listed [si] n = false).
      { intros n [<-|[]]. rewrite listed_single. apply fname_eqb_neq.
        unfold name_of, si, new_segment. cbn. intros E. inversion E. apply N.eqb_neq in Eb. congruence. }
      (* resetEmptyFirstSegmentBaseIndex is not the commit point of the call: with no sealed
         segment listed the new metadata reads as the empty log a whatever becomes of the
         two tail files (the [left] below).  Its fresh tail is the one id of nb + 1. *)
      destruct (mutate_newtail_view c (nb + 1) A true w w e e [] t f tw [] (l_index l0) [name_of t] Hc V He0)
        as (w1 & e1 & Hmut & He1 & HL1' & Hs1 & Hr1 & Hsegs1 & Hnid1 & Htail1).
      * exact Hrot.
      * apply (lv_failed _ _ _ _ _ _ _ _ V).
      * apply (lv_closed _ _ _ _ _ _ _ _ V).
      * exact Hn1.
      * constructor.
      * constructor.
      * exact Hl0a.
      * clear - Hl0b. lia.
      * exact I.
      * exact Hdel.
      * left. cbn. fold d. symmetry; exact Ha.
      * cbn [app] in Hmut. fold si in Hmut. rewrite Hmut.
        fold si in Hs1, Hsegs1, Htail1. cbn [app] in Hsegs1.
        assert (Hs1a : sp_of (e_disk e1) = a) by (rewrite Hs1; cbn; fold d; symmetry; exact Ha).
        destruct (LInv_view _ _ _ _ HL1') as (S1 & t1 & f1 & tw1 & V1).
        assert (ES1 : S1 = [] /\ t1 = si).
        { pose proof (lv_segs _ _ _ _ _ _ _ _ V1) as E. rewrite Hsegs1 in E.
          destruct S1 as [|x S1']; [inversion E; auto|]. destruct S1'; inversion E. }
        destruct ES1 as (-> & ->).
        assert (Etw1 : tw1 = new_wseg si).
        { pose proof (lv_tail _ _ _ _ _ _ _ _ V1) as E. rewrite Htail1 in E. inversion E. reflexivity. }
        subst tw1.
        pose proof (lv_tw _ _ _ _ _ _ _ _ V1) as (_ & _ & _ & _ & Tn1 & _ & Ti1 & _). cbn in Tn1, Ti1.
        assert (Hen1 : df_ents f1 = []) by (apply llen_0; symmetry; exact Tn1).
        assert (Hst1 : dk_stable (e_disk e1) = dk_stable d).
        { pose proof Hs1a as E. rewrite Ha in E. unfold sp_of in E. inversion E. reflexivity. }
        assert (Ea'' : a1 = {| sp_log := slog_of (hd_min [] si) (lv_es (e_disk e1) [] si f1 ++ (l0 :: r));
                               sp_kv := dk_stable (e_disk e1) |}).
        { rewrite Ea1. unfold lv_es, sealed_es, hd_min. rewrite Hen1, Hst1. cbn. rewrite skipn_nil. reflexivity. }
        destruct (store_go_ok c (nb + 1) A w1 e e1 [] si f1 (new_wseg si) 0 l0 r Hc V1 He1 (eq_sym Ti1) Hok HF)
          as (res & w2 & e2 & Hgo & He2 & HL2 & Esw2 & Hres).
        -- reflexivity.
        -- intros _. rewrite Hen1. symmetry. apply N.add_0_r.
        -- left. exact Hs1a.
        -- intros Hck. rewrite <- Ea''. apply HA1, Hck.
        -- rewrite Hgo. rewrite <- Ea'', Hs1a in Hres.
           assert (Hm2 : dk_meta (e_disk e2) = Some (persistent w2)) by apply HL2.
           assert (Hdel2 : forall n, In n [name_of t] -> listed (ps_segs (persistent w2)) n = false).
           { cbn [persistent ps_segs]. rewrite Esw2, Hsegs1. exact Hdel. }
           (* the old tail's file goes after the append ([reset_first] defers it); unlisted
              since the commit above, it is in no reading *)
           destruct (DP_delete_files c (nb + 1) A e (persistent w2) [name_of t] e2 He2 Hm2 Hdel2) as (He3 & Hd3).
           exists res, w2, (delete_files [name_of t] e2). split; [reflexivity|].
           rewrite <- (sp_of_del_disk [name_of t] _ _ Hm2 Hdel2), <- Hd3 in Hres.
           destruct (store_verdict _ _ _ _ _ _ Hspec Hres) as (R1 & R2).
           split; [exact R1|]. split; [rewrite Hd3; apply LInv_del_disk; [exact HL2|exact Hdel2]|]. auto.
    + (* the batch goes to the tail as it is *)
      set (a'' := {| sp_log := slog_of (hd_min S t) (lv_es d S t f ++ (l0 :: r)); sp_kv := dk_stable d |}).
      (* the writer has its own test, first index = base + entries in the file, and must not
         fail once check_logs has passed: on an empty log Ereset = false says l_index l0 is
         the tail's base, otherwise chk says it is last + 1.  The only step that can show a'
         is then the write of the batch (tail_batch_ok): before its sync a crash reads a or a'. *)
      assert (Hfacts : a1 = a'' /\ last + 1 < two64 /\
                       (chk last (l0 :: r) = true -> l_index l0 = si_base t + llen (df_ents f))).
      { rewrite (chk_store last l0 r Hl0a).
        destruct (lv_log_cases V) as [(Ees & ES & Hn0 & Hdr & Hmb)|(Ees & Hdr & Hlast & H2)].
        - assert (Z : last = 0) by (unfold last; rewrite Hdr; reflexivity).
          rewrite Z in Ereset |- *. apply negb_false_iff, N.eqb_eq in Ereset.
          split; [|split; [reflexivity|intros _; clear - Ereset Hn0; lia]].
          unfold a1, a''. rewrite Hdr, Ees, ES. unfold hd_min. cbn. rewrite Hmb, Ereset. reflexivity.
        - fold last in Hlast. destruct (lv_fsz V) as (_ & Hbd).
          split; [|split; [clear - Hlast Hbd H2; lia|intros Hck; apply andb_true_iff in Hck; clear - Hck Hlast H2; lia]].
          unfold a1, a''. rewrite Hdr. cbn [sl_is_empty sl_ents sl_first]. destruct (lv_es d S t f); [congruence|reflexivity]. }
      destruct Hfacts as (Ea'' & Hlt & Hidx).
      destruct (store_go_ok c (nb + 1) A w e e S t f tw last l0 r Hc V He0 Hse Hok HF Hlt Hidx)
        as (res & w' & e' & Hgo & He' & HL' & _ & Hres).
      * left. exact Hsp.
      * intros Hck. fold d a''. rewrite <- Ea''. apply HA1, Hck.
      * rewrite Hgo. exists res, w', e'. split; [reflexivity|]. fold d a'' in Hres. rewrite <- Ea'', Hsp in Hres.
        destruct (store_verdict _ _ _ _ _ _ Hspec Hres) as (R1 & R2). auto.
Qed.
