(* MetricsFacts.v -- the metric counters of the model show the true totals of
   Wal/MetricsSpec.v after every sequential history (C20, dynamic half). *)
From RW Require Import Base.Bytes Base.BytesFacts Fmt.Codec Fmt.CodecFacts Fmt.Frame
  Wal.Model Wal.Spec Wal.Hist Wal.SeqInv Wal.ModelFacts Wal.SeqFactsBase Wal.SeqFactsAbs Wal.SeqFactsTxn Wal.SeqFactsOps1
  Wal.SeqFactsOps2 Wal.SeqFactsOps3 Wal.SeqFactsMain Wal.MetricsSpec Gen.Constants Base.LiaSetup.
Open Scope N_scope.

Lemma two64_nz : two64 <> 0.
Proof. unfold two64. lia. Qed.

Lemma enc_total_bytes_sum ls : enc_total ls = bytes_sum ls.
Proof. reflexivity. Qed.

Lemma cs_zero : counters_show zero_metrics mtot_zero.
Proof. unfold counters_show, zero_metrics, mtot_zero; cbn. repeat split; reflexivity. Qed.

Lemma add_mod_l a b : (a mod two64 + b) mod two64 = (a + b) mod two64.
Proof. apply N.add_mod_idemp_l. exact two64_nz. Qed.
Lemma add_mod_lr a b : (a mod two64 + b mod two64) mod two64 = (a + b) mod two64.
Proof. symmetry. apply N.add_mod. exact two64_nz. Qed.

(* the rotation a mutating call waits for only moves the rotation counter *)
Lemma settle_m c s : cfg_ok c -> SInv c s -> s_nid s + 1 < two64 ->
  e_m (ss_env (settle c s)) = e_m (ss_env s) \/ e_m (ss_env (settle c s)) = inc_rot (e_m (ss_env s)).
Proof.
  intros Hc (He & ss & t & tw & HI) Hnid. unfold settle.
  assert (Hro : st_rotate (ss_wal s) = (if 0 <? ws_index_start tw then Some (ws_index_start tw) else None))
    by apply HI.
  rewrite Hro. destruct (N.ltb_spec 0 (ws_index_start tw)) as [Hp|Hp]; [|left; reflexivity].
  destruct (rotate_ok c _ _ ss t tw Hc He HI Hp Hnid)
    as (w' & e' & ss' & t' & tw' & Hr & _ & _ & _ & _ & _ & _ & Hm).
  rewrite Hr. right. exact Hm.
Qed.

Lemma metrics_step c s o sp r s' T :
  cfg_ok c -> sop_ok o -> SInv c s -> s_nid s + 2 < two64 -> sp_log sp = s_abs s ->
  step_model c s o = (r, s') ->
  counters_show (e_m (ss_env s)) T -> counters_show (e_m (ss_env s')) (mstep sp o T).
Proof.
  intros Hc Hop HS Hnid Hlog Hstep HT.
  destruct o as [ls|mn mx|i| | |k v n|k|]; cbn [step_model mstep] in *.
  - (* StoreLogs *)
    destruct (settle_ok c s Hc HS ltac:(lia)) as (ss & t & tw & He & HI & His & Habs & Hst & Hid1 & Hid2).
    assert (HT1 : counters_show (e_m (ss_env (settle c s))) T).
    { destruct (settle_m c s Hc HS ltac:(lia)) as [E|E]; rewrite E; exact HT. }
    destruct Hop as [Hok Hfs].
    destruct (store_logs_ok c _ _ ss t tw ls Hc He HI His ltac:(unfold s_nid in *; lia) Hok Hfs)
      as (r0 & w' & e' & Hsl & _ & _ & _ & _ & _ & Hres).
    rewrite Hsl in Hstep. inversion Hstep; subst r s'. clear Hstep. cbn [ss_env].
    unfold s_abs in *. rewrite Hlog, <- Habs.
    destruct (spec_store _ ls) as [a'|]; destruct Hres as (_ & _ & Hm); rewrite Hm; [|destruct ls; exact HT1].
    destruct ls as [|l0 rest]; cbn [is_nil]; [exact HT1|].
    destruct HT1 as (Hbw & Hew & Hap & Hbr & Her & Hht & Htt & Hsg & Hss).
    unfold counters_show, inc_write. cbn. rewrite Hbw, Hew, Hap. rewrite add_mod_lr.
    repeat split; auto.
  - (* DeleteRange *)
    destruct (settle_ok c s Hc HS ltac:(lia)) as (ss & t & tw & He & HI & His & Habs & Hst & Hid1 & Hid2).
    assert (HT1 : counters_show (e_m (ss_env (settle c s))) T).
    { destruct (settle_m c s Hc HS ltac:(lia)) as [E|E]; rewrite E; exact HT. }
    destruct (delete_range_ok c _ _ ss t tw mn mx Hc He HI His ltac:(unfold s_nid in *; lia) Hop)
      as (r0 & w' & e' & Hsl & _ & _ & _ & _ & _ & Hres).
    rewrite Hsl in Hstep. inversion Hstep; subst r s'. clear Hstep. cbn [ss_env].
    unfold s_abs in *. rewrite Hlog, <- Habs.
    set (a := abs (ss_wal (settle c s)) (e_disk (ss_env (settle c s)))) in *. clearbody a.
    destruct (spec_delete a mn mx) as [a'|]; [|destruct Hres as (_ & _ & Hm); rewrite Hm; exact HT1].
    destruct Hres as (_ & _ & Hdm). cbv zeta.
    destruct HT1 as (Hbw & Hew & Hap & Hbr & Her & Hht & Htt & Hsg & Hss).
    destruct Hdm as [[Hm Hk]|[[Hh Hm]|[Hh Hm]]]; rewrite Hm; unfold counters_show; cbn.
    + rewrite Hk, N.sub_diag, !N.add_0_r. destruct (mn <=? _); repeat split; auto.
    + rewrite (proj2 (N.leb_le _ _) Hh), Hht, add_mod_l. repeat split; auto.
    + rewrite (proj2 (N.leb_gt _ _) Hh), Htt, add_mod_l. repeat split; auto.
  - (* GetLog *)
    destruct HS as (He & ss & t & tw & HI).
    destruct (get_log_ok c _ _ ss t tw i HI) as (r0 & e' & Hg & _ & _ & _ & Hm).
    rewrite Hg in Hstep. inversion Hstep; subst r s'. clear Hstep. cbn [ss_env].
    rewrite Hm, (raw_get_spec _ _ _ _ _ _ i HI). unfold s_abs in Hlog. rewrite Hlog.
    destruct HT as (Hbw & Hew & Hap & Hbr & Her & Hht & Htt & Hsg & Hss).
    destruct (spec_get _ i) as [l|]; unfold counters_show, inc_read; cbn.
    + rewrite Hbr, Her, add_mod_l. repeat split; auto.
    + rewrite Her, N.add_0_r. repeat split; auto.
  - inversion Hstep; subst r s'. exact HT.
  - inversion Hstep; subst r s'. exact HT.
  - (* Set *)
    destruct HS as (He & ss & t & tw & HI).
    destruct (set_stable_ok c _ _ ss t tw k v n He HI) as (r0 & e' & Hs & _ & _ & _ & _ & _ & _ & Hm).
    rewrite Hs in Hstep. inversion Hstep; subst r s'. clear Hstep. cbn [ss_env]. rewrite Hm.
    destruct HT as (Hbw & Hew & Hap & Hbr & Her & Hht & Htt & Hsg & Hss).
    unfold counters_show, inc_stable; cbn. rewrite Hss. repeat split; auto.
  - (* Get *)
    destruct HS as (He & ss & t & tw & HI).
    rewrite (get_stable_ok c _ _ ss t tw k HI) in Hstep. inversion Hstep; subst r s'. clear Hstep. cbn [ss_env].
    destruct HT as (Hbw & Hew & Hap & Hbr & Her & Hht & Htt & Hsg & Hss).
    unfold counters_show, inc_stable; cbn. rewrite Hsg. repeat split; auto.
  - (* Close; Open *)
    destruct HS as (He & ss & t & tw & HI).
    destruct (reopen_ok c _ _ ss t tw Hc He HI ltac:(unfold s_nid in *; lia))
      as (w' & e' & ss' & t' & tw' & Ho & _ & _ & _ & _ & _ & _ & _ & Hm).
    rewrite Ho in Hstep. inversion Hstep; subst r s'. clear Hstep. cbn [ss_env]. rewrite Hm. exact HT.
Qed.

Lemma metrics_run c : forall os s sp T,
  cfg_ok c -> Forall sop_ok os -> SInv c s -> s_nid s + 2 * N.of_nat (length os) < two64 ->
  sp_log sp = s_abs s -> sp_kv sp = s_kv s -> counters_show (e_m (ss_env s)) T ->
  counters_show (e_m (ss_env (snd (run_model c s os)))) (mtotals sp os T).
Proof.
  induction os as [|o os IH]; intros s sp T Hc Hops HS Hnid Hlog Hkv HT; [exact HT|].
  inversion Hops as [|? ? Hop Hops']; subst. cbn [run_model mtotals]. cbn [length] in Hnid.
  destruct (step_model c s o) as [r s1] eqn:Estep.
  destruct (step_ok c s o sp r s1 Hc Hop HS ltac:(lia) Hlog Hkv Estep) as (HS1 & _ & Ha & Hk & Hid1 & Hid2).
  assert (HT1 := metrics_step c s o sp r s1 T Hc Hop HS ltac:(lia) Hlog Estep HT).
  specialize (IH s1 (snd (step_spec sp o)) (mstep sp o T) Hc Hops' HS1 ltac:(lia) (eq_sym Ha) (eq_sym Hk) HT1).
  destruct (run_model c s1 os) as [rs s2]. exact IH.
Qed.

Theorem counters_true c os s0 :
  cfg_ok c -> Forall sop_ok os -> short_enough os -> initial c = Some s0 ->
  counters_show (e_m (ss_env (snd (run_model c s0 os)))) (true_totals os).
Proof.
  intros Hc Hops Hshort Hinit.
  destruct (initial_inv c s0 Hc Hinit) as (HS & Ha & Hk & Hid & Hm).
  apply metrics_run; auto.
  - rewrite Hid. unfold short_enough in Hshort. unfold two64. lia.
  - rewrite Hm. exact cs_zero.
Qed.

(* without the modulus when the true totals fit in 64 bits *)
Theorem counters_true_exact c os s0 :
  cfg_ok c -> Forall sop_ok os -> short_enough os -> initial c = Some s0 ->
  t_bytes_written (true_totals os) < two64 -> t_bytes_read (true_totals os) < two64 ->
  t_head_trunc (true_totals os) < two64 -> t_tail_trunc (true_totals os) < two64 ->
  counters_exact (e_m (ss_env (snd (run_model c s0 os)))) (true_totals os).
Proof.
  intros Hc Hops Hshort Hinit B1 B2 B3 B4.
  destruct (counters_true c os s0 Hc Hops Hshort Hinit) as (Hbw & Hew & Hap & Hbr & Her & Hht & Htt & Hsg & Hss).
  rewrite N.mod_small in Hbw, Hbr, Hht, Htt by assumption. repeat split; assumption.
Qed.
