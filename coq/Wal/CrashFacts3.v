(* CrashFacts3.v -- traces: [ext P e0 e] (every disk between e0 and e satisfies P),
   the generic metadata-commit lemma, and small facts on new segments. *)
From RW Require Import Base.Bytes Base.BytesFacts Fmt.Codec Fmt.Frame Wal.Model Wal.Spec Wal.Hist
  Wal.CrashInv Wal.ModelFacts Wal.CrashFacts0 Wal.CrashFacts1 Wal.CrashFacts2 Gen.Constants Base.LiaSetup.
Open Scope N_scope.

Lemma ext_refl (P : disk -> Prop) e : e_fault e = None -> P (e_disk e) -> ext P e e.
Proof.
  intros Hf HP. split; [exact Hf|]. exists []. cbn. split; [reflexivity|]. split; [constructor|].
  split; [reflexivity|]. intros j. rewrite firstn_nil. exact HP.
Qed.

Definition io_env (a : act) (e : env) : env :=
  {| e_acts := a :: e_acts e; e_disk := apply_act (e_disk e) a; e_fault := None; e_fx := e_fx e; e_m := e_m e |}.

Lemma io_ok a e : e_fault e = None -> io a e = (true, io_env a e).
Proof. intros Hf. unfold io, io_env, armed. rewrite Hf. destruct (is_delete a); reflexivity. Qed.

Lemma firstn_snoc {A} j (l : list A) x :
  firstn j (l ++ [x]) = if Nat.leb j (length l) then firstn j l else l ++ [x].
Proof.
  destruct (Nat.leb j (length l)) eqn:E.
  - apply Nat.leb_le in E. rewrite firstn_app. replace (j - length l)%nat with O by lia. cbn. apply app_nil_r.
  - apply Nat.leb_gt in E. apply firstn_all2. rewrite app_length. cbn. lia.
Qed.

Lemma ext_io (P : disk -> Prop) e0 e a :
  ext P e0 e -> not_fail a -> P (apply_act (e_disk e) a) -> ext P e0 (io_env a e).
Proof.
  intros (Hf & acts & Ha & Hnf & Hd & Hp) Hn HP. split; [reflexivity|].
  exists (acts ++ [a]). cbn [io_env e_acts e_disk]. split.
  - rewrite rev_app_distr. cbn. rewrite Ha. reflexivity.
  - split; [apply Forall_app; split; [exact Hnf|constructor; [exact Hn|constructor]]|]. split.
    + rewrite fold_left_app. cbn. rewrite Hd. reflexivity.
    + intros j. rewrite firstn_snoc. destruct (Nat.leb j (length acts)); [apply Hp|].
      rewrite fold_left_app. cbn. rewrite <- Hd. exact HP.
Qed.

Lemma ext_fault P e0 e : ext P e0 e -> e_fault e = None.
Proof. intros (H & _). exact H. Qed.

Lemma ext_final (P : disk -> Prop) e0 e : ext P e0 e -> P (e_disk e).
Proof.
  intros (Hf & acts & Ha & Hnf & Hd & Hp). rewrite Hd. specialize (Hp (length acts)).
  rewrite firstn_all in Hp. exact Hp.
Qed.

Lemma ext_mono (P Q : disk -> Prop) e0 e : (forall d, P d -> Q d) -> ext P e0 e -> ext Q e0 e.
Proof.
  intros H (Hf & acts & Ha & Hnf & Hd & Hp). split; [exact Hf|]. exists acts. repeat split; auto.
Qed.

Lemma ext_with_m P e0 e m : ext P e0 e -> ext P e0 (with_m e m).
Proof. intros (Hf & acts & Ha & Hnf & Hd & Hp). split; [exact Hf|]. exists acts. cbn. auto. Qed.

Lemma ext_add_m P e0 e f : ext P e0 e -> ext P e0 (add_m e f).
Proof. apply ext_with_m. Qed.

Lemma ext_from_m P e0 e m : ext P (with_m e0 m) e -> ext P e0 e.
Proof. intros (Hf & acts & Ha & Hnf & Hd & Hp). split; [exact Hf|]. exists acts. cbn in *. auto. Qed.

Lemma ext_trans (P : disk -> Prop) e0 e1 e2 : ext P e0 e1 -> ext P e1 e2 -> ext P e0 e2.
Proof.
  intros (Hf1 & a1 & Ha1 & Hn1 & Hd1 & Hp1) (Hf2 & a2 & Ha2 & Hn2 & Hd2 & Hp2).
  split; [exact Hf2|]. exists (a1 ++ a2). split.
  - rewrite Ha2, Ha1, rev_app_distr, app_assoc. reflexivity.
  - split; [apply Forall_app; auto|]. split.
    + rewrite fold_left_app, <- Hd1. exact Hd2.
    + intros j. rewrite firstn_app. rewrite fold_left_app.
      destruct (Nat.leb j (length a1)) eqn:E.
      * apply Nat.leb_le in E. replace (j - length a1)%nat with O by lia. cbn. apply Hp1.
      * apply Nat.leb_gt in E. rewrite (@firstn_all2 _ j a1) by lia. rewrite <- Hd1. apply Hp2.
Qed.

Lemma ext_acts (P : disk -> Prop) e0 e :
  ext P e0 e ->
  exists acts, new_acts e0 e = acts /\ Forall not_fail acts /\
               e_disk e = fold_left apply_act acts (e_disk e0) /\
               forall j, P (fold_left apply_act (firstn j acts) (e_disk e0)).
Proof.
  intros (Hf & acts & Ha & Hnf & Hd & Hp). exists acts. split; [|auto].
  unfold new_acts. rewrite Ha, app_length.
  replace (length (rev acts) + length (e_acts e0) - length (e_acts e0))%nat with (length (rev acts)) by lia.
  rewrite firstn_app. rewrite Nat.sub_diag. cbn. rewrite app_nil_r, firstn_all.
  rewrite rev_append_rev, app_nil_r. apply rev_involutive.
Qed.

(* delete_files of names each of which keeps P *)
Lemma ext_delete_files (P : disk -> Prop) e0 ns :
  forall e, ext P e0 e ->
  (forall d n, P d -> In n ns -> P (apply_act d (ADelete n))) ->
  ext P e0 (delete_files ns e) /\ e_m (delete_files ns e) = e_m e.
Proof.
  unfold delete_files. induction ns as [|n ns IH]; intros e He Hd; cbn [fold_left]; [auto|].
  rewrite (io_ok (ADelete n) e (ext_fault _ _ _ He)). cbn [snd].
  assert (He' : ext P e0 (io_env (ADelete n) e)).
  { apply ext_io; [exact He|exact I|]. apply Hd; [apply (ext_final _ _ _ He)|left; reflexivity]. }
  destruct (IH _ He') as (H1 & H2); [intros; apply Hd; [assumption|right; assumption]|].
  split; [exact H1|]. rewrite H2. reflexivity.
Qed.

(* deleting files that the committed metadata does not list: P need only survive such a
   deletion on disks with that metadata *)
Lemma ext_delete_unlisted (P : disk -> Prop) e0 e ps del :
  ext P e0 e -> dk_meta (e_disk e) = Some ps ->
  (forall d n, P d -> dk_meta d = Some ps -> In n del -> P (apply_act d (ADelete n))) ->
  ext P e0 (delete_files del e).
Proof.
  intros He Hm Hd. pose proof (ext_fault _ _ _ He) as Hf.
  set (P' := fun d => P d /\ dk_meta d = Some ps).
  assert (He' : ext P' e e) by (apply ext_refl; [exact Hf|split; [apply (ext_final _ _ _ He)|exact Hm]]).
  destruct (ext_delete_files P' e del e He') as (Hdel & _).
  - intros d n (HP & Hm') Hin. split; [apply Hd; assumption|exact Hm'].
  - eapply ext_trans; [exact He|]. eapply ext_mono; [|exact Hdel]. intros d (HP & _). exact HP.
Qed.

Lemma DIs_commit c nb d nid S t :
  DIs c nb d ->
  (forall ps, dk_meta d = Some ps -> ps_next_id ps <= nid) -> nid <= nb ->
  Forall (seg_wf c nid) (S ++ [t]) -> linked (S ++ [t]) ->
  Forall (sealed_ok d) S -> tail_ok c d t ->
  DIs c nb (apply_act d (ACommit {| ps_next_id := nid; ps_segs := S ++ [t] |})).
Proof.
  intros HD Hn Hnb Hwf Hl Hso Ht. pose proof (DIs_NoDup _ _ _ HD) as ND.
  apply (DIs_build c nb _ {| ps_next_id := nid; ps_segs := S ++ [t] |} S t); try reflexivity; auto.
  - cbn [ps_next_id apply_act dk_files]. intros n f Hf. unfold DIs in HD. destruct HD as (_ & HD).
    destruct (dk_meta d) as [ps|] eqn:Hm.
    + destruct HD as (_ & Hid & _). specialize (Hn ps eq_refl). specialize (Hid _ _ Hf). lia.
    + rewrite HD in Hf. discriminate.
Qed.

Lemma new_segment_wf c nid base :
  cfg_ok c -> 1 <= base -> base < two64 -> seg_wf c (nid + 1) (new_segment c nid base).
Proof.
  intros (Hc & Hc2 & Hs1 & Hs2) Hb1 Hb2. unfold seg_wf, new_segment. cbn.
  repeat split; try lia. apply N.mod_small. unfold two30, two32 in *. lia.
Qed.

Lemma seg_wf_mono c nid nid' s : nid <= nid' -> seg_wf c nid s -> seg_wf c nid' s.
Proof. unfold seg_wf. intros Hle (H1 & H2 & H3 & H4 & H5 & H6). repeat split; auto. lia. Qed.

Lemma tail_ok_missing c d s :
  si_sealed s = false -> si_min s = si_base s -> lookup (name_of s) (dk_files d) = None -> tail_ok c d s.
Proof. intros H1 H2 H3. unfold tail_ok. rewrite H3. auto. Qed.

Lemma DIs_lookup_fresh c nb d ps base id :
  DIs c nb d -> dk_meta d = Some ps -> ps_next_id ps <= id -> lookup (base, id) (dk_files d) = None.
Proof.
  intros HD Hm Hle. destruct (lookup (base, id) (dk_files d)) eqn:E; [|reflexivity].
  apply (DIs_unfold c nb d ps Hm) in HD. destruct HD as (_ & _ & Hid & _).
  specialize (Hid _ _ E). cbn in Hid. lia.
Qed.

(* linked: replacing / extending the last element *)
Lemma linked_cons2 a b r :
  linked (a :: b :: r) <-> (si_base b = si_max a + 1 /\ si_min b = si_base b /\ linked (b :: r)).
Proof. reflexivity. Qed.

Lemma linked_replace_last S t t' :
  linked (S ++ [t]) -> si_base t' = si_base t -> si_min t' = si_min t -> linked (S ++ [t']).
Proof.
  intros HL Hb Hm. induction S as [|a S IH]; [exact I|].
  destruct S as [|b S'].
  - change (linked [a; t]) in HL. change (linked [a; t']). rewrite linked_cons2 in *. rewrite Hb, Hm.
    destruct HL as (H1 & H2 & _). cbn; auto.
  - change (linked (a :: b :: S' ++ [t])) in HL. change (linked (a :: b :: S' ++ [t'])).
    rewrite linked_cons2 in HL. rewrite linked_cons2. destruct HL as (H1 & H2 & H3). auto.
Qed.

Lemma linked_snoc S a b :
  linked (S ++ [a]) -> si_base b = si_max a + 1 -> si_min b = si_base b -> linked (S ++ [a; b]).
Proof.
  intros HL Hb Hm. induction S as [|x S IH]; [cbn; auto|].
  destruct S as [|y S'].
  - change (linked [x; a]) in HL. change (linked [x; a; b]). rewrite linked_cons2 in *.
    destruct HL as (H1 & H2 & _). split; [exact H1|]. split; [exact H2|]. cbn; auto.
  - change (linked (x :: y :: S' ++ [a])) in HL. change (linked (x :: y :: S' ++ [a; b])).
    rewrite linked_cons2 in HL. rewrite linked_cons2. destruct HL as (H1 & H2 & H3). auto.
Qed.

Lemma hd_min_app S s t : hd_min (S ++ [s]) t = hd_min S s.
Proof. unfold hd_min. destruct S; reflexivity. Qed.

Lemma tail_es_missing d s : lookup (name_of s) (dk_files d) = None -> tail_es d s = [].
Proof. intros H. unfold tail_es, file_ents. rewrite H. apply skipn_nil. Qed.

Lemma commit_newtail c nb d nid S' base :
  cfg_ok c -> DIs c nb d ->
  (forall ps, dk_meta d = Some ps -> ps_next_id ps <= nid) -> nid + 1 <= nb ->
  Forall (seg_wf c nid) S' -> linked (S' ++ [new_segment c nid base]) ->
  Forall (sealed_ok d) S' -> 1 <= base -> base < two64 ->
  let si := new_segment c nid base in
  let d1 := apply_act d (ACommit {| ps_next_id := nid + 1; ps_segs := S' ++ [si] |}) in
  DIs c nb d1 /\ lookup (name_of si) (dk_files d1) = None /\
  dread d1 = slog_of (hd_min S' si) (sealed_es d S') /\
  dread (unpend d1) = slog_of (hd_min S' si) (sealed_es d S').
Proof.
  intros Hc HD Hn Hnb Hwf Hl Hso Hb1 Hb2 si d1.
  assert (Hfresh : lookup (name_of si) (dk_files d) = None).
  { destruct (lookup (name_of si) (dk_files d)) eqn:E; [|reflexivity]. exfalso.
    unfold DIs in HD. destruct HD as (_ & HD). destruct (dk_meta d) as [ps|] eqn:Hm.
    - destruct HD as (_ & Hid & _). specialize (Hid _ _ E). specialize (Hn ps eq_refl). cbn in Hid. lia.
    - rewrite HD in E. discriminate. }
  assert (HD1 : DIs c nb d1).
  { apply DIs_commit; auto.
    - intros ps Hm. specialize (Hn ps Hm). lia.
    - apply Forall_app. split.
      + eapply Forall_impl; [|exact Hwf]. intros s Hs. eapply seg_wf_mono; [|exact Hs]. lia.
      + constructor; [apply new_segment_wf; auto|constructor].
    - apply tail_ok_missing; auto. }
  split; [exact HD1|]. split; [exact Hfresh|].
  assert (Hm1 : dk_meta d1 = Some {| ps_next_id := nid + 1; ps_segs := S' ++ [si] |}) by reflexivity.
  assert (Hte : tail_es d1 si = []) by (apply tail_es_missing; exact Hfresh).
  split.
  - rewrite (dread_decomp c nb d1 _ S' si HD1 Hm1 eq_refl). rewrite Hte, app_nil_r.
    f_equal.
  - pose proof (DIs_unpend _ _ _ HD1) as HDu.
    rewrite (dread_decomp c nb (unpend d1) _ S' si HDu Hm1 eq_refl).
    assert (Hte' : tail_es (unpend d1) si = []).
    { apply tail_es_missing. rewrite lookup_unpend. cbn [d1 apply_act dk_files]. rewrite Hfresh. reflexivity. }
    rewrite Hte', app_nil_r. f_equal.
    change (sealed_es (unpend d1) S' = sealed_es d1 S').
    apply sealed_es_unpend.
    eapply Forall_sealed_ext; [|exact Hso]. reflexivity.
Qed.

(* sealing the tail in the metadata *)
Definition seal_info (t : seginfo) (mx istart : N) : seginfo :=
  {| si_id := si_id t; si_base := si_base t; si_min := si_min t; si_max := mx; si_codec := si_codec t;
     si_index_start := istart; si_sealed := true; si_size_limit := si_size_limit t |}.

Lemma seal_info_wf c nid t mx i : seg_wf c nid t -> seg_wf c nid (seal_info t mx i).
Proof. unfold seg_wf, seal_info. cbn. tauto. Qed.

Lemma sealed_ok_of_tail c d t f mx i :
  tail_ok c d t -> lookup (name_of t) (dk_files d) = Some f -> df_pend f = None -> df_seal f <> 0 ->
  si_min t <= mx -> mx + 1 <= si_base t + llen (df_ents f) ->
  sealed_ok d (seal_info t mx i).
Proof.
  intros (Hu & Ht) Hf Hp Hse Hmin Hmx. rewrite Hf in Ht.
  destruct Ht as ((F1 & F2 & F3 & F4 & F5) & _ & Hd & _).
  unfold sealed_ok. cbn [seal_info si_sealed si_min si_max si_base].
  split; [reflexivity|]. split; [exact Hmin|]. exists f.
  change (name_of (seal_info t mx i)) with (name_of t).
  split; [exact Hf|]. specialize (F5 Hse).
  split; [destruct (df_dir f); [reflexivity|exfalso; apply F5; apply Hd; reflexivity]|].
  split; [exact Hp|]. split; [apply F4; exact F5|exact Hmx].
Qed.

Lemma seg_visible_seal_info d t mx i :
  1 <= si_base t -> si_base t <= si_min t -> si_min t <= mx ->
  seg_visible 0 d (seal_info t mx i) = firstn (N.to_nat (mx - si_min t + 1)) (tail_es d t).
Proof.
  intros Hb Hbm Hm. unfold seg_visible, tail_es. cbn [seal_info si_sealed si_max si_min si_base].
  change (name_of (seal_info t mx i)) with (name_of t).
  destruct ((mx =? 0) || (mx <? si_min t)) eqn:E; [lia|reflexivity].
Qed.

Lemma tail_es_length c d t f :
  si_base t <= si_min t -> tail_ok c d t -> lookup (name_of t) (dk_files d) = Some f ->
  llen (tail_es d t) + si_min t = si_base t + llen (cur_ents f) \/
  (llen (cur_ents f) = 0 /\ tail_es d t = []).
Proof.
  intros Hbm (Hu & Ht) Hf. rewrite Hf in Ht. destruct Ht as (_ & _ & _ & _ & He & _).
  pose proof (llen_df_le_cur f) as Hle.
  unfold tail_es, file_ents. rewrite Hf.
  destruct (llen (cur_ents f) =? 0) eqn:Z.
  - right. split; [lia|]. apply skipn_all2. unfold llen in Z. lia.
  - left. unfold llen. rewrite skipn_length. unfold llen in *.
    destruct (N.of_nat (length (df_ents f)) =? 0) eqn:Z2; lia.
Qed.
