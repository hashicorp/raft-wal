(* FaultSteps.v -- the pending rotation with an injected I/O error; the calls
   that are refused (failed or sealed WAL); the stable store. *)
From RW Require Import Base.Bytes Base.BytesFacts Fmt.Codec Fmt.CodecFacts Fmt.Frame Wal.Model Wal.Spec Wal.Hist Wal.FaultHist
  Wal.CrashInv Wal.ModelFacts Wal.CrashFacts0 Wal.CrashFacts1 Wal.CrashFacts2 Wal.CrashFacts3 Wal.CrashFacts4 Wal.CrashFacts5
  Wal.CrashFacts6 Wal.CrashGlue Wal.CrashCalls1 Wal.CrashCalls2 Wal.CrashCalls3 Wal.CrashCalls4 Wal.CrashCalls5 Wal.CrashCalls6
  Wal.CrashCalls7 Wal.CrashCalls8 Wal.CrashCalls9 Wal.CrashCalls10 Wal.FaultSim Wal.FaultSim2 Wal.FaultInv Wal.FaultFacts2
  Wal.FaultFacts3 Wal.FaultNames Wal.FaultStore Wal.FaultDelete Gen.Constants.
From RW Require Import Base.LiaSetup.
Open Scope N_scope.

Lemma set_rot_id w : set_rot w (st_rotate w) = w.
Proof. destruct w; reflexivity. Qed.

(* the rotation a mutating call waits for *)
Lemma live_settle c nb w e nom alts defer :
  cfg_ok c -> nb + 1 < two64 -> Live c nb w (e_disk e) defer -> sp_of (sh (e_disk e)) = nom -> In nom alts ->
  exists w1 e1, settle c {| ss_wal := w; ss_env := e |} = {| ss_wal := w1; ss_env := e1 |} /\ st_closed w1 = false /\
    ((Live c (nb + 1) w1 (e_disk e1) defer /\ st_rotate w1 = None /\ sp_of (sh (e_disk e1)) = nom /\
      (e_fault e = None -> e_fault e1 = None)) \/
     (e_fault e1 = None /\ st_rotate w1 = None /\
      st_failed w1 = true /\ RV c (nb + 1) w1 (e_disk e1) nom /\
      RD c (nb + 1) (e_disk e1) alts defer)).
Proof.
  intros Hc Hnb HLive Hsp Hin. pose proof HLive as (HL & Hstale). pose proof (LInv_closed _ _ _ _ HL) as Hcl.
  unfold settle. cbn [ss_wal ss_env]. destruct (st_rotate w) as [istart|] eqn:Er.
  2:{ exists w, e. split; [reflexivity|]. split; [exact Hcl|]. left.
      split; [eapply Live_mono; [| |exact HLive]; [lia|apply incl_refl]|]. auto. }
  destruct (LInv_view _ _ _ _ HL) as (S & t & f0 & tw & V).
  pose proof (lv_rot _ _ _ _ _ _ _ _ V) as Hrot. rewrite Er in Hrot.
  assert (Hse : 0 < df_seal f0 /\ istart = df_seal f0).
  { destruct (0 <? df_seal f0) eqn:Z; [inversion Hrot; split; [lia|reflexivity]|discriminate]. }
  destruct Hse as (Hse & ->).
  pose proof (lv_tw _ _ _ _ _ _ _ _ V) as (Tn & _ & _ & _ & _ & _ & Ti & _).
  (* a sealed tail carries no stale batch: every pending batch sits in an unlisted file *)
  assert (HSU : stale_unlisted (e_disk e)).
  { intros n f p Hl Hp. destruct (Hstale n f p Hl Hp) as [(t2 & Ht2 & -> & (Hz & _))|K]; [exfalso|exact K].
    assert (t2 = t) by (rewrite (lv_segs _ _ _ _ _ _ _ _ V), tail_info_app in Ht2; inversion Ht2; reflexivity). subst t2.
    pose proof (lv_file _ _ _ _ _ _ _ _ V) as K. rewrite lookup_sh, Hl in K. cbn in K. inversion K; subst f0. cbn in Hse. lia. }
  destruct (live_shadow c nb w e defer HLive) as (HR & _ & Hex & _).
  set (X := stale_names (e_disk e)) in *. set (d := e_disk e) in *. set (ec := shenv e) in *.
  assert (HXu : forall n, In n X -> unlisted d n).
  { intros n Hx. destruct (stale_names_in _ n (LInv_NoDup_sh _ _ _ _ HL) Hx) as (f & p & Hl & Hp). apply (HSU n f p Hl Hp). }
  destruct (rotate_ok c nb w ec (df_seal f0) Hc HL eq_refl Hnb Er) as (wc' & ec' & Hrc & HL' & Hr' & Hsp' & Hext).
  destruct (rotate c w e) as [w' e'] eqn:Erot. exists w', e'. split; [reflexivity|].
  destruct (rotate_sub _ _ _ _ _ Erot) as (_ & Hms).
  assert (Hgarb : forall n, In n X -> unlisted (e_disk e') n).
  { intros n Hx. apply (unlisted_keep c nb w d (e_disk e') n HL (Hex n Hx) (HXu n Hx) Hms). }
  change (e_disk ec) with (sh d) in Hsp', Hext. rewrite Hsp in Hsp', Hext.
  destruct (rotate_lock X c w e ec w' e' wc' ec' HR Erot Hrc) as [(-> & HR')|(Hf' & _ & _ & -> & [Hd|[(ps & Hpc)|Hfl0]])];
    [| | |destruct HL' as (_ & K & _); congruence].
  - split; [apply (LInv_closed _ _ _ _ HL')|]. left.
    destruct (Rd_live c (nb + 1) _ wc' e' ec ec' X [] defer Hext HL' (Rd_of_R _ _ _ _ HR')) as (HLv & Hsps).
    { intros n f p Hx _ _ _. right. apply Hgarb. exact Hx. }
    rewrite Hsp' in Hsps.
    split; [exact HLv|]. split; [exact Hr'|]. split; [exact Hsps|].
    intros Hfe.
    unfold rotate in Erot. rewrite Er, Hcl in Erot.
    destruct (tail_info (st_segs w)); [|inversion Erot; subst; exact Hfe].
    destruct (create_next _ _ _ _) as [[nid segs2] si].
    match type of Erot with context [mutate ?w0 ?t0 ?e0] => destruct (mutate w0 t0 e0) as [[r1 w1] e1] eqn:Em;
      pose proof (sh_mutate w0 t0 e0 r1 w1 e1 Hfe Em) as (_ & K) end.
    inversion Erot; subst. exact K.
  - (* the commit failed: the tail stays sealed, no rotation pending *)
    split; [exact Hcl|]. right. split; [exact Hf'|]. split; [reflexivity|]. rewrite Hd.
    + split; [reflexivity|]. split; [|
        assert (HRD0 : RD c nb d alts defer) by (apply (live_RD c nb w d alts defer HLive); rewrite Hsp; exact Hin);
        eapply RD_mono; [| | |exact HRD0]; [lia|apply incl_refl|apply incl_refl]].
      apply (RV_ext c (nb + 1) (rot_none w)); [reflexivity|reflexivity|]. rewrite <- Hsp. apply RV_of_seal.
      exists tw. split; [apply (lv_tail _ _ _ _ _ _ _ _ V)|]. split; [lia|]. split; [reflexivity|].
      split; [|exact HSU]. rewrite Ti.
      replace (set_rot (rot_none w) (Some (df_seal f0))) with w; [eapply LInv_mono; [|exact HL]; lia|].
      rewrite <- (set_rot_id w) at 1. rewrite Er. reflexivity.
  - (* committed, but the new tail could not be created *)
    split; [exact Hcl|]. right. split; [exact Hf'|]. split; [reflexivity|].
    assert (Hmd' : dk_meta (e_disk e') = Some ps).
    { destruct Hpc as (dm & (_ & M & _) & _ & Hm & _). rewrite M. exact Hm. }
    destruct (fail_after_commit c nb (nb + 1) (set_failed (rot_none w)) w (sh d) (e_disk e') X nom alts defer ps ec ec' ltac:(lia) HL eq_refl Hsp eq_refl eq_refl eq_refl eq_refl Hcl Hpc)
      as (HM & HRD).
    + intros dm Hp. destruct (ext_pfx _ _ _ _ Hext Hp) as (HDm & HAm & _). split; [exact HDm|].
      apply cand_alts. rewrite <- HAm. exact Hin.
    + intros n Hx. right. intros s Hs. apply (HXu n Hx (persistent w) s (live_meta c nb w d HL) Hs).
    + intros n s Hx Hs. apply (Hgarb n Hx ps s Hmd' Hs).
    + split; [reflexivity|]. split; [|exact HRD].
      destruct HM as [(K & _)|(_ & [(K & _)|(_ & _ & K)])]; [cbn in K; congruence| |exact K].
      destruct K as ((_ & K & _) & _). cbn in K. discriminate.
Qed.

Lemma store_nil_accepts a : spec_accepts a (OStore []) = Some a.
Proof. unfold spec_accepts. cbn. destruct a; reflexivity. Qed.

Lemma delete_empty_accepts a mn mx : mx < mn -> spec_accepts a (ODelete mn mx) = Some a.
Proof.
  intros H. unfold spec_accepts. cbn [step_spec]. unfold spec_delete. replace (mx <? mn) with true by lia. cbn. destruct a; reflexivity.
Qed.

Lemma failed_store c w e ls : st_closed w = false -> st_failed w = true ->
  store_logs c w ls e = (match ls with [] => ROk | _ => RErrFailed end, w, e).
Proof. intros Hc Hf. unfold store_logs. rewrite Hc. destruct ls; [reflexivity|]. rewrite Hf. reflexivity. Qed.

Lemma failed_delete c w e mn mx : st_closed w = false -> st_failed w = true ->
  delete_range c w mn mx e = ((if mx <? mn then ROk else RErrFailed), w, e).
Proof. intros Hc Hf. unfold delete_range. rewrite Hc. destruct (mx <? mn); [reflexivity|]. rewrite Hf. reflexivity. Qed.

Lemma app_op_noop o alts : (forall a, spec_accepts a o = Some a) -> app_op o alts = alts.
Proof.
  intros H. unfold app_op. induction alts as [|a l IH]; [reflexivity|]. cbn [flat_map]. rewrite (H a), IH. reflexivity.
Qed.

(* a sealed tail without a pending rotation: appends are refused without I/O *)
Lemma seal_store c nb w e ls : Seal c nb w (e_disk e) -> ls <> [] ->
  exists r, store_logs c w ls e = (r, w, e) /\ r <> ROk.
Proof.
  intros (tw & Htw & Hidx & Hrot & HL & HN) Hne.
  destruct (LInv_view _ _ _ _ HL) as (S & t & f0 & tw' & V).
  assert (tw' = tw) by (pose proof (lv_tail _ _ _ _ _ _ _ _ V) as K; cbn in K; congruence). subst tw'.
  pose proof (lv_closed _ _ _ _ _ _ _ _ V) as Hcl. pose proof (lv_failed _ _ _ _ _ _ _ _ V) as Hfl. cbn in Hcl, Hfl.
  pose proof (lv_segs _ _ _ _ _ _ _ _ V) as Hsegs. cbn in Hsegs.
  pose proof (lv_tw _ _ _ _ _ _ _ _ V) as (Tn & Tb & _ & _ & Tnn & _ & Ti & Tc).
  pose proof (lv_twf V) as (_ & _ & Hb1 & _).
  (* the sealed tail is not empty, so the log is not empty *)
  assert (Hlast : 0 < ws_commit_idx tw).
  { pose proof (lv_tok _ _ _ _ _ _ _ _ V) as (_ & Ht'). rewrite (lv_file _ _ _ _ _ _ _ _ V) in Ht'.
    destruct Ht' as ((_ & _ & _ & _ & F5) & _). rewrite <- Ti in F5. specialize (F5 ltac:(lia)). apply llen_pos in F5.
    rewrite Tc. unfold tl_of. destruct (llen (df_ents f0) =? 0) eqn:Z; lia. }
  rewrite store_logs_unfold, Hcl. destruct ls as [|l0 ls']; [congruence|]. rewrite Hfl. cbv zeta.
  rewrite Hsegs, tail_info_app, Htw. unfold last_index. cbn [tail_last]. replace (0 <? ws_commit_idx tw) with true by lia.
  replace (ws_commit_idx tw =? 0) with false by lia. cbn [andb].
  unfold store_go. destruct (check_logs _ _) as [res nb0].
  destruct (result_ok_dec res) as [->|Hres]; [|rewrite (match_not_ok res _ _ Hres); eauto].
  rewrite Htw, seg_append_eq. unfold guarded_write, append_guard. replace (0 <? ws_index_start tw) with true by lia.
  eexists; split; [reflexivity|discriminate].
Qed.

Definition set_kv (k v : bytes) (a : spst) : spst := {| sp_log := sp_log a; sp_kv := kv_set k v (sp_kv a) |}.

Lemma sp_of_set d k v : sp_of (apply_act d (ASetStable k v)) = set_kv k v (sp_of d).
Proof. rewrite sp_of_setstable. reflexivity. Qed.

Lemma sh_setstable d k v : sh (apply_act d (ASetStable k v)) = apply_act (sh d) (ASetStable k v).
Proof. reflexivity. Qed.
Lemma ad_setstable d k v : ad (apply_act d (ASetStable k v)) = apply_act (ad d) (ASetStable k v).
Proof. reflexivity. Qed.

Lemma LInv_setstable c nb w d k v : LInv c nb w d -> LInv c nb w (apply_act d (ASetStable k v)).
Proof. apply LInv_same; reflexivity. Qed.

Lemma stale_tail_ok_files c w d d' defer : dk_files d' = dk_files d -> dk_meta d' = dk_meta d ->
  stale_tail_ok c w d defer -> stale_tail_ok c w d' defer.
Proof.
  intros Hf Hm H n f p Hl Hp. rewrite Hf in Hl. destruct (H n f p Hl Hp) as [K|K]; [left; exact K|right].
  eapply unlisted_meta; [exact Hm|exact K].
Qed.

Lemma stale_unlisted_files d d' : dk_files d' = dk_files d -> dk_meta d' = dk_meta d -> stale_unlisted d -> stale_unlisted d'.
Proof. intros Hf Hm H n f p Hl Hp. rewrite Hf in Hl. eapply unlisted_meta; [exact Hm|]. apply (H n f p Hl Hp). Qed.

Lemma Mode_setstable c nb w d nom defer k v :
  Mode c nb w d nom defer -> Mode c nb w (apply_act d (ASetStable k v)) (if st_closed w then nom else set_kv k v nom) defer.
Proof.
  intros [(Hcl & Hr)|(Hcl & HM)]; rewrite Hcl; [left; auto|right]. split; [exact Hcl|].
  destruct HM as [((HL & Hst) & Hsp)|(Hf & Hr & (wc & dc & HL & Hsp & Hs & Ht & Hlk & Hstb & ND & Hlast))].
  - left. split; [split; [rewrite sh_setstable; apply LInv_setstable; exact HL|eapply stale_tail_ok_files; [| |exact Hst]; reflexivity]|].
    rewrite sh_setstable, sp_of_set, Hsp. reflexivity.
  - right. split; [exact Hf|]. split; [exact Hr|].
    exists wc, (apply_act dc (ASetStable k v)). split; [apply LInv_setstable; exact HL|]. split; [rewrite sp_of_set, Hsp; reflexivity|].
    split; [exact Hs|]. split; [exact Ht|]. split; [exact Hlk|]. split; [cbn [apply_act dk_stable]; rewrite Hstb; reflexivity|].
    split; [exact ND|exact Hlast].
Qed.

Lemma store_set_commute a ls x k v : spec_accepts a (OStore ls) = Some x -> spec_accepts (set_kv k v a) (OStore ls) = Some (set_kv k v x).
Proof.
  unfold spec_accepts. cbn [step_spec set_kv sp_log sp_kv]. destruct (spec_store (sp_log a) ls); intros E; inversion E; reflexivity.
Qed.

Lemma RD_setstable c nb d alts defer nom k v nl :
  key_ok k = true -> Forall dop_ok defer -> RD c nb d alts defer ->
  RD c nb (apply_act d (ASetStable k v)) (set_kv k v nom :: app_op (OSet k v nl) alts) defer.
Proof.
  intros Hk Hdef (HD & Hin). split; [rewrite ad_setstable; apply DIs_setstable; exact HD|].
  rewrite ad_setstable, sp_of_set.
  assert (Hacc : forall a, spec_accepts a (OSet k v nl) = Some (set_kv k v a)) by (intros a; unfold spec_accepts; cbn [step_spec]; rewrite Hk; reflexivity).
  destruct (cand_inv _ _ _ Hin) as [K|(a & o & Ka & Ko & E)].
  - apply cand_alts. right. eapply in_app_op; [exact K|apply Hacc].
  - rewrite Forall_forall in Hdef. destruct (Hdef o Ko) as (_ & ls & ->).
    eapply cand_defer; [right; eapply in_app_op; [exact Ka|apply Hacc]|exact Ko|]. apply store_set_commute. exact E.
Qed.

Lemma set_step c nb w e nom alts defer k v nl :
  st_closed w = false -> Mode c nb w (e_disk e) nom defer -> RD c nb (e_disk e) alts defer -> In nom alts -> Forall dop_ok defer ->
  exists r e', set_stable w k v nl e = (r, e') /\
    ((r = ROk /\ exists nom', spec_accepts nom (OSet k v nl) = Some nom' /\
        Mode c nb w (e_disk e') nom' defer /\ RD c nb (e_disk e') (nom' :: app_op (OSet k v nl) alts) defer) \/
     (r <> ROk /\ e_disk e' = e_disk e) \/
     (* the write landed *)
     (r <> ROk /\ exists nom', spec_accepts nom (OSet k v nl) = Some nom' /\
        Mode c nb w (e_disk e') nom' defer /\ RD c nb (e_disk e') (nom' :: app_op (OSet k v nl) alts) defer)).
Proof.
  intros Hcl HM HRD Hin Hdef. unfold set_stable. rewrite Hcl.
  destruct (key_ok k) eqn:Hk; cbn [negb].
  - assert (Happ : forall e1, e_disk e1 = apply_act (e_disk (inc_stable e true)) (ASetStable k v) ->
              exists nom', spec_accepts nom (OSet k v nl) = Some nom' /\
                Mode c nb w (e_disk e1) nom' defer /\ RD c nb (e_disk e1) (nom' :: app_op (OSet k v nl) alts) defer).
    { intros e1 D. exists (set_kv k v nom).
      split; [unfold spec_accepts; cbn [step_spec]; rewrite Hk; reflexivity|]. rewrite D. change (e_disk (inc_stable e true)) with (e_disk e).
      split; [|apply RD_setstable; assumption].
      pose proof (Mode_setstable c nb w (e_disk e) nom defer k v HM) as K. rewrite Hcl in K. exact K. }
    destruct (io_cases3 (ASetStable k v) (inc_stable e true) eq_refl) as [(e1 & E & D & _)|[(e1 & E & D & _)|(e1 & E & _ & D & _)]]; rewrite E.
    + exists ROk, e1. split; [reflexivity|]. left. split; [reflexivity|]. apply Happ. exact D.
    + exists RErrIO, e1. split; [reflexivity|]. right. left. split; [discriminate|exact D].
    + exists RErrIO, e1. split; [reflexivity|]. right. right. split; [discriminate|]. apply Happ. exact D.
  - destruct nl.
    + exists ROk, (inc_stable e true). split; [reflexivity|]. left. split; [reflexivity|]. exists nom.
      assert (Hacc : forall a, spec_accepts a (OSet k v true) = Some a) by (intros a; unfold spec_accepts; cbn [step_spec]; rewrite Hk; reflexivity).
      split; [apply Hacc|]. split; [exact HM|]. rewrite (app_op_noop _ _ Hacc).
      eapply RD_mono; [| | |exact HRD]; [lia|intros x Hx; right; exact Hx|apply incl_refl].
    + exists RErrOther, (inc_stable e true). split; [reflexivity|]. right. left. split; [discriminate|reflexivity].
Qed.

Lemma RD_seal c nb w d alts defer : Seal c nb w d -> In (sp_of (sh d)) alts -> RD c nb d alts defer.
Proof.
  intros (tw & A & B & C & HL & HN) Hin. pose proof (LInv_NoDup_sh _ _ _ _ HL) as ND.
  apply (RD_rel c nb d (sh d) (stale_names d) alts defer).
  - apply HL.
  - apply no_pend_sh.
  - apply drel_sh; [exact ND|apply stale_names_ok].
  - intros n Hx. destruct (stale_names_in _ n ND Hx) as (f & p & Hl & Hp). apply (unlisted_meta d (sh d) n eq_refl). apply (HN n f p Hl Hp).
  - apply cand_alts. exact Hin.
Qed.
