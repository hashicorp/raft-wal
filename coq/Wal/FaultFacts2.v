(* FaultFacts2.v -- readers of a running process whose disk carries a stale
   unsynced batch (or whose metadata ran ahead of the in-memory state) see the
   nominal state; the normalised views of such a disk. *)
From RW Require Import Base.Bytes Base.BytesFacts Fmt.Codec Fmt.CodecFacts Fmt.Frame Wal.Model Wal.Spec Wal.Hist Wal.FaultHist
  Wal.CrashInv Wal.ModelFacts Wal.CrashFacts0 Wal.CrashFacts1 Wal.CrashFacts2 Wal.CrashFacts3 Wal.CrashFacts4 Wal.CrashFacts5
  Wal.CrashFacts6 Wal.CrashGlue Wal.CrashCalls1 Wal.CrashCalls2 Wal.CrashCalls3 Wal.CrashCalls4 Wal.CrashCalls6 Wal.CrashCalls7 Wal.CrashCalls8 Wal.CrashCalls9 Wal.FaultSim Wal.FaultSim2 Wal.FaultInv Gen.Constants.
From RW Require Import Base.LiaSetup.
Open Scope N_scope.

(* reading a file that may carry a stale batch *)
Lemma seg_read_sh_nopend n b i d f :
  lookup n (dk_files d) = Some f -> df_pend f = None -> seg_read n b i d = seg_read n b i (sh d).
Proof.
  intros Hl Hp. unfold seg_read. rewrite lookup_sh, Hl. cbn. unfold cur_ents. rewrite Hp. reflexivity.
Qed.
Lemma seg_read_sh_none n b i d :
  lookup n (dk_files d) = None -> seg_read n b i d = seg_read n b i (sh d).
Proof. intros Hl. unfold seg_read. rewrite lookup_sh, Hl. reflexivity. Qed.
Lemma seg_read_sh_short n b i d f :
  lookup n (dk_files d) = Some f -> (N.to_nat (i - b) < length (df_ents f))%nat -> seg_read n b i d = seg_read n b i (sh d).
Proof.
  intros Hl Hlt. unfold seg_read. rewrite lookup_sh, Hl. cbn. unfold cur_ents.
  destruct (df_pend f); [|reflexivity]. apply nth_error_app1. exact Hlt.
Qed.

Lemma seg_read_files n b i d d' : dk_files d = dk_files d' -> seg_read n b i d = seg_read n b i d'.
Proof. intros H. unfold seg_read. rewrite H. reflexivity. Qed.

Lemma file_ents_files n d d' : dk_files d = dk_files d' -> file_ents n d = file_ents n d'.
Proof. intros H. unfold file_ents. rewrite H. reflexivity. Qed.

Lemma file_ents_sh_nopend n d : (forall f, lookup n (dk_files d) = Some f -> df_pend f = None) ->
  file_ents n d = file_ents n (sh d).
Proof.
  intros H. unfold file_ents. rewrite lookup_sh. destruct (lookup n (dk_files d)) as [f|]; [|reflexivity].
  cbn. unfold cur_ents. rewrite (H f eq_refl). reflexivity.
Qed.

(* the view of the clean shadow state behind a running process *)
Record rview (c : cfg) (nb : N) (w : wal) (d : disk) (wc : wal) (dc : disk) (S : list seginfo) (t : seginfo)
  (f0 : dfile) (tw : wseg) : Prop := {
  rv_view : lview c nb wc dc S t f0 tw;
  rv_segs : st_segs w = st_segs wc;
  rv_tail : st_tail w = st_tail wc;
  rv_files : forall n, lookup n (dk_files dc) <> None -> lookup n (dk_files (sh d)) = lookup n (dk_files dc);
  rv_nodup : NoDup (map fst (dk_files d));
  rv_stale : forall n f s, lookup n (dk_files d) = Some f -> df_pend f <> None -> In s S -> name_of s <> n }.

Lemma RV_view c nb w d nom : RV c nb w d nom ->
  exists wc dc S t f0 tw, rview c nb w d wc dc S t f0 tw /\ sp_of dc = nom /\ dk_stable dc = dk_stable d.
Proof.
  intros (wc & dc & HL & Hsp & Hs & Ht & Hf & Hst & ND & Hso).
  destruct (LInv_view _ _ _ _ HL) as (S & t & f0 & tw & V).
  exists wc, dc, S, t, f0, tw. split; [|auto]. constructor; auto.
  intros n f s Hl Hp Hin Hn.
  assert (Hin' : In s (st_segs w)) by (rewrite Hs, (lv_segs _ _ _ _ _ _ _ _ V); apply in_or_app; left; exact Hin).
  pose proof (Hso n f s Hl Hp Hin' Hn) as K. rewrite Hs, (lv_segs _ _ _ _ _ _ _ _ V), tail_info_app in K. inversion K; subst s.
  apply (DIs_sealed_neq c nb dc _ S t t (lv_dis _ _ _ _ _ _ _ _ V) (lv_meta _ _ _ _ _ _ _ _ V) eq_refl Hin). reflexivity.
Qed.

Section Reads.
Variables (c : cfg) (nb : N) (w : wal) (d : disk) (wc : wal) (dc : disk) (S : list seginfo) (t : seginfo)
  (f0 : dfile) (tw : wseg).
Hypothesis RVw : rview c nb w d wc dc S t f0 tw.

Let V := rv_view _ _ _ _ _ _ _ _ _ _ RVw.

Lemma rv_lookup n g : lookup n (dk_files dc) = Some g -> exists f, lookup n (dk_files d) = Some f /\ g = sh_file f.
Proof.
  intros Hg. pose proof (rv_files _ _ _ _ _ _ _ _ _ _ RVw n ltac:(rewrite Hg; discriminate)) as K. rewrite Hg in K.
  rewrite lookup_sh in K. destruct (lookup n (dk_files d)) as [f|]; [|discriminate].
  cbn in K. inversion K. exists f. auto.
Qed.

Lemma rv_tail_file : exists f, lookup (name_of t) (dk_files d) = Some f /\ f0 = sh_file f.
Proof. apply rv_lookup. apply (lv_file _ _ _ _ _ _ _ _ V). Qed.

Lemma rv_sealed_file s : In s S -> exists f, lookup (name_of s) (dk_files d) = Some f /\ df_pend f = None /\
  lookup (name_of s) (dk_files dc) = Some (sh_file f).
Proof.
  intros Hin. pose proof (lv_sealed _ _ _ _ _ _ _ _ V) as Hso. rewrite Forall_forall in Hso.
  destruct (Hso s Hin) as (_ & _ & g & Hg & _). destruct (rv_lookup _ _ Hg) as (f & Hf & ->).
  exists f. split; [exact Hf|]. split; [|exact Hg].
  destruct (df_pend f) eqn:E; [|reflexivity]. exfalso.
  apply (rv_stale _ _ _ _ _ _ _ _ _ _ RVw (name_of s) f s Hf ltac:(congruence) Hin). reflexivity.
Qed.

Lemma rv_other_file s : In s S -> file_ents (name_of s) d = file_ents (name_of s) dc.
Proof.
  intros Hin. destruct (rv_sealed_file s Hin) as (f & Hf & Hp & Hg). unfold file_ents. rewrite Hf, Hg.
  unfold cur_ents. rewrite Hp. reflexivity.
Qed.

Lemma rv_seg_read_other s b i : In s S -> seg_read (name_of s) b i d = seg_read (name_of s) b i dc.
Proof.
  intros Hin. destruct (rv_sealed_file s Hin) as (f & Hf & Hp & Hg). unfold seg_read. rewrite Hf, Hg.
  unfold cur_ents. rewrite Hp. reflexivity.
Qed.

Lemma rv_tail_lookup i : tail_lookup tw i d = tail_lookup tw i dc.
Proof.
  destruct rv_tail_file as (f & Hf & E0).
  pose proof (lv_tw _ _ _ _ _ _ _ _ V) as (Tn & Tb & Tm & _ & _ & _ & _ & Tc).
  unfold tail_lookup. destruct ((i <? ws_base tw) || (i <? ws_min tw) || (ws_commit_idx tw <? i)) eqn:E; [reflexivity|].
  rewrite Tn. unfold seg_read. rewrite Hf, (lv_file _ _ _ _ _ _ _ _ V). rewrite E0. unfold cur_ents at 2. cbn [sh_file df_pend df_ents].
  rewrite Tc, Tb in E. subst f0. cbn [sh_file df_ents] in E.
  pose proof (lv_twf V) as (_ & _ & Hb1 & _).
  unfold cur_ents. destruct (df_pend f); [|reflexivity]. apply nth_error_app1.
  unfold tl_of, llen in E. rewrite Tb. destruct (N.of_nat (length (df_ents f)) =? 0) eqn:Z; lia.
Qed.

Lemma rv_tail_name_neq s : In s S -> name_of s <> name_of t.
Proof.
  intros Hin. eapply (DIs_sealed_neq c nb dc _ S t s); [apply (lv_dis _ _ _ _ _ _ _ _ V)|apply (lv_meta _ _ _ _ _ _ _ _ V)|reflexivity|exact Hin].
Qed.

(* the abstraction function does not see the stale batch *)
Lemma rv_seg_visible_tail : seg_visible (tail_last (Some tw)) d t = seg_visible (tail_last (Some tw)) dc t.
Proof.
  destruct rv_tail_file as (f & Hf & E0).
  pose proof (lv_tw _ _ _ _ _ _ _ _ V) as (Tn & Tb & Tm & _ & _ & _ & _ & Tc).
  pose proof (lv_twf V) as (_ & _ & Hb1 & _ & Hbm & _).
  pose proof (lv_tok _ _ _ _ _ _ _ _ V) as (Hu & _).
  unfold seg_visible. rewrite Hu. cbn [tail_last]. rewrite Tc.
  destruct ((tl_of (si_base t) (df_ents f0) =? 0) || (tl_of (si_base t) (df_ents f0) <? si_min t)) eqn:E; [reflexivity|].
  unfold file_ents. rewrite Hf, (lv_file _ _ _ _ _ _ _ _ V). unfold cur_ents at 2. rewrite (lv_pend _ _ _ _ _ _ _ _ V).
  subst f0. cbn [sh_file df_ents] in *. unfold cur_ents. destruct (df_pend f) as [p|]; [|reflexivity].
  unfold tl_of, llen in *. destruct (N.of_nat (length (df_ents f)) =? 0) eqn:Z; [lia|].
  rewrite skipn_app_le by lia.
  replace (N.to_nat (si_base t + N.of_nat (length (df_ents f)) - 1 - si_min t + 1))
    with (length (skipn (N.to_nat (si_min t - si_base t)) (df_ents f)) + 0)%nat by (rewrite skipn_length; lia).
  rewrite firstn_app_2. cbn [firstn]. rewrite app_nil_r, Nat.add_0_r. rewrite firstn_all. reflexivity.
Qed.

Lemma rv_abs : abs w d = dread dc.
Proof.
  rewrite <- (LInv_abs c nb wc dc (LInv_of_view V)). rewrite !abs_is_gen.
  rewrite (rv_segs _ _ _ _ _ _ _ _ _ _ RVw), (rv_tail _ _ _ _ _ _ _ _ _ _ RVw), (lv_segs _ _ _ _ _ _ _ _ V), (lv_tail _ _ _ _ _ _ _ _ V).
  unfold abs_gen. rewrite !flat_map_app. cbn [flat_map]. rewrite !app_nil_r.
  rewrite rv_seg_visible_tail.
  rewrite (flat_visible_ext (tail_last (Some tw)) dc d S); [reflexivity|].
  intros s Hs. apply rv_other_file. exact Hs.
Qed.

Lemma rv_get_log i e ec : e_disk e = d -> e_disk ec = dc -> st_closed w = st_closed wc ->
  fst (get_log w i e) = fst (get_log wc i ec).
Proof.
  intros Ed Edc Hcl. unfold get_log. rewrite Hcl. destruct (st_closed wc); [reflexivity|].
  rewrite (rv_segs _ _ _ _ _ _ _ _ _ _ RVw), (rv_tail _ _ _ _ _ _ _ _ _ _ RVw), (lv_segs _ _ _ _ _ _ _ _ V), (lv_tail _ _ _ _ _ _ _ _ V).
  rewrite tail_info_app, Ed, Edc, rv_tail_lookup.
  destruct (if si_min t <=? i then tail_lookup tw i dc else None) as [l|]; [reflexivity|].
  destruct (find_segment (S ++ [t]) i) as [s|] eqn:Efs; [|reflexivity].
  destruct (fname_eqb (ws_name tw) (name_of s)) eqn:En.
  - destruct (tail_lookup tw i dc); reflexivity.
  - assert (HinS : In s S).
    { destruct (find_segment_sound _ _ _ Efs) as (Hin & _). apply in_app_or in Hin. destruct Hin as [K|[<-|[]]]; [exact K|].
      pose proof (lv_tw _ _ _ _ _ _ _ _ V) as (Tn & _). rewrite Tn, fname_eqb_refl in En. discriminate. }
    rewrite (rv_seg_read_other _ _ _ HinS). destruct (seg_read (name_of s) (si_base s) i dc); reflexivity.
Qed.

End Reads.

Definition env_on (d : disk) : env := {| e_acts := []; e_disk := d; e_fault := None; e_fx := fx_none; e_m := zero_metrics |}.

Definition is_read (o : sop) : Prop :=
  match o with OGet _ | OFirst | OLast | OGetS _ => True | _ => False end.

Lemma read_step c nb w e nom o :
  cfg_ok c -> sop_ok o -> nb + 2 < two64 -> is_read o -> RV c nb w (e_disk e) nom -> st_closed w = false -> sp_good nom ->
  exists r e', step_model c {| ss_wal := w; ss_env := e |} o = (r, {| ss_wal := w; ss_env := e' |}) /\
    e_disk e' = e_disk e /\ e_fault e' = e_fault e /\
    result_eqb (res_class r) (fst (step_spec nom o)) = true.
Proof.
  intros Hc Hop Hnb Hrd HRV Hcl Hg.
  destruct (RV_view _ _ _ _ _ HRV) as (wc & dc & S & t & f0 & tw & RVw & Hsp & Hst).
  pose proof (rv_view _ _ _ _ _ _ _ _ _ _ RVw) as V. pose proof (LInv_of_view V) as HL.
  pose proof (LInv_closed _ _ _ _ HL) as Hclc.
  set (sc := {| ss_wal := wc; ss_env := env_on dc |}).
  destruct o as [ls|mn mx|i| | |k v n|k|]; try destruct Hrd.
  - (* GetLog *)
    destruct (call_get c i nb sc nom Hc Hop Hnb HL eq_refl Hsp Hg) as (rc & sc' & Hstep & Hres & _).
    cbn [step_model sc ss_wal ss_env] in Hstep. cbn [step_model ss_wal ss_env].
    pose proof (rv_get_log c nb w (e_disk e) wc dc S t f0 tw RVw i e (env_on dc) eq_refl eq_refl ltac:(congruence)) as Hfst.
    destruct (get_log w i e) as [r e'] eqn:Eg. destruct (get_log wc i (env_on dc)) as [r2 e2] eqn:Eg2.
    cbn [fst] in Hfst. injection Hstep as <- _. subst r2. exists r, e'. split; [reflexivity|].
    assert (He' : e_disk e' = e_disk e /\ e_fault e' = e_fault e).
    { unfold get_log in Eg. rewrite Hcl in Eg.
      repeat match type of Eg with context [match ?x with _ => _ end] => destruct x end; inversion Eg; subst; split; reflexivity. }
    destruct He'. auto.
  - (* FirstIndex *)
    destruct (call_first c nb sc nom Hc Hop Hnb HL eq_refl Hsp Hg) as (rc & sc' & Hstep & Hres & _).
    cbn [step_model sc ss_wal ss_env] in Hstep. cbn [step_model ss_wal ss_env]. inversion Hstep; subst.
    exists (first_index_op w), e. split; [reflexivity|]. split; [reflexivity|]. split; [reflexivity|].
    unfold first_index_op in *. rewrite Hcl. rewrite Hclc in Hres.
    rewrite (rv_segs _ _ _ _ _ _ _ _ _ _ RVw), (rv_tail _ _ _ _ _ _ _ _ _ _ RVw). exact Hres.
  - (* LastIndex *)
    destruct (call_last c nb sc nom Hc Hop Hnb HL eq_refl Hsp Hg) as (rc & sc' & Hstep & Hres & _).
    cbn [step_model sc ss_wal ss_env] in Hstep. cbn [step_model ss_wal ss_env]. inversion Hstep; subst.
    exists (last_index_op w), e. split; [reflexivity|]. split; [reflexivity|]. split; [reflexivity|].
    unfold last_index_op in *. rewrite Hcl. rewrite Hclc in Hres.
    rewrite (rv_segs _ _ _ _ _ _ _ _ _ _ RVw), (rv_tail _ _ _ _ _ _ _ _ _ _ RVw). exact Hres.
  - (* stable Get *)
    cbn [step_model ss_wal ss_env step_spec fst]. unfold get_stable. rewrite Hcl.
    eexists _, _. split; [reflexivity|]. split; [reflexivity|]. split; [reflexivity|].
    cbn [res_class result_eqb]. rewrite <- Hsp. cbn [sp_of sp_kv]. rewrite Hst. apply beq_bytes_refl.
Qed.

(* every call on a closed handle fails and changes nothing *)
Lemma closed_step c w e o : st_closed w = true -> st_rotate w = None ->
  match o with OReopen => False | _ => True end ->
  exists r e', step_model c {| ss_wal := w; ss_env := e |} o = (r, {| ss_wal := w; ss_env := e' |}) /\
    e_disk e' = e_disk e /\ e_fault e' = e_fault e /\ result_eqb (res_class r) ROk = false.
Proof.
  intros Hcl Hrot Ho. destruct o as [ls|mn mx|i| | |k v n|k|]; try destruct Ho; cbn [step_model].
  - unfold settle. cbn [ss_wal ss_env]. rewrite Hrot. cbn [ss_wal ss_env]. unfold store_logs. rewrite Hcl.
    eexists _, _. split; [reflexivity|]. auto.
  - unfold settle. cbn [ss_wal ss_env]. rewrite Hrot. cbn [ss_wal ss_env]. unfold delete_range. rewrite Hcl.
    eexists _, _. split; [reflexivity|]. auto.
  - cbn [ss_wal ss_env]. unfold get_log. rewrite Hcl. eexists _, _. split; [reflexivity|]. auto.
  - unfold first_index_op. cbn [ss_wal]. rewrite Hcl. eexists _, _. split; [reflexivity|]. auto.
  - unfold last_index_op. cbn [ss_wal]. rewrite Hcl. eexists _, _. split; [reflexivity|]. auto.
  - cbn [ss_wal ss_env]. unfold set_stable. rewrite Hcl. eexists _, _. split; [reflexivity|]. auto.
  - cbn [ss_wal ss_env]. unfold get_stable. rewrite Hcl. eexists _, _. split; [reflexivity|]. auto.
Qed.

(* modes give read views *)
Lemma observed_RV c nb w e nom : RV c nb w (e_disk e) nom -> observed {| ss_wal := w; ss_env := e |} = nom.
Proof.
  intros HRV. destruct (RV_view _ _ _ _ _ HRV) as (wc & dc & S & t & f0 & tw & RVw & Hsp & Hst).
  unfold observed. cbn [ss_wal ss_env]. rewrite (rv_abs _ _ _ _ _ _ _ _ _ _ RVw), <- Hst. exact Hsp.
Qed.

Lemma stale_ok_nopend d : no_pend d -> stale_ok [] d.
Proof. intros H n f Hl Hp. exfalso. apply Hp. apply (H n f Hl). Qed.

Lemma sh_keys d : map fst (dk_files (sh d)) = map fst (dk_files d).
Proof. apply map_files_keys. Qed.

Lemma LInv_NoDup_sh c nb w d : LInv c nb w (sh d) -> NoDup (map fst (dk_files d)).
Proof. intros (_ & _ & HD & _). rewrite <- sh_keys. apply (DIs_NoDup _ _ _ HD). Qed.

(* readers after a failure: the in-memory state agrees with a clean disk *)
Lemma RV_of_clean_disk c nb w wc dc d nom :
  LInv c nb wc dc -> sp_of dc = nom -> st_segs w = st_segs wc -> st_tail w = st_tail wc ->
  (forall n, lookup n (dk_files dc) <> None -> lookup n (dk_files (sh d)) = lookup n (dk_files dc)) ->
  dk_stable dc = dk_stable d -> NoDup (map fst (dk_files d)) ->
  (forall n f p, lookup n (dk_files d) = Some f -> df_pend f = Some p ->
     (exists t, tail_info (st_segs wc) = Some t /\ n = name_of t) \/ (forall s, In s (st_segs wc) -> name_of s <> n)) ->
  RV c nb w d nom.
Proof.
  intros HL Hsp Hs Ht Hlk Hstb ND Hst.
  exists wc, dc. split; [exact HL|]. split; [exact Hsp|]. split; [exact Hs|]. split; [exact Ht|].
  split; [exact Hlk|]. split; [exact Hstb|]. split; [exact ND|].
  intros n f s Hl Hp Hin Hn. destruct (df_pend f) as [p|] eqn:Ep; [|congruence].
  destruct (LInv_view _ _ _ _ HL) as (S & t & f0 & tw & V). rewrite Hs, (lv_segs _ _ _ _ _ _ _ _ V) in Hin |- *.
  rewrite tail_info_app. apply in_app_or in Hin. destruct Hin as [Hin|[<-|[]]]; [exfalso|reflexivity].
  destruct (Hst n f p Hl Ep) as [(t' & Ht' & ->)|Hu].
  - rewrite (lv_segs _ _ _ _ _ _ _ _ V), tail_info_app in Ht'. inversion Ht'; subst t'.
    apply (DIs_sealed_neq c nb dc _ S t s (lv_dis _ _ _ _ _ _ _ _ V) (lv_meta _ _ _ _ _ _ _ _ V) eq_refl Hin). exact Hn.
  - apply (Hu s); [rewrite (lv_segs _ _ _ _ _ _ _ _ V); apply in_or_app; left; exact Hin|exact Hn].
Qed.

Lemma RV_intro c nb w wc d nom :
  LInv c nb wc (sh d) -> sp_of (sh d) = nom -> st_segs w = st_segs wc -> st_tail w = st_tail wc ->
  (forall n f p, lookup n (dk_files d) = Some f -> df_pend f = Some p ->
     (exists t, tail_info (st_segs wc) = Some t /\ n = name_of t) \/ unlisted d n) ->
  RV c nb w d nom.
Proof.
  intros HL Hsp Hs Ht Hst.
  apply (RV_of_clean_disk c nb w wc (sh d) d nom HL Hsp Hs Ht (fun n _ => eq_refl) eq_refl (LInv_NoDup_sh _ _ _ _ HL)).
  intros n f p Hl Hp. destruct (Hst n f p Hl Hp) as [K|Hu]; [left; exact K|right].
  intros s Hs'. apply (Hu (persistent wc) s); [apply HL|exact Hs'].
Qed.

Lemma RV_of_live c nb w d defer : Live c nb w d defer -> RV c nb w d (sp_of (sh d)).
Proof.
  intros (HL & Hst). apply (RV_intro c nb w w d _ HL eq_refl eq_refl eq_refl).
  intros n f p Hl Hp. destruct (Hst n f p Hl Hp) as [(t & A & B & _)|K]; [left; exists t; auto|right; exact K].
Qed.

Lemma RV_of_seal c nb w d : Seal c nb w d -> RV c nb w d (sp_of (sh d)).
Proof.
  intros (tw & Ht & His & Hr & HL & Hn). apply (RV_intro c nb w _ d _ HL eq_refl eq_refl eq_refl).
  intros n f p Hl Hp. right. apply (Hn n f p Hl Hp).
Qed.

Lemma Mode_RV c nb w d nom defer : Mode c nb w d nom defer -> st_closed w = false -> RV c nb w d nom.
Proof.
  intros [(A & _)|(_ & [(A & <-)|(_ & _ & A)])] Hcl; [congruence| |exact A].
  eapply RV_of_live; eauto.
Qed.

Lemma drel_sym d dc : drel [] d dc -> drel [] dc d.
Proof.
  intros H. pose proof (drel_strict_in d dc H) as HF. pose proof (drel_NoDup _ _ _ H) as ND.
  destruct H as (H1 & H2 & H3 & H4 & H5 & H6).
  split.
  { clear - HF. induction HF as [|a b l lc (E & (A & B & C & _) & P) _ IH]; constructor; [|exact IH].
    split; [auto|]. unfold frel. repeat split; auto. }
  repeat split; auto. intros n f g A B _. symmetry. apply (H6 n g f B A). intros [].
Qed.

Lemma drel_nopend d dc : drel [] d dc -> no_pend dc -> no_pend d.
Proof.
  intros (H1 & _ & _ & _ & _ & H6) Hn n f Hl. destruct (lrel_lookup_some n _ _ f H1 Hl) as (g & Hg & _).
  rewrite (H6 n f g Hl Hg ltac:(intros [])). apply (Hn n g Hg).
Qed.

Lemma adopt_keys d : map fst (dk_files (adopt_disk d)) = map fst (dk_files d).
Proof. rewrite adopt_is_map. apply map_files_keys. Qed.
Lemma ad_keys d : map fst (dk_files (ad d)) = map fst (dk_files d).
Proof. unfold ad, dirfix. rewrite map_files_keys. apply adopt_keys. Qed.

Lemma live_clean c nb w d defer : LInv c nb w (sh d) -> no_pend d -> Live c nb w d defer.
Proof. intros H Hn. split; [exact H|]. intros n f p Hl Hp. rewrite (Hn n f Hl) in Hp. discriminate. Qed.

Lemma RD_of_clean c nb w d alts defer : LInv c nb w (sh d) -> no_pend d -> In (sp_of (sh d)) alts -> RD c nb d alts defer.
Proof.
  intros HL Hn Hin. pose proof (LInv_NoDup_sh _ _ _ _ HL) as ND. unfold RD. rewrite (ad_nopend d ND Hn).
  split; [apply HL|apply cand_alts; exact Hin].
Qed.

(* files whose deletion failed can be put back under a live state *)
Lemma LInv_undelete c nb w d ns : LInv c nb w (del_disk ns d) -> DIs c nb d -> no_pend d -> LInv c nb w d.
Proof.
  intros (H1 & H2 & H3 & H4 & H5 & t & f & tw & A & B & C & D & E) HD HN.
  pose proof (DIs_NoDup _ _ _ HD) as ND. destruct (del_disk_meta ns d) as (M1 & _).
  split; [exact H1|]. split; [exact H2|]. split; [exact HD|]. split; [exact HN|]. split; [rewrite <- M1; exact H5|].
  exists t, f, tw. split; [exact A|]. split; [|auto].
  rewrite (del_disk_lookup ns d (name_of t) ND) in B. destruct (mem_name (name_of t) ns); [discriminate|exact B].
Qed.

Lemma rems_nil ns : rems ns [] = [].
Proof. induction ns as [|n ns IH]; [reflexivity|exact IH]. Qed.

Lemma open_segs_err c : forall segs acc e r sl tl e', open_segs c segs acc e = (r, sl, tl, e') -> r = ROk \/ res_class r = RErrOther.
Proof.
  induction segs as [|si segs IH]; intros acc e r sl tl e'; cbn [open_segs].
  - intros E; inversion E; auto.
  - destruct (negb (si_codec si =? c_codec c)); [intros E; inversion E; auto|].
    destruct (negb (si_sealed si)).
    + destruct segs; [|intros E; inversion E; auto].
      destruct (match seg_recover si e with None => seg_create si e | Some x => (x, e) end) as [sw e1].
      destruct sw as [sw|]; [|intros E; inversion E; auto].
      destruct (0 <? _); intros E; inversion E; auto.
    + destruct (lookup _ _) as [f|]; [|intros E; inversion E; auto].
      destruct (cur_end f =? 0); [intros E; inversion E; auto|]. apply IH.
Qed.

Lemma open_err_not_ok c e x e' : open_wal c e = (OErr x, e') -> x <> ROk.
Proof.
  unfold open_wal. destruct (_ && _); [intros E; inversion E; discriminate|].
  destruct (if dk_inited (e_disk e) then (true, e) else io AInitMeta e) as [ok0 e0].
  destruct (negb ok0); [intros E; inversion E; discriminate|].
  destruct (armed e0 && fx_list (e_fx e0)); [intros E; inversion E; discriminate|].
  destruct (open_segs c _ [] e0) as [[[r segs] tail] e1] eqn:Eo.
  destruct (open_segs_err c _ _ _ _ _ _ _ Eo) as [-> | Hr].
  - destruct tail as [tw|]; [intros E; inversion E|].
    destruct (io _ e1) as [ok1 e2]. destruct (negb ok1); [intros E; inversion E; discriminate|].
    destruct (seg_create _ e2) as [sw e3]. destruct sw; intros E; inversion E; discriminate.
  - destruct r; cbn in Hr; try discriminate; intros E; inversion E; discriminate.
Qed.

Lemma reopen_ok c nb d alts defer acts f fx m :
  cfg_ok c -> nb + 1 < two64 -> RD c nb d alts defer ->
  let e := {| e_acts := acts; e_disk := adopt_disk d; e_fault := f; e_fx := fx; e_m := m |} in
  exists res e', open_wal c e = (res, e') /\
    ((exists w', res = OOk w' /\ LInv c (nb + 1) w' (sh (e_disk e')) /\ no_pend (e_disk e') /\
                 sp_of (sh (e_disk e')) = sp_of (ad d) /\ (f = None -> e_fault e' = None)) \/
     (f <> None /\ (exists x, res = OErr x /\ x <> ROk) /\ RD c (nb + 1) (e_disk e') alts defer)).
Proof.
  intros Hc Hnb (HD & Hcand) e.
  (* the restart reads [adopt_disk d]: the page cache outlives the process.  The shadow opens [ad d],
     equal but for directory flags and clean, so the crash proof's open_wal_ok applies to it *)
  set (ec := {| e_acts := acts; e_disk := ad d; e_fault := None; e_fx := fx; e_m := m |}).
  assert (ND : NoDup (map fst (dk_files (adopt_disk d)))) by (rewrite adopt_keys, <- ad_keys; apply (DIs_NoDup _ _ _ HD)).
  assert (Hrel : drel [] (adopt_disk d) (ad d)) by (apply drel_dirfix; exact ND).
  destruct (open_wal_ok c nb ec Hc eq_refl HD (no_pend_ad d) Hnb) as (wc & ec' & Hoc & Hext & HLc & _).
  destruct (open_wal c e) as [res e'] eqn:Ho. exists res, e'. split; [reflexivity|].
  assert (Hsame : forall (dr dcl : disk), drel [] dr dcl -> LInv c (nb + 1) wc dcl -> sp_of dcl = sp_of (ad d) ->
            LInv c (nb + 1) wc (sh dr) /\ no_pend dr /\ sp_of (sh dr) = sp_of (ad d)).
  { intros dr dcl Hdr HLcl Hspcl. pose proof HLcl as (_ & _ & HDc & HNc & _).
    rewrite (drel_sh_eq _ _ _ Hdr). split; [apply LInv_sh; exact HLcl|]. split; [eapply drel_nopend; eauto|].
    rewrite <- (dirfix_nopend _ (DIs_NoDup _ _ _ HDc) HNc), sp_of_dirfix. exact Hspcl. }
  pose proof (ext_final _ _ _ Hext) as (_ & _ & Hsfin).
  destruct f as [k|].
  - destruct (open_wal_lock c e ec res e' (OOk wc) ec' (conj Hrel eq_refl) Ho Hoc) as [(-> & ns & HRd)|((x & ->) & dm & F3 & F4)].
    + left. exists wc. split; [reflexivity|].
      destruct HRd as [HR'|(ecp & HR' & Eec & Ha & _)].
      * rewrite rems_nil in HR'. destruct (Hsame _ _ (proj1 HR') HLc Hsfin) as (X1 & X2 & X3).
        split; [exact X1|]. split; [exact X2|]. split; [exact X3|]. discriminate.
      * assert (Hp : pfx ec ec' (e_disk ecp)).
        { eapply pfx_more; [apply pfx_end; exact Ha|]. rewrite Eec. apply sh_delete_files. apply HR'. }
        destruct (ext_pfx _ _ _ _ Hext Hp) as (HDp & HNp & Hsp).
        assert (HLp : LInv c (nb + 1) wc (e_disk ecp)).
        { apply (LInv_undelete c (nb + 1) wc (e_disk ecp) ns); [|exact HDp|exact HNp].
          rewrite <- (delete_files_disk ns ecp (proj2 HR')), <- Eec. exact HLc. }
        destruct (Hsame _ _ (proj1 HR') HLp Hsp) as (X1 & X2 & X3).
        split; [exact X1|]. split; [exact X2|]. split; [exact X3|]. discriminate.
    + (* Open failed on a disk the fault-free Open passes through; open_wal_ok says of each of them (for
         a crash there) that it is clean and reads as [ad d], so the candidates stand for the next try *)
      right. split; [discriminate|]. split; [exists x; split; [reflexivity|eapply open_err_not_ok; exact Ho]|].
      destruct (ext_pfx _ _ _ _ Hext F4) as (HDm & HNm & Hsm).
      assert (Hn' : no_pend (e_disk e')) by (eapply drel_nopend; eauto).
      pose proof (drel_NoDup _ _ _ F3) as ND'.
      unfold RD. rewrite (ad_nopend _ ND' Hn'), (drel_sh_eq _ _ _ F3).
      rewrite <- (dirfix_nopend _ (DIs_NoDup _ _ _ HDm) HNm). split; [apply DIs_dirfix; exact HDm|].
      rewrite sp_of_dirfix, Hsm. exact Hcand.
  - (* no fault armed: run the simulation the other way round *)
    pose proof (sh_open_wal c ec (OOk wc) ec' eq_refl Hoc) as (_ & Hfc).
    assert (Hfe : e_fault e' = None) by (apply (sh_open_wal c e res e' eq_refl Ho)).
    destruct (open_wal_lock c ec e (OOk wc) ec' res e' (conj (drel_sym _ _ Hrel) eq_refl) Hoc Ho) as [(<- & ns & HRd)|((x & F2) & _)]; [|discriminate].
    left. exists wc. split; [reflexivity|].
    destruct HRd as [HR'|(ecp & _ & _ & _ & K)]; [|congruence].
    rewrite rems_nil in HR'.
    destruct (Hsame _ _ (drel_sym _ _ (proj1 HR')) HLc Hsfin) as (X1 & X2 & X3).
    split; [exact X1|]. split; [exact X2|]. split; [exact X3|]. intros _. exact Hfe.
Qed.
