(* FaultInv.v -- the invariant of histories with injected I/O errors (C10).
   Definitions, and the basic facts on the normalised views of a disk:
     sh d   every unsynced batch dropped, every file's directory entry durable
            (what the running process relies on)
     ad d   every unsynced batch adopted (what the next recovery will see). *)
From RW Require Import Base.Bytes Base.BytesFacts Fmt.Codec Fmt.Frame Wal.Model Wal.Spec Wal.Hist Wal.FaultHist
  Wal.CrashInv Wal.ModelFacts Wal.CrashFacts0 Wal.CrashFacts1 Wal.CrashFacts2 Wal.CrashFacts3 Wal.CrashFacts4 Wal.CrashFacts5
  Wal.CrashFacts6 Wal.CrashGlue Wal.FaultSim Wal.FaultSim2 Gen.Constants.
From RW Require Import Base.LiaSetup.
Open Scope N_scope.

(* normalised disks *)
Definition map_files (g : dfile -> dfile) (d : disk) : disk :=
  {| dk_files := map (fun nf => (fst nf, g (snd nf))) (dk_files d);
     dk_meta := dk_meta d; dk_stable := dk_stable d; dk_inited := dk_inited d |}.

Definition dirfix_file (f : dfile) : dfile :=
  {| df_ents := df_ents f; df_end := df_end f; df_seal := df_seal f; df_pend := df_pend f;
     df_dir := true; df_size := 0 |}.
Definition sh_file (f : dfile) : dfile :=
  {| df_ents := df_ents f; df_end := df_end f; df_seal := df_seal f; df_pend := None;
     df_dir := true; df_size := 0 |}.

Definition dirfix (d : disk) : disk := map_files dirfix_file d.
Definition sh (d : disk) : disk := map_files sh_file d.
Definition ad (d : disk) : disk := dirfix (adopt_disk d).

Lemma map_files_keys g d : map fst (dk_files (map_files g d)) = map fst (dk_files d).
Proof. unfold map_files; cbn [dk_files]. rewrite map_map. reflexivity. Qed.

Lemma lookup_map_files g n d :
  lookup n (dk_files (map_files g d)) = option_map g (lookup n (dk_files d)).
Proof.
  unfold map_files; cbn [dk_files]. induction (dk_files d) as [|[m f] r IH]; cbn [map lookup fst snd option_map]; [reflexivity|].
  destruct (fname_eqb n m); [reflexivity|exact IH].
Qed.

Lemma lookup_sh n d : lookup n (dk_files (sh d)) = option_map sh_file (lookup n (dk_files d)).
Proof. apply lookup_map_files. Qed.

Lemma adopt_is_map d : adopt_disk d = map_files adopt_file d.
Proof. reflexivity. Qed.

Lemma map_files_comp g h d : map_files g (map_files h d) = map_files (fun f => g (h f)) d.
Proof. unfold map_files; cbn [dk_files dk_meta dk_stable dk_inited]. rewrite map_map. reflexivity. Qed.

Lemma map_files_ext g h d : (forall n f, In (n, f) (dk_files d) -> g f = h f) -> map_files g d = map_files h d.
Proof.
  intros H. unfold map_files. f_equal. apply map_ext_in. intros [n f] Hin. cbn [fst snd]. rewrite (H n f Hin). reflexivity.
Qed.

Lemma sh_idem d : sh (sh d) = sh d.
Proof. unfold sh. rewrite map_files_comp. reflexivity. Qed.
Lemma sh_dirfix d : sh (dirfix d) = sh d.
Proof. unfold sh, dirfix. rewrite map_files_comp. reflexivity. Qed.
Lemma dirfix_sh d : dirfix (sh d) = sh d.
Proof. unfold sh, dirfix. rewrite map_files_comp. reflexivity. Qed.
Lemma no_pend_in d n f : NoDup (map fst (dk_files d)) -> no_pend d -> In (n, f) (dk_files d) -> df_pend f = None.
Proof. intros ND H Hin. apply (H n f). apply In_lookup; assumption. Qed.

Lemma ad_nopend d : NoDup (map fst (dk_files d)) -> no_pend d -> ad d = sh d.
Proof.
  intros ND H. unfold ad, sh, dirfix. rewrite adopt_is_map, map_files_comp. apply map_files_ext.
  intros n f Hin. pose proof (no_pend_in d n f ND H Hin) as Hp.
  unfold adopt_file. rewrite Hp. unfold dirfix_file, sh_file. rewrite Hp. reflexivity.
Qed.

Lemma dirfix_nopend d : NoDup (map fst (dk_files d)) -> no_pend d -> dirfix d = sh d.
Proof.
  intros ND H. unfold sh, dirfix. apply map_files_ext.
  intros n f Hin. pose proof (no_pend_in d n f ND H Hin) as Hp. unfold dirfix_file, sh_file. rewrite Hp. reflexivity.
Qed.

Lemma no_pend_sh d : no_pend (sh d).
Proof.
  intros n f. rewrite lookup_sh. destruct (lookup n (dk_files d)); cbn; [|discriminate].
  intros E; inversion E; reflexivity.
Qed.

Lemma no_pend_ad d : no_pend (ad d).
Proof.
  intros n f. unfold ad, dirfix. rewrite adopt_is_map, map_files_comp, lookup_map_files.
  destruct (lookup n (dk_files d)) as [g|]; cbn; [|discriminate].
  intros E; inversion E. unfold adopt_file. destruct (df_pend g) eqn:Ep; cbn; [reflexivity|exact Ep].
Qed.

(* the relation of FaultSim between a disk and its normal forms *)
Lemma lrel_map_files (g : dfile -> dfile) l : (forall f, frel f (g f)) ->
  lrel l (map (fun nf => (fst nf, g (snd nf))) l).
Proof. intros H. induction l as [|[n f] l IH]; constructor; [split; [reflexivity|apply H]|exact IH]. Qed.

Lemma frel_sh f : frel f (sh_file f).
Proof. unfold frel, sh_file; cbn. auto 10. Qed.
Lemma frel_dirfix f : frel f (dirfix_file f).
Proof. unfold frel, dirfix_file; cbn. auto 10. Qed.

(* pending batches only in the files named in [X] *)
Definition stale_ok (X : list fname) (d : disk) : Prop :=
  forall n f, lookup n (dk_files d) = Some f -> df_pend f <> None -> In n X.

Definition stale_names (d : disk) : list fname :=
  map fst (filter (fun nf => match df_pend (snd nf) with Some _ => true | None => false end) (dk_files d)).

Lemma stale_names_ok d : stale_ok (stale_names d) d.
Proof.
  intros n f Hl Hp. unfold stale_names. apply in_map_iff. exists (n, f). split; [reflexivity|].
  apply filter_In. split; [apply lookup_In; exact Hl|]. cbn. destruct (df_pend f); congruence.
Qed.

Lemma stale_names_in d n : NoDup (map fst (dk_files d)) -> In n (stale_names d) ->
  exists f p, lookup n (dk_files d) = Some f /\ df_pend f = Some p.
Proof.
  intros ND H. unfold stale_names in H. apply in_map_iff in H. destruct H as ([m f] & <- & H).
  apply filter_In in H. destruct H as (Hin & Hp). cbn in *. destruct (df_pend f) as [p|] eqn:E; [|discriminate].
  exists f, p. split; [apply In_lookup; assumption|exact E].
Qed.

Lemma drel_sh X d : NoDup (map fst (dk_files d)) -> stale_ok X d -> drel X d (sh d).
Proof.
  intros ND Hs. split; [apply lrel_map_files; apply frel_sh|].
  split; [reflexivity|]. split; [reflexivity|]. split; [reflexivity|].
  split; [unfold sh; rewrite map_files_keys; exact ND|].
  intros n f g A B Hne. rewrite lookup_sh, A in B. cbn in B. inversion B; subst. cbn.
  destruct (df_pend f) eqn:E; [|reflexivity]. exfalso. apply Hne. apply (Hs n f A). congruence.
Qed.

Lemma drel_dirfix d : NoDup (map fst (dk_files d)) -> drel [] d (dirfix d).
Proof.
  intros ND. split; [apply lrel_map_files; apply frel_dirfix|].
  split; [reflexivity|]. split; [reflexivity|]. split; [reflexivity|].
  split; [unfold dirfix; rewrite map_files_keys; exact ND|].
  intros n f g A B _. unfold dirfix in B. rewrite lookup_map_files, A in B. cbn in B. inversion B; subst. reflexivity.
Qed.

(* related disks have the same normal forms *)
Lemma sh_file_rel f g : frel f g -> sh_file f = sh_file g.
Proof. intros (A & B & C & _). unfold sh_file. rewrite A, B, C. reflexivity. Qed.

Lemma drel_sh_eq X d dc : drel X d dc -> sh d = sh dc.
Proof.
  intros (H1 & H2 & H3 & H4 & _). unfold sh, map_files. rewrite H2, H3, H4. f_equal.
  induction H1 as [|[n f] [m g] l lc (E & Hf) _ IH]; [reflexivity|]. cbn [map fst snd] in *. subst m.
  rewrite (sh_file_rel f g Hf), IH. reflexivity.
Qed.

Lemma drel_strict_in d dc : drel [] d dc ->
  Forall2 (fun a b => fst a = fst b /\ frel (snd a) (snd b) /\ df_pend (snd a) = df_pend (snd b)) (dk_files d) (dk_files dc).
Proof.
  intros (H1 & _ & _ & _ & ND & H6).
  assert (ND' : NoDup (map fst (dk_files d))) by (rewrite (lrel_keys _ _ H1); exact ND).
  revert ND ND' H6. induction H1 as [|[n f] [m g] l lc (E & Hf) Hr IH]; intros ND ND' H6; [constructor|].
  cbn [fst snd map] in *. subst m. inversion ND as [|? ? Hn NDr]; inversion ND' as [|? ? Hn' NDr']; subst.
  constructor.
  - split; [reflexivity|]. split; [exact Hf|]. apply (H6 n f g); cbn [lookup]; try rewrite fname_eqb_refl; auto.
  - apply IH; auto. intros k f' g' A B K. apply (H6 k f' g'); auto; cbn [lookup].
    + destruct (fname_eqb k n) eqn:E; [|exact A]. apply fname_eqb_eq in E. subst k. exfalso. apply Hn'.
      apply lookup_some_in in A. exact A.
    + destruct (fname_eqb k n) eqn:E; [|exact B]. apply fname_eqb_eq in E. subst k. exfalso. apply Hn.
      apply lookup_some_in in B. exact B.
Qed.

Lemma drel_dirfix_eq d dc : drel [] d dc -> dirfix d = dirfix dc.
Proof.
  intros H. pose proof (drel_strict_in d dc H) as HF. destruct H as (_ & H2 & H3 & H4 & _).
  unfold dirfix, map_files. rewrite H2, H3, H4. f_equal.
  induction HF as [|[n f] [m g] l lc (E & (A & B & C & _) & P) _ IH]; [reflexivity|]. cbn [map fst snd] in *. subst m.
  rewrite IH. unfold dirfix_file. rewrite A, B, C, P. reflexivity.
Qed.

(* the crash development's invariants do not depend on the directory flags *)
Lemma sealed_ok_dirfix d s : sealed_ok d s -> sealed_ok (dirfix d) s.
Proof.
  intros (A & B & f & C & D & E & F & G). split; [exact A|]. split; [exact B|].
  exists (dirfix_file f). unfold dirfix. rewrite lookup_map_files, C. cbn. auto.
Qed.

Lemma tail_ok_dirfix c d t : tail_ok c d t -> tail_ok c (dirfix d) t.
Proof.
  intros (A & B). split; [exact A|]. unfold dirfix. rewrite lookup_map_files.
  destruct (lookup (name_of t) (dk_files d)) as [f|]; cbn [option_map]; [|exact B].
  destruct B as (B1 & B2 & B3 & B4 & B5 & B6).
  unfold cur_ents, cur_end, cur_seal in *. cbn [dirfix_file df_ents df_end df_seal df_pend df_dir].
  split; [exact B1|]. split; [exact B2|]. split; [discriminate|]. split; [exact B4|]. split; [exact B5|exact B6].
Qed.

Lemma DIs_dirfix c nb d : DIs c nb d -> DIs c nb (dirfix d).
Proof.
  intros (ND & H). split; [unfold dirfix; rewrite map_files_keys; exact ND|].
  change (dk_meta (dirfix d)) with (dk_meta d). destruct (dk_meta d) as [ps|].
  - destruct H as (H1 & H2 & S & t & H3 & H4 & H5 & H6 & H7). split; [exact H1|]. split.
    + intros n f. unfold dirfix. rewrite lookup_map_files. destruct (lookup n (dk_files d)) as [g|] eqn:E; cbn; [|discriminate].
      intros _. apply (H2 n g E).
    + exists S, t. split; [exact H3|]. split; [exact H4|]. split; [exact H5|].
      split; [eapply Forall_impl; [|exact H6]; intros s; apply sealed_ok_dirfix|apply tail_ok_dirfix; exact H7].
  - unfold dirfix, map_files. cbn. rewrite H. reflexivity.
Qed.

Lemma file_ents_dirfix n d : file_ents n (dirfix d) = file_ents n d.
Proof.
  unfold file_ents, dirfix. rewrite lookup_map_files. destruct (lookup n (dk_files d)); reflexivity.
Qed.

Lemma dread_dirfix d : dread (dirfix d) = dread d.
Proof.
  apply dread_ext; [reflexivity|]. intros ps s _ _. apply file_ents_dirfix.
Qed.

Lemma sp_of_dirfix d : sp_of (dirfix d) = sp_of d.
Proof. unfold sp_of. rewrite dread_dirfix. reflexivity. Qed.

Lemma no_pend_dirfix d : no_pend d -> no_pend (dirfix d).
Proof.
  intros H n f. unfold dirfix. rewrite lookup_map_files. destruct (lookup n (dk_files d)) as [g|] eqn:E; cbn; [|discriminate].
  intros K; inversion K; subst. cbn. apply (H n g E).
Qed.

Lemma LInv_dirfix c nb w d : LInv c nb w d -> LInv c nb w (dirfix d).
Proof.
  intros (H1 & H2 & H3 & H4 & H5 & t & f & tw & A & B & C & D & E).
  split; [exact H1|]. split; [exact H2|]. split; [apply DIs_dirfix; exact H3|]. split; [apply no_pend_dirfix; exact H4|].
  split; [exact H5|]. exists t, (dirfix_file f), tw. split; [exact A|].
  split; [unfold dirfix; rewrite lookup_map_files, B; reflexivity|]. split; [exact C|]. split; [exact D|exact E].
Qed.

Lemma LInv_sh c nb w d : LInv c nb w d -> LInv c nb w (sh d).
Proof.
  intros H. pose proof H as (_ & _ & HD & HN & _).
  rewrite <- (dirfix_nopend d (DIs_NoDup _ _ _ HD) HN). apply LInv_dirfix. exact H.
Qed.

(* reading a disk related by the strict relation *)
Lemma file_ents_drel d dc n : drel [] d dc -> file_ents n d = file_ents n dc.
Proof.
  intros H. unfold file_ents. pose proof (drel_cur d dc n H) as K.
  destruct (lookup n (dk_files d)), (lookup n (dk_files dc)); try destruct K; auto.
Qed.

Lemma sp_of_drel d dc : drel [] d dc -> sp_of d = sp_of dc.
Proof.
  intros H. pose proof H as (_ & Hm & Hs & _). unfold sp_of. rewrite Hs. f_equal.
  apply dread_ext; [exact Hm|]. intros ps s _ _. apply file_ents_drel. exact H.
Qed.

Lemma abs_drel w d dc : drel [] d dc -> abs w d = abs w dc.
Proof.
  intros H. rewrite !abs_is_gen. apply abs_gen_ext. intros s _. apply file_ents_drel. exact H.
Qed.

Definition app_op (o : sop) (alts : list spst) : list spst :=
  flat_map (fun a => match spec_accepts a o with Some a' => [a'] | None => [] end) alts.

Lemma in_app_op o alts a a' : In a alts -> spec_accepts a o = Some a' -> In a' (app_op o alts).
Proof. intros Hin E. unfold app_op. apply in_flat_map. exists a. split; [exact Hin|]. rewrite E. left; reflexivity. Qed.

Lemma cand_alts alts defer x : In x alts -> In x (candidates alts defer).
Proof. intros H. unfold candidates. apply in_or_app. left. exact H. Qed.

Lemma cand_defer alts defer a o a' : In a alts -> In o defer -> spec_accepts a o = Some a' -> In a' (candidates alts defer).
Proof.
  intros Ha Ho E. unfold candidates. apply in_or_app. right. apply in_flat_map. exists a. split; [exact Ha|].
  apply in_flat_map. exists o. split; [exact Ho|]. rewrite E. left; reflexivity.
Qed.

Lemma cand_inv alts defer x : In x (candidates alts defer) ->
  In x alts \/ exists a o, In a alts /\ In o defer /\ spec_accepts a o = Some x.
Proof.
  unfold candidates. intros H. apply in_app_or in H. destruct H as [H|H]; [left; exact H|right].
  apply in_flat_map in H. destruct H as (a & Ha & H). apply in_flat_map in H. destruct H as (o & Ho & H).
  exists a, o. destruct (spec_accepts a o) as [a'|]; [|destruct H]. destruct H as [<-|[]]. auto.
Qed.

Lemma cand_incl alts defer alts' defer' x :
  incl alts alts' -> incl defer defer' -> In x (candidates alts defer) -> In x (candidates alts' defer').
Proof.
  intros H1 H2 H. destruct (cand_inv _ _ _ H) as [K|(a & o & Ka & Ko & E)].
  - apply cand_alts. apply H1. exact K.
  - eapply cand_defer; [apply H1; exact Ka|apply H2; exact Ko|exact E].
Qed.

Lemma matches_in got l : In got l -> matches got l = Some got.
Proof.
  unfold matches. induction l as [|x l IH]; intros H; [destruct H|]. cbn [find].
  destruct (spst_eqb got x) eqn:E; [apply spst_eqb_eq in E; subst; reflexivity|].
  destruct H as [->|H]; [rewrite spst_eqb_refl in E; discriminate|apply IH; exact H].
Qed.

Definition set_rot (w : wal) (r : option N) : wal :=
  {| st_next_id := st_next_id w; st_segs := st_segs w; st_tail := st_tail w; st_rotate := r;
     st_failed := st_failed w; st_closed := st_closed w |}.

(* what the next recovery will see *)
Definition RD (c : cfg) (nb : N) (d : disk) (alts : list spst) (defer : list sop) : Prop :=
  DIs c nb (ad d) /\ In (sp_of (ad d)) (candidates alts defer).

(* the unsynced batch a failed fsync left behind the last commit of the tail file *)
Definition stale_batch (c : cfg) (t : seginfo) (f : dfile) (p : pbatch) (defer : list sop) : Prop :=
  df_seal f = 0 /\ df_end f <> pb_end p /\
  fsz_ok (c_seg_size c) (df_ents f ++ pb_ents p) (pb_end p) (pb_seal p) /\
  si_base t + llen (df_ents f ++ pb_ents p) < two64 /\
  (pb_ents p <> [] ->
     sop_ok (OStore (pb_ents p)) /\ In (OStore (pb_ents p)) defer /\
     exists l0 r, pb_ents p = l0 :: r /\ l_index l0 = si_base t + llen (df_ents f) /\
                  consecutive (l_index l0) (pb_ents p) = true).

Definition unlisted (d : disk) (n : fname) : Prop :=
  forall ps s, dk_meta d = Some ps -> In s (ps_segs ps) -> name_of s <> n.

(* a pending batch sits in the tail file (and is then well-formed) or in a file the
   metadata does not list (left behind by a deletion that failed) *)
Definition stale_tail_ok (c : cfg) (w : wal) (d : disk) (defer : list sop) : Prop :=
  forall n f p, lookup n (dk_files d) = Some f -> df_pend f = Some p ->
    (exists t, tail_info (st_segs w) = Some t /\ n = name_of t /\ stale_batch c t f p defer) \/ unlisted d n.

Definition stale_unlisted (d : disk) : Prop :=
  forall n f p, lookup n (dk_files d) = Some f -> df_pend f = Some p -> unlisted d n.

(* a running WAL that accepts writes *)
Definition Live (c : cfg) (nb : N) (w : wal) (d : disk) (defer : list sop) : Prop :=
  LInv c nb w (sh d) /\ stale_tail_ok c w d defer.

(* the tail is sealed but no rotation is pending (a rotation or tail-truncation commit
   failed).  Not a disjunct of [Mode]: a predicate of the proofs, the shape of the clean
   state from which [RV] is then established (RV_of_seal) *)
Definition Seal (c : cfg) (nb : N) (w : wal) (d : disk) : Prop :=
  exists tw, st_tail w = Some tw /\ 0 < ws_index_start tw /\ st_rotate w = None /\
             LInv c nb (set_rot w (Some (ws_index_start tw))) (sh d) /\ stale_unlisted d.

(* readers are served from in-memory state [w] that agrees with a clean state: every file
   of the clean disk is the (normalised) file of that name on the real disk, and no
   pending batch sits in a file of a sealed segment of [w] *)
Definition RV (c : cfg) (nb : N) (w : wal) (d : disk) (nom : spst) : Prop :=
  exists wc dc, LInv c nb wc dc /\ sp_of dc = nom /\ st_segs w = st_segs wc /\ st_tail w = st_tail wc /\
    (forall n, lookup n (dk_files dc) <> None -> lookup n (dk_files (sh d)) = lookup n (dk_files dc)) /\
    dk_stable dc = dk_stable d /\ NoDup (map fst (dk_files d)) /\
    (forall n f s, lookup n (dk_files d) = Some f -> df_pend f <> None -> In s (st_segs w) -> name_of s = n ->
                   tail_info (st_segs w) = Some s).

Definition Mode (c : cfg) (nb : N) (w : wal) (d : disk) (nom : spst) (defer : list sop) : Prop :=
  (st_closed w = true /\ st_rotate w = None) \/
  (st_closed w = false /\
   ((Live c nb w d defer /\ sp_of (sh d) = nom) \/
    (st_failed w = true /\ st_rotate w = None /\ RV c nb w d nom))).

(* deferred operations are well-formed StoreLogs calls *)
Definition dop_ok (o : sop) : Prop := sop_ok o /\ exists ls, o = OStore ls.

Definition FInv (c : cfg) (nb : N) (h : fstate) : Prop :=
  fs_ok h = true /\ e_fault (ss_env (fs_s h)) = None /\
  sp_good (fs_nom h) /\ In (fs_nom h) (fs_alts h) /\ Forall sp_good (fs_alts h) /\ Forall dop_ok (fs_defer h) /\
  RD c nb (e_disk (ss_env (fs_s h))) (fs_alts h) (fs_defer h) /\
  Mode c nb (ss_wal (fs_s h)) (e_disk (ss_env (fs_s h))) (fs_nom h) (fs_defer h).
