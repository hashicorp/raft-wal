(* FaultStore.v -- StoreLogs with an injected I/O error, from a running WAL that
   accepts writes (possibly with a stale unsynced batch in its tail file). *)
From RW Require Import Base.Bytes Base.BytesFacts Fmt.Codec Fmt.CodecFacts Fmt.Frame Wal.Model Wal.Spec Wal.Hist Wal.FaultHist
  Wal.CrashInv Wal.ModelFacts Wal.CrashFacts0 Wal.CrashFacts1 Wal.CrashFacts2 Wal.CrashFacts3 Wal.CrashFacts4 Wal.CrashFacts5
  Wal.CrashFacts6 Wal.CrashGlue Wal.CrashCalls1 Wal.CrashCalls2 Wal.CrashCalls3 Wal.CrashCalls4 Wal.CrashCalls6
  Wal.CrashCalls7 Wal.CrashCalls8 Wal.CrashCalls9 Wal.FaultSim Wal.FaultSim2 Wal.FaultInv Wal.FaultFacts2 Wal.FaultFacts3 Wal.FaultNames
  Gen.Constants.
From RW Require Import Base.LiaSetup.
Open Scope N_scope.

(* the shadow environment: same history and metrics, normalised disk, no fault *)
Definition shenv (e : env) : env :=
  {| e_acts := e_acts e; e_disk := sh (e_disk e); e_fault := None; e_fx := e_fx e; e_m := e_m e |}.

Lemma RD_mono c nb nb' d alts alts' defer defer' :
  nb <= nb' -> incl alts alts' -> incl defer defer' -> RD c nb d alts defer -> RD c nb' d alts' defer'.
Proof. intros H1 H2 H3 (A & B). split; [eapply DIs_mono; eauto|eapply cand_incl; eauto]. Qed.

Lemma stale_batch_mono c t f p defer defer' : incl defer defer' -> stale_batch c t f p defer -> stale_batch c t f p defer'.
Proof.
  intros Hi (A & B & C & D & E). split; [exact A|]. split; [exact B|]. split; [exact C|]. split; [exact D|].
  intros Hne. destruct (E Hne) as (E1 & E2 & E3). split; [exact E1|]. split; [apply Hi; exact E2|exact E3].
Qed.

Lemma Live_mono c nb nb' w d defer defer' : nb <= nb' -> incl defer defer' -> Live c nb w d defer -> Live c nb' w d defer'.
Proof.
  intros Hn Hi (HL & Hst). split; [eapply LInv_mono; eauto|].
  intros n f p Hl Hp. destruct (Hst n f p Hl Hp) as [(t & A & B & C)|K]; [left|right; exact K].
  exists t. split; [exact A|]. split; [exact B|]. eapply stale_batch_mono; eauto.
Qed.

(* the metadata and the file ids of a live state *)
Lemma live_meta c nb w d : LInv c nb w (sh d) -> dk_meta d = Some (persistent w).
Proof. intros (_ & _ & _ & _ & H & _). exact H. Qed.

Lemma live_ids c nb w d n : LInv c nb w (sh d) -> lookup n (dk_files d) <> None -> snd n < st_next_id w.
Proof.
  intros HL Hl. pose proof HL as (_ & _ & (ND & HD) & _ & Hm & _). rewrite Hm in HD. destruct HD as (_ & Hids & _).
  destruct (lookup n (dk_files d)) as [f|] eqn:E; [|congruence]. apply (Hids n (sh_file f)).
  rewrite lookup_sh, E. reflexivity.
Qed.

(* the pending batch in the tail file of a live state is the one a failed fsync left *)
Lemma live_tail_batch c nb w d defer t f p : Live c nb w d defer -> tail_info (st_segs w) = Some t ->
  lookup (name_of t) (dk_files d) = Some f -> df_pend f = Some p -> stale_batch c t f p defer.
Proof.
  intros (HL & Hst) Ht Hl Hp. destruct (Hst _ f p Hl Hp) as [(t2 & Ht2 & _ & Hsb)|Hu]; [congruence|].
  exfalso. apply (Hu (persistent w) t (live_meta c nb w d HL)); [|reflexivity]. apply tail_info_In. exact Ht.
Qed.

Lemma unlisted_keep c nb w d d' n : LInv c nb w (sh d) -> lookup n (dk_files d) <> None -> unlisted d n ->
  meta_sub w d d' -> unlisted d' n.
Proof.
  intros HL Hl Hu [Hm|(ps & Hm & Hf)] ps' s Hm' Hs.
  - rewrite Hm in Hm'. apply (Hu ps' s Hm' Hs).
  - rewrite Hm in Hm'. inversion Hm'; subst ps'.
    apply (fresh_sub_keep w (ps_segs ps) n Hf (live_ids c nb w d n HL Hl)); [|exact Hs].
    intros s0 Hs0. apply (Hu (persistent w) s0 (live_meta c nb w d HL) Hs0).
Qed.

Lemma unlisted_meta d d' n : dk_meta d' = dk_meta d -> unlisted d n -> unlisted d' n.
Proof. intros Hm Hu ps s Hm' Hs. rewrite Hm in Hm'. apply (Hu ps s Hm' Hs). Qed.

(* a live state and its shadow *)
Lemma live_shadow c nb w e defer : Live c nb w (e_disk e) defer ->
  let X := stale_names (e_disk e) in
  R X e (shenv e) /\
  (forall tw, st_tail w = Some tw -> In (ws_name tw) X -> wguard (e_disk e) (ws_name tw) (ws_off tw)) /\
  (forall n, In n X -> lookup n (dk_files (e_disk e)) <> None) /\
  (forall n, In n X -> (exists t, tail_info (st_segs w) = Some t /\ n = name_of t) \/ unlisted (e_disk e) n).
Proof.
  intros (HL & Hst) X. pose proof (LInv_NoDup_sh _ _ _ _ HL) as ND.
  split; [split; [apply drel_sh; [exact ND|apply stale_names_ok]|reflexivity]|].
  split.
  { intros tw Htw _ f p Hl Hp. destruct (LInv_view _ _ _ _ HL) as (S & t & f0 & tw0 & V).
    rewrite (lv_tail _ _ _ _ _ _ _ _ V) in Htw. inversion Htw; subst tw0.
    pose proof (lv_tw _ _ _ _ _ _ _ _ V) as (Tn & _ & _ & _ & _ & To & _). rewrite Tn in Hl.
    assert (Hf0 : f0 = sh_file f).
    { pose proof (lv_file _ _ _ _ _ _ _ _ V) as K. rewrite lookup_sh, Hl in K. cbn in K. inversion K. reflexivity. }
    rewrite To, Hf0. cbn. apply (live_tail_batch c nb w _ defer t f p (conj HL Hst)); [|exact Hl|exact Hp].
    rewrite (lv_segs _ _ _ _ _ _ _ _ V). apply tail_info_app. }
  split.
  { intros n Hin. destruct (stale_names_in _ n ND Hin) as (f & p & Hl & _). rewrite Hl. discriminate. }
  intros n Hin. destruct (stale_names_in _ n ND Hin) as (f & p & Hl & Hp).
  destruct (Hst n f p Hl Hp) as [(t & A & B & _)|K]; [left; exists t; auto|right; exact K].
Qed.

(* a stale batch outside the tail file sits in a file no operation lists again *)
Lemma stale_garbage c nb w d d' defer t n : Live c nb w d defer -> meta_sub w d d' ->
  tail_info (st_segs w) = Some t -> In n (stale_names d) -> n <> name_of t -> unlisted d' n.
Proof.
  intros HLive Hms Ht Hx Hne. pose proof HLive as (HL & Hst).
  destruct (stale_names_in _ n (LInv_NoDup_sh _ _ _ _ HL) Hx) as (f & p & Hl & Hp).
  destruct (Hst n f p Hl Hp) as [(t' & Ht' & -> & _)|Hu]; [congruence|].
  apply (unlisted_keep c nb w d d' n HL); [rewrite Hl; discriminate|exact Hu|exact Hms].
Qed.

Lemma not_mem_name n X : mem_name n X = false -> ~ In n X.
Proof. intros E K. apply mem_name_spec in K. congruence. Qed.

Lemma drel_stale_ok X d dc : drel X d dc -> no_pend dc -> stale_ok X d.
Proof.
  intros (H1 & _ & _ & _ & _ & H6) Hn n f Hl Hp. destruct (lrel_lookup_some n _ _ f H1 Hl) as (g & Hg & _).
  destruct (mem_name n X) eqn:E; [apply mem_name_spec; exact E|]. exfalso. apply Hp.
  rewrite (H6 n f g Hl Hg (not_mem_name _ _ E)). apply (Hn n g Hg).
Qed.

Lemma sp_of_sh_clean c nb w dc : LInv c nb w dc -> sp_of (sh dc) = sp_of dc.
Proof.
  intros (_ & _ & HD & HN & _). rewrite <- (dirfix_nopend dc (DIs_NoDup _ _ _ HD) HN). apply sp_of_dirfix.
Qed.

(* putting back files whose deletion failed *)
Lemma sh_unpend d : sh d = dirfix (unpend d).
Proof. change (unpend d) with (map_files unpend_file d). unfold sh, dirfix. rewrite map_files_comp. reflexivity. Qed.

Lemma DIs_sh c nb d : DIs c nb d -> DIs c nb (sh d).
Proof. intros H. rewrite sh_unpend. apply DIs_dirfix, DIs_unpend. exact H. Qed.

Lemma sh_delete d n : sh (apply_act d (ADelete n)) = apply_act (sh d) (ADelete n).
Proof.
  unfold sh, map_files. cbn [apply_act dk_files dk_meta dk_stable dk_inited]. f_equal.
  induction (dk_files d) as [|[m g] r IH]; cbn [remove map fst snd]; [reflexivity|].
  destruct (fname_eqb n m); [reflexivity|]. cbn [map fst snd]. rewrite IH. reflexivity.
Qed.

Lemma sh_del_disk ns : forall d, sh (del_disk ns d) = del_disk ns (sh d).
Proof.
  unfold del_disk. induction ns as [|n ns IH]; intros d; cbn [fold_left]; [reflexivity|]. rewrite IH, sh_delete. reflexivity.
Qed.

Lemma sp_of_del c nb w d ns : LInv c nb w (del_disk ns d) -> NoDup (map fst (dk_files d)) -> sp_of (del_disk ns d) = sp_of d.
Proof.
  intros HL ND. destruct (del_disk_meta ns d) as (M1 & M2). unfold sp_of. rewrite M2. f_equal.
  apply dread_ext; [exact M1|]. intros ps s Hm Hs. unfold file_ents. rewrite (del_disk_lookup ns d _ ND).
  destruct (mem_name (name_of s) ns) eqn:E; [|reflexivity]. exfalso.
  pose proof HL as (_ & _ & _ & _ & Hmeta & _). rewrite M1, Hm in Hmeta. inversion Hmeta; subst ps.
  apply (LInv_listed_files c nb w _ s HL Hs). rewrite (del_disk_lookup ns d _ ND), E. reflexivity.
Qed.

Lemma undelete_sh c nb w dcp ns : LInv c nb w (del_disk ns dcp) -> DIs c nb dcp ->
  LInv c nb w (sh dcp) /\ sp_of (sh dcp) = sp_of (del_disk ns dcp) /\
  (forall n, In n ns -> forall s, In s (st_segs w) -> name_of s <> n).
Proof.
  intros HL HD. pose proof (DIs_NoDup _ _ _ HD) as ND.
  assert (HL1 : LInv c nb w (del_disk ns (sh dcp))) by (rewrite <- sh_del_disk; apply LInv_sh; exact HL).
  assert (NDs : NoDup (map fst (dk_files (sh dcp)))) by (unfold sh; rewrite map_files_keys; exact ND).
  split; [apply (LInv_undelete c nb w (sh dcp) ns HL1 (DIs_sh c nb dcp HD) (no_pend_sh dcp))|]. split.
  - rewrite <- (sp_of_del c nb w (sh dcp) ns HL1 NDs), <- sh_del_disk. apply (sp_of_sh_clean c nb w _ HL).
  - intros n Hin s Hs Hn. apply (LInv_listed_files c nb w _ s HL Hs). rewrite Hn, (del_disk_lookup ns dcp n ND).
    replace (mem_name n ns) with true; [reflexivity|]. symmetry. apply mem_name_spec. exact Hin.
Qed.

Lemma append_end_gt L off n k F h :
  L < two30 -> 8 * n <= off -> off <= L + 8 -> 8 * k <= F -> F < two30 -> 1 <= k -> (h = 0 \/ h = 32) ->
  let n' := n + k in
  let buf := h + F in
  let seal := L <? (off + (buf + index_frame_size n') mod two32) mod two32 in
  let buf2 := if seal then buf + index_frame_size n' else buf in
  let total := buf2 + 8 in
  off < (off + total) mod two32.
Proof.
  intros HL Hn Hoff Hk HF Hk1 Hh. cbv zeta.
  pose proof (index_frame_size_le (n + k)) as Hidx. revert Hidx. generalize (index_frame_size (n + k)). intros X Hidx.
  assert (T32 : two32 = 4294967296) by reflexivity. assert (T30 : two30 = 1073741824) by reflexivity.
  rewrite (N.mod_small (h + F + X) two32) by lia.
  rewrite (N.mod_small (off + (h + F + X)) two32) by lia.
  destruct (L <? off + (h + F + X)) eqn:Es.
  - rewrite (N.mod_small (off + (h + F + X + 8)) two32) by lia. lia.
  - rewrite (N.mod_small (off + (h + F + 8)) two32) by lia. lia.
Qed.

Lemma force_end_gt L off n h :
  L < two30 -> 8 * n <= off -> off <= L + 8 -> 1 <= n -> (h = 0 \/ h = 32) ->
  off < (off + (h + index_frame_size n + 8)) mod two32.
Proof.
  intros HL Hn Hoff Hn1 Hh.
  pose proof (index_frame_size_le n) as Hidx. revert Hidx. generalize (index_frame_size n). intros X Hidx.
  assert (T32 : two32 = 4294967296) by reflexivity. assert (T30 : two30 = 1073741824) by reflexivity.
  rewrite (N.mod_small (off + (h + X + 8)) two32) by lia. lia.
Qed.

Lemma sh_write d n off l b : sh (apply_act d (AWrite n off l b)) = sh d.
Proof.
  cbn [apply_act]. destruct (lookup n (dk_files d)) as [f|] eqn:E; [|reflexivity].
  unfold sh, map_files. cbn [dk_files dk_meta dk_stable dk_inited]. f_equal.
  induction (dk_files d) as [|[m g] r IH]; [discriminate|]. cbn [lookup update map fst snd] in *.
  destruct (fname_eqb n m) eqn:En.
  - apply fname_eqb_eq in En. subst m. inversion E; subst g. reflexivity.
  - cbn [map fst snd]. rewrite IH; auto.
Qed.

(* a failed fsync leaves a stale batch behind a clean state *)

Lemma stale_after_write c nb nb' w dc d' X S t f0 tw defer' a len b :
  lview c nb w dc S t f0 tw -> df_seal f0 = 0 -> nb <= nb' ->
  a = AWrite (name_of t) (df_end f0) len b -> df_end f0 < pb_end b ->
  DIs c nb' (apply_act dc a) -> drel X d' (apply_act dc a) -> ~ In (name_of t) X ->
  (forall n, In n X -> unlisted d' n) ->
  (pb_ents b <> [] -> sop_ok (OStore (pb_ents b)) /\ In (OStore (pb_ents b)) defer' /\
     exists l0 r, pb_ents b = l0 :: r /\ l_index l0 = si_base t + llen (df_ents f0) /\
                  consecutive (l_index l0) (pb_ents b) = true) ->
  Live c nb' w d' defer' /\ sp_of (sh d') = sp_of dc.
Proof.
  intros V Hse Hnb -> Hlt HD Hrel HtX Hgarb Hls.
  set (n := name_of t) in *. set (dm := apply_act dc (AWrite n (df_end f0) len b)) in *.
  pose proof (LInv_of_view V) as HLc.
  assert (Hsh : sh d' = sh dc) by (rewrite (drel_sh_eq _ _ _ Hrel); unfold dm; apply sh_write).
  pose proof (lv_file _ _ _ _ _ _ _ _ V) as Hf0. pose proof (lv_pend _ _ _ _ _ _ _ _ V) as Hp0.
  assert (Edm : dm = {| dk_files := update n (with_pend f0 b) (dk_files dc); dk_meta := dk_meta dc;
                        dk_stable := dk_stable dc; dk_inited := dk_inited dc |}).
  { apply (apply_write dc n (df_end f0) len b f0 Hf0 Hp0). }
  assert (Hldm : lookup n (dk_files dm) = Some (with_pend f0 b)) by (rewrite Edm; cbn [dk_files]; apply lookup_update_eq).
  pose proof Hrel as (H1 & _ & _ & _ & _ & H6).
  destruct (lrel_lookup_some_r n _ _ _ H1 Hldm) as (f' & Hf' & (F1 & F2 & F3 & _)).
  pose proof (H6 n f' _ Hf' Hldm HtX) as F5. cbn [with_pend df_ents df_end df_seal df_pend] in *.
  rewrite Hsh. split; [|apply (sp_of_sh_clean c nb w dc HLc)].
  split; [rewrite Hsh; eapply LInv_mono; [exact Hnb|apply LInv_sh; exact HLc]|].
  intros m g q Hl Hq. destruct (fname_eqb m n) eqn:E.
  - apply fname_eqb_eq in E. subst m. left. exists t. split; [rewrite (lv_segs _ _ _ _ _ _ _ _ V); apply tail_info_app|]. split; [reflexivity|].
    rewrite Hf' in Hl. inversion Hl; subst g. rewrite F5 in Hq. inversion Hq; subst q.
    pose proof (lv_meta _ _ _ _ _ _ _ _ V) as Hm.
    assert (Hmdm : dk_meta dm = Some {| ps_next_id := st_next_id w; ps_segs := S ++ [t] |}) by (rewrite Edm; exact Hm).
    destruct (DIs_parts c nb' dm _ S t HD Hmdm eq_refl) as (_ & _ & _ & _ & _ & _ & Htok).
    destruct Htok as (_ & Htok). fold n in Htok. rewrite Hldm in Htok. destruct Htok as (_ & Z2 & _ & _ & _ & Z6).
    unfold cur_ents, cur_end, cur_seal in Z2, Z6. cbn [with_pend df_pend df_ents] in Z2, Z6.
    split; [congruence|]. split; [rewrite F2; lia|]. rewrite F1. split; [exact Z2|]. split; [exact Z6|].
    exact Hls.
  - right. apply Hgarb. destruct (mem_name m X) eqn:Ex; [apply mem_name_spec; exact Ex|]. exfalso.
    destruct (lrel_lookup_some m _ _ _ H1 Hl) as (gm & Hgm & _). rewrite (H6 m g gm Hl Hgm (not_mem_name _ _ Ex)) in Hq.
    apply fname_eqb_neq in E. rewrite Edm in Hgm. cbn [dk_files] in Hgm. rewrite lookup_update_neq in Hgm by exact E.
    rewrite (lv_nopend _ _ _ _ _ _ _ _ V m gm Hgm) in Hq. discriminate.
Qed.

Lemma lv_sizes {c nb w d S t f tw} (V : lview c nb w d S t f tw) :
  df_seal f = 0 -> 8 * llen (df_ents f) <= df_end f /\ df_end f <= c_seg_size c + 8.
Proof.
  intros Hse. pose proof (lv_tok _ _ _ _ _ _ _ _ V) as (_ & Ht'). rewrite (lv_file _ _ _ _ _ _ _ _ V) in Ht'.
  destruct Ht' as ((Z1 & Z2 & Z3 & _) & _). split; [exact Z1|apply Z3; exact Hse].
Qed.

Lemma append_act_pend {c nb w d S t f tw} (V : lview c nb w d S t f tw) ls :
  cfg_ok c -> df_seal f = 0 -> logs_ok ls -> frames_size ls < two30 -> ls <> [] ->
  exists len b, append_act tw ls = AWrite (name_of t) (df_end f) len b /\ pb_ents b = ls /\ df_end f < pb_end b.
Proof.
  intros (_ & _ & _ & Hc4) Hse Hok HF Hne.
  pose proof (lv_tw _ _ _ _ _ _ _ _ V) as (Tn & Tb & Tm & Tl & Tnn & To & Ti & Tc).
  pose proof (lv_twf V) as (_ & Hlim & _).
  destruct (lv_sizes V Hse) as (Z1 & Z3).
  unfold append_act. cbv zeta. rewrite Tn, To, Tl, Hlim, Tnn. eexists _, _. split; [reflexivity|]. split; [reflexivity|].
  cbn [pb_end].
  assert (Hk1 : 1 <= llen ls) by (destruct ls; [congruence|rewrite llen_cons; lia]).
  assert (Hh : (if ws_hdr tw then 32 else 0) = 0 \/ (if ws_hdr tw then 32 else 0) = 32) by (destruct (ws_hdr tw); auto).
  apply (append_end_gt (c_seg_size c) (df_end f) (llen (df_ents f)) (llen ls) (frames_size ls)
              (if ws_hdr tw then 32 else 0) Hc4 Z1 Z3 (frames_size_ge ls) HF Hk1 Hh).
Qed.

Lemma force_act_pend {c nb w d S t f tw} (V : lview c nb w d S t f tw) :
  cfg_ok c -> df_seal f = 0 -> 1 <= llen (df_ents f) ->
  exists len b, force_act tw = AWrite (name_of t) (df_end f) len b /\ pb_ents b = [] /\ df_end f < pb_end b.
Proof.
  intros (_ & _ & _ & Hc4) Hse Hn1.
  pose proof (lv_tw _ _ _ _ _ _ _ _ V) as (Tn & Tb & Tm & Tl & Tnn & To & Ti & Tc).
  destruct (lv_sizes V Hse) as (Z1 & Z3).
  unfold force_act. cbv zeta. rewrite Tn, To, Tnn. eexists _, _. split; [reflexivity|]. split; [reflexivity|].
  cbn [pb_end].
  assert (Hh : (if ws_hdr tw then 32 else 0) = 0 \/ (if ws_hdr tw then 32 else 0) = 32) by (destruct (ws_hdr tw); auto).
  apply (force_end_gt (c_seg_size c) (df_end f) (llen (df_ents f)) (if ws_hdr tw then 32 else 0) Hc4 Z1 Z3 Hn1 Hh).
Qed.

(* ---- the recovery view of a disk related to a clean one, when the files that may
        differ (stale batches) are not listed by the metadata ---- *)
Lemma RD_rel c nb d' dm X alts defer :
  DIs c nb dm -> no_pend dm -> drel X d' dm -> (forall n, In n X -> unlisted dm n) ->
  In (sp_of dm) (candidates alts defer) -> RD c nb d' alts defer.
Proof.
  intros HD HN Hrel Hunl Hin. pose proof Hrel as (H1 & H2 & H3 & H4 & H5 & H6).
  assert (Hlk : forall ps s, dk_meta dm = Some ps -> In s (ps_segs ps) ->
            lookup (name_of s) (dk_files (ad d')) = lookup (name_of s) (dk_files (dirfix dm))).
  { intros ps s Hm Hs. rewrite ad_lookup. unfold dirfix. rewrite lookup_map_files.
    pose proof (lrel_lookup (name_of s) _ _ H1) as K.
    destruct (lookup (name_of s) (dk_files d')) as [g|] eqn:Eg, (lookup (name_of s) (dk_files dm)) as [gm|] eqn:Egm; [|destruct K|destruct K|reflexivity].
    destruct K as (K1 & K2 & K3 & _). cbn [option_map]. f_equal.
    assert (Hp : df_pend g = df_pend gm).
    { apply (H6 _ g gm Eg Egm). intros Hx. apply (Hunl _ Hx ps s Hm Hs). reflexivity. }
    pose proof (HN _ gm Egm) as Hpm. rewrite Hpm in Hp. unfold adopt_file. rewrite Hp. unfold dirfix_file. rewrite K1, K2, K3, Hp, Hpm. reflexivity. }
  eapply (RD_frame c nb d' (dirfix dm)).
  - apply DIs_dirfix. exact HD.
  - symmetry. exact H2.
  - symmetry. exact H3.
  - apply (drel_NoDup _ _ _ Hrel).
  - intros n Hl. unfold dirfix. rewrite lookup_map_files. destruct (lookup n (dk_files d')) as [g|] eqn:Eg; [|congruence].
    destruct (lrel_lookup_some n _ _ g H1 Eg) as (gm & Egm & _). rewrite Egm. discriminate.
  - intros ps s Hm Hs. apply (Hlk ps s Hm Hs).
  - rewrite sp_of_dirfix. exact Hin.
Qed.

(* the metadata commit went through, the creation of the new tail file failed *)
Lemma fail_after_commit c nb nb' wm wc dc d' X nom alts defer ps ec ec' :
  nb <= nb' -> LInv c nb wc dc -> e_disk ec = dc -> sp_of dc = nom ->
  st_segs wm = st_segs wc -> st_tail wm = st_tail wc -> st_failed wm = true -> st_rotate wm = None -> st_closed wm = false ->
  post_commit X ec ec' d' ps ->
  (forall dm, pfx ec ec' dm -> DIs c nb' dm /\ In (sp_of dm) (candidates alts defer)) ->
  (forall n, In n X -> (exists t, tail_info (st_segs wc) = Some t /\ n = name_of t) \/
                       (forall s, In s (st_segs wc) -> name_of s <> n)) ->
  (forall n s, In n X -> In s (ps_segs ps) -> name_of s <> n) ->
  Mode c nb' wm d' nom defer /\ RD c nb' d' alts defer.
Proof.
  intros Hnb HL Hec Hsp Hs Ht Hf Hr Hcl (dm & Hrel & Hpfx & Hmeta & Hkeep & Hstb & Hnew) Hfin HX Hunl.
  subst dc. pose proof HL as (_ & _ & HDc & HNc & _).
  assert (HNdm : no_pend dm).
  { intros n f Hl. destruct (lookup n (dk_files (e_disk ec))) as [g|] eqn:E0; [|apply (Hnew n f Hl E0)].
    rewrite (Hkeep n) in Hl by congruence. apply (HNc n f Hl). }
  destruct (Hfin dm Hpfx) as (HDm & Hcand).
  split.
  - right. split; [exact Hcl|]. right. split; [exact Hf|]. split; [exact Hr|].
    apply (RV_of_clean_disk c nb' wm wc (sh (e_disk ec)) d' nom).
    + eapply LInv_mono; [exact Hnb|apply LInv_sh; exact HL].
    + rewrite (sp_of_sh_clean c nb wc _ HL). exact Hsp.
    + exact Hs.
    + exact Ht.
    + intros n Hl. rewrite (drel_sh_eq _ _ _ Hrel). rewrite lookup_sh in Hl. rewrite !lookup_sh.
      destruct (lookup n (dk_files (e_disk ec))) as [g|] eqn:E0; [|exfalso; apply Hl; reflexivity].
      rewrite (Hkeep n) by congruence. rewrite E0. reflexivity.
    + destruct Hrel as (_ & _ & K & _). rewrite K. symmetry. exact Hstb.
    + apply (drel_NoDup _ _ _ Hrel).
    + intros n f p Hl Hp. apply HX. apply (drel_stale_ok _ _ _ Hrel HNdm n f Hl). congruence.
  - apply (RD_rel c nb' d' dm X alts defer HDm HNdm Hrel); [|exact Hcand].
    intros n Hx ps' s Hm' Hs'. rewrite Hmeta in Hm'. inversion Hm'; subst ps'. apply (Hunl n s Hx Hs').
Qed.

(* the state a run leaves whose trailing deletions may all have failed *)
Lemma landed_post c nb A w0 e' ec ec' X ns (P : fname -> dfile -> pbatch -> Prop) :
  ext (DP c nb A) ec ec' -> LInv c nb w0 (e_disk ec') -> landed X ns ec e' ec' ->
  (forall n f p, In n X -> ~ In n ns -> lookup n (dk_files (e_disk e')) = Some f -> df_pend f = Some p ->
      P n f p \/ unlisted (e_disk e') n) ->
  LInv c nb w0 (sh (e_disk e')) /\
  (forall n f p, lookup n (dk_files (e_disk e')) = Some f -> df_pend f = Some p -> P n f p \/ unlisted (e_disk e') n) /\
  sp_of (sh (e_disk e')) = sp_of (e_disk ec').
Proof.
  intros Hext HL (ecp & HR & Eec & Ha) Hcls.
  destruct HR as (Hrel & Hfp).
  assert (Hd' : e_disk ec' = del_disk ns (e_disk ecp)) by (rewrite Eec; apply delete_files_disk; exact Hfp).
  assert (Hp : pfx ec ec' (e_disk ecp)).
  { eapply pfx_more; [apply pfx_end; exact Ha|]. rewrite Eec. apply sh_delete_files. exact Hfp. }
  destruct (ext_pfx _ _ _ _ Hext Hp) as (HDp & _).
  rewrite Hd' in HL. destruct (undelete_sh c nb w0 (e_disk ecp) ns HL HDp) as (HL2 & Hsp2 & Hunl).
  pose proof HL as (_ & _ & _ & HN & Hmeta & _). pose proof (DIs_NoDup _ _ _ HDp) as ND.
  split; [|split].
  + rewrite (drel_sh_eq _ _ _ Hrel). exact HL2.
  + intros n f p Hl Hp'. destruct (mem_name n ns) eqn:En.
    * right. apply mem_name_spec in En. intros ps s Hm Hs.
      assert (Eps : ps = persistent w0).
      { destruct Hrel as (_ & M & _). rewrite M in Hm. destruct (del_disk_meta ns (e_disk ecp)) as (M1 & _).
        rewrite <- M1, Hmeta in Hm. inversion Hm; reflexivity. }
      subst ps. apply (Hunl n En s Hs).
    * assert (Hin : In n X).
      { destruct (mem_name n X) eqn:Ex; [apply mem_name_spec; exact Ex|]. exfalso.
        destruct Hrel as (H1 & _ & _ & _ & _ & H6). destruct (lrel_lookup_some n _ _ f H1 Hl) as (g & Hg & _).
        assert (Hpg : df_pend g = None). { apply (HN n g). rewrite (del_disk_lookup ns _ n ND), En. exact Hg. }
        rewrite (H6 n f g Hl Hg (not_mem_name _ _ Ex)) in Hp'. congruence. }
      apply (Hcls n f p Hin (not_mem_name _ _ En) Hl Hp').
  + rewrite (drel_sh_eq _ _ _ Hrel), Hd'. exact Hsp2.
Qed.

Lemma Rd_post c nb A w0 e' ec ec' X ns (P : fname -> dfile -> pbatch -> Prop) :
  ext (DP c nb A) ec ec' -> LInv c nb w0 (e_disk ec') -> Rd X ns ec e' ec' ->
  (forall n f p, In n X -> ~ In n ns -> lookup n (dk_files (e_disk e')) = Some f -> df_pend f = Some p ->
      P n f p \/ unlisted (e_disk e') n) ->
  LInv c nb w0 (sh (e_disk e')) /\
  (forall n f p, lookup n (dk_files (e_disk e')) = Some f -> df_pend f = Some p -> P n f p \/ unlisted (e_disk e') n) /\
  sp_of (sh (e_disk e')) = sp_of (e_disk ec').
Proof.
  intros Hext HL [HR|(ecp & HR & Eec & Ha & _)] Hcls.
  - destruct HR as (Hrel & _). pose proof HL as (_ & _ & _ & HN & _).
    split; [|split].
    + rewrite (drel_sh_eq _ _ _ Hrel). apply LInv_sh; exact HL.
    + intros n f p Hl Hp. assert (Hin : In n (rems ns X)) by (apply (drel_stale_ok _ _ _ Hrel HN n f Hl); congruence).
      apply (Hcls n f p (rems_incl ns X n Hin) (rems_in ns X n Hin) Hl Hp).
    + rewrite (drel_sh_eq _ _ _ Hrel). apply (sp_of_sh_clean c nb w0 _ HL).
  - apply (landed_post c nb A w0 e' ec ec' X ns P Hext HL); [|exact Hcls]. exists ecp. auto.
Qed.

Lemma Rd_live c nb A w0 e' ec ec' X ns defer' :
  ext (DP c nb A) ec ec' -> LInv c nb w0 (e_disk ec') -> Rd X ns ec e' ec' ->
  (forall n f p, In n X -> ~ In n ns -> lookup n (dk_files (e_disk e')) = Some f -> df_pend f = Some p ->
      (exists t, tail_info (st_segs w0) = Some t /\ n = name_of t /\ stale_batch c t f p defer') \/ unlisted (e_disk e') n) ->
  Live c nb w0 (e_disk e') defer' /\ sp_of (sh (e_disk e')) = sp_of (e_disk ec').
Proof.
  intros Hext HL HRd Hcls.
  destruct (Rd_post c nb A w0 e' ec ec' X ns (fun n f p => exists t, tail_info (st_segs w0) = Some t /\ n = name_of t /\ stale_batch c t f p defer') Hext HL HRd Hcls)
    as (A1 & A2 & A3).
  split; [split; [exact A1|exact A2]|exact A3].
Qed.

(* fault-free runs keep the disk free of pending batches *)
Lemma np_seg_create si ec sw ec' : e_fault ec = None -> no_pend (e_disk ec) -> seg_create si ec = (sw, ec') -> no_pend (e_disk ec').
Proof.
  intros Hf Hn. unfold seg_create. destruct (si_base si =? 0); [intros [= <- <-]; exact Hn|].
  destruct (lookup _ _); rewrite (io_ok _ _ Hf); intros [= <- <-]; cbn [io_env e_disk]; [exact Hn|].
  apply no_pend_create. exact Hn.
Qed.

Lemma np_mutate_gen_defer w t ec r w' ec' dl : e_fault ec = None -> no_pend (e_disk ec) ->
  mutate_gen true w t ec = (r, w', ec', dl) -> no_pend (e_disk ec').
Proof.
  intros Hf Hn. unfold mutate_gen. rewrite (io_ok _ _ Hf). cbn [negb].
  match goal with |- context [io_env ?a ec] => set (ec1 := io_env a ec) end.
  assert (Hn1 : no_pend (e_disk ec1)) by (apply (no_pend_same (e_disk ec)); [reflexivity|exact Hn]).
  destruct (tx_create t) as [si|]; [|intros [= <- <- <- <-]; exact Hn1].
  destruct (seg_create si ec1) as [sw ec2] eqn:Es. pose proof (np_seg_create si ec1 sw ec2 eq_refl Hn1 Es) as Hn2.
  destruct sw; intros [= <- <- <- <-]; exact Hn2.
Qed.

Lemma np_reset_first c w nbase ec r w' ec' dl : e_fault ec = None -> no_pend (e_disk ec) ->
  reset_first c w nbase ec = (r, w', ec', dl) -> no_pend (e_disk ec').
Proof.
  intros Hf Hn. rewrite reset_first_eq. destruct (0 <? _); [intros [= _ _ <- _]; exact Hn|].
  apply np_mutate_gen_defer; assumption.
Qed.

Lemma res_cases a o r0 : is_mutating o = true ->
  result_eqb (res_class r0) (fst (step_spec a o)) = true ->
  (r0 = ROk /\ spec_accepts a o = Some (snd (step_spec a o))) \/
  (r0 <> ROk /\ spec_accepts a o = None /\ snd (step_spec a o) = a).
Proof.
  intros Hm. unfold spec_accepts.
  assert (Hshape : (fst (step_spec a o) = ROk) \/ (fst (step_spec a o) = RErrOther /\ snd (step_spec a o) = a)).
  { destruct o; try discriminate; cbn [step_spec].
    - destruct (spec_store _ _); cbn; auto.
    - destruct (spec_delete _ _ _); cbn; auto.
    - destruct (key_ok k); cbn; auto. destruct is_nil; cbn; auto. }
  destruct (step_spec a o) as [rs s']. cbn [fst snd] in *. destruct Hshape as [->|(-> & ->)].
  - intros H. left. split; [|reflexivity]. apply res_class_ok. destruct (res_class r0); cbn in H; try discriminate. reflexivity.
  - intros H. right. split; [|auto]. intros ->. cbn in H. discriminate.
Qed.

Lemma in_alts_app_op nom o alts a' : In nom alts -> spec_accepts nom o = Some a' -> In a' (alts ++ app_op o alts).
Proof. intros H E. apply in_or_app. right. eapply in_app_op; eauto. Qed.

(* every disk the shadow run of a mutating call passes through is a recovery candidate *)
Lemma ext_pfx_cand c nb ec ec' nom o r0 alts defer dm :
  ext (DP c nb (fun x => x = nom \/ x = snd (step_spec nom o))) ec ec' -> is_mutating o = true ->
  result_eqb (res_class r0) (fst (step_spec nom o)) = true -> In nom alts -> pfx ec ec' dm ->
  DIs c nb dm /\ In (sp_of dm) (candidates (alts ++ app_op o alts) defer).
Proof.
  intros Hext Hm Hres Hin Hp. destruct (ext_pfx _ _ _ _ Hext Hp) as (HD & HA & _). split; [exact HD|]. apply cand_alts.
  destruct HA as [-> | ->]; [apply in_or_app; left; exact Hin|].
  destruct (res_cases nom o r0 Hm Hres) as [(_ & Hacc)|(_ & _ & ->)]; [eapply in_alts_app_op; eauto|apply in_or_app; left; exact Hin].
Qed.

Lemma post_commit_meta X ec ec' d' ps : post_commit X ec ec' d' ps -> dk_meta d' = Some ps.
Proof. intros (dm & (_ & M & _) & _ & Hm & _). rewrite M. exact Hm. Qed.

(* the clean state a Same outcome leaves *)
Lemma clean_after c nb w0 X e' ec' : LInv c nb w0 (e_disk ec') -> R X e' ec' ->
  LInv c nb w0 (sh (e_disk e')) /\ stale_ok X (e_disk e') /\ sp_of (sh (e_disk e')) = sp_of (e_disk ec').
Proof.
  intros HL (Hrel & _). pose proof HL as (_ & _ & _ & HN & _).
  rewrite (drel_sh_eq _ _ _ Hrel). split; [apply LInv_sh; exact HL|]. split; [eapply drel_stale_ok; eauto|].
  apply (sp_of_sh_clean c nb w0 _ HL).
Qed.

Lemma Mode_live c nb w d nom defer : Live c nb w d defer -> sp_of (sh d) = nom -> Mode c nb w d nom defer.
Proof. intros H E. right. split; [apply (LInv_closed _ _ _ _ (proj1 H))|]. left. auto. Qed.

(* a StoreLogs that resets the empty first segment and then stops *)
Lemma store_twice c w l0 ec ti w1 ec1 dels :
  log_ok l0 -> st_closed w = false -> st_failed w = false -> tail_info (st_segs w) = Some ti ->
  (last_index (st_segs w) (st_tail w) =? 0) && negb (l_index l0 =? si_base ti) = true ->
  reset_first c w (l_index l0) ec = (ROk, w1, ec1, dels) ->
  store_logs c w [l0; l0] ec = (RErrNonMono, w1, delete_files dels ec1).
Proof.
  intros Hok Hcl Hfl Hti Hcond Hr. rewrite store_logs_unfold, Hcl, Hfl. cbv zeta. rewrite Hti, Hcond, Hr.
  apply andb_true_iff in Hcond. destruct Hcond as (Hlast & _). apply N.eqb_eq in Hlast. rewrite Hlast.
  unfold store_go. cbn [check_logs]. change (0 <? 0) with false. cbn [andb].
  destruct (log_ok_encodes l0 Hok) as (b & Eb). rewrite Eb.
  destruct Hok as (_ & H1 & H2 & _).
  replace (0 <? l_index l0) with true by lia. rewrite (N.mod_small (l_index l0 + 1) two64) by exact H2.
  replace (l_index l0 =? l_index l0 + 1) with false by lia. cbn [andb negb]. reflexivity.
Qed.

Lemma twice_frames l0 : log_ok l0 -> frames_size [l0; l0] < two30.
Proof.
  intros (_ & _ & _ & H). rewrite !frames_size_cons. unfold frames_size. cbn [fold_left]. unfold enc_frame_size.
  pose proof (pad_len_le (enc_len l0)). unfold MaxEntrySize in H. unfold two30. lia.
Qed.

Lemma twice_rejected a l0 : log_ok l0 -> step_spec a (OStore [l0; l0]) = (RErrOther, a).
Proof.
  intros (_ & H1 & H2 & _). cbn [step_spec]. unfold spec_store. cbn [consecutive].
  rewrite N.eqb_refl. replace (l_index l0 =? l_index l0 + 1) with false by lia. reflexivity.
Qed.

Lemma drel_trans_nil d1 d2 d3 : drel [] d1 d2 -> drel [] d2 d3 -> drel [] d1 d3.
Proof.
  intros H12 H23. pose proof (drel_strict_in _ _ H12) as F12. pose proof (drel_strict_in _ _ H23) as F23.
  destruct H12 as (_ & A2 & A3 & A4 & A5 & A6). destruct H23 as (_ & B2 & B3 & B4 & B5 & B6).
  assert (HF : Forall2 (fun a b => fst a = fst b /\ frel (snd a) (snd b) /\ df_pend (snd a) = df_pend (snd b)) (dk_files d1) (dk_files d3)).
  { clear - F12 F23. revert F23. generalize (dk_files d3). induction F12 as [|a b l lc (E & (P1 & P2 & P3 & P4) & P) _ IH]; intros l3 F23.
    - inversion F23; constructor.
    - inversion F23 as [|b' c' lc' l3' (E' & (Q1 & Q2 & Q3 & Q4) & Q) F23']; subst. constructor; [|apply IH; exact F23'].
      split; [congruence|]. split; [|congruence]. unfold frel. split; [congruence|]. split; [congruence|]. split; [congruence|]. left. congruence. }
  split.
  { clear - HF. induction HF as [|a b l lc (E & F & _) _ IH]; constructor; auto. }
  split; [congruence|]. split; [congruence|]. split; [congruence|]. split; [exact B5|].
  intros n f h Hf Hh _.
  assert (L13 : lrel (dk_files d1) (dk_files d3)) by (clear - HF; induction HF as [|a b l lc (E & F & _) _ IH]; constructor; auto).
  clear - HF Hf Hh. induction HF as [|[m a] [m' b] l lc (E & _ & P) _ IH]; [discriminate|].
  cbn [fst snd lookup] in *. subst m'. destruct (fname_eqb n m); [inversion Hf; inversion Hh; subst; exact P|auto].
Qed.

Lemma live_out c nb w d nom alts defer :
  Live c nb w d defer -> sp_of (sh d) = nom -> In nom alts -> Mode c nb w d nom defer /\ RD c nb d alts defer.
Proof.
  intros H E Hin. split; [apply Mode_live; assumption|]. apply (live_RD c nb w d alts defer H). rewrite E. exact Hin.
Qed.

Lemma remove_update_comm n m f : forall l, n <> m -> remove m (update n f l) = update n f (remove m l).
Proof.
  intros l Hne. induction l as [|[k g] r IH]; cbn [update remove].
  - apply fname_eqb_neq in Hne. rewrite fname_eqb_sym, Hne. reflexivity.
  - destruct (fname_eqb n k) eqn:E1, (fname_eqb m k) eqn:E2.
    + apply fname_eqb_eq in E1, E2. congruence.
    + cbn [remove update]. apply fname_eqb_eq in E1. subst k. rewrite E2. cbn [update]. rewrite fname_eqb_refl. reflexivity.
    + cbn [remove update]. rewrite E2. reflexivity.
    + cbn [remove update]. rewrite E2, E1, IH. reflexivity.
Qed.

Lemma write_delete_comm d n m off l b : n <> m -> NoDup (map fst (dk_files d)) ->
  apply_act (apply_act d (ADelete m)) (AWrite n off l b) = apply_act (apply_act d (AWrite n off l b)) (ADelete m).
Proof.
  intros Hne ND. cbn [apply_act dk_files dk_meta dk_stable dk_inited]. rewrite (lookup_remove_neq n m _ Hne).
  destruct (lookup n (dk_files d)) as [f|]; [|reflexivity]. cbn [dk_files dk_meta dk_stable dk_inited].
  rewrite remove_update_comm by exact Hne. reflexivity.
Qed.

(* a failed commit that changed nothing: the WAL refuses writes *)
(* equal up to dk_inited *)
Definition deq (d' d : disk) : Prop :=
  dk_files d' = dk_files d /\ dk_meta d' = dk_meta d /\ dk_stable d' = dk_stable d.

Lemma deq_refl d : deq d d. Proof. repeat split. Qed.

Lemma deq_commit_same d ps : dk_meta d = Some ps -> deq (apply_act d (ACommit ps)) d.
Proof. intros H. split; [reflexivity|]. split; [cbn; symmetry; exact H|reflexivity]. Qed.

Lemma Live_deq c nb w d d' defer : deq d' d -> Live c nb w d defer -> Live c nb w d' defer.
Proof.
  intros (Hf & Hm & Hs) (HL & Hst). split.
  - apply (LInv_same c nb w (sh d) (sh d')); [unfold sh, map_files; cbn [dk_files]; rewrite Hf; reflexivity|exact Hm|exact HL].
  - intros n f p Hl Hp. rewrite Hf in Hl. destruct (Hst n f p Hl Hp) as [K|K]; [left; exact K|right].
    eapply unlisted_meta; [exact Hm|exact K].
Qed.

Lemma sp_of_sh_deq d d' : deq d' d -> sp_of (sh d') = sp_of (sh d).
Proof.
  intros (Hf & Hm & Hs). unfold sp_of. cbn [sh map_files dk_stable]. rewrite Hs. f_equal.
  apply dread_ext; [exact Hm|]. intros ps s _ _. unfold file_ents, sh, map_files. cbn [dk_files]. rewrite Hf. reflexivity.
Qed.

Lemma RV_ext c nb w w2 d nom : st_segs w2 = st_segs w -> st_tail w2 = st_tail w -> RV c nb w d nom -> RV c nb w2 d nom.
Proof.
  intros Hs Ht (wc & dc & A & B & C & D & E). exists wc, dc. split; [exact A|]. split; [exact B|].
  split; [congruence|]. split; [congruence|]. rewrite Hs. exact E.
Qed.

Lemma failed_unchanged c nb nb' w d d' nom alts defer defer' :
  nb <= nb' -> incl defer defer' -> deq d' d -> Live c nb w d defer -> st_rotate w = None -> st_closed w = false ->
  sp_of (sh d) = nom -> In nom alts ->
  Mode c nb' (set_failed w) d' nom defer' /\ RD c nb' d' alts defer'.
Proof.
  intros Hnb Hid Hq HLive Hrot Hcl Hsp Hin.
  assert (HL' : Live c nb' w d' defer') by (eapply Live_mono; [exact Hnb|exact Hid|]; eapply Live_deq; eauto).
  pose proof (sp_of_sh_deq d d' Hq) as Hsp'. rewrite Hsp in Hsp'.
  split.
  - right. split; [exact Hcl|]. right. split; [reflexivity|]. split; [exact Hrot|].
    apply (RV_ext c nb' w (set_failed w)); [reflexivity|reflexivity|]. rewrite <- Hsp'. eapply RV_of_live; exact HL'.
  - apply (live_RD c nb' w d' alts defer' HL'). rewrite Hsp'. exact Hin.
Qed.

(* a batch written behind a clean state whose fsync failed *)
Lemma accepted_consecutive nom ls r0 : result_eqb (res_class r0) (fst (step_spec nom (OStore ls))) = true -> r0 = ROk ->
  forall l0 lr, ls = l0 :: lr -> consecutive (l_index l0) ls = true.
Proof.
  intros Hres -> l0 lr ->. destruct (res_cases nom (OStore (l0 :: lr)) ROk eq_refl Hres) as [(_ & Hacc)|(K & _)]; [|congruence].
  unfold spec_accepts in Hacc. cbn [step_spec] in Hacc. unfold spec_store in Hacc.
  destruct (consecutive (l_index l0) (l0 :: lr)); [reflexivity|]. cbn in Hacc. discriminate.
Qed.

Lemma stale_after_append c nb nb' w dc d' X nom alts defer ls tw :
  cfg_ok c -> logs_ok ls -> frames_size ls < two30 -> nb <= nb' ->
  LInv c nb w dc -> st_tail w = Some tw -> app_facts tw ls -> sp_of dc = nom -> In nom alts ->
  In (OStore ls) defer -> (forall l0 lr, ls = l0 :: lr -> consecutive (l_index l0) ls = true) ->
  DIs c nb' (apply_act dc (append_act tw ls)) -> drel X d' (apply_act dc (append_act tw ls)) ->
  ~ In (ws_name tw) X -> (dk_meta d' = Some (persistent w) -> forall n, In n X -> unlisted d' n) ->
  Mode c nb' w d' nom defer /\ RD c nb' d' alts defer.
Proof.
  intros Hc Hok HF Hnb HL Htw (l0 & lr & El & Hidx & His) Hsp Hin Hdef Hcons HD Hrel HtX Hgarb.
  destruct (LInv_view _ _ _ _ HL) as (S & t & f0 & tw0 & V).
  rewrite (lv_tail _ _ _ _ _ _ _ _ V) in Htw. injection Htw as ->.
  pose proof (lv_tw _ _ _ _ _ _ _ _ V) as (Tn & Tb & _ & _ & Tnn & _ & Ti & _).
  assert (Hse : df_seal f0 = 0) by congruence.
  destruct (append_act_pend V ls Hc Hse Hok HF ltac:(rewrite El; discriminate)) as (len & b & Ea & Eb & Hlt).
  destruct (stale_after_write c nb nb' w dc d' X S t f0 tw defer _ len b V Hse Hnb Ea Hlt HD Hrel) as (HLv & Hspv).
  - rewrite <- Tn. exact HtX.
  - apply Hgarb. destruct Hrel as (_ & -> & _). rewrite Ea.
    destruct (write_sync_keys dc (AWrite (name_of t) (df_end f0) len b) I) as (_ & ->). apply HL.
  - rewrite Eb. intros _. split; [split; [exact Hok|exact HF]|]. split; [exact Hdef|]. exists l0, lr.
    split; [exact El|]. split; [rewrite Hidx, Tb, Tnn; reflexivity|apply (Hcons l0 lr El)].
  - rewrite Hsp in Hspv. apply (live_out c nb' w d' nom alts defer); assumption.
Qed.

(* StoreLogs from a live state *)
Lemma live_tail_name c nb w d t tw : LInv c nb w d -> tail_info (st_segs w) = Some t -> st_tail w = Some tw -> ws_name tw = name_of t.
Proof.
  intros HL Ht Htw. destruct (LInv_view _ _ _ _ HL) as (S & t0 & f0 & tw0 & V).
  rewrite (lv_segs _ _ _ _ _ _ _ _ V), tail_info_app in Ht. inversion Ht; subst t0.
  rewrite (lv_tail _ _ _ _ _ _ _ _ V) in Htw. inversion Htw; subst tw0. apply (lv_tw _ _ _ _ _ _ _ _ V).
Qed.

Lemma live_store c nb w e nom alts defer ls :
  cfg_ok c -> logs_ok ls -> frames_size ls < two30 -> nb + 1 < two64 ->
  Live c nb w (e_disk e) defer -> st_rotate w = None -> sp_of (sh (e_disk e)) = nom -> In nom alts ->
  exists r w' e', store_logs c w ls e = (r, w', e') /\ st_closed w' = false /\
    ((r = ROk /\ exists nom', spec_accepts nom (OStore ls) = Some nom' /\
        Live c (nb + 1) w' (e_disk e') defer /\ sp_of (sh (e_disk e')) = nom') \/
     (r <> ROk /\ Mode c (nb + 1) w' (e_disk e') nom (OStore ls :: defer) /\
      RD c (nb + 1) (e_disk e') (alts ++ app_op (OStore ls) alts) (OStore ls :: defer))).
Proof.
  intros Hc Hok HF Hnb HLive Hrot Hsp Hin.
  pose proof HLive as (HL & _). pose proof (LInv_closed _ _ _ _ HL) as Hcl.
  destruct (live_shadow c nb w e defer HLive) as (HR & Hg & Hex & HX).
  set (X := stale_names (e_disk e)) in *. set (ec := shenv e) in *. set (d := e_disk e) in *.
  destruct (store_logs_ok c nb w ec ls nom Hc HL eq_refl Hrot Hnb Hsp Hok HF) as (r0 & w0 & ec' & Hsl & Hres & HL' & Hsp' & Hext).
  destruct (store_logs c w ls e) as [[r w'] e'] eqn:Est. exists r, w', e'. split; [reflexivity|].
  destruct (store_logs_sub _ _ _ _ _ _ _ Est) as (_ & Hms).
  pose proof (fun t n => stale_garbage c nb w d (e_disk e') defer t n HLive Hms) as HXg. fold X in HXg.
  set (o1 := OStore ls) in *. set (defer' := o1 :: defer). set (alts' := alts ++ app_op o1 alts).
  assert (Hia : incl alts alts') by (intros x Hx; apply in_or_app; left; exact Hx).
  assert (Hid : incl defer defer') by (intros x Hx; right; exact Hx).
  assert (Hina : In nom alts') by (apply Hia; exact Hin).
  pose proof (LInv_closed _ _ _ _ HL') as Hcl0.
  assert (Hdone : forall w1, Live c (nb + 1) w1 (e_disk e') defer -> sp_of (sh (e_disk e')) = snd (step_spec nom o1) ->
    (r0 = ROk /\ exists nom', spec_accepts nom o1 = Some nom' /\ Live c (nb + 1) w1 (e_disk e') defer /\ sp_of (sh (e_disk e')) = nom') \/
    (r0 <> ROk /\ Mode c (nb + 1) w1 (e_disk e') nom defer' /\ RD c (nb + 1) (e_disk e') alts' defer')).
  { intros w1 HLv Hsps. destruct (res_cases nom o1 r0 eq_refl Hres) as [(-> & Hacc)|(Hne & Hacc & Hsnd)].
    - left. split; [reflexivity|]. exists (snd (step_spec nom o1)). auto.
    - right. split; [exact Hne|]. rewrite Hsnd in Hsps.
      apply (live_out c (nb + 1) w1 (e_disk e') nom alts' defer'); [eapply Live_mono; [| |exact HLv]; [lia|exact Hid]|exact Hsps|exact Hina]. }
  destruct (store_logs_lock X c w ls e ec r w' e' r0 w0 ec' HR Hg Hex Est Hsl) as [(-> & -> & Hcase)|(Hf' & -> & Hfail)].
  - (* both runs agree *)
    split; [exact Hcl0|].
    destruct Hcase as [(-> & -> & Eec)|[Hfl|[(tw & Htw & -> & HRn)|(ti & Hti & HRd)]]].
    + apply Hdone; [eapply Live_mono; [| |exact HLive]; [lia|apply incl_refl]|]. rewrite Eec in Hsp'. exact Hsp'.
    + destruct HL' as (_ & K & _); congruence.
    + destruct (LInv_view _ _ _ _ HL) as (S & t & f0 & tw0 & V).
      assert (Ht : tail_info (st_segs w) = Some t) by (rewrite (lv_segs _ _ _ _ _ _ _ _ V); apply tail_info_app).
      pose proof (live_tail_name c nb w _ t tw HL Ht Htw) as Tn.
      destruct (Rd_live c (nb + 1) _ w0 e' ec ec' (rem (ws_name tw) X) [] defer Hext HL' (Rd_of_R _ _ _ _ HRn)) as (HLv & Hsps).
      { intros n f p Hx _ _ _. right. apply rem_in in Hx. destruct Hx as (Hx & Hne). apply (HXg t n Ht Hx). rewrite <- Tn. exact Hne. }
      apply Hdone; [exact HLv|rewrite Hsps; exact Hsp'].
    + destruct (Rd_live c (nb + 1) _ w0 e' ec ec' X [name_of ti] defer Hext HL' HRd) as (HLv & Hsps).
      { intros n f p Hx Hni _ _. right. apply (HXg ti n Hti Hx). intros ->. apply Hni. left. reflexivity. }
      apply Hdone; [exact HLv|rewrite Hsps; exact Hsp'].
  - (* the real run failed at an I/O action *)
    assert (Hfin : forall dm, pfx ec ec' dm -> DIs c (nb + 1) dm /\ In (sp_of dm) (candidates alts' defer'))
      by (intros dm; apply (ext_pfx_cand c (nb + 1) ec ec' nom o1 r0 alts defer' dm Hext eq_refl Hres Hin)).
    destruct Hfail as [(-> & Hd)|[(-> & Hd)|[Hfl0|[(-> & ps & ti & Hpc & Hmeta & Hti & Hgone)|[(-> & -> & Hne & tw & Htw & Hfacts & Hrel & Hpfx)|
                        (l0 & ls' & w1 & ec1 & tw1 & dm & ti & -> & Hreset & -> & Htw1 & Hti & _ & Hfl & Hcond & Hfacts & -> & Hdm & Hpfx & Hpfx1 & Hfresh & Hrel)]]]]].
    + (* nothing happened *)
      split; [exact Hcl|]. right. split; [discriminate|]. rewrite Hd.
      apply (live_out c (nb + 1) w d nom alts' defer'); [eapply Live_mono; [| |exact HLive]; [lia|exact Hid]|exact Hsp|exact Hina].
    + (* the commit of the reset failed: the WAL refuses writes, the disk is as it was *)
      split; [exact Hcl|]. right. split; [discriminate|].
      apply (failed_unchanged c nb (nb + 1) w d (e_disk e') nom alts' defer defer' ltac:(lia) Hid); try assumption.
      destruct Hd as [-> | ->]; [apply deq_refl|apply deq_commit_same; apply (live_meta c nb w d HL)].
    + destruct HL' as (_ & K & _); congruence.
    + (* the reset was committed but the new tail could not be created *)
      split; [exact Hcl|]. right. split; [discriminate|].
      pose proof (post_commit_meta _ _ _ _ _ Hpc) as Hmd'.
      apply (fail_after_commit c nb (nb + 1) (set_failed w) w (sh d) (e_disk e') X nom alts' defer' ps ec ec' ltac:(lia) HL eq_refl Hsp eq_refl eq_refl eq_refl Hrot Hcl Hpc Hfin).
      * intros n Hx. destruct (HX n Hx) as [K|Hu]; [left; exact K|right].
        intros s Hs. apply (Hu (persistent w) s (live_meta c nb w d HL) Hs).
      * intros n s Hx Hs. destruct (mem_name n [name_of ti]) eqn:En.
        -- apply mem_name_spec in En. destruct En as [<-|[]].
           pose proof HL' as (_ & _ & _ & _ & Hm0 & _). rewrite Hmeta in Hm0. inversion Hm0; subst ps.
           intros Hn. apply (LInv_listed_files c (nb + 1) w0 _ s HL' Hs). rewrite Hn. exact Hgone.
        -- apply (HXg ti n Hti Hx (fun K => not_mem_name _ _ En (or_introl (eq_sym K))) ps s Hmd' Hs).
    + (* the batch was written but not synced *)
      split; [exact Hcl|]. right. split; [discriminate|].
      destruct (LInv_view _ _ _ _ HL) as (S & t & f0 & tw0 & V).
      assert (Ht : tail_info (st_segs w) = Some t) by (rewrite (lv_segs _ _ _ _ _ _ _ _ V); apply tail_info_app).
      pose proof (live_tail_name c nb w _ t tw HL Ht Htw) as Tn.
      change (e_disk ec) with (sh d) in Hrel, Hpfx.
      apply (stale_after_append c nb (nb + 1) w (sh d) (e_disk e') (rem (ws_name tw) X) nom alts' defer' ls tw Hc Hok HF ltac:(lia)
               HL Htw Hfacts Hsp Hina (or_introl eq_refl) (accepted_consecutive nom ls ROk Hres eq_refl) (proj1 (Hfin _ Hpfx)) Hrel (rem_not _ _)).
      intros _ n Hx. apply rem_in in Hx. destruct Hx as (Hx & Hn). apply (HXg t n Ht Hx). rewrite <- Tn. exact Hn.
    + (* the empty first segment was replaced, then the append failed *)
      assert (Hl0 : log_ok l0) by (inversion Hok; assumption).
      pose proof (store_twice c w l0 ec ti w1 ec1 [name_of ti] Hl0 Hcl Hfl Hti Hcond Hreset) as Htw.
      destruct (store_logs_ok c nb w ec [l0; l0] nom Hc HL eq_refl Hrot Hnb Hsp ltac:(constructor; [exact Hl0|constructor; [exact Hl0|constructor]]) (twice_frames l0 Hl0))
        as (rh & wh & ech & Hslh & _ & HLh & Hsph & _).
      remember (delete_files [name_of ti] ec1) as ecd eqn:Hecd in Htw.
      rewrite Htw in Hslh. injection Hslh as Er Ew Ee. subst rh wh ech. rewrite Hecd in HLh, Hsph. clear Hecd.
      rewrite (twice_rejected nom l0 Hl0) in Hsph. cbn [snd] in Hsph.
      pose proof (sh_reset_first c w (l_index l0) ec _ _ _ _ eq_refl Hreset) as Hsh1.
      rewrite (delete_files_disk _ _ (proj2 Hsh1)) in HLh, Hsph.
      set (m := name_of ti) in *. set (d1 := del_disk [m] (e_disk ec1)) in *.
      split; [apply (LInv_closed _ _ _ _ HLh)|]. right. split; [discriminate|].
      (* the state right after the reset, the old tail file not yet deleted *)
      destruct (Hfin _ Hpfx1) as (HD1 & _).
      assert (HN1 : no_pend (e_disk ec1)) by (apply (np_reset_first c w (l_index l0) ec _ _ _ _ eq_refl (no_pend_sh d) Hreset)).
      pose proof (LInv_undelete c (nb + 1) w1 (e_disk ec1) [m] HLh HD1 HN1) as HL1.
      pose proof (DIs_NoDup _ _ _ HD1) as ND1.
      assert (Hlm : lookup m (dk_files d1) = None).
      { unfold d1. rewrite (del_disk_lookup [m] _ m ND1). cbn [mem_name existsb]. rewrite fname_eqb_refl. reflexivity. }
      assert (Hunlm : forall s, In s (st_segs w1) -> name_of s <> m).
      { intros s Hs Hn. apply (LInv_listed_files c (nb + 1) w1 d1 s HLh Hs). rewrite Hn. exact Hlm. }
      assert (Hsp1 : sp_of (e_disk ec1) = nom) by (rewrite <- (sp_of_del c (nb + 1) w1 (e_disk ec1) [m] HLh ND1); exact Hsph).
      assert (Hmeta1 : dk_meta (e_disk ec1) = Some (persistent w1)) by apply HL1.
      (* the names in X are not listed any more *)
      assert (HXu : dk_meta (e_disk e') = Some (persistent w1) -> forall n, In n X -> unlisted (e_disk e') n).
      { intros Hme n Hx. destruct (mem_name n [m]) eqn:En.
        - apply mem_name_spec in En. destruct En as [<-|[]]. intros ps s Hm Hs. rewrite Hme in Hm. inversion Hm; subst ps. apply (Hunlm s Hs).
        - apply (HXg ti n Hti Hx). intros K. apply (not_mem_name _ _ En). left. symmetry. exact K. }
      assert (Hclean : forall X2 d2, drel X2 (e_disk e') d2 -> incl X2 X -> LInv c (nb + 1) w1 d2 -> sp_of d2 = nom ->
                Mode c (nb + 1) w1 (e_disk e') nom defer' /\ RD c (nb + 1) (e_disk e') alts' defer').
      { intros X2 d2 Hr2 Hi2 HL2 Hsp2.
        assert (HLs : LInv c (nb + 1) w1 (sh (e_disk e'))) by (rewrite (drel_sh_eq _ _ _ Hr2); apply LInv_sh; exact HL2).
        assert (Hsps : sp_of (sh (e_disk e')) = nom) by (rewrite (drel_sh_eq _ _ _ Hr2), (sp_of_sh_clean c _ w1 _ HL2); exact Hsp2).
        apply (live_out c (nb + 1) w1 (e_disk e') nom alts' defer'); [|exact Hsps|exact Hina].
        split; [exact HLs|]. intros n f p Hl Hp. right.
        apply (HXu (eq_trans (proj1 (proj2 Hr2)) (proj1 (proj2 (proj2 (proj2 (proj2 HL2)))))) n). apply Hi2.
        apply (drel_stale_ok _ _ _ Hr2 (proj1 (proj2 (proj2 (proj2 HL2)))) n f Hl). congruence. }
      destruct Hdm as [-> | ->].
      * (* the write failed: a clean state *)
        destruct Hrel as [Hrel|Hrel].
        -- apply (Hclean _ _ Hrel (rem_incl _ _) HLh Hsph).
        -- apply (Hclean _ _ Hrel (incl_refl _) HL1 Hsp1).
      * (* the fsync failed: the batch sits behind the new, empty tail *)
        set (a := append_act tw1 (l0 :: ls')) in *.
        destruct (Hfin _ Hpfx) as (HDa & _).
        destruct Hrel as [Hrel|Hrel].
        -- (* the old tail file was deleted *)
           destruct (append_act_form tw1 (l0 :: ls')) as (len & b & Ea). fold a in Ea.
           assert (Hnm : ws_name tw1 <> m).
           { intros K. apply (LInv_listed_files c nb w _ ti HL (tail_info_In _ _ Hti)). fold m. rewrite <- K.
             unfold d. rewrite lookup_sh, Hfresh. reflexivity. }
           assert (Hcomm : apply_act d1 a = del_disk [m] (apply_act (e_disk ec1) a)).
           { rewrite Ea. unfold d1, del_disk. cbn [fold_left]. apply write_delete_comm; assumption. }
           rewrite <- Hcomm in Hrel.
           assert (Hmetaa : dk_meta (apply_act (e_disk ec1) a) = Some (persistent w1)).
           { rewrite Ea. destruct (write_sync_keys (e_disk ec1) (AWrite (ws_name tw1) (ws_off tw1) len b) I) as (_ & K2). rewrite K2. exact Hmeta1. }
           assert (Hunl : listed (ps_segs (persistent w1)) m = false).
           { destruct (listed (ps_segs (persistent w1)) m) eqn:El'; [|reflexivity]. exfalso.
             apply listed_spec in El'. destruct El' as (s & Hs & Hn). apply (Hunlm s Hs Hn). }
           assert (HDw : DIs c (nb + 1) (apply_act d1 a)).
           { rewrite Hcomm. unfold del_disk. cbn [fold_left]. apply (DIs_delete c (nb + 1) _ m _ HDa Hmetaa Hunl). }
           apply (stale_after_append c (nb + 1) (nb + 1) w1 d1 (e_disk e') (rem m X) nom alts' defer' _ tw1 Hc Hok HF (N.le_refl _)
                    HLh Htw1 Hfacts Hsph Hina (or_introl eq_refl) (accepted_consecutive nom _ ROk Hres eq_refl) HDw Hrel).
           ++ intros K. apply rem_in in K. destruct K as (K & _). apply (Hex _ K). exact Hfresh.
           ++ intros Hm n Hx. apply (HXu Hm n (rem_incl _ _ _ Hx)).
        -- (* its deletion failed *)
           apply (stale_after_append c (nb + 1) (nb + 1) w1 (e_disk ec1) (e_disk e') X nom alts' defer' _ tw1 Hc Hok HF (N.le_refl _)
                    HL1 Htw1 Hfacts Hsp1 Hina (or_introl eq_refl) (accepted_consecutive nom _ ROk Hres eq_refl) HDa Hrel).
           ++ intros K. apply (Hex _ K). exact Hfresh.
           ++ exact HXu.
Qed.
