(* FaultFacts.v -- local consequences of I/O errors in the WAL model (C10):
   rollback of the segment writer, no in-memory change when the metadata commit
   fails, refusal of writes after a failed post-commit file creation. *)
From RW Require Import Base.Bytes Fmt.Codec Fmt.Frame Wal.Model Gen.Constants.
Open Scope N_scope.

(* a failed action has no effect -- except a BoltDB transaction under fx_land, which is
   reported as failed and found applied: such a commit is said to have landed *)
Lemma io_fail_no_effect a e e' : io a e = (false, e') ->
  e_disk e' = e_disk e \/
  (is_txn a = true /\ fx_land (e_fx e) = true /\ e_fault e = Some O /\ e_disk e' = apply_act (e_disk e) a).
Proof.
  unfold io. destruct (is_delete a); [destruct (armed e && fx_del (e_fx e)); intros H; inversion H; left; reflexivity|].
  destruct (e_fault e) as [[|n]|]; [|intros H; inversion H..].
  destruct (is_txn a) eqn:Et, (fx_land (e_fx e)) eqn:El; cbn [andb]; intros H; inversion H; subst; cbn [e_disk]; auto.
Qed.

Lemma io_fail_no_effect_plain a e e' : is_txn a = false -> io a e = (false, e') -> e_disk e' = e_disk e.
Proof. intros Ht H. destruct (io_fail_no_effect a e e' H) as [K|(K & _)]; [exact K|congruence]. Qed.

(* Writer.Append: whatever fails (write or fsync), the writer state is the one
   before the call, so a failed batch is never visible through ws_commit_idx *)
Lemma seg_append_error_rolls_back w ls e r w' e' :
  seg_append w ls e = (r, w', e') -> r <> ROk -> w' = w.
Proof.
  unfold seg_append. destruct ls as [|l0 ls']; [intros H; inversion H; congruence|].
  destruct (0 <? ws_index_start w); [intros H; inversion H; reflexivity|].
  destruct (existsb _ _); [intros H; inversion H; reflexivity|].
  destruct (negb _); [intros H; inversion H; reflexivity|].
  match goal with |- context [io ?a e] => destruct (io a e) as [ok1 e1] end.
  destruct ok1; cbn [negb].
  - match goal with |- context [io ?a e1] => destruct (io a e1) as [ok2 e2] end.
    destruct ok2; cbn [negb]; intros H; inversion H; subst; intros Hr; congruence.
  - intros H; inversion H; reflexivity.
Qed.

Lemma seg_force_seal_error_rolls_back w e r w' e' :
  seg_force_seal w e = (r, w', e') -> r <> ROk -> w' = w.
Proof.
  unfold seg_force_seal. destruct (0 <? ws_index_start w); [intros H; inversion H; congruence|].
  destruct (ws_n w =? 0); [intros H; inversion H; reflexivity|].
  match goal with |- context [io ?a e] => destruct (io a e) as [ok1 e1] end.
  destruct ok1; cbn [negb].
  - match goal with |- context [io ?a e1] => destruct (io a e1) as [ok2 e2] end.
    destruct ok2; cbn [negb]; intros H; inversion H; subst; intros Hr; congruence.
  - intros H; inversion H; reflexivity.
Qed.

(* mutateStateLocked: if the metadata commit fails nothing is published and the WAL
   refuses writes from then on (the commit may have reached the disk) *)
Definition wal_failed (w : wal) : wal :=
  {| st_next_id := st_next_id w; st_segs := st_segs w; st_tail := st_tail w;
     st_rotate := st_rotate w; st_failed := true; st_closed := st_closed w |}.

Lemma mutate_commit_failure_fails_wal w t e e1 :
  io (ACommit {| ps_next_id := tx_next_id t; ps_segs := tx_segs t |}) e = (false, e1) ->
  mutate w t e = (RErrIO, wal_failed w, e1).
Proof. intros H. unfold mutate, mutate_gen. rewrite H. reflexivity. Qed.

(* after a failed post-commit creation the WAL refuses every further write
   without touching the disk *)
Lemma failed_wal_refuses_store c w ls e :
  st_closed w = false -> st_failed w = true -> ls <> [] ->
  store_logs c w ls e = (RErrFailed, w, e).
Proof.
  intros Hc Hf Hl. unfold store_logs. rewrite Hc. destruct ls; [congruence|]. rewrite Hf. reflexivity.
Qed.

Lemma failed_wal_refuses_delete c w mn mx e :
  st_closed w = false -> st_failed w = true -> mn <= mx ->
  delete_range c w mn mx e = (RErrFailed, w, e).
Proof.
  intros Hc Hf Hm. unfold delete_range. rewrite Hc.
  replace (mx <? mn) with false by (symmetry; apply N.ltb_ge; exact Hm).
  rewrite Hf. reflexivity.
Qed.
