(* CrashFacts4.v -- Open (recovery) on any disk satisfying the structural
   invariant: it succeeds, every intermediate disk keeps the invariant and the
   reading, the result satisfies the live invariant and the directory is exact. *)
From RW Require Import Base.Bytes Base.BytesFacts Fmt.Codec Fmt.Frame Wal.Model Wal.Spec Wal.Hist
  Wal.CrashInv Wal.ModelFacts Wal.CrashFacts0 Wal.CrashFacts1 Wal.CrashFacts2 Wal.CrashFacts3 Gen.Constants Base.LiaSetup.
Open Scope N_scope.

Lemma file_ents_no_pend n d : no_pend d -> file_ents n (unpend d) = file_ents n d.
Proof.
  intros H. rewrite file_ents_unpend. unfold file_ents. destruct (lookup n (dk_files d)) as [f|] eqn:E; [|reflexivity].
  unfold cur_ents. rewrite (H _ _ E). reflexivity.
Qed.
Lemma sp_of_no_pend d : no_pend d -> sp_of (unpend d) = sp_of d.
Proof.
  intros H. unfold sp_of. cbn [unpend dk_stable]. f_equal. apply dread_ext; [reflexivity|].
  intros. apply file_ents_no_pend. exact H.
Qed.
(* [DP] has two readings, every pending batch kept or every one lost, while a crash
   chooses file by file: CrashFacts2.crash_reading is why the two cover every choice. *)
Lemma DP_no_pend c nb (A : spst -> Prop) d : DIs c nb d -> no_pend d -> A (sp_of d) -> DP c nb A d.
Proof. intros H1 H2 H3. split; [exact H1|]. split; [exact H3|]. rewrite sp_of_no_pend; assumption. Qed.

Lemma no_pend_delete d n : NoDup (map fst (dk_files d)) -> no_pend d -> no_pend (apply_act d (ADelete n)).
Proof.
  intros ND H m f. cbn [apply_act dk_files]. rewrite lookup_remove by exact ND.
  destruct (fname_eqb m n); [discriminate|apply H].
Qed.
Lemma no_pend_create d n sz : no_pend d -> no_pend (apply_act d (ACreate n sz)).
Proof.
  intros H m f. cbn [apply_act dk_files]. rewrite lookup_update.
  destruct (fname_eqb m n); [intros E; inversion E; reflexivity|apply H].
Qed.
Lemma no_pend_same d d' : dk_files d' = dk_files d -> no_pend d -> no_pend d'.
Proof. intros Hf H m f. rewrite Hf. apply H. Qed.

Lemma seg_set_snoc si l : Forall (fun x => si_base x < si_base si) l -> seg_set si l = l ++ [si].
Proof.
  induction l as [|x r IH]; intros H; cbn [seg_set app]; [reflexivity|].
  inversion H as [|? ? Hx Hr]; subst.
  destruct (si_base si <? si_base x) eqn:E1; [lia|].
  destruct (si_base si =? si_base x) eqn:E2; [lia|]. rewrite IH by exact Hr. reflexivity.
Qed.

Lemma seg_set_last si S t :
  Forall (fun x => si_base x < si_base t) S -> si_base si = si_base t -> seg_set si (S ++ [t]) = S ++ [si].
Proof.
  induction S as [|x r IH]; intros H Hb; cbn [seg_set app].
  - destruct (si_base si <? si_base t) eqn:E1; [lia|].
    destruct (si_base si =? si_base t) eqn:E2; [reflexivity|lia].
  - inversion H as [|? ? Hx Hr]; subst.
    destruct (si_base si <? si_base x) eqn:E1; [lia|].
    destruct (si_base si =? si_base x) eqn:E2; [lia|]. rewrite IH by assumption. reflexivity.
Qed.

(* createNextSegment after the last segment of the list has been replaced by its sealed
   version k': the new tail starts right after k' *)
Lemma seal_create_next c nid K k k' :
  Forall (fun x => si_base x < si_base k) K -> si_base k' = si_base k -> si_base k' <= si_max k' ->
  si_max k' + 1 < two64 -> nid + 1 < two64 ->
  let si := new_segment c nid (si_max k' + 1) in
  create_next c nid (seg_set k' (K ++ [k])) 0 = (nid + 1, (K ++ [k']) ++ [si], si).
Proof.
  intros HK Hb Hbm Hmx Hnid si. rewrite (seg_set_last k' K k HK Hb). unfold create_next. rewrite tail_info_app.
  rewrite (N.mod_small (si_max k' + 1) two64), (N.mod_small (nid + 1) two64) by assumption. fold si.
  rewrite seg_set_snoc; [reflexivity|]. apply Forall_app. split.
  - eapply Forall_impl; [|exact HK]. intros x Hx. cbn beta in *. cbn [si new_segment si_base]. lia.
  - constructor; [cbn [si new_segment si_base]; lia|constructor].
Qed.

Lemma listed_app A B n : listed (A ++ B) n = listed A n || listed B n.
Proof. unfold listed. apply existsb_app. Qed.
Lemma listed_single s n : listed [s] n = fname_eqb (name_of s) n.
Proof. unfold listed. cbn. apply orb_false_r. Qed.

(* bases of a well-formed list are below the tail's *)
Lemma DIs_bases_lt c nb d ps S t :
  DIs c nb d -> dk_meta d = Some ps -> ps_segs ps = S ++ [t] ->
  Forall (fun s => si_base s < si_base t) S.
Proof.
  intros HD Hm Hs. destruct (DIs_parts _ _ _ _ _ _ HD Hm Hs) as (_ & _ & _ & Hwf & Hl & Hso & _).
  assert (Hsst : Forall sst S). { eapply Forall_sst; [|exact Hso]. apply Forall_app in Hwf. apply Hwf. }
  pose proof (linked_app_lt S t Hl Hsst) as Hlt. rewrite Forall_forall in *.
  intros s Hin. specialize (Hlt s Hin). specialize (Hsst s Hin). unfold sst in Hsst. lia.
Qed.

Definition del_disk (ns : list fname) (d : disk) : disk :=
  fold_left (fun d n => apply_act d (ADelete n)) ns d.

Lemma delete_files_disk ns : forall e, e_fault e = None -> e_disk (delete_files ns e) = del_disk ns (e_disk e).
Proof.
  unfold delete_files, del_disk. induction ns as [|n ns IH]; intros e Hf; cbn [fold_left]; [reflexivity|].
  rewrite (io_ok (ADelete n) e Hf). cbn [snd]. rewrite IH by reflexivity. reflexivity.
Qed.

Lemma del_disk_lookup ns : forall d n, NoDup (map fst (dk_files d)) ->
  lookup n (dk_files (del_disk ns d)) = if mem_name n ns then None else lookup n (dk_files d).
Proof.
  unfold del_disk. induction ns as [|m ns IH]; intros d n ND; cbn [fold_left mem_name existsb]; [reflexivity|].
  change (existsb (fname_eqb n) ns) with (mem_name n ns).
  rewrite IH by (cbn; apply remove_NoDup; exact ND).
  cbn [apply_act dk_files]. rewrite lookup_remove by exact ND.
  destruct (fname_eqb n m); destruct (mem_name n ns); reflexivity.
Qed.

Lemma del_disk_NoDup ns : forall d, NoDup (map fst (dk_files d)) -> NoDup (map fst (dk_files (del_disk ns d))).
Proof.
  unfold del_disk. induction ns as [|m ns IH]; intros d ND; cbn [fold_left]; [exact ND|].
  apply IH. cbn. apply remove_NoDup. exact ND.
Qed.

Lemma del_disk_meta ns : forall d, dk_meta (del_disk ns d) = dk_meta d /\ dk_stable (del_disk ns d) = dk_stable d.
Proof.
  unfold del_disk. induction ns as [|m ns IH]; intros d; cbn [fold_left]; [auto|].
  destruct (IH (apply_act d (ADelete m))) as (H1 & H2). rewrite H1, H2. auto.
Qed.

Lemma sp_of_del_disk del ps : forall d,
  dk_meta d = Some ps -> (forall n, In n del -> listed (ps_segs ps) n = false) ->
  sp_of (del_disk del d) = sp_of d.
Proof.
  induction del as [|n del IH]; intros d Hm Hdel; [reflexivity|].
  unfold del_disk. cbn [fold_left]. fold (del_disk del (apply_act d (ADelete n))).
  rewrite IH; [|exact Hm|intros m Hin; apply Hdel; right; exact Hin].
  unfold sp_of. cbn [apply_act dk_stable]. f_equal. apply (dread_delete d n ps Hm). apply Hdel. left; reflexivity.
Qed.

Lemma mem_name_spec n l : mem_name n l = true <-> In n l.
Proof.
  unfold mem_name. rewrite existsb_exists. split.
  - intros (x & Hin & E). apply fname_eqb_eq in E. subst. exact Hin.
  - intros H. exists n. split; [exact H|apply fname_eqb_refl].
Qed.

Definition rec_wseg (t : seginfo) (f : dfile) : wseg :=
  {| ws_name := name_of t; ws_base := si_base t; ws_min := si_min t; ws_limit := si_size_limit t;
     ws_n := llen (cur_ents f); ws_off := cur_end f; ws_hdr := (cur_end f =? 0);
     ws_index_start := cur_seal f;
     ws_commit_idx := if llen (cur_ents f) =? 0 then 0 else si_base t + llen (cur_ents f) - 1 |}.

Lemma seg_recover_some t e f :
  lookup (name_of t) (dk_files (e_disk e)) = Some f -> seg_recover t e = Some (Some (rec_wseg t f)).
Proof. intros H. unfold seg_recover. rewrite H. reflexivity. Qed.
Lemma seg_recover_none t e :
  lookup (name_of t) (dk_files (e_disk e)) = None -> seg_recover t e = None.
Proof. intros H. unfold seg_recover. rewrite H. reflexivity. Qed.

Lemma seg_create_ok si e :
  e_fault e = None -> 1 <= si_base si -> lookup (name_of si) (dk_files (e_disk e)) = None ->
  seg_create si e = (Some (new_wseg si), io_env (ACreate (name_of si) (si_size_limit si)) e).
Proof.
  intros Hf Hb Hn. unfold seg_create. destruct (si_base si =? 0) eqn:E; [lia|].
  rewrite Hn. rewrite (io_ok _ e Hf). reflexivity.
Qed.

Lemma open_segs_sealed c S : forall acc rest e,
  Forall (sealed_ok (e_disk e)) S -> Forall (fun s => si_codec s = c_codec c) S ->
  open_segs c (S ++ rest) acc e = open_segs c rest (rev S ++ acc) e.
Proof.
  induction S as [|s S IH]; intros acc rest e Hso Hc; [reflexivity|].
  inversion Hso as [|? ? Hs Hso']; subst. inversion Hc as [|? ? Hcs Hc']; subst.
  destruct Hs as (Hse & _ & f & Hf & _ & Hp & He & _).
  cbn [app open_segs]. rewrite Hcs, N.eqb_refl, Hse. cbn [negb]. rewrite Hf.
  assert (Hce : cur_end f =? 0 = false). { unfold cur_end. rewrite Hp. lia. }
  rewrite Hce. rewrite IH by assumption. cbn [rev]. rewrite <- app_assoc. reflexivity.
Qed.

Lemma rev_append_rev_snoc {A} (S : list A) x : rev_append (rev S ++ []) [x] = S ++ [x].
Proof. rewrite app_nil_r, rev_append_rev, rev_involutive. reflexivity. Qed.

(* a crashed disk before Open's cleanup: invariant, nothing pending, reads as s0 *)
Definition OQ (c : cfg) (nb : N) (s0 : spst) (d : disk) : Prop :=
  DIs c nb d /\ no_pend d /\ sp_of d = s0.

Lemma OQ_DP c nb s0 d : OQ c nb s0 d -> DP c nb (eq s0) d.
Proof. intros (H1 & H2 & H3). apply DP_no_pend; auto. Qed.

Lemma OQ_delete c nb s0 d n ps :
  OQ c nb s0 d -> dk_meta d = Some ps -> listed (ps_segs ps) n = false -> OQ c nb s0 (apply_act d (ADelete n)).
Proof.
  intros (H1 & H2 & H3) Hm Hl. split; [eapply DIs_delete; eauto|]. split.
  - apply no_pend_delete; [eapply DIs_NoDup; eauto|exact H2].
  - unfold sp_of in *. rewrite (dread_delete d n ps Hm Hl). exact H3.
Qed.

Lemma LInv_delete c nb w d n :
  LInv c nb w d -> listed (st_segs w) n = false -> LInv c nb w (apply_act d (ADelete n)).
Proof.
  intros (H1 & H2 & H3 & H4 & H5 & t & f & tw & Ht & Hf & Htw & Hok & Hrot) Hl.
  split; [exact H1|]. split; [exact H2|]. split; [eapply DIs_delete; eauto|]. split.
  - apply no_pend_delete; [eapply DIs_NoDup; eauto|exact H4].
  - split; [exact H5|]. exists t, f, tw. split; [exact Ht|]. split; [|auto].
    cbn [apply_act dk_files]. rewrite lookup_remove_neq; [exact Hf|].
    eapply listed_false_neq; [exact Hl|]. apply tail_info_In. exact Ht.
Qed.

Lemma LInv_del_disk c nb w ns : forall d,
  LInv c nb w d -> (forall n, In n ns -> listed (st_segs w) n = false) -> LInv c nb w (del_disk ns d).
Proof.
  unfold del_disk. induction ns as [|n ns IH]; intros d HL Hns; cbn [fold_left]; [exact HL|].
  apply IH; [apply LInv_delete; [exact HL|apply Hns; left; reflexivity]|].
  intros m Hm. apply Hns. right. exact Hm.
Qed.

Lemma dir_exact_intro d ps :
  dk_meta d = Some ps -> NoDup (map fst (dk_files d)) ->
  (forall n f, lookup n (dk_files d) = Some f -> listed (ps_segs ps) n = true) ->
  (forall s, In s (ps_segs ps) -> lookup (name_of s) (dk_files d) <> None) ->
  dir_exact d = true.
Proof.
  intros Hm ND H1 H2. unfold dir_exact. rewrite Hm. apply andb_true_iff. split.
  - apply forallb_forall. intros [n f] Hin. cbn [fst]. eapply H1. apply In_lookup; eauto.
  - apply forallb_forall. intros s Hin. specialize (H2 s Hin).
    destruct (lookup (name_of s) (dk_files d)); [reflexivity|congruence].
Qed.

Lemma LInv_listed_files c nb w d s :
  LInv c nb w d -> In s (st_segs w) -> lookup (name_of s) (dk_files d) <> None.
Proof.
  intros (H1 & H2 & H3 & H4 & H5 & t & f & tw & Ht & Hf & Htw & Hok & Hrot) Hin.
  destruct (DIs_segs _ _ _ _ H3 H5) as (S & t' & Hs). cbn [persistent ps_segs] in Hs.
  rewrite Hs, tail_info_app in Ht. inversion Ht; subst t'.
  destruct (DIs_parts _ _ _ _ _ _ H3 H5 Hs) as (_ & _ & _ & _ & _ & Hso & _).
  rewrite Hs in Hin. apply in_app_or in Hin. destruct Hin as [Hin|[<-|[]]].
  - rewrite Forall_forall in Hso. destruct (Hso s Hin) as (_ & _ & g & Hg & _). congruence.
  - congruence.
Qed.

Lemma open_finish c nb s0 e0 e3 w garbage :
  ext (OQ c nb s0) e0 e3 -> LInv c nb w (e_disk e3) ->
  (forall n, In n garbage -> listed (st_segs w) n = false) ->
  (forall n f, lookup n (dk_files (e_disk e3)) = Some f -> In n garbage \/ listed (st_segs w) n = true) ->
  ext (OQ c nb s0) e0 (delete_files garbage e3) /\ LInv c nb w (e_disk (delete_files garbage e3)) /\
  dir_exact (e_disk (delete_files garbage e3)) = true.
Proof.
  intros He HL Hg Hall.
  pose proof (ext_fault _ _ _ He) as Hf3.
  assert (HL4 : LInv c nb w (e_disk (delete_files garbage e3))).
  { rewrite delete_files_disk by exact Hf3. apply LInv_del_disk; assumption. }
  destruct HL as (H1 & H2 & H3 & H4 & H5 & HLr).
  split; [|split; [exact HL4|]].
  - apply (ext_delete_unlisted _ e0 e3 (persistent w) garbage He H5). intros d n HQ Hm Hin.
    eapply OQ_delete; [exact HQ|exact Hm|apply Hg, Hin].
  - destruct HL4 as (_ & _ & HD4 & _ & Hm4 & _).
    apply (dir_exact_intro _ (persistent w) Hm4); [eapply DIs_NoDup; eauto| |].
    + intros n f. rewrite delete_files_disk by exact Hf3.
      rewrite del_disk_lookup by (eapply DIs_NoDup; eauto).
      destruct (mem_name n garbage) eqn:E; [discriminate|]. intros Hl.
      destruct (Hall _ _ Hl) as [Hin|Hli]; [|exact Hli].
      apply mem_name_spec in Hin. congruence.
    + intros s Hin. eapply LInv_listed_files; [|exact Hin].
      rewrite delete_files_disk by exact Hf3. apply LInv_del_disk; [|assumption].
      split; [exact H1|]. split; [exact H2|]. split; [exact H3|]. split; [exact H4|]. split; [exact H5|exact HLr].
Qed.

Definition open_newtail (c : cfg) (nid0 : N) (segs : list seginfo) (garbage : list fname) (e1 : env)
  : open_res * env :=
  let base := match tail_info segs with Some t => (si_max t + 1) mod two64 | None => 1 end in
  let si := new_segment c nid0 base in
  let nid := (nid0 + 1) mod two64 in
  let segs' := seg_set si segs in
  let '(ok1, e2) := io (ACommit {| ps_next_id := nid; ps_segs := segs' |}) e1 in
  if negb ok1 then (OErr RErrIO, e2)
  else let '(sw, e3) := seg_create si e2 in
       match sw with
       | None => (OErr RErrIO, e3)
       | Some sw =>
           let e4 := delete_files garbage e3 in
           (OOk {| st_next_id := nid; st_segs := segs'; st_tail := Some sw;
                   st_rotate := None; st_failed := false; st_closed := false |}, e4)
       end.

Lemma tw_ok_fresh si sz : tw_ok si (fresh_file sz) (new_wseg si).
Proof.
  unfold tw_ok, new_wseg, fresh_file, tl_of. cbn. change (llen (@nil log)) with 0. cbn.
  repeat split; try reflexivity; lia.
Qed.

Lemma open_newtail_ok c nb s0 e0 e1 nid0 S1 garbage base :
  cfg_ok c -> ext (OQ c nb s0) e0 e1 ->
  (forall ps, dk_meta (e_disk e1) = Some ps -> ps_next_id ps <= nid0) ->
  nid0 + 1 <= nb -> nb < two64 ->
  Forall (seg_wf c nid0) S1 -> Forall (sealed_ok (e_disk e1)) S1 ->
  base = match tail_info S1 with Some t => si_max t + 1 | None => 1 end ->
  1 <= base -> base < two64 ->
  linked (S1 ++ [new_segment c nid0 base]) -> Forall (fun x => si_base x < base) S1 ->
  slog_of (hd_min S1 (new_segment c nid0 base)) (sealed_es (e_disk e1) S1) = sp_log s0 ->
  (forall n, In n garbage -> listed S1 n = false /\ lookup n (dk_files (e_disk e1)) <> None) ->
  (forall n f, lookup n (dk_files (e_disk e1)) = Some f -> In n garbage \/ listed S1 n = true) ->
  exists w e', open_newtail c nid0 S1 garbage e1 = (OOk w, e') /\ ext (OQ c nb s0) e0 e' /\
               LInv c nb w (e_disk e') /\ dir_exact (e_disk e') = true.
Proof.
  intros Hc He Hnid Hnb Hnb2 Hwf Hso Hbase Hb1 Hb2 Hl Hlt Hrd Hg Hall.
  pose proof (ext_final _ _ _ He) as (HD1 & HN1 & HS1). pose proof (ext_fault _ _ _ He) as Hf1.
  set (d1 := e_disk e1) in *.
  unfold open_newtail.
  assert (Eb : match tail_info S1 with Some t => (si_max t + 1) mod two64 | None => 1 end = base).
  { rewrite Hbase. destruct (tail_info S1); [|reflexivity]. apply N.mod_small. clear - Hbase Hb2. lia. }
  rewrite Eb. set (si := new_segment c nid0 base) in *.
  assert (En : (nid0 + 1) mod two64 = nid0 + 1) by (apply N.mod_small; clear - Hnb Hnb2; lia). rewrite En.
  assert (Ess : seg_set si S1 = S1 ++ [si]) by (apply seg_set_snoc; exact Hlt). rewrite Ess.
  rewrite (io_ok _ e1 Hf1). cbn [negb].
  set (ps' := {| ps_next_id := nid0 + 1; ps_segs := S1 ++ [si] |}).
  set (e2 := io_env (ACommit ps') e1).
  destruct (commit_newtail c nb d1 nid0 S1 base Hc HD1 Hnid Hnb Hwf Hl Hso Hb1 Hb2) as (HD2 & Hfresh & Hr2 & _).
  fold si in HD2, Hfresh, Hr2. fold ps' in HD2, Hfresh, Hr2.
  assert (HQ2 : OQ c nb s0 (e_disk e2)).
  { split; [exact HD2|]. split; [eapply no_pend_same; [|exact HN1]; reflexivity|].
    change (e_disk e2) with (apply_act d1 (ACommit ps')). unfold sp_of. rewrite Hr2. cbn [apply_act dk_stable].
    rewrite Hrd. rewrite <- HS1. reflexivity. }
  assert (He2 : ext (OQ c nb s0) e0 e2) by (apply ext_io; [exact He|exact I|exact HQ2]).
  rewrite (seg_create_ok si e2 eq_refl); [|exact Hb1|exact Hfresh].
  set (e3 := io_env (ACreate (name_of si) (si_size_limit si)) e2).
  assert (Hm2 : dk_meta (e_disk e2) = Some ps') by reflexivity.
  assert (HQ3 : OQ c nb s0 (e_disk e3)).
  { destruct (DP_create_tail c nb (eq s0) (e_disk e2) ps' S1 si (si_size_limit si) (OQ_DP _ _ _ _ HQ2) Hm2 eq_refl Hfresh) as (HD3 & Hs3 & _).
    split; [exact HD3|]. split; [apply no_pend_create; apply HQ2|symmetry; exact Hs3]. }
  assert (He3 : ext (OQ c nb s0) e0 e3) by (apply ext_io; [exact He2|exact I|exact HQ3]).
  set (w := {| st_next_id := nid0 + 1; st_segs := S1 ++ [si]; st_tail := Some (new_wseg si);
               st_rotate := None; st_failed := false; st_closed := false |}).
  assert (HL3 : LInv c nb w (e_disk e3)).
  { split; [reflexivity|]. split; [reflexivity|]. split; [apply HQ3|]. split; [apply HQ3|].
    split; [reflexivity|]. exists si, (fresh_file (si_size_limit si)), (new_wseg si).
    split; [apply tail_info_app|]. split; [cbn; apply lookup_update_eq|].
    split; [reflexivity|]. split; [apply tw_ok_fresh|reflexivity]. }
  destruct (open_finish c nb s0 e0 e3 w garbage He3 HL3) as (He4 & HL4 & Hde).
  - intros n Hin. destruct (Hg n Hin) as (Hnl & Hex). cbn [w st_segs]. rewrite listed_app, Hnl, listed_single.
    cbn [orb]. apply fname_eqb_neq. intros E. subst n. apply Hex. exact Hfresh.
  - intros n f. cbn [e3 e2 io_env e_disk apply_act dk_files w st_segs]. rewrite lookup_update, listed_app, listed_single.
    rewrite (fname_eqb_sym (name_of si) n).
    destruct (fname_eqb n (name_of si)); [intros _; right; apply orb_true_r|].
    intros Hlk. destruct (Hall _ _ Hlk) as [Hin|Hli]; [left; exact Hin|right; rewrite Hli; reflexivity].
  - exists w, (delete_files garbage e3). auto.
Qed.

Definition open_rest (c : cfg) (e0 : env) : open_res * env :=
  let ps := match dk_meta (e_disk e0) with
            | Some ps => ps
            | None => {| ps_next_id := 0; ps_segs := [] |}
            end in
  let on_disk := map fst (dk_files (e_disk e0)) in
  let '(r, segs, tail, e1) := open_segs c (ps_segs ps) [] e0 in
  match r with
  | ROk =>
      let garbage := filter (fun n => negb (listed (ps_segs ps) n)) on_disk in
      match tail with
      | Some tw =>
          let e2 := delete_files garbage e1 in
          (OOk {| st_next_id := ps_next_id ps; st_segs := segs; st_tail := Some tw;
                  st_rotate := None; st_failed := false; st_closed := false |}, e2)
      | None => open_newtail c (ps_next_id ps) segs garbage e1
      end
  | _ => (OErr r, e1)
  end.

Lemma open_wal_unfold c e :
  open_wal c e =
  if negb (FirstExternalCodecID <=? c_codec c) && negb (c_codec c =? BinaryCodecID) then (OErr RErrOther, e)
  else
    let '(ok0, e0) := if dk_inited (e_disk e) then (true, e) else io AInitMeta e in
    if negb ok0 then (OErr RErrIO, e0)
    else if armed e0 && fx_list (e_fx e0) then (OErr RErrIO, list_failed e0) else open_rest c e0.
Proof. reflexivity. Qed.

Lemma garbage_spec segs (fs : list (fname * dfile)) n :
  In n (filter (fun n => negb (listed segs n)) (map fst fs)) <-> listed segs n = false /\ In n (map fst fs).
Proof. rewrite filter_In. rewrite negb_true_iff. tauto. Qed.

Lemma garbage_or_listed segs (fs : list (fname * dfile)) n f :
  lookup n fs = Some f -> In n (filter (fun n => negb (listed segs n)) (map fst fs)) \/ listed segs n = true.
Proof.
  intros H. destruct (listed segs n) eqn:El; [right; reflexivity|left].
  apply garbage_spec. split; [exact El|eapply lookup_some_in; eauto].
Qed.

Lemma tw_ok_rec t f : df_pend f = None -> tw_ok t f (rec_wseg t f).
Proof.
  intros Hp. unfold tw_ok, rec_wseg, tl_of, cur_ents, cur_end, cur_seal. rewrite Hp. cbn.
  repeat split; try reflexivity; lia.
Qed.

Lemma open_segs_tail c S t e :
  Forall (sealed_ok (e_disk e)) S -> Forall (fun s => si_codec s = c_codec c) (S ++ [t]) ->
  si_sealed t = false -> e_fault e = None -> 1 <= si_base t ->
  open_segs c (S ++ [t]) [] e =
  match lookup (name_of t) (dk_files (e_disk e)) with
  | None => (ROk, S ++ [t], Some (new_wseg t), io_env (ACreate (name_of t) (si_size_limit t)) e)
  | Some f => if 0 <? cur_seal f
              then (ROk, S ++ [seal_info t (ws_commit_idx (rec_wseg t f)) (cur_seal f)], None, e)
              else (ROk, S ++ [t], Some (rec_wseg t f), e)
  end.
Proof.
  intros Hso Hc Hu Hf Hb. apply Forall_app in Hc. destruct Hc as (Hc1 & Hc2).
  inversion Hc2 as [|? ? Hct _]; subst.
  rewrite (open_segs_sealed c S [] [t] e Hso Hc1).
  cbn [open_segs]. replace (si_codec t =? c_codec c) with true by (symmetry; apply N.eqb_eq; exact Hct).
  rewrite Hu. cbn [negb].
  destruct (lookup (name_of t) (dk_files (e_disk e))) as [f|] eqn:E.
  - rewrite (seg_recover_some t e f E).
    change (ws_index_start (rec_wseg t f)) with (cur_seal f).
    destruct (0 <? cur_seal f); rewrite rev_append_rev_snoc; reflexivity.
  - rewrite (seg_recover_none t e E). rewrite (seg_create_ok t e Hf Hb E).
    change (0 <? ws_index_start (new_wseg t)) with false. cbn iota.
    rewrite rev_append_rev_snoc. reflexivity.
Qed.

Lemma open_rest_ok c nb e0 :
  cfg_ok c -> e_fault e0 = None -> DIs c nb (e_disk e0) -> no_pend (e_disk e0) -> nb + 1 < two64 ->
  exists w e', open_rest c e0 = (OOk w, e') /\ ext (OQ c (nb + 1) (sp_of (e_disk e0))) e0 e' /\
               LInv c (nb + 1) w (e_disk e') /\ dir_exact (e_disk e') = true.
Proof.
  intros Hc Hf0 HD0 HN0 Hnb.
  set (d0 := e_disk e0) in *. set (s0 := sp_of d0).
  assert (HD0' : DIs c (nb + 1) d0) by (eapply DIs_mono; [apply N.le_add_r|exact HD0]).
  assert (HQ0 : OQ c (nb + 1) s0 d0) by (split; [exact HD0'|split; [exact HN0|reflexivity]]).
  assert (He0 : ext (OQ c (nb + 1) s0) e0 e0) by (apply ext_refl; assumption).
  pose proof (DIs_NoDup _ _ _ HD0) as ND0.
  unfold open_rest. fold d0.
  destruct (dk_meta d0) as [ps|] eqn:Hm.
  - (* initialised directory *)
    destruct (DIs_segs _ _ _ _ HD0 Hm) as (S & t & Hs).
    destruct (DIs_parts _ _ _ _ _ _ HD0 Hm Hs) as (_ & Hn2 & Hid & Hwf & Hl & Hso & Ht).
    pose proof (tail_wf _ _ _ _ _ _ HD0 Hm Hs) as (Hwc & Hwl & Hwb1 & Hwb2 & Hwbm & Hwid).
    assert (Hcod : Forall (fun s => si_codec s = c_codec c) (S ++ [t])).
    { eapply Forall_impl; [|exact Hwf]. intros s Hsw. apply Hsw. }
    pose proof Ht as (Hu & Ht').
    rewrite Hs. rewrite (open_segs_tail c S t e0 Hso Hcod Hu Hf0 Hwb1). fold d0.
    set (garbage := filter (fun n => negb (listed (S ++ [t]) n)) (map fst (dk_files d0))).
    destruct (lookup (name_of t) (dk_files d0)) as [f|] eqn:Ef.
    + pose proof (HN0 _ _ Ef) as Hp.
      destruct Ht' as (Fa & Fb & Fc & Fd & Fe & Ff).
      assert (Hcs : cur_seal f = df_seal f) by (unfold cur_seal; rewrite Hp; reflexivity).
      assert (Hce : cur_ents f = df_ents f) by (unfold cur_ents; rewrite Hp; reflexivity).
      destruct (0 <? cur_seal f) eqn:Eseal.
      * (* the tail file is sealed: complete the rotation *)
        set (mx := ws_commit_idx (rec_wseg t f)). set (t' := seal_info t mx (cur_seal f)).
        destruct Fa as (Fa1 & Fa2 & Fa3 & Fa4 & Fa5).
        assert (Hne : df_ents f <> []) by (apply Fa5; clear - Eseal Hcs; lia).
        assert (Hn0 : 0 < llen (df_ents f)) by (apply llen_pos; exact Hne).
        assert (Hmx : mx = si_base t + llen (df_ents f) - 1).
        { unfold mx, rec_wseg. cbn [ws_commit_idx]. rewrite Hce. destruct (llen (df_ents f) =? 0) eqn:Z; [clear - Hn0 Z; lia|reflexivity]. }
        assert (Hmin : si_min t <= mx). { destruct (llen (df_ents f) =? 0) eqn:Z; clear - Fe Hmx Hn0 Z; lia. }
        rewrite Hce in Ff.
        assert (Hsok : sealed_ok d0 t').
        { eapply sealed_ok_of_tail; eauto; clear - Hmin Hmx Hn0 Eseal Hcs; lia. }
        (* Open's only metadata commit lists t as sealed up to its last entry and a fresh
           tail (the one id of nb + 1) whose file does not exist yet.  The reading stays s0
           across it: a tail sealed on disk already shows all its entries (firstn_all2 below). *)
        destruct (open_newtail_ok c (nb + 1) s0 e0 e0 (ps_next_id ps) (S ++ [t']) garbage (mx + 1) Hc He0)
          as (w & e' & Ho & He' & HL & Hde).
        -- fold d0. intros ps' E. rewrite Hm in E. injection E as <-. apply N.le_refl.
        -- clear - Hn2. lia.
        -- exact Hnb.
        -- apply Forall_app in Hwf. destruct Hwf as (Hwf1 & Hwf2). apply Forall_app. split; [exact Hwf1|].
           constructor; [|constructor]. apply seal_info_wf. inversion Hwf2; assumption.
        -- fold d0. apply Forall_app. split; [exact Hso|constructor; [exact Hsok|constructor]].
        -- rewrite tail_info_app. reflexivity.
        -- clear. lia.
        -- clear - Hmx Ff Hn0. lia.
        -- rewrite <- app_assoc. cbn [app]. apply linked_snoc; [|reflexivity|reflexivity].
           eapply linked_replace_last; [exact Hl|reflexivity|reflexivity].
        -- apply Forall_app. split.
           ++ pose proof (DIs_bases_lt _ _ _ _ _ _ HD0 Hm Hs) as Hlt.
              eapply Forall_impl; [|exact Hlt]. intros s Hs'. cbn beta in Hs'. clear - Hs' Hmx Hn0. lia.
           ++ constructor; [change (si_base t') with (si_base t); clear - Hmx Hn0; lia|constructor].
        -- fold d0. rewrite hd_min_app. unfold s0, sp_of. cbn [sp_log].
           rewrite (dread_decomp c nb d0 ps S t HD0 Hm Hs).
           unfold sealed_es at 1. rewrite flat_map_app. cbn [flat_map]. rewrite app_nil_r.
           fold (sealed_es d0 S).
           unfold t'. rewrite (seg_visible_seal_info d0 t mx (cur_seal f)) by assumption.
           rewrite firstn_all2.
           { apply slog_of_abs. intros _. unfold hd_min. destruct S; reflexivity. }
           destruct (tail_es_length c d0 t f Hwbm Ht Ef) as [Hlen|(Hz & _)]; [|rewrite Hce in Hz; clear - Hz Hn0; lia].
           rewrite Hce in Hlen. clear - Hlen Hmx Hmin. unfold llen in *. lia.
        -- intros n Hin. apply garbage_spec in Hin. destruct Hin as (Hnl & Hin). split.
           ++ rewrite listed_app, listed_single in *. exact Hnl.
           ++ fold d0. apply in_lookup_not_none. exact Hin.
        -- fold d0. intros n g Hg. destruct (garbage_or_listed (S ++ [t]) _ n g Hg) as [K|K]; [left; exact K|right].
           rewrite listed_app, listed_single in *. exact K.
        -- exists w, e'. auto.
      * (* a usable tail *)
        set (w := {| st_next_id := ps_next_id ps; st_segs := S ++ [t]; st_tail := Some (rec_wseg t f);
                     st_rotate := None; st_failed := false; st_closed := false |}).
        assert (HL : LInv c (nb + 1) w (e_disk e0)).
        { split; [reflexivity|]. split; [reflexivity|]. split; [exact HD0'|]. split; [exact HN0|].
          split; [fold d0; rewrite Hm; destruct ps; cbn in *; rewrite Hs; reflexivity|].
          exists t, f, (rec_wseg t f). split; [apply tail_info_app|]. split; [exact Ef|].
          split; [reflexivity|]. split; [apply tw_ok_rec; exact Hp|].
          cbn [w st_rotate]. rewrite <- Hcs, Eseal. reflexivity. }
        (* files that the metadata does not list (left by a crash before a finalizer ran)
           go last; [dread] looks at listed names only, so each deletion keeps s0 *)
        destruct (open_finish c (nb + 1) s0 e0 e0 w garbage He0 HL) as (He4 & HL4 & Hde).
        -- intros n Hin. apply garbage_spec in Hin. apply Hin.
        -- fold d0. intros n g. apply garbage_or_listed.
        -- exists w, (delete_files garbage e0). auto.
    + (* the tail file is missing (wal.go Open, os.ErrNotExist: a crash between CommitState
         and the creation of the file).  [tail_ok] lets a listed tail have no file and reads
         it as empty, so re-creating it changes no reading. *)
      set (e1 := io_env (ACreate (name_of t) (si_size_limit t)) e0).
      set (w := {| st_next_id := ps_next_id ps; st_segs := S ++ [t]; st_tail := Some (new_wseg t);
                   st_rotate := None; st_failed := false; st_closed := false |}).
      assert (HQ1 : OQ c (nb + 1) s0 (e_disk e1)).
      { destruct (DP_create_tail c (nb + 1) (eq s0) d0 ps S t (si_size_limit t) (OQ_DP _ _ _ _ HQ0) Hm Hs Ef) as (HD1 & Hs1 & _).
        split; [exact HD1|]. split; [apply no_pend_create; exact HN0|symmetry; exact Hs1]. }
      assert (He1 : ext (OQ c (nb + 1) s0) e0 e1) by (apply ext_io; [exact He0|exact I|exact HQ1]).
      assert (HL : LInv c (nb + 1) w (e_disk e1)).
      { split; [reflexivity|]. split; [reflexivity|]. split; [apply HQ1|]. split; [apply HQ1|].
        split; [cbn [e1 io_env e_disk apply_act dk_meta]; fold d0; rewrite Hm; destruct ps; cbn in *; rewrite Hs; reflexivity|].
        exists t, (fresh_file (si_size_limit t)), (new_wseg t). split; [apply tail_info_app|].
        split; [cbn; apply lookup_update_eq|]. split; [reflexivity|]. split; [apply tw_ok_fresh|reflexivity]. }
      destruct (open_finish c (nb + 1) s0 e0 e1 w garbage He1 HL) as (He4 & HL4 & Hde).
      * intros n Hin. apply garbage_spec in Hin. apply Hin.
      * intros n g. cbn [e1 io_env e_disk apply_act dk_files w st_segs]. fold d0. rewrite lookup_update.
        destruct (fname_eqb n (name_of t)) eqn:En.
        -- intros _. right. rewrite listed_app, listed_single. rewrite (fname_eqb_sym (name_of t) n), En. apply orb_true_r.
        -- apply garbage_or_listed.
      * exists w, (delete_files garbage e1). auto.
  - (* empty directory *)
    assert (Hfiles : dk_files d0 = []).
    { unfold DIs in HD0. rewrite Hm in HD0. apply HD0. }
    cbn [ps_segs ps_next_id open_segs rev_append]. rewrite Hfiles. cbn [map filter].
    apply (open_newtail_ok c (nb + 1) s0 e0 e0 0 [] [] 1 Hc He0);
      try reflexivity; try apply Forall_nil; try exact I; try (clear - Hnb; lia).
    + fold d0. intros ps E. congruence.
    + cbn. unfold dread. fold d0. rewrite Hm. reflexivity.
    + intros n [].
    + fold d0. rewrite Hfiles. discriminate.
Qed.

Lemma no_pend_unpend_eq d : no_pend d -> sp_of (unpend d) = sp_of d.
Proof. apply sp_of_no_pend. Qed.

Theorem open_wal_ok c nb e :
  cfg_ok c -> e_fault e = None -> DIs c nb (e_disk e) -> no_pend (e_disk e) -> nb + 1 < two64 ->
  exists w e', open_wal c e = (OOk w, e') /\ ext (OQ c (nb + 1) (sp_of (e_disk e))) e e' /\
               LInv c (nb + 1) w (e_disk e') /\ dir_exact (e_disk e') = true.
Proof.
  intros Hc Hf HD HN Hnb. rewrite open_wal_unfold.
  assert (Hcod : negb (FirstExternalCodecID <=? c_codec c) && negb (c_codec c =? BinaryCodecID) = false).
  { destruct Hc as ([Hc|Hc] & _); clear - Hc; lia. }
  rewrite Hcod.
  destruct (dk_inited (e_disk e)) eqn:Hi.
  - cbn [negb]. unfold armed. rewrite Hf. cbn [andb]. apply open_rest_ok; assumption.
  - rewrite (io_ok AInitMeta e Hf). cbn [negb]. change (armed (io_env AInitMeta e) && fx_list (e_fx (io_env AInitMeta e))) with false. cbv iota.
    set (e0 := io_env AInitMeta e).
    assert (HD0 : DIs c nb (e_disk e0)) by (apply DIs_initmeta; exact HD).
    assert (HN0 : no_pend (e_disk e0)) by (eapply no_pend_same; [|exact HN]; reflexivity).
    assert (Hs0 : sp_of (e_disk e0) = sp_of (e_disk e)) by apply sp_of_initmeta.
    destruct (open_rest_ok c nb e0 Hc eq_refl HD0 HN0 Hnb) as (w & e' & Ho & He & HL & Hde).
    exists w, e'. split; [exact Ho|]. split; [|auto].
    rewrite Hs0 in He. eapply ext_trans; [|exact He].
    apply ext_io; [apply ext_refl; [exact Hf|]|exact I|].
    + split; [eapply DIs_mono; [apply N.le_add_r|exact HD]|]. split; [exact HN|reflexivity].
    + split; [eapply DIs_mono; [apply N.le_add_r|exact HD0]|]. split; [exact HN0|exact Hs0].
Qed.

(* the first Open, on the empty directory *)
Lemma initial_LInv c s0 : cfg_ok c -> initial c = Some s0 ->
  LInv c 1 (ss_wal s0) (e_disk (ss_env s0)) /\ e_fault (ss_env s0) = None /\ no_pend (e_disk (ss_env s0)) /\
  sp_of (e_disk (ss_env s0)) = {| sp_log := sl_empty; sp_kv := [] |} /\ dir_exact (e_disk (ss_env s0)) = true.
Proof.
  intros Hc Hinit. unfold initial in Hinit.
  assert (HD0 : DIs c 0 (e_disk fresh_env)) by (split; [constructor|reflexivity]).
  assert (HN0 : no_pend (e_disk fresh_env)) by (intros n f H; discriminate).
  destruct (open_wal_ok c 0 fresh_env Hc eq_refl HD0 HN0 ltac:(unfold two64; lia)) as (w & e' & Ho & Hext & HL & Hx).
  rewrite Ho in Hinit. inversion Hinit; subst s0. cbn [ss_wal ss_env].
  destruct (ext_final _ _ _ Hext) as (_ & HN & Hsp).
  split; [exact HL|]. split; [exact (ext_fault _ _ _ Hext)|]. split; [exact HN|]. split; [exact Hsp|exact Hx].
Qed.
