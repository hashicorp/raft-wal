(* SeqFactsAbs.v -- structure of the listed segments under the invariant and
   what the abstraction function [abs] computes from them. *)
From RW Require Import Base.Bytes Base.BytesFacts Fmt.Codec Fmt.CodecFacts Fmt.Frame
  Wal.Model Wal.Spec Wal.SeqInv Wal.ModelFacts Wal.SeqFactsBase Gen.Constants Base.LiaSetup.
Open Scope N_scope.

Lemma WInvS_intro c w d ss t tw :
  st_closed w = false -> st_failed w = false ->
  dk_meta d = Some (persistent w) -> dk_inited d = true -> fresh w d ->
  st_segs w = ss ++ [t] -> st_tail w = Some tw ->
  Forall (sealed_ok c d) ss -> tail_ok c d t tw -> linked (ss ++ [t]) ->
  st_rotate w = (if 0 <? ws_index_start tw then Some (ws_index_start tw) else None) ->
  WInvS c w d ss t tw.
Proof. intros. unfold WInvS. tauto. Qed.

(* the components of the two invariants, by name *)
Section Views.
Context {c : cfg} {w : wal} {d : disk} {ss : list seginfo} {t : seginfo} {tw : wseg}.

Section WInvS.
Context (HI : WInvS c w d ss t tw).
Lemma winv_closed : st_closed w = false. Proof. apply HI. Qed.
Lemma winv_failed : st_failed w = false. Proof. apply HI. Qed.
Lemma winv_meta : dk_meta d = Some (persistent w). Proof. apply HI. Qed.
Lemma winv_inited : dk_inited d = true. Proof. apply HI. Qed.
Lemma winv_fresh : fresh w d. Proof. apply HI. Qed.
Lemma winv_segs : st_segs w = ss ++ [t]. Proof. apply HI. Qed.
Lemma winv_tail : st_tail w = Some tw. Proof. apply HI. Qed.
Lemma winv_sealed : Forall (sealed_ok c d) ss. Proof. apply HI. Qed.
Lemma winv_tail_ok : tail_ok c d t tw. Proof. apply HI. Qed.
Lemma winv_linked : linked (ss ++ [t]). Proof. apply HI. Qed.
Lemma winv_rotate :
  st_rotate w = (if 0 <? ws_index_start tw then Some (ws_index_start tw) else None).
Proof. apply HI. Qed.
End WInvS.

Section TailOk.
Context (HT : tail_ok c d t tw).
Lemma tail_ok_unsealed : si_sealed t = false. Proof. apply HT. Qed.
Lemma tail_ok_codec : si_codec t = c_codec c. Proof. apply HT. Qed.
Lemma tail_ok_size_limit : si_size_limit t = c_seg_size c. Proof. apply HT. Qed.
Lemma tail_ok_range :
  1 <= si_base t /\ si_base t <= si_min t /\ si_min t <= si_base t + (ws_n tw - 1) /\
  si_base t + ws_n tw < two64.
Proof. repeat split; apply HT. Qed.
Lemma tail_ok_name : ws_name tw = name_of t. Proof. apply HT. Qed.
Lemma tail_ok_base : ws_base tw = si_base t. Proof. apply HT. Qed.
Lemma tail_ok_limit : ws_limit tw = c_seg_size c. Proof. apply HT. Qed.
Lemma tail_ok_min : ws_min tw <= si_min t. Proof. apply HT. Qed.
Lemma tail_ok_commit :
  ws_commit_idx tw = (if ws_n tw =? 0 then 0 else si_base t + ws_n tw - 1).
Proof. apply HT. Qed.
Lemma tail_ok_hdr : ws_hdr tw = (ws_off tw =? 0). Proof. apply HT. Qed.
Lemma tail_ok_off : 8 * ws_n tw <= ws_off tw /\ ws_off tw < two32.
Proof. split; apply HT. Qed.
Lemma tail_ok_seal :
  (ws_index_start tw = 0 -> ws_off tw <= c_seg_size c) /\ (0 < ws_index_start tw -> 0 < ws_n tw).
Proof. split; apply HT. Qed.
Lemma tail_ok_file :
  exists f, file_ok d t f /\ llen (df_ents f) = ws_n tw /\ df_end f = ws_off tw /\
            df_seal f = ws_index_start tw.
Proof. apply HT. Qed.
End TailOk.
End Views.

Lemma linked_tail s r : linked (s :: r) -> linked r.
Proof. destruct r as [|s' r]; [intros _; exact I|]. cbn [linked]. tauto. Qed.
Lemma linked_app_inv a s b : linked (a ++ s :: b) -> linked (a ++ [s]) /\ linked (s :: b).
Proof.
  induction a as [|x a IH]; cbn [app].
  - intros H. split; [exact I|exact H].
  - destruct a as [|y a]; cbn [app] in *.
    + cbn [linked]. intros (H1 & H2 & H3). repeat split; auto.
    + intros (H1 & H2 & H3). destruct (IH H3) as [H4 H5]. split; [|exact H5].
      repeat split; auto.
Qed.
Lemma linked_app_intro a s b : linked (a ++ [s]) -> linked (s :: b) -> linked (a ++ s :: b).
Proof.
  induction a as [|x a IH]; cbn [app]; intros H1 H2; [exact H2|].
  destruct a as [|y a]; cbn [app] in *.
  - destruct H1 as (H3 & H4 & _). repeat split; auto.
  - destruct H1 as (H3 & H4 & H5). repeat split; auto.
Qed.
Lemma linked_app_l a b : linked (a ++ b) -> linked a.
Proof.
  destruct b as [|s b]; [rewrite app_nil_r; auto|].
  intros H. apply linked_app_inv in H. destruct H as [H _].
  clear -H. induction a as [|x a IH]; [exact I|].
  destruct a as [|y a]; [exact I|]. cbn [app] in *. destruct H as (H1 & H2 & H3). repeat split; auto.
Qed.
Lemma linked_app_r a b : linked (a ++ b) -> linked b.
Proof. induction a as [|x a IH]; cbn [app]; [auto|]. intros H. apply IH. eapply linked_tail; eauto. Qed.
Lemma linked_cons_min s s' r : linked (s :: s' :: r) -> si_base s' = si_max s + 1 /\ si_min s' = si_base s'.
Proof. cbn [linked]. tauto. Qed.
(* replacing a segment by one with the same BaseIndex and MaxIndex keeps the links to the right;
   the same BaseIndex and MinIndex keeps those to the left *)
Lemma linked_head_replace h h' r :
  si_max h' = si_max h -> linked (h :: r) -> linked (h' :: r).
Proof. destruct r as [|s r]; [intros; exact I|]. cbn [linked]. intros ->. tauto. Qed.
Lemma linked_last_replace a s s' :
  si_base s' = si_base s -> si_min s' = si_min s -> linked (a ++ [s]) -> linked (a ++ [s']).
Proof.
  intros Hb Hm. induction a as [|x a IH]; [intros; exact I|].
  destruct a as [|y a]; cbn [app] in *.
  - cbn [linked]. rewrite Hb, Hm. tauto.
  - intros (H1 & H2 & H3). repeat split; auto.
Qed.

Definition srange (s : seginfo) : Prop := si_base s <= si_min s /\ si_min s <= si_max s.
Lemma sealed_srange c d s : sealed_ok c d s -> srange s.
Proof. intros (_ & _ & _ & H1 & H2 & _). split; assumption. Qed.
Lemma linked_lt ss t :
  Forall srange ss -> linked (ss ++ [t]) -> Forall (fun s => si_max s < si_base t) ss.
Proof.
  induction ss as [|s r IH]; intros HF HL; [constructor|].
  inversion HF as [|? ? Hs HF']; subst. destruct r as [|s' r'].
  - cbn [app linked] in HL. constructor; [lia|constructor].
  - cbn [app] in HL. destruct HL as (H1 & H2 & H3).
    specialize (IH HF' H3). constructor; [|exact IH].
    inversion IH as [|? ? Hs' _]; subst. inversion HF' as [|? ? [Hr1 Hr2] _]; subst. lia.
Qed.
Lemma linked_base_lt ss t :
  Forall srange ss -> linked (ss ++ [t]) -> Forall (fun s => si_base s < si_base t) ss.
Proof.
  intros HF HL. assert (H := linked_lt _ _ HF HL).
  rewrite Forall_forall in *. intros s Hs. specialize (H s Hs). destruct (HF s Hs). lia.
Qed.

Lemma tail_info_snoc l t : tail_info (l ++ [t]) = Some t.
Proof. unfold tail_info. rewrite map_app. cbn [map]. apply last_last. Qed.
Lemma seg_set_add x l :
  Forall (fun s => si_base s < si_base x) l -> seg_set x l = l ++ [x].
Proof.
  induction l as [|y l IH]; intros H; [reflexivity|].
  inversion H as [|? ? Hy Hl]; subst. cbn [seg_set app].
  destruct (N.ltb_spec (si_base x) (si_base y)); [lia|].
  destruct (N.eqb_spec (si_base x) (si_base y)); [lia|]. rewrite IH by exact Hl. reflexivity.
Qed.
Lemma seg_set_replace_last x l t :
  Forall (fun s => si_base s < si_base t) l -> si_base x = si_base t -> seg_set x (l ++ [t]) = l ++ [x].
Proof.
  intros H E. induction l as [|y l IH].
  - cbn [app seg_set]. rewrite E, N.ltb_irrefl, N.eqb_refl. reflexivity.
  - inversion H as [|? ? Hy Hl]; subst. cbn [seg_set app].
    destruct (N.ltb_spec (si_base x) (si_base y)); [lia|].
    destruct (N.eqb_spec (si_base x) (si_base y)); [lia|]. rewrite IH by exact Hl. reflexivity.
Qed.
Lemma file_ents_ok d s f : file_ok d s f -> file_ents (name_of s) d = df_ents f.
Proof. intros (Hl & Hp & _). unfold file_ents, cur_ents. rewrite Hl, Hp. reflexivity. Qed.
Lemma file_ok_frame d d' s f :
  lookup (name_of s) (dk_files d') = lookup (name_of s) (dk_files d) -> file_ok d s f -> file_ok d' s f.
Proof. intros E (Hl & H). split; [congruence|exact H]. Qed.
Lemma sealed_ok_frame c d d' s :
  lookup (name_of s) (dk_files d') = lookup (name_of s) (dk_files d) -> sealed_ok c d s -> sealed_ok c d' s.
Proof.
  intros E (H1 & H2 & H3 & H4 & H5 & H6 & f & Hf & H7). repeat split; auto.
  exists f. split; [eapply file_ok_frame; eauto|exact H7].
Qed.
Lemma sealed_ok_frame_all c d d' ss :
  (forall s, In s ss -> lookup (name_of s) (dk_files d') = lookup (name_of s) (dk_files d)) ->
  Forall (sealed_ok c d) ss -> Forall (sealed_ok c d') ss.
Proof.
  intros E H. rewrite Forall_forall in *. intros s Hs. eapply sealed_ok_frame; [apply E; exact Hs|auto].
Qed.
Lemma seg_visible_frame tl d d' s :
  lookup (name_of s) (dk_files d') = lookup (name_of s) (dk_files d) ->
  seg_visible tl d' s = seg_visible tl d s.
Proof. intros E. unfold seg_visible, file_ents. rewrite E. reflexivity. Qed.
Lemma flat_map_visible_frame tl d d' ss :
  (forall s, In s ss -> lookup (name_of s) (dk_files d') = lookup (name_of s) (dk_files d)) ->
  flat_map (seg_visible tl d') ss = flat_map (seg_visible tl d) ss.
Proof.
  induction ss as [|s r IH]; intros E; [reflexivity|]. cbn [flat_map].
  rewrite (seg_visible_frame tl d d' s) by (apply E; left; reflexivity).
  rewrite IH by (intros x Hx; apply E; right; exact Hx). reflexivity.
Qed.

Lemma seg_visible_eq tl d s : 1 <= si_min s ->
  seg_visible tl d s =
  firstn (N.to_nat (emax tl s + 1 - si_min s))
         (skipn (N.to_nat (si_min s - si_base s)) (file_ents (name_of s) d)).
Proof.
  intros Hm. unfold seg_visible. fold (emax tl s).
  destruct (N.eqb_spec (emax tl s) 0) as [E|E]; cbn [orb].
  - rewrite E. replace (N.to_nat (0 + 1 - si_min s)) with 0%nat by lia. reflexivity.
  - destruct (N.ltb_spec (emax tl s) (si_min s)) as [L|L].
    + replace (N.to_nat (emax tl s + 1 - si_min s)) with 0%nat by lia. reflexivity.
    + replace (emax tl s - si_min s + 1) with (emax tl s + 1 - si_min s) by lia. reflexivity.
Qed.

Lemma emax_sealed tl s : si_sealed s = true -> emax tl s = si_max s.
Proof. unfold emax. intros ->. reflexivity. Qed.
Lemma emax_unsealed tl s : si_sealed s = false -> emax tl s = tl.
Proof. unfold emax. intros ->. reflexivity. Qed.

Lemma vis_sealed c d tl s : sealed_ok c d s ->
  exists f, file_ok d s f /\ si_max s + 1 - si_base s <= llen (df_ents f) /\
  seg_visible tl d s = firstn (N.to_nat (si_max s + 1 - si_min s))
                              (skipn (N.to_nat (si_min s - si_base s)) (df_ents f)) /\
  llen (seg_visible tl d s) = si_max s + 1 - si_min s /\
  consecutive (si_min s) (seg_visible tl d s) = true /\
  Forall log_ok (seg_visible tl d s).
Proof.
  intros (H1 & H2 & H3 & H4 & H5 & H6 & f & Hf & H7 & H8).
  exists f. split; [exact Hf|]. split; [exact H8|].
  rewrite seg_visible_eq by lia. rewrite (emax_sealed _ _ H1), (file_ents_ok _ _ _ Hf).
  destruct Hf as (_ & _ & Hc & Hok).
  split; [reflexivity|]. split; [|split].
  - unfold llen in *. rewrite firstn_length, skipn_length. lia.
  - apply consecutive_firstn.
    replace (si_min s) with (si_base s + N.of_nat (N.to_nat (si_min s - si_base s))) at 1 by lia.
    apply consecutive_skipn. exact Hc.
  - rewrite Forall_forall in *. intros x Hx. apply Hok.
    apply (In_skipn_sub _ _ _ (In_firstn_sub _ _ _ Hx)).
Qed.

Lemma vis_tail c d t tw : tail_ok c d t tw ->
  exists f, file_ok d t f /\ llen (df_ents f) = ws_n tw /\ df_end f = ws_off tw /\
  df_seal f = ws_index_start tw /\
  seg_visible (ws_commit_idx tw) d t = skipn (N.to_nat (si_min t - si_base t)) (df_ents f) /\
  llen (seg_visible (ws_commit_idx tw) d t) = si_base t + ws_n tw - si_min t /\
  consecutive (si_min t) (seg_visible (ws_commit_idx tw) d t) = true /\
  Forall log_ok (seg_visible (ws_commit_idx tw) d t).
Proof.
  intros HT. destruct (tail_ok_file HT) as (f & Hf & Hn & He & Hs). pose proof (tail_ok_range HT) as Hr.
  exists f. split; [exact Hf|]. split; [exact Hn|]. split; [exact He|]. split; [exact Hs|].
  rewrite seg_visible_eq by lia. rewrite (emax_unsealed _ _ (tail_ok_unsealed HT)), (file_ents_ok _ _ _ Hf).
  destruct Hf as (_ & _ & Hc & Hok).
  assert (E : firstn (N.to_nat (ws_commit_idx tw + 1 - si_min t))
                (skipn (N.to_nat (si_min t - si_base t)) (df_ents f))
              = skipn (N.to_nat (si_min t - si_base t)) (df_ents f)).
  { rewrite (tail_ok_commit HT). destruct (N.eqb_spec (ws_n tw) 0) as [E0|E0].
    - rewrite E0 in Hn. apply llen_0 in Hn. rewrite Hn, skipn_nil, firstn_nil. reflexivity.
    - apply firstn_all2. rewrite skipn_length. unfold llen in Hn. lia. }
  rewrite E. split; [reflexivity|]. split; [|split].
  - unfold llen in *. rewrite skipn_length. lia.
  - replace (si_min t) with (si_base t + N.of_nat (N.to_nat (si_min t - si_base t))) at 1 by lia.
    apply consecutive_skipn. exact Hc.
  - rewrite Forall_forall in *. intros x Hx. apply Hok. apply (In_skipn_sub _ _ _ Hx).
Qed.

Lemma tail_commit c d t tw : tail_ok c d t tw ->
  ws_commit_idx tw = (if ws_n tw =? 0 then 0 else si_base t + ws_n tw - 1) /\ 1 <= si_base t.
Proof. intros H. split; apply H. Qed.

Lemma last_index_inv c d ss t tw :
  tail_ok c d t tw ->
  last_index (ss ++ [t]) (Some tw) =
  if ws_n tw =? 0 then (match ss with [] => 0 | _ => si_base t - 1 end) else si_base t + ws_n tw - 1.
Proof.
  intros HT. destruct (tail_commit _ _ _ _ HT) as [Hc Hb].
  unfold last_index. cbn [tail_last]. rewrite Hc. destruct (N.eqb_spec (ws_n tw) 0) as [E|E].
  - rewrite N.ltb_irrefl. rewrite rev_unit. destruct ss as [|s r]; [reflexivity|].
    destruct (rev (s :: r)) as [|x xs] eqn:Er.
    + apply (f_equal (@length _)) in Er. rewrite rev_length in Er. discriminate.
    + destruct (N.eqb_spec (si_base t) 0); [lia|reflexivity].
  - destruct (N.ltb_spec 0 (si_base t + ws_n tw - 1)); [reflexivity|lia].
Qed.

Lemma first_index_inv c d ss t tw :
  Forall (sealed_ok c d) ss -> tail_ok c d t tw ->
  first_index (ss ++ [t]) (Some tw) =
  match ss with [] => if ws_n tw =? 0 then 0 else si_min t | s :: _ => si_min s end.
Proof.
  intros HS HT. destruct (tail_commit _ _ _ _ HT) as [Hc Hb]. unfold first_index. cbn [tail_last].
  destruct ss as [|s r]; cbn [app].
  - rewrite (tail_ok_unsealed HT). cbn [negb andb]. rewrite Hc.
    destruct (N.eqb_spec (ws_n tw) 0) as [E|E]; [reflexivity|].
    destruct (N.eqb_spec (si_base t + ws_n tw - 1) 0); [lia|reflexivity].
  - inversion HS as [|? ? (H1 & _) _]; subst. rewrite H1. reflexivity.
Qed.

Lemma content_chain c d t tw : tail_ok c d t tw -> forall ss,
  Forall (sealed_ok c d) ss -> linked (ss ++ [t]) ->
  let es := flat_map (seg_visible (ws_commit_idx tw) d) (ss ++ [t]) in
  consecutive (si_min (hd t ss)) es = true /\ si_min (hd t ss) + llen es = si_base t + ws_n tw /\
  Forall log_ok es.
Proof.
  intros HT. induction ss as [|s r IH]; intros HS HL; cbn zeta.
  - cbn [app flat_map hd]. rewrite app_nil_r.
    destruct (vis_tail _ _ _ _ HT) as (f & _ & _ & _ & _ & _ & Hlen & Hc & Hok).
    pose proof (tail_ok_range HT) as Hr.
    repeat split; auto. lia.
  - inversion HS as [|? ? Hs HS']; subst. cbn [app flat_map hd].
    assert (HL' : linked (r ++ [t])) by (eapply linked_tail; exact HL).
    destruct (IH HS' HL') as (IH1 & IH2 & IH3).
    destruct (vis_sealed _ _ (ws_commit_idx tw) _ Hs) as (f & _ & _ & _ & Hlen & Hc & Hok).
    assert (Hr := sealed_srange _ _ _ Hs). destruct Hr as [Hr1 Hr2].
    assert (Hnext : si_min (hd t r) = si_max s + 1).
    { destruct r as [|s' r']; cbn [app hd] in *; destruct HL as (E1 & E2 & _); lia. }
    rewrite consecutive_app, llen_app, Hc, Hlen. cbn [andb].
    replace (si_min s + (si_max s + 1 - si_min s)) with (si_max s + 1) by lia.
    rewrite <- Hnext. repeat split; [exact IH1|lia|]. apply Forall_app. split; assumption.
Qed.

Lemma content_nonempty c d t tw ss :
  tail_ok c d t tw -> Forall (sealed_ok c d) ss -> linked (ss ++ [t]) ->
  (flat_map (seg_visible (ws_commit_idx tw) d) (ss ++ [t]) = [] <-> last_index (ss ++ [t]) (Some tw) = 0).
Proof.
  intros HT HS HL. destruct (content_chain _ _ _ _ HT ss HS HL) as (_ & Hlen & _).
  rewrite (last_index_inv _ _ _ _ _ HT).
  pose proof (tail_ok_range HT) as Hr.
  assert (Hlt := linked_lt ss t (Forall_impl _ (sealed_srange c d) HS) HL).
  split.
  - intros E. rewrite E in Hlen. rewrite llen_nil in Hlen.
    destruct ss as [|s r]; cbn [hd] in Hlen.
    + destruct (N.eqb_spec (ws_n tw) 0); lia.
    + inversion Hlt as [|? ? Hs _]; subst. inversion HS as [|? ? Hs' _]; subst.
      destruct (sealed_srange _ _ _ Hs'). lia.
  - intros E. apply llen_0. destruct (N.eqb_spec (ws_n tw) 0) as [E0|E0]; [|lia].
    destruct ss as [|s r]; cbn [hd] in Hlen; [lia|].
    inversion Hlt as [|? ? Hs _]; subst. inversion HS as [|? ? Hs' _]; subst.
    destruct Hs' as (_ & _ & ? & ? & ? & _). lia.
Qed.

Lemma winv_content_nonempty c w d ss t tw : WInvS c w d ss t tw ->
  (flat_map (seg_visible (ws_commit_idx tw) d) (ss ++ [t]) = [] <-> last_index (ss ++ [t]) (Some tw) = 0).
Proof. intros HI. apply (content_nonempty c d); apply HI. Qed.

(* what abs is, in terms of FirstIndex/LastIndex and the visible entries *)
Lemma abs_eq c w d ss t tw : WInvS c w d ss t tw ->
  abs w d = if last_index (st_segs w) (st_tail w) =? 0 then sl_empty
            else {| sl_first := first_index (st_segs w) (st_tail w);
                    sl_ents := flat_map (seg_visible (ws_commit_idx tw) d) (ss ++ [t]) |}.
Proof.
  intros HI. unfold abs. rewrite (winv_segs HI), (winv_tail HI). cbn [tail_last].
  assert (H := winv_content_nonempty _ _ _ _ _ _ HI).
  destruct (flat_map (seg_visible (ws_commit_idx tw) d) (ss ++ [t])) as [|x xs] eqn:E.
  - rewrite (proj1 H eq_refl). reflexivity.
  - destruct (N.eqb_spec (last_index (ss ++ [t]) (Some tw)) 0) as [E0|E0]; [|reflexivity].
    apply H in E0. discriminate.
Qed.

Lemma abs_props c w d ss t tw : WInvS c w d ss t tw ->
  let a := abs w d in
  let F := first_index (st_segs w) (st_tail w) in
  let L := last_index (st_segs w) (st_tail w) in
  spec_first a = F /\ spec_last a = L /\ (sl_is_empty a = true <-> L = 0) /\
  Forall log_ok (sl_ents a) /\
  (L <> 0 -> a = {| sl_first := F; sl_ents := flat_map (seg_visible (ws_commit_idx tw) d) (ss ++ [t]) |} /\
             F = si_min (hd t ss) /\ 1 <= F /\ F <= L /\ L + 1 = F + llen (sl_ents a) /\ L + 1 < two64 /\
             consecutive F (sl_ents a) = true).
Proof.
  intros HI. cbn zeta. rewrite (abs_eq _ _ _ _ _ _ HI).
  rewrite (winv_segs HI), (winv_tail HI).
  pose proof (winv_sealed HI) as HS. pose proof (winv_tail_ok HI) as HT. pose proof (winv_linked HI) as HL.
  destruct (content_chain _ _ _ _ HT ss HS HL) as (Hc & Hlen & Hok).
  assert (HF := first_index_inv _ _ _ _ _ HS HT). assert (HLi := last_index_inv c d ss _ _ HT).
  pose proof (tail_ok_range HT) as Hr.
  assert (Hlt := linked_lt ss t (Forall_impl _ (sealed_srange c d) HS) HL).
  destruct (N.eqb_spec (last_index (ss ++ [t]) (Some tw)) 0) as [E0|E0].
  - unfold spec_first, spec_last. cbn [sl_empty sl_is_empty sl_ents].
    assert (HF0 : first_index (ss ++ [t]) (Some tw) = 0).
    { rewrite HF. rewrite HLi in E0. destruct (ws_n tw =? 0) eqn:En; [|lia].
      destruct ss as [|s r]; [reflexivity|]. exfalso.
      inversion HS as [|? ? Hs' _]; subst. inversion Hlt as [|? ? Hs _]; subst.
      destruct Hs' as (_ & _ & ? & ? & ? & _). lia. }
    rewrite E0, HF0. repeat split; auto; try (intros; contradiction).
  - assert (Hne : flat_map (seg_visible (ws_commit_idx tw) d) (ss ++ [t]) <> []).
    { intros E. apply (winv_content_nonempty _ _ _ _ _ _ HI) in E. contradiction. }
    assert (HFm : first_index (ss ++ [t]) (Some tw) = si_min (hd t ss)).
    { rewrite HF. destruct ss as [|s r]; [|reflexivity]. cbn [hd].
      destruct (ws_n tw =? 0) eqn:En; [|reflexivity]. rewrite HLi in E0. congruence. }
    assert (Hfl : 1 <= si_min (hd t ss) /\ si_min (hd t ss) <= si_base t + ws_n tw - 1).
    { destruct ss as [|s r]; cbn [hd].
      - rewrite HLi in E0. destruct (N.eqb_spec (ws_n tw) 0); [congruence|lia].
      - inversion HS as [|? ? Hs' _]; subst. inversion Hlt as [|? ? Hs _]; subst.
        destruct Hs' as (_ & _ & ? & ? & ? & _). lia. }
    assert (HLe : last_index (ss ++ [t]) (Some tw) = si_base t + ws_n tw - 1).
    { rewrite HLi. destruct (ws_n tw =? 0) eqn:En; [|reflexivity].
      destruct ss as [|s r]; [rewrite HLi in E0; congruence|lia]. }
    unfold spec_first, spec_last, sl_is_empty. cbn [sl_ents sl_first].
    destruct (flat_map (seg_visible (ws_commit_idx tw) d) (ss ++ [t])) as [|x xs] eqn:Ees; [congruence|].
    rewrite <- Ees in *. rewrite HFm, HLe.
    repeat split; auto; try lia; try discriminate.
Qed.

Lemma listed_seg c d ss t tw s :
  Forall (sealed_ok c d) ss -> tail_ok c d t tw -> In s (ss ++ [t]) ->
  1 <= si_base s /\ si_base s <= si_min s /\
  (exists f, file_ok d s f /\ emax (ws_commit_idx tw) s + 1 - si_base s <= llen (df_ents f)) /\
  llen (seg_visible (ws_commit_idx tw) d s) = emax (ws_commit_idx tw) s + 1 - si_min s /\
  consecutive (si_min s) (seg_visible (ws_commit_idx tw) d s) = true.
Proof.
  intros HS HT Hs. apply in_app_or in Hs. destruct Hs as [Hs|[<-|[]]].
  - rewrite Forall_forall in HS. specialize (HS s Hs).
    destruct (vis_sealed _ _ (ws_commit_idx tw) _ HS) as (f & Hf & Hfl & _ & Hlen & Hc & _).
    destruct HS as (H1 & _ & H3 & H4 & _). rewrite (emax_sealed _ _ H1).
    split; [exact H3|]. split; [exact H4|]. split; [exists f; split; assumption|split; assumption].
  - destruct (vis_tail _ _ _ _ HT) as (f & Hf & Hn & _ & _ & _ & Hlen & Hc & _).
    destruct (tail_commit _ _ _ _ HT) as [Hci Hb].
    assert (Hu : si_sealed t = false) by apply HT. assert (H5 : si_base t <= si_min t) by apply HT.
    rewrite (emax_unsealed _ _ Hu). split; [exact Hb|]. split; [exact H5|].
    split; [exists f; split; [exact Hf|]|split; [rewrite Hlen|exact Hc]];
      rewrite Hci; destruct (N.eqb_spec (ws_n tw) 0); lia.
Qed.

(* a listed segment has a file; a name with an id not yet handed out has none *)
Lemma listed_lookup c d ss t tw s :
  Forall (sealed_ok c d) ss -> tail_ok c d t tw -> In s (ss ++ [t]) ->
  lookup (name_of s) (dk_files d) <> None.
Proof.
  intros HS HT Hs. destruct (listed_seg _ _ _ _ _ _ HS HT Hs) as (_ & _ & (f & (Hl & _) & _) & _). congruence.
Qed.
Lemma fresh_neq w d m n :
  fresh w d -> lookup m (dk_files d) <> None -> st_next_id w <= snd n -> fname_eqb m n = false.
Proof. intros Hf Hm Hn. apply fname_eqb_neq. intros ->. apply Hm, Hf, Hn. Qed.

(* emax of every listed segment is at most LastIndex *)
Lemma emax_le_last c d ss t tw :
  Forall (sealed_ok c d) ss -> tail_ok c d t tw -> linked (ss ++ [t]) ->
  Forall (fun s => emax (ws_commit_idx tw) s <= last_index (ss ++ [t]) (Some tw)) (ss ++ [t]).
Proof.
  intros HS HT HL. rewrite (last_index_inv c d ss _ _ HT).
  destruct (tail_commit _ _ _ _ HT) as [Hci Hb].
  assert (Hlt := linked_lt ss t (Forall_impl _ (sealed_srange c d) HS) HL).
  apply Forall_app. split.
  - rewrite Forall_forall in *. intros s Hs. specialize (Hlt s Hs).
    destruct (HS s Hs) as (Hsl & _). rewrite (emax_sealed _ _ Hsl).
    destruct ss as [|s0 r]; [destruct Hs|]. destruct (N.eqb_spec (ws_n tw) 0); lia.
  - constructor; [|constructor]. assert (Hu : si_sealed t = false) by apply HT.
    rewrite (emax_unsealed _ _ Hu), Hci. destruct (N.eqb_spec (ws_n tw) 0); [|lia].
    destruct ss; lia.
Qed.

Lemma snoc_split {A} (ss : list A) t pre rest :
  ss ++ [t] = pre ++ rest -> (rest = [] /\ pre = ss ++ [t]) \/ (exists r', rest = r' ++ [t] /\ ss = pre ++ r').
Proof.
  intros E. destruct rest as [|x rest] using rev_ind.
  - left. rewrite app_nil_r in E. auto.
  - right. clear IHrest. rewrite app_assoc in E. apply app_inj_tail in E. destruct E as [-> ->].
    exists rest. auto.
Qed.

Lemma hd_split {A} (ss : list A) t pre h r : ss ++ [t] = pre ++ h :: r -> hd t ss = hd h pre.
Proof. destruct ss, pre; cbn [app hd]; intros E; inversion E; reflexivity. Qed.

(* the segments before [x] are sealed and end below its BaseIndex *)
Lemma bases_before c d ss t pre x post :
  Forall (sealed_ok c d) ss -> linked (ss ++ [t]) -> ss ++ [t] = pre ++ x :: post ->
  Forall (fun s => si_max s < si_base x) pre /\ Forall (sealed_ok c d) pre.
Proof.
  intros HS HL E. destruct (snoc_split ss t pre (x :: post) E) as [[E1 _]|(r' & E1 & E2)]; [discriminate|].
  assert (HSp : Forall (sealed_ok c d) pre).
  { rewrite E2 in HS. apply Forall_app in HS. apply HS. }
  split; [|exact HSp].
  rewrite E in HL. apply linked_app_inv in HL. destruct HL as [HL _].
  apply linked_lt; [|exact HL]. eapply Forall_impl; [|exact HSp]. apply sealed_srange.
Qed.

Lemma bases_lt_split c d ss t pre rest :
  Forall (sealed_ok c d) ss -> linked (ss ++ [t]) -> ss ++ [t] = pre ++ rest ->
  forall a b, In a pre -> In b rest -> si_base a <= si_max a /\ si_max a < si_base b.
Proof.
  intros HS HL E a b Ha Hb. apply in_split in Hb. destruct Hb as (r1 & r2 & ->).
  rewrite app_assoc in E. destruct (bases_before _ _ _ _ _ _ _ HS HL E) as [H1 H2].
  rewrite Forall_forall in H1, H2. assert (Ha' : In a (pre ++ r1)) by (apply in_or_app; left; exact Ha).
  split; [|apply H1; exact Ha']. destruct (sealed_srange _ _ _ (H2 a Ha')). lia.
Qed.

Lemma flat_map_visible_sealed c tl tl' d d' ss :
  Forall (sealed_ok c d) ss ->
  (forall s, In s ss -> lookup (name_of s) (dk_files d') = lookup (name_of s) (dk_files d)) ->
  flat_map (seg_visible tl' d') ss = flat_map (seg_visible tl d) ss.
Proof.
  intros HS E. rewrite (flat_map_visible_frame tl' d d' ss E). clear E.
  induction HS as [|s r Hs _ IH]; [reflexivity|]. cbn [flat_map].
  rewrite IH. rewrite (seg_visible_sealed tl' tl d s) by apply Hs. reflexivity.
Qed.

Lemma skipn_chain c d tl nm : forall pre h post,
  Forall (sealed_ok c d) pre -> linked (pre ++ h :: post) -> Forall (fun s => si_max s < nm) pre ->
  skipn (N.to_nat (nm - si_min (hd h pre))) (flat_map (seg_visible tl d) (pre ++ h :: post)) =
  skipn (N.to_nat (nm - si_min h)) (flat_map (seg_visible tl d) (h :: post)).
Proof.
  induction pre as [|s pre IH]; intros h post HS HL HM; [reflexivity|].
  inversion HS as [|? ? Hs HS']; subst. inversion HM as [|? ? Hm HM']; subst.
  cbn [app hd].
  change (flat_map (seg_visible tl d) (s :: pre ++ h :: post))
    with (seg_visible tl d s ++ flat_map (seg_visible tl d) (pre ++ h :: post)).
  destruct (vis_sealed _ _ tl _ Hs) as (f & _ & _ & _ & Hlen & _).
  destruct (sealed_srange _ _ _ Hs) as [Hr1 Hr2].
  assert (Hnext : si_min (hd h pre) = si_max s + 1).
  { destruct pre as [|s' pre']; cbn [app hd] in *; destruct HL as (E1 & E2 & _); lia. }
  rewrite skipn_app_ge by (unfold llen in Hlen; lia).
  rewrite <- (IH h post HS' (linked_tail _ _ HL) HM'). f_equal. unfold llen in Hlen. lia.
Qed.

Lemma firstn_chain c d tl nmax : forall pre s post,
  Forall (sealed_ok c d) pre -> linked (pre ++ s :: post) -> Forall (fun p => si_max p <= nmax) pre ->
  firstn (N.to_nat (nmax + 1 - si_min (hd s pre))) (flat_map (seg_visible tl d) (pre ++ s :: post)) =
  flat_map (seg_visible tl d) pre ++
  firstn (N.to_nat (nmax + 1 - si_min s)) (flat_map (seg_visible tl d) (s :: post)).
Proof.
  induction pre as [|p pre IH]; intros s post HS HL HM; [reflexivity|].
  inversion HS as [|? ? Hs HS']; subst. inversion HM as [|? ? Hm HM']; subst.
  cbn [app hd].
  change (flat_map (seg_visible tl d) (p :: pre ++ s :: post))
    with (seg_visible tl d p ++ flat_map (seg_visible tl d) (pre ++ s :: post)).
  change (flat_map (seg_visible tl d) (p :: pre))
    with (seg_visible tl d p ++ flat_map (seg_visible tl d) pre).
  destruct (vis_sealed _ _ tl _ Hs) as (f & _ & _ & _ & Hlen & _).
  destruct (sealed_srange _ _ _ Hs) as [Hr1 Hr2].
  assert (Hnext : si_min (hd s pre) = si_max p + 1).
  { destruct pre as [|s' pre']; cbn [app hd] in *; destruct HL as (E1 & E2 & _); lia. }
  rewrite firstn_app_ge by (unfold llen in Hlen; lia).
  rewrite <- app_assoc. f_equal.
  rewrite <- (IH s post HS' (linked_tail _ _ HL) HM'). f_equal. unfold llen in Hlen. lia.
Qed.

(* keeping the entries up to LastIndex keeps everything *)
Lemma abs_upto_last c w d ss t tw : WInvS c w d ss t tw ->
  let a := abs w d in
  last_index (st_segs w) (st_tail w) <> 0 ->
  {| sl_first := sl_first a;
     sl_ents := firstn (N.to_nat (last_index (st_segs w) (st_tail w) + 1 - sl_first a)) (sl_ents a) |} = a.
Proof.
  intros HI a HL0. destruct (abs_props _ _ _ _ _ _ HI) as (_ & _ & _ & _ & Hne).
  destruct (Hne HL0) as (Ha & _ & _ & _ & Hlen & _). fold a in Ha, Hlen. rewrite Ha in *. cbn [sl_first sl_ents] in *.
  rewrite firstn_all2 by (unfold llen in Hlen; lia). reflexivity.
Qed.

(* segments on the two sides of a split have different file names *)
Lemma names_split c d ss t pre rest a b :
  Forall (sealed_ok c d) ss -> linked (ss ++ [t]) -> ss ++ [t] = pre ++ rest ->
  In a pre -> In b rest -> fname_eqb (name_of a) (name_of b) = false.
Proof.
  intros HS HL E Ha Hb. apply fname_neq_base. cbn [name_of fst].
  destruct (bases_lt_split _ _ _ _ _ _ HS HL E a b Ha Hb). lia.
Qed.

(* the segment at a split is the tail, or a sealed one with a successor *)
Lemma listed_at c d ss t pre sv post :
  Forall (sealed_ok c d) ss -> ss ++ [t] = pre ++ sv :: post ->
  (post = [] /\ sv = t /\ pre = ss) \/
  (exists r2, post = r2 ++ [t] /\ ss = pre ++ sv :: r2 /\ sealed_ok c d sv /\ Forall (sealed_ok c d) r2).
Proof.
  intros HS E. destruct (snoc_split ss t pre (sv :: post) E) as [[E1 _]|(r' & E1 & E2)]; [discriminate|].
  destruct r' as [|sv2 r2]; cbn [app] in E1; injection E1 as -> ->.
  - left. rewrite app_nil_r in E2. auto.
  - right. exists r2. rewrite E2 in HS. apply Forall_app in HS. destruct HS as [_ HS]. inversion HS; auto.
Qed.
Lemma linked_next pre s x post : linked (pre ++ s :: x :: post) -> si_base x = si_max s + 1 /\ si_min x = si_base x.
Proof. intros H. apply linked_app_r in H. destruct H as (H1 & H2 & _). auto. Qed.

(* abs reads the state through the listed segments, the tail's last index and the entries of the files *)
Lemma abs_ext w w' d d' :
  st_segs w' = st_segs w -> tail_last (st_tail w') = tail_last (st_tail w) ->
  (forall s, In s (st_segs w) -> file_ents (name_of s) d' = file_ents (name_of s) d) ->
  abs w' d' = abs w d.
Proof.
  intros Es Et E. unfold abs, first_index. rewrite Es, Et.
  replace (flat_map (seg_visible (tail_last (st_tail w)) d') (st_segs w))
    with (flat_map (seg_visible (tail_last (st_tail w)) d) (st_segs w)); [reflexivity|].
  revert E. generalize (st_segs w) as l. induction l as [|s r IH]; intros E; [reflexivity|]. cbn [flat_map].
  rewrite IH by (intros x Hx; apply E; right; exact Hx).
  rewrite (seg_visible_ext _ d d' s) by (apply E; left; reflexivity). reflexivity.
Qed.

(* abs of a state that holds entries *)
Lemma abs_nonempty c w d ss t tw : WInvS c w d ss t tw ->
  flat_map (seg_visible (ws_commit_idx tw) d) (ss ++ [t]) <> [] ->
  abs w d = {| sl_first := si_min (hd t ss);
               sl_ents := flat_map (seg_visible (ws_commit_idx tw) d) (ss ++ [t]) |}.
Proof.
  intros HI Hes. destruct (abs_props _ _ _ _ _ _ HI) as (_ & _ & _ & _ & Hne).
  destruct Hne as (Ha & HFm & _); [|rewrite Ha, HFm; reflexivity].
  rewrite (winv_segs HI), (winv_tail HI). intros E0. apply Hes. apply (winv_content_nonempty _ _ _ _ _ _ HI). exact E0.
Qed.

(* the sealed segments before [h] hold the indexes from their first MinIndex up to MinIndex h - 1 *)
Lemma chain_len c d tl : forall pre h,
  Forall (sealed_ok c d) pre -> linked (pre ++ [h]) ->
  si_min (hd h pre) + llen (flat_map (seg_visible tl d) pre) = si_min h.
Proof.
  induction pre as [|s pre IH]; intros h HS HL; [cbn [hd flat_map]; rewrite llen_nil; lia|].
  inversion HS as [|? ? Hs HS']; subst. cbn [hd flat_map]. rewrite llen_app.
  destruct (vis_sealed _ _ tl _ Hs) as (f & _ & _ & _ & Hlen & _).
  destruct (sealed_srange _ _ _ Hs) as [Hr1 Hr2].
  assert (Hnext : si_min (hd h pre) = si_max s + 1).
  { destruct pre as [|s' pre']; cbn [app hd] in *; destruct HL as (E1 & E2 & _); lia. }
  specialize (IH h HS' (linked_tail _ _ HL)). lia.
Qed.

Lemma abs_bounds c w d ss t tw : WInvS c w d ss t tw ->
  sl_is_empty (abs w d) = (last_index (st_segs w) (st_tail w) =? 0) /\
  sl_first (abs w d) = first_index (st_segs w) (st_tail w).
Proof.
  intros HI. destruct (abs_props _ _ _ _ _ _ HI) as (Hsf & _ & Hemp & _ & Hne).
  destruct (N.eqb_spec (last_index (st_segs w) (st_tail w)) 0) as [E|E].
  - assert (He := proj2 Hemp E). split; [exact He|]. unfold spec_first in Hsf. rewrite He in Hsf.
    rewrite <- Hsf, (abs_eq _ _ _ _ _ _ HI), E. reflexivity.
  - split; [|destruct (Hne E) as (Ha & _); rewrite Ha; reflexivity].
    destruct (sl_is_empty (abs w d)); [|reflexivity]. exfalso. apply E, Hemp. reflexivity.
Qed.

(* the entries of abs, and their indexes *)
Lemma abs_ents c w d ss t tw : WInvS c w d ss t tw ->
  sl_ents (abs w d) = flat_map (seg_visible (ws_commit_idx tw) d) (ss ++ [t]).
Proof.
  intros HI. rewrite (abs_eq _ _ _ _ _ _ HI).
  rewrite (winv_segs HI), (winv_tail HI).
  destruct (N.eqb_spec (last_index (ss ++ [t]) (Some tw)) 0) as [E|E]; [|reflexivity].
  apply (winv_content_nonempty _ _ _ _ _ _ HI) in E. rewrite E. reflexivity.
Qed.
Lemma abs_consecutive c w d ss t tw : WInvS c w d ss t tw ->
  consecutive (sl_first (abs w d)) (sl_ents (abs w d)) = true.
Proof.
  intros HI. destruct (abs_props _ _ _ _ _ _ HI) as (_ & _ & _ & _ & Hne).
  destruct (N.eq_dec (last_index (st_segs w) (st_tail w)) 0) as [E|E].
  - rewrite (abs_eq _ _ _ _ _ _ HI), E. reflexivity.
  - destruct (Hne E) as (Ha & _ & _ & _ & _ & _ & Hcons). rewrite Ha in *. exact Hcons.
Qed.
