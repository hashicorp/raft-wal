(* FaultNames.v -- the segments a WAL operation lists afterwards carry names it listed
   before or the freshly allocated segment id: a file that is not listed and has an
   older id (garbage left by a deletion that failed) is never listed again. *)
From RW Require Import Base.Bytes Base.BytesFacts Fmt.Codec Fmt.Frame Wal.Model Wal.Spec Wal.Hist
  Wal.CrashInv Wal.ModelFacts Wal.CrashFacts0 Wal.CrashFacts1 Wal.CrashFacts4 Wal.CrashFacts6 Wal.CrashCalls4 Wal.FaultSim Wal.FaultSim2 Gen.Constants.
From RW Require Import Base.LiaSetup.
Open Scope N_scope.

Definition fresh_sub (w : wal) (segs' : list seginfo) : Prop :=
  forall s, In s segs' -> (exists s0, In s0 (st_segs w) /\ name_of s = name_of s0) \/ si_id s = st_next_id w.

Definition meta_sub (w : wal) (d d' : disk) : Prop :=
  dk_meta d' = dk_meta d \/ exists ps, dk_meta d' = Some ps /\ fresh_sub w (ps_segs ps).

Lemma fresh_sub_refl w : fresh_sub w (st_segs w).
Proof. intros s Hs. left. exists s. auto. Qed.

Lemma seg_set_in si l s : In s (seg_set si l) -> s = si \/ In s l.
Proof.
  induction l as [|x r IH]; cbn [seg_set]; [intros [<-|[]]; auto|].
  destruct (si_base si <? si_base x); [intros [<-|H]; auto|].
  destruct (si_base si =? si_base x); [intros [<-|H]; [auto|right; right; exact H]|].
  intros [<-|H]; [right; left; reflexivity|]. destruct (IH H); [auto|right; right; assumption].
Qed.
Lemma seg_del_in b l s : In s (seg_del b l) -> In s l.
Proof.
  induction l as [|x r IH]; cbn [seg_del]; [auto|].
  destruct (si_base x =? b); [intros H; right; exact H|]. intros [<-|H]; [left; reflexivity|right; auto].
Qed.

Lemma create_next_in c nid segs1 nbase nid' segs2 si s :
  create_next c nid segs1 nbase = (nid', segs2, si) -> In s segs2 -> (si_id s = nid /\ s = si) \/ In s segs1.
Proof.
  unfold create_next. intros E Hs. inversion E; subst. destruct (seg_set_in _ _ _ Hs) as [->|H]; [left; split; reflexivity|right; exact H].
Qed.

(* actions other than a commit leave the metadata alone *)
Lemma apply_act_meta d a : (forall ps, a <> ACommit ps) -> dk_meta (apply_act d a) = dk_meta d.
Proof.
  intros H. destruct a; cbn [apply_act]; try reflexivity.
  - destruct (lookup n (dk_files d)); reflexivity.
  - destruct (lookup n (dk_files d)); reflexivity.
  - exfalso. apply (H ps). reflexivity.
Qed.
Lemma io_meta a e : (forall ps, a <> ACommit ps) -> dk_meta (e_disk (snd (io a e))) = dk_meta (e_disk e).
Proof.
  intros H. unfold io. destruct (is_delete a).
  - destruct (armed e && fx_del (e_fx e)); cbn [snd e_disk]; [reflexivity|apply apply_act_meta; exact H].
  - destruct (e_fault e) as [[|k]|]; [destruct (is_txn a && fx_land (e_fx e))|..]; cbn [snd e_disk];
      [apply apply_act_meta; exact H|reflexivity|apply apply_act_meta; exact H|apply apply_act_meta; exact H].
Qed.
Lemma delete_files_meta ns e : dk_meta (e_disk (delete_files ns e)) = dk_meta (e_disk e).
Proof.
  destruct (delete_files_real ns e) as (_ & _ & K). rewrite K. destruct (del_fails e); [reflexivity|].
  apply (del_disk_meta ns (e_disk e)).
Qed.
Lemma seg_create_meta si e sw e' : seg_create si e = (sw, e') -> dk_meta (e_disk e') = dk_meta (e_disk e).
Proof.
  unfold seg_create. destruct (si_base si =? 0); [intros [= _ <-]; reflexivity|].
  destruct (lookup _ _).
  - pose proof (io_meta (AFail (ACreate (name_of si) (si_size_limit si))) e ltac:(discriminate)) as M.
    destruct (io _ e) as [ok e1]. intros [= _ <-]. exact M.
  - pose proof (io_meta (ACreate (name_of si) (si_size_limit si)) e ltac:(discriminate)) as M.
    destruct (io _ e) as [[] e1]; intros [= _ <-]; [exact M|]. destruct (fx_leave _); exact M.
Qed.

(* what a state transaction does to the listed segments and the metadata *)
Lemma mutate_gen_sub defer w t e r w' e' dl : mutate_gen defer w t e = (r, w', e', dl) ->
  (st_segs w' = st_segs w \/ st_segs w' = tx_segs t) /\
  (dk_meta (e_disk e') = dk_meta (e_disk e) \/ dk_meta (e_disk e') = Some (tx_ps t)).
Proof.
  unfold mutate_gen. fold (tx_ps t).
  assert (Hm1 : dk_meta (e_disk (snd (io (ACommit (tx_ps t)) e))) = dk_meta (e_disk e) \/
                dk_meta (e_disk (snd (io (ACommit (tx_ps t)) e))) = Some (tx_ps t)).
  { destruct (io_cases3 (ACommit (tx_ps t)) e eq_refl) as [(e1 & E1 & D & _)|[(e1 & E1 & D & _)|(e1 & E1 & _ & D & _)]];
      rewrite E1; cbn [snd]; rewrite D; auto. }
  destruct (io _ e) as [ok e1]. cbn [snd] in Hm1. destruct ok; cbn [negb]; [|intros [= _ <- <- _]; auto].
  assert (Hdel : forall e0, dk_meta (e_disk (if defer then e0 else delete_files (tx_delete t) e0)) = dk_meta (e_disk e0))
    by (intros e0; destruct defer; [reflexivity|apply delete_files_meta]).
  destruct (tx_create t) as [si|].
  - destruct (seg_create si e1) as [sw e2] eqn:Es. apply seg_create_meta in Es.
    destruct sw; intros [= _ <- <- _]; cbn [st_segs]; rewrite ?Hdel, Es; auto.
  - intros [= _ <- <- _]. cbn [st_segs]. rewrite Hdel. auto.
Qed.

Lemma mutate_sub w t e r w' e' : mutate w t e = (r, w', e') ->
  (st_segs w' = st_segs w \/ st_segs w' = tx_segs t) /\
  (dk_meta (e_disk e') = dk_meta (e_disk e) \/ dk_meta (e_disk e') = Some (tx_ps t)).
Proof.
  unfold mutate. destruct (mutate_gen false w t e) as [[[r0 w0] e0] d0] eqn:E. intros K; inversion K; subst.
  eapply mutate_gen_sub; eauto.
Qed.

(* the two consequences used below *)
Definition op_sub (w : wal) (e : env) (w' : wal) (e' : env) : Prop :=
  fresh_sub w (st_segs w') /\ meta_sub w (e_disk e) (e_disk e').

Lemma op_sub_of w0 w t e w' e' :
  st_segs w0 = st_segs w -> fresh_sub w (tx_segs t) ->
  (st_segs w' = st_segs w0 \/ st_segs w' = tx_segs t) /\
  (dk_meta (e_disk e') = dk_meta (e_disk e) \/ dk_meta (e_disk e') = Some (tx_ps t)) ->
  op_sub w e w' e'.
Proof.
  intros Hs Hf (A & B). split.
  - destruct A as [A|A]; rewrite A; [rewrite Hs; apply fresh_sub_refl|exact Hf].
  - destruct B as [B|B]; [left; exact B|right; exists (tx_ps t); split; [exact B|exact Hf]].
Qed.

Lemma op_sub_refl w e e' : dk_meta (e_disk e') = dk_meta (e_disk e) -> op_sub w e w e'.
Proof. intros H. split; [apply fresh_sub_refl|left; exact H]. Qed.

Lemma guarded_write_meta g a w w2 e r w' e' : (forall ps, a <> ACommit ps) ->
  guarded_write g a w w2 e = (r, w', e') -> dk_meta (e_disk e') = dk_meta (e_disk e).
Proof.
  intros Ha. unfold guarded_write, write_sync. destruct g; [intros [= _ _ <-]; reflexivity|].
  pose proof (io_meta a e Ha) as M1. destruct (io a e) as [[] e1]; cbn [snd] in M1; [|intros [= _ _ <-]; exact M1].
  pose proof (io_meta (ASync (ws_name w)) e1 ltac:(discriminate)) as M2. destruct (io _ e1) as [[] e2]; cbn [snd] in M2;
    intros [= _ _ <-]; congruence.
Qed.
Lemma seg_append_meta tw ls e r tw' e' : seg_append tw ls e = (r, tw', e') -> dk_meta (e_disk e') = dk_meta (e_disk e).
Proof. rewrite seg_append_eq. destruct (append_act_form tw ls) as (l & b & ->). apply guarded_write_meta. discriminate. Qed.
Lemma seg_force_seal_meta tw e r tw' e' : seg_force_seal tw e = (r, tw', e') -> dk_meta (e_disk e') = dk_meta (e_disk e).
Proof. rewrite seg_force_seal_eq. destruct (force_act_form tw) as (l & b & ->). apply guarded_write_meta. discriminate. Qed.

Lemma fresh_create_next c w segs1 nbase nid segs2 si :
  create_next c (st_next_id w) segs1 nbase = (nid, segs2, si) ->
  (forall s, In s segs1 -> exists s0, In s0 (st_segs w) /\ name_of s = name_of s0) ->
  fresh_sub w segs2.
Proof.
  intros E H s Hs. destruct (create_next_in _ _ _ _ _ _ _ _ E Hs) as [(Hi & _)|Hi]; [right; exact Hi|left; apply H; exact Hi].
Qed.

Lemma rotate_sub c w e w' e' : rotate c w e = (w', e') -> op_sub w e w' e'.
Proof.
  unfold rotate. destruct (st_rotate w) as [istart|]; [|intros [= <- <-]; apply op_sub_refl; reflexivity].
  destruct (st_closed w); [intros [= <- <-]; split; [intros s Hs; left; exists s; split; [exact Hs|reflexivity]|left; reflexivity]|].
  destruct (tail_info (st_segs w)) as [t|] eqn:Et; [|intros [= <- <-]; split; [intros s Hs; left; exists s; split; [exact Hs|reflexivity]|left; reflexivity]].
  destruct (create_next _ _ _ _) as [[nid segs2] si] eqn:Ec.
  destruct (mutate _ _ _) as [[r0 w0] e0] eqn:Em. intros [= <- <-].
  apply mutate_sub in Em.
  eapply (op_sub_of _ w _ e); [reflexivity| |exact Em].
  cbn [tx_segs]. eapply fresh_create_next; [exact Ec|].
  intros s Hs. destruct (seg_set_in _ _ _ Hs) as [->|Hi]; [|exists s; auto].
  exists t. split; [apply tail_info_In; exact Et|reflexivity].
Qed.

Lemma reset_first_sub c w nb0 e r w' e' dl : reset_first c w nb0 e = (r, w', e', dl) -> op_sub w e w' e'.
Proof.
  rewrite reset_first_eq. destruct (0 <? last_index _ _); [intros [= _ <- <- _]; apply op_sub_refl; reflexivity|].
  intros E. apply mutate_gen_sub in E. eapply (op_sub_of w w); [reflexivity| |exact E].
  unfold reset_txn. destruct (tail_info (st_segs w)) as [t|]; [destruct (si_base t =? nb0); [apply fresh_sub_refl|]|];
    destruct (create_next _ _ _ _) as [[nid segs2] si] eqn:Ec; cbn [tx_segs]; (eapply fresh_create_next; [exact Ec|]);
    intros s Hs; exists s; split; [eapply seg_del_in; exact Hs|reflexivity|exact Hs|reflexivity].
Qed.

Lemma op_sub_meta w e w' e' e'' : op_sub w e w' e' -> dk_meta (e_disk e'') = dk_meta (e_disk e') -> op_sub w e w' e''.
Proof.
  intros (A & B) H. split; [exact A|]. destruct B as [B|(ps & B & C)]; [left; rewrite H; exact B|right; exists ps; rewrite H; auto].
Qed.
Lemma op_sub_segs w e w' e' w'' : op_sub w e w' e' -> st_segs w'' = st_segs w' -> op_sub w e w'' e'.
Proof. intros (A & B) H. split; [rewrite H; exact A|exact B]. Qed.

Lemma store_go_sub last ls w1 e1 r2 w2 e2 : store_go last ls w1 e1 = (r2, w2, e2) ->
  st_segs w2 = st_segs w1 /\ dk_meta (e_disk e2) = dk_meta (e_disk e1).
Proof.
  intros E. destruct (store_go_cases _ _ _ _ _ _ _ E) as [(_ & -> & ->)|(tw & tw1 & ea & _ & Ea & Hs & He)]; [auto|].
  split; [exact Hs|]. apply seg_append_meta in Ea. destruct He as [->|(f & ->)]; exact Ea.
Qed.

Lemma store_logs_sub c w ls e r w' e' : store_logs c w ls e = (r, w', e') -> op_sub w e w' e'.
Proof.
  rewrite store_logs_unfold. destruct (st_closed w); [intros [= <- <- <-]; apply op_sub_refl; reflexivity|].
  destruct ls as [|l0 lr]; [intros [= <- <- <-]; apply op_sub_refl; reflexivity|].
  destruct (st_failed w); [intros [= <- <- <-]; apply op_sub_refl; reflexivity|]. cbv zeta.
  destruct (tail_info (st_segs w)) as [ti|]; [|intros [= <- <- <-]; apply op_sub_refl; reflexivity].
  destruct (_ && _).
  - destruct (reset_first c w (l_index l0) e) as [[[r1 w1] e1] dels] eqn:Er. apply reset_first_sub in Er.
    destruct (result_ok_dec r1) as [->|Hr1]; [|rewrite (match_not_ok r1 _ _ Hr1); intros [= _ <- <-]; exact Er].
    destruct (store_go _ _ w1 e1) as [[r2 w2] e2] eqn:Eg. intros [= _ <- <-]. destruct (store_go_sub _ _ _ _ _ _ _ Eg) as (A & B).
    eapply op_sub_segs; [|exact A]. eapply op_sub_meta; [exact Er|]. rewrite delete_files_meta. exact B.
  - intros E. destruct (store_go_sub _ _ _ _ _ _ _ E) as (A & B). eapply op_sub_segs; [|exact A]. apply op_sub_refl. exact B.
Qed.

Lemma truncate_head_sub c w nm e r w' e' : truncate_head c w nm e = (r, w', e') -> op_sub w e w' e'.
Proof.
  unfold truncate_head. destruct (head_scan _ _ _ _ _) as [[[rest del] ntr] head] eqn:Eh.
  destruct (head_scan_inv _ _ _ _ _ _ _ _ _ Eh) as (sk & Hs & _ & Hh & _).
  assert (Hin : forall s, In s rest -> In s (st_segs w)) by (intros s Hi; rewrite Hs; apply in_or_app; right; exact Hi).
  destruct head as [h|].
  - intros E. apply mutate_sub in E. eapply (op_sub_of w w _ e); [reflexivity| |exact E]. cbn [tx_segs].
    intros s Hi. left. destruct (seg_set_in _ _ _ Hi) as [->|Hi']; [|exists s; auto].
    exists h. split; [apply Hin; destruct rest; inversion Hh; left; reflexivity|reflexivity].
  - destruct (create_next _ _ _ _) as [[nid segs2] si] eqn:Ec. intros E. apply mutate_sub in E.
    eapply (op_sub_of w w _ e); [reflexivity| |exact E]. cbn [tx_segs]. eapply fresh_create_next; [exact Ec|]. intros s [].
Qed.

Lemma truncate_tail_sub c w nm e r w' e' : truncate_tail c w nm e = (r, w', e') -> op_sub w e w' e'.
Proof.
  unfold truncate_tail. destruct (tail_scan _ _ _ _ _) as [[rrest del] ntr] eqn:Et.
  destruct (tail_scan_inv _ _ _ _ _ _ _ _ Et) as (sk & Hs & _).
  assert (Hin : forall s, In s rrest -> In s (st_segs w)).
  { intros s Hi. apply in_rev. rewrite Hs. apply in_or_app. right. exact Hi. }
  destruct rrest as [|t rr].
  - destruct (create_next _ _ _ _) as [[nid segs2] si] eqn:Ec. intros E. apply mutate_sub in E.
    eapply (op_sub_of w w); [reflexivity| |exact E]. cbn [tx_segs]. eapply fresh_create_next; [exact Ec|]. intros s [].
  - assert (Hfin : forall t' nid segs2 si, name_of t' = name_of t ->
        create_next c (st_next_id w) (seg_set t' (rev (t :: rr))) 0 = (nid, segs2, si) -> fresh_sub w segs2).
    { intros t' nid segs2 si Hn Ec. eapply fresh_create_next; [exact Ec|].
      intros s Hi. destruct (seg_set_in _ _ _ Hi) as [->|Hi']; [exists t; split; [apply Hin; left; reflexivity|exact Hn]|].
      exists s. split; [apply Hin; apply in_rev; exact Hi'|reflexivity]. }
    destruct (si_sealed t).
    + destruct (create_next _ _ _ _) as [[nid segs2] si] eqn:Ec. intros E. apply mutate_sub in E.
      eapply (op_sub_of _ w _ e); [| |exact E]; [reflexivity|]. cbn [tx_segs]. eapply Hfin; [|exact Ec]. reflexivity.
    + destruct (st_tail w) as [tw|]; [|intros [= <- <- <-]; apply op_sub_refl; reflexivity].
      destruct (seg_force_seal tw e) as [[rs tw'] e1] eqn:Ef. pose proof (seg_force_seal_meta _ _ _ _ _ Ef) as M.
      destruct (result_ok_dec rs) as [->|Hrs].
      2:{ rewrite (match_not_ok rs _ _ Hrs). intros [= _ <- <-]. split; [exact (fresh_sub_refl w)|left; exact M]. }
      destruct (create_next _ _ _ _) as [[nid segs2] si] eqn:Ec. intros E. apply mutate_sub in E.
      eapply op_sub_meta with (e' := e'); [|reflexivity].
      assert (K : op_sub w e1 w' e').
      { eapply (op_sub_of _ w _ e1); [| |exact E]; [reflexivity|]. cbn [tx_segs]. eapply Hfin; [|exact Ec]. reflexivity. }
      destruct K as (A & B). split; [exact A|]. destruct B as [B|B]; [left; rewrite B; exact M|right; exact B].
Qed.

Lemma delete_range_sub c w mn mx e r w' e' : delete_range c w mn mx e = (r, w', e') -> op_sub w e w' e'.
Proof.
  unfold delete_range. destruct (st_closed w); [intros [= <- <- <-]; apply op_sub_refl; reflexivity|].
  destruct (mx <? mn); [intros [= <- <- <-]; apply op_sub_refl; reflexivity|].
  destruct (st_failed w); [intros [= <- <- <-]; apply op_sub_refl; reflexivity|].
  destruct (_ || _); [intros [= <- <- <-]; apply op_sub_refl; reflexivity|].
  destruct (mn <=? _); [apply truncate_head_sub|].
  destruct (_ <=? mx); [apply truncate_tail_sub|]. intros [= <- <- <-]; apply op_sub_refl; reflexivity.
Qed.

(* a file that is not listed and carries an id below the next one stays unlisted *)
Lemma fresh_sub_keep w segs' n : fresh_sub w segs' -> snd n < st_next_id w ->
  (forall s, In s (st_segs w) -> name_of s <> n) -> forall s, In s segs' -> name_of s <> n.
Proof.
  intros Hf Hid Hu s Hs. destruct (Hf s Hs) as [(s0 & Hi & Hn)|Hi].
  - rewrite Hn. apply Hu. exact Hi.
  - intros <-. unfold name_of in Hid. cbn [snd] in Hid. lia.
Qed.
