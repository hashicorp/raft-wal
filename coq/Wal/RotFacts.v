(* RotFacts.v -- segment_rotations shows the rotations of the persisted-metadata
   history (C20): every sequential history, per lifetime.  The statement is
   [rotations_show] of Wal/MetricsSpec.v. *)
From RW Require Import Base.Bytes Base.BytesFacts Fmt.Codec Fmt.CodecFacts Fmt.Frame
  Wal.Model Wal.Spec Wal.Hist Wal.SeqInv Wal.ModelFacts Wal.SeqFactsBase Wal.SeqFactsAbs Wal.SeqFactsTxn Wal.SeqFactsOps1
  Wal.SeqFactsOps2 Wal.SeqFactsOps3 Wal.SeqFactsMain Wal.MetricsSpec Gen.Constants Base.LiaSetup.
Open Scope N_scope.

(* trace and disk of e' are those of e after the actions new *)
Definition ext (e e' : env) (new : list act) : Prop :=
  e_acts e' = rev new ++ e_acts e /\ e_disk e' = fold_left apply_act new (e_disk e).

(* [R e e']: e' extends the trace of e by actions that, replayed on the disk of
   e, give the disk of e', and the rotation counter moved by exactly the
   rotations among them; no fault is armed afterwards *)
Definition R (e e' : env) : Prop :=
  e_fault e' = None /\
  exists new, ext e e' new /\
    m_rotations (e_m e') = m_rotations (e_m e) + rot_count (e_disk e) new.

Lemma rot_count_app d a b :
  rot_count d (a ++ b) = rot_count d a + rot_count (fold_left apply_act a d) b.
Proof.
  revert d. induction a as [|x a IH]; intros d; cbn [app rot_count fold_left]; [reflexivity|].
  rewrite IH. lia.
Qed.

Lemma R_refl e : e_fault e = None -> R e e.
Proof. intros H. split; [exact H|]. exists []. split; [split; reflexivity|]. cbn. lia. Qed.

Lemma ext_trans e1 e2 e3 n1 n2 : ext e1 e2 n1 -> ext e2 e3 n2 -> ext e1 e3 (n1 ++ n2).
Proof.
  intros (A1 & D1) (A2 & D2). split.
  - rewrite A2, A1, rev_app_distr, app_assoc. reflexivity.
  - rewrite fold_left_app, <- D1. exact D2.
Qed.

Lemma R_trans e1 e2 e3 : R e1 e2 -> R e2 e3 -> R e1 e3.
Proof.
  intros (_ & n1 & X1 & M1) (F & n2 & X2 & M2). split; [exact F|].
  exists (n1 ++ n2). split; [exact (ext_trans _ _ _ _ _ X1 X2)|].
  rewrite rot_count_app, <- (proj2 X1). lia.
Qed.

Lemma R_fault e e' : R e e' -> e_fault e' = None.
Proof. intros (H & _). exact H. Qed.

Definition is_commit (a : act) : bool := match a with ACommit _ => true | _ => false end.

Lemma R_act a e : act_rotation (e_disk e) a = 0 -> R e (io_post a e).
Proof.
  intros H. split; [reflexivity|]. exists [a]. split; [split; reflexivity|].
  cbn [rot_count io_post e_m]. rewrite H. lia.
Qed.

Lemma R_plain a e : is_commit a = false -> R e (io_post a e).
Proof. intros H. apply R_act. destruct a; try discriminate; reflexivity. Qed.

Lemma R_with_m e m : e_fault e = None -> m_rotations m = m_rotations (e_m e) -> R e (with_m e m).
Proof.
  intros F H. split; [exact F|]. exists []. split; [split; reflexivity|]. cbn [with_m e_m rot_count]. lia.
Qed.

Lemma delete_files_R ns : forall e, e_fault e = None -> R e (delete_files ns e).
Proof.
  induction ns as [|n ns IH]; intros e He; unfold delete_files; cbn [fold_left]; [apply R_refl; exact He|].
  rewrite (io_ok _ _ He). cbn [snd]. eapply R_trans; [apply (R_plain (ADelete n)); reflexivity|].
  apply IH. reflexivity.
Qed.

Lemma seg_create_R si e sw e' : e_fault e = None -> seg_create si e = (sw, e') -> R e e'.
Proof.
  intros He. unfold seg_create. destruct (si_base si =? 0); [intros H; inversion H; subst; apply R_refl; exact He|].
  destruct (lookup _ _).
  - rewrite (io_ok _ _ He). intros H; inversion H; subst. apply R_plain. reflexivity.
  - rewrite (io_ok _ _ He). intros H; inversion H; subst. apply R_plain. reflexivity.
Qed.

Lemma seg_append_R tw ls e r tw' e' : e_fault e = None -> seg_append tw ls e = (r, tw', e') -> R e e'.
Proof.
  intros He. unfold seg_append. destruct ls as [|l0 rest]; [intros H; inversion H; subst; apply R_refl; exact He|].
  destruct (0 <? ws_index_start tw); [intros H; inversion H; subst; apply R_refl; exact He|].
  destruct (existsb _ _); [intros H; inversion H; subst; apply R_refl; exact He|].
  destruct (negb _); [intros H; inversion H; subst; apply R_refl; exact He|].
  cbv zeta. rewrite (io_ok _ _ He). cbn [negb]. rewrite (io_ok _ _ (io_post_fault _ _)). cbn [negb].
  intros H; inversion H; subst. eapply R_trans; apply R_plain; reflexivity.
Qed.

Lemma seg_force_seal_R tw e r tw' e' : e_fault e = None -> seg_force_seal tw e = (r, tw', e') -> R e e'.
Proof.
  intros He. unfold seg_force_seal.
  destruct (0 <? ws_index_start tw); [intros H; inversion H; subst; apply R_refl; exact He|].
  destruct (ws_n tw =? 0); [intros H; inversion H; subst; apply R_refl; exact He|].
  cbv zeta. rewrite (io_ok _ _ He). cbn [negb]. rewrite (io_ok _ _ (io_post_fault _ _)). cbn [negb].
  intros H; inversion H; subst. eapply R_trans; apply R_plain; reflexivity.
Qed.

Lemma segs_eqb_len : forall a b, segs_eqb a b = true -> length a = length b.
Proof.
  induction a as [|x a IH]; intros [|y b] H; cbn [segs_eqb] in H; try discriminate; [reflexivity|].
  apply andb_true_iff in H. destruct H as [_ H]. cbn [length]. f_equal. apply IH. exact H.
Qed.

Lemma seginfo_eqb_refl x : seginfo_eqb x x = true.
Proof. unfold seginfo_eqb. rewrite !N.eqb_refl, Bool.eqb_reflx. reflexivity. Qed.
Lemma segs_eqb_refl l : segs_eqb l l = true.
Proof. induction l as [|x l IH]; cbn [segs_eqb]; [reflexivity|]. rewrite seginfo_eqb_refl, IH. reflexivity. Qed.

Lemma is_rotation_len d old new :
  is_rotation d old new = true -> length (ps_segs new) = S (length (ps_segs old)).
Proof.
  unfold is_rotation. rewrite <- (rev_length (ps_segs new)), <- (rev_length (ps_segs old)).
  destruct (rev (ps_segs old)) as [|t rp]; [discriminate|].
  destruct (rev (ps_segs new)) as [|n [|t' rp']]; try discriminate.
  intros H. apply andb_true_iff in H. destruct H as [_ H]. apply segs_eqb_len in H. cbn [length]. lia.
Qed.

Lemma norot_len d old ps :
  dk_meta d = Some old -> length (ps_segs ps) <> S (length (ps_segs old)) -> act_rotation d (ACommit ps) = 0.
Proof.
  intros Hm Hl. unfold act_rotation. rewrite Hm. destruct (is_rotation d old ps) eqn:E; [|reflexivity].
  apply is_rotation_len in E. contradiction.
Qed.

(* mutateStateLocked: one commit, then file work *)
Lemma mutate_gen_R defer w t e r w' e' dels :
  e_fault e = None ->
  act_rotation (e_disk e) (ACommit {| ps_next_id := tx_next_id t; ps_segs := tx_segs t |}) = 0 ->
  mutate_gen defer w t e = (r, w', e', dels) -> R e e'.
Proof.
  intros He Hn. unfold mutate_gen. rewrite (io_ok _ _ He). cbn [negb].
  assert (R0 := R_act _ _ Hn).
  set (e1 := io_post (ACommit {| ps_next_id := tx_next_id t; ps_segs := tx_segs t |}) e) in *.
  destruct (tx_create t) as [si|].
  - destruct (seg_create si e1) as [sw e2] eqn:Ec.
    assert (R2 := seg_create_R _ _ _ _ (io_post_fault _ _) Ec).
    destruct sw; intros H; inversion H; subst; clear H.
    + destruct defer; [eapply R_trans; eassumption|].
      eapply R_trans; [exact R0|]. eapply R_trans; [exact R2|]. apply delete_files_R. apply (R_fault _ _ R2).
    + eapply R_trans; eassumption.
  - intros H; inversion H; subst; clear H.
    destruct defer; [exact R0|]. eapply R_trans; [exact R0|]. apply delete_files_R. reflexivity.
Qed.

Lemma mutate_R w t e r w' e' :
  e_fault e = None ->
  act_rotation (e_disk e) (ACommit {| ps_next_id := tx_next_id t; ps_segs := tx_segs t |}) = 0 ->
  mutate w t e = (r, w', e') -> R e e'.
Proof.
  intros He Hn. unfold mutate. destruct (mutate_gen false w t e) as [[[r0 w0] e0] d0] eqn:E.
  intros H; inversion H; subst. eapply mutate_gen_R; eassumption.
Qed.

Lemma seg_set_len x l : (length (seg_set x l) <= S (length l))%nat.
Proof.
  induction l as [|y l IH]; cbn [seg_set length]; [lia|].
  destruct (si_base x <? si_base y); [cbn [length]; lia|].
  destruct (si_base x =? si_base y); cbn [length]; lia.
Qed.

Lemma seg_del_lt b l : (exists x, In x l /\ si_base x = b) -> (length (seg_del b l) < length l)%nat.
Proof.
  induction l as [|y l IH]; intros (x & Hx & Hb); [destruct Hx|]. cbn [seg_del length].
  destruct (N.eqb_spec (si_base y) b) as [E|E]; [lia|]. cbn [length].
  destruct Hx as [->|Hx]; [contradiction|]. assert (H := IH (ex_intro _ x (conj Hx Hb))). lia.
Qed.

Lemma create_next_segs c nid segs nb nid' segs2 si :
  create_next c nid segs nb = (nid', segs2, si) -> segs2 = seg_set si segs.
Proof. unfold create_next. intros H. inversion H. reflexivity. Qed.

Lemma norot_short d ps : (length (ps_segs ps) < 2)%nat -> act_rotation d (ACommit ps) = 0.
Proof.
  intros Hl. unfold act_rotation. destruct (dk_meta d) as [old|]; [|reflexivity].
  unfold is_rotation. rewrite <- (rev_length (ps_segs ps)) in Hl.
  destruct (rev (ps_segs old)) as [|t rp]; [reflexivity|].
  destruct (rev (ps_segs ps)) as [|n [|t' rp']]; try reflexivity. cbn [length] in Hl. lia.
Qed.

Lemma reset_first_R c w nb e r w1 e1 dels :
  e_fault e = None -> dk_meta (e_disk e) = Some (persistent w) ->
  reset_first c w nb e = (r, w1, e1, dels) -> R e e1.
Proof.
  intros He Hm. unfold reset_first.
  destruct (0 <? last_index (st_segs w) (st_tail w)); [intros H; inversion H; subst; apply R_refl; exact He|].
  destruct (tail_info (st_segs w)) as [t|] eqn:Et.
  - destruct (si_base t =? nb).
    + apply mutate_gen_R; [exact He|]. apply (norot_len _ _ _ Hm). cbn [ps_segs persistent tx_segs]. lia.
    + destruct (create_next c (st_next_id w) (seg_del (si_base t) (st_segs w)) nb) as [[nid segs2] si] eqn:Ecn.
      apply create_next_segs in Ecn. subst segs2.
      apply mutate_gen_R; [exact He|]. apply (norot_len _ _ _ Hm). cbn [ps_segs persistent tx_segs].
      assert (H1 := seg_set_len si (seg_del (si_base t) (st_segs w))).
      assert (H2 := seg_del_lt (si_base t) (st_segs w) (ex_intro _ t (conj (tail_info_In _ _ Et) eq_refl))). lia.
  - destruct (create_next c (st_next_id w) (st_segs w) nb) as [[nid segs2] si] eqn:Ecn.
    apply create_next_segs in Ecn. subst segs2. rewrite (tail_info_none _ Et).
    apply mutate_gen_R; [exact He|]. apply norot_short. cbn. lia.
Qed.

Lemma store_go_R L ls w e r w' e' : e_fault e = None -> store_go L ls w e = (r, w', e') -> R e e'.
Proof.
  intros He. unfold store_go. destruct (check_logs L ls) as [res nb].
  destruct res; try (intros H; inversion H; subst; apply R_refl; exact He).
  destruct (st_tail w) as [tw|]; [|intros H; inversion H; subst; apply R_refl; exact He].
  destruct (seg_append tw ls e) as [[r1 tw'] e1] eqn:Ea.
  assert (R1 := seg_append_R _ _ _ _ _ _ He Ea).
  (* the metrics update of an accepted batch leaves the rotation counter alone *)
  destruct r1; intros H; inversion H; subst; exact R1.
Qed.

Lemma store_logs_R c w e ss t tw ls r w' e' :
  e_fault e = None -> WInvS c w (e_disk e) ss t tw ->
  store_logs c w ls e = (r, w', e') -> R e e'.
Proof.
  intros He (Hcl & Hfa & Hmeta & _ & _ & Hsegs & _).
  destruct ls as [|l0 rest].
  { unfold store_logs. rewrite Hcl. intros H; inversion H; subst. apply R_refl; exact He. }
  assert (Hti : tail_info (st_segs w) = Some t) by (rewrite Hsegs; apply tail_info_snoc).
  rewrite (store_logs_unfold c w l0 rest e t Hcl Hfa Hti). cbv zeta.
  destruct (_ && _).
  - destruct (reset_first c w (l_index l0) e) as [[[r1 w1] e1] dels] eqn:Er.
    assert (R1 := reset_first_R _ _ _ _ _ _ _ _ He Hmeta Er).
    destruct r1; try (intros H; inversion H; subst; exact R1).
    destruct (store_go _ (l0 :: rest) w1 e1) as [[r2 w2] e2] eqn:Eg.
    assert (R2 := store_go_R _ _ _ _ _ _ _ (R_fault _ _ R1) Eg).
    intros H; inversion H; subst. eapply R_trans; [exact R1|]. eapply R_trans; [exact R2|].
    apply delete_files_R. apply (R_fault _ _ R2).
  - apply store_go_R. exact He.
Qed.

Lemma truncate_head_R c w nm e r w' e' :
  e_fault e = None -> dk_meta (e_disk e) = Some (persistent w) ->
  truncate_head c w nm e = (r, w', e') -> R e e'.
Proof.
  intros He Hm. unfold truncate_head.
  destruct (head_scan nm (tail_last (st_tail w)) (st_segs w) [] 0) as [[[rest del] ntr] head] eqn:Eh.
  destruct head as [h|].
  - set (e0 := add_m e _). intros H.
    assert (R0 : R e e0) by (apply R_with_m; [exact He|reflexivity]).
    eapply R_trans; [exact R0|]. eapply mutate_R; [exact He| |exact H].
    apply (norot_len _ (persistent w)); [exact Hm|]. cbn [ps_segs persistent tx_segs].
    destruct (head_scan_inv _ _ _ _ _ _ _ _ _ Eh) as (pre & E1 & _ & E2 & _).
    destruct rest as [|h0 r0]; inversion E2; subst h0. rewrite E1.
    rewrite seg_set_head by reflexivity. rewrite app_length. cbn [length]. lia.
  - destruct (create_next c (st_next_id w) [] _) as [[nid segs2] si] eqn:Ecn.
    apply create_next_segs in Ecn. subst segs2.
    set (e0 := add_m e _). intros H.
    assert (R0 : R e e0) by (apply R_with_m; [exact He|reflexivity]).
    eapply R_trans; [exact R0|]. eapply mutate_R; [exact He| |exact H]. apply norot_short. cbn. lia.
Qed.

Lemma truncate_tail_R c w e ss tl tw nm r w' e' :
  cfg_ok c -> e_fault e = None -> WInvS c w (e_disk e) ss tl tw -> ws_index_start tw = 0 ->
  st_next_id w + 1 < two64 -> nm < last_index (st_segs w) (st_tail w) -> nm + 1 < two64 ->
  truncate_tail c w nm e = (r, w', e') -> R e e'.
Proof.
  intros Hc He HI His Hnid HnL Hnm.
  destruct HI as (Hcl & Hfa & Hmeta & Hini & Hfr & Hsegs & Htail & HS & HT & HL & Hro).
  unfold truncate_tail.
  set (L := last_index (st_segs w) (st_tail w)) in *.
  assert (Erev : rev (st_segs w) = tl :: rev ss) by (rewrite Hsegs, rev_unit; reflexivity).
  rewrite Erev.
  destruct (tail_scan nm L (tl :: rev ss) [] 0) as [[rrest del] ntr] eqn:Et.
  destruct (tail_scan_inv _ _ _ _ _ _ _ _ Et) as (dropped & Ed & _ & _ & Hhd).
  destruct rrest as [|t r0].
  - destruct (create_next c (st_next_id w) [] 0) as [[nid segs2] si] eqn:Ecn.
    apply create_next_segs in Ecn. subst segs2.
    apply mutate_R; [exact He|]. apply norot_short. cbn. lia.
  - assert (Esegs : ss ++ [tl] = rev r0 ++ t :: rev dropped).
    { apply (f_equal (@rev _)) in Ed. cbn [rev] in Ed. rewrite rev_involutive in Ed. rewrite Ed.
      rewrite rev_app_distr. cbn [rev]. rewrite <- app_assoc. reflexivity. }
    destruct (bases_before c (e_disk e) ss tl (rev r0) t (rev dropped) HS HL Esegs) as [Hpb HSp].
    assert (Hlt : Forall (fun s => si_base s < si_base t) (rev r0)).
    { rewrite Forall_forall in *. intros s Hs. specialize (Hpb s Hs).
      destruct (sealed_srange _ _ _ (HSp s Hs)). lia. }
    pose proof (tail_ok_unsealed HT) as Hu.
    cbn [rev]. cbv zeta.
    destruct (si_sealed t) eqn:Hst.
    + (* a sealed segment becomes the last one: at least the old tail is dropped, so with the new
         tail the list does not grow by one, as it does in a rotation *)
      rewrite seg_set_replace_last; [|exact Hlt|reflexivity].
      destruct (create_next c (st_next_id w) _ 0) as [[nid segs2] si] eqn:Ecn.
      apply create_next_segs in Ecn. subst segs2.
      set (e0 := add_m e _). intros H.
      assert (R0 : R e e0) by (apply R_with_m; [exact He|reflexivity]).
      eapply R_trans; [exact R0|]. eapply mutate_R; [exact He| |exact H].
      apply (norot_len _ (persistent w)); [exact Hmeta|]. cbn [ps_segs persistent tx_segs].
      match goal with |- length (seg_set ?x ?l) <> _ => assert (H1 := seg_set_len x l) end.
      rewrite app_length in H1. cbn [length] in H1.
      assert (Hd : (0 < length dropped)%nat).
      { destruct dropped as [|d0 dr]; [|cbn; lia]. exfalso. cbn [app] in Ed. inversion Ed; subst. congruence. }
      rewrite Hsegs, Esegs, app_length. cbn [length]. rewrite !rev_length in *. lia.
    + (* force-seal plus a new tail: the commit has every structural mark of a rotation.  Only si_max = nm
         lies below the file's last entry (nm < L); the first clause of is_rotation exists for this case *)
      assert (Hdn : dropped = []).
      { destruct dropped as [|d0 dr]; [reflexivity|]. exfalso. cbn [app] in Ed. inversion Ed as [[E1 E2]].
        assert (Hin : In t ss). { apply in_rev. rewrite E2. apply in_or_app. right. left. reflexivity. }
        rewrite Forall_forall in HS. destruct (HS t Hin) as (Hse & _). congruence. }
      subst dropped. cbn [app] in Ed. inversion Ed; subst t r0. clear Ed.
      rewrite rev_involutive in *. rewrite Htail.
      assert (HLeq : L = last_index (ss ++ [tl]) (Some tw)) by (unfold L; rewrite Hsegs, Htail; reflexivity).
      rewrite (last_index_inv c (e_disk e) ss _ _ HT) in HLeq.
      assert (Hn : 0 < ws_n tw).
      { destruct (N.eqb_spec (ws_n tw) 0) as [En|En]; [|lia]. exfalso. destruct ss; lia. }
      destruct (N.eqb_spec (ws_n tw) 0) as [|_]; [lia|].
      destruct (seg_force_seal_ok c e tl tw Hc He HT His Hn)
        as (tw' & e1 & Hfs & He1 & Hm1 & HT1 & Hn1 & His1 & Hme1 & Hst1 & Hin1 & Hlk1 & Hfe1 & Hno1).
      rewrite Hfs.
      rewrite seg_set_replace_last; [|exact Hlt|reflexivity].
      rewrite create_next_snoc; [| |cbn [si_max]; lia|exact Hnid].
      2:{ apply Forall_app. split.
          - eapply Forall_impl; [|exact Hlt]. intros s Hs. cbn [si_max] in *. lia.
          - constructor; [|constructor]. cbn [si_max si_base]. lia. }
      set (e0 := add_m e1 _). intros H.
      assert (R1 := seg_force_seal_R _ _ _ _ _ He Hfs).
      assert (R0 : R e1 e0) by (apply R_with_m; [exact He1|reflexivity]).
      eapply R_trans; [exact R1|]. eapply R_trans; [exact R0|]. eapply mutate_R; [exact He1| |exact H].
      unfold act_rotation. change (e_disk e0) with (e_disk e1). rewrite Hme1, Hmeta.
      assert (Hfl : file_last (e_disk e1) tl = si_base tl + ws_n tw - 1).
      { unfold file_last. rewrite Hfe1.
        destruct (vis_tail _ _ _ _ HT) as (f & Hf & Hlen & _). rewrite (file_ents_ok _ _ _ Hf), Hlen.
        destruct (N.eqb_spec (ws_n tw) 0); [lia|reflexivity]. }
      unfold is_rotation. cbn [ps_segs persistent tx_segs]. rewrite Hsegs, !rev_unit.
      rewrite Hfl. cbn [si_max]. destruct (N.eqb_spec nm (si_base tl + ws_n tw - 1)); [lia|]. reflexivity.
Qed.

(* rotation: THE commit that counts *)
Lemma rotate_R c w e ss t tw :
  cfg_ok c -> e_fault e = None -> WInvS c w (e_disk e) ss t tw ->
  0 < ws_index_start tw -> st_next_id w + 1 < two64 ->
  R e (snd (rotate c w e)).
Proof.
  intros Hc He HI Hpos Hnid.
  assert (HI0 := HI).
  destruct HI as (Hcl & Hfa & Hmeta & Hini & Hfr & Hsegs & Htail & HS & HT & HL & Hro).
  destruct (N.ltb_spec 0 (ws_index_start tw)) as [_|]; [|lia].
  assert (Hn : 0 < ws_n tw) by (apply (tail_ok_seal HT), Hpos).
  destruct (tail_commit _ _ _ _ HT) as [Hci Hb1].
  assert (Hci' : ws_commit_idx tw = si_base t + ws_n tw - 1).
  { rewrite Hci. destruct (N.eqb_spec (ws_n tw) 0); [lia|reflexivity]. }
  pose proof (tail_ok_range HT) as Hmin.
  pose proof (tail_ok_unsealed HT) as Hu.
  unfold rotate. rewrite Hro.
  set (w0 := {| st_next_id := st_next_id w; st_segs := st_segs w; st_tail := st_tail w; st_rotate := None;
                st_failed := st_failed w; st_closed := st_closed w |}).
  rewrite Hcl, Hsegs, tail_info_snoc, Htail. cbn [tail_last].
  set (istart := ws_index_start tw).
  fold (seal_info t (ws_commit_idx tw) istart).
  set (t' := seal_info t (ws_commit_idx tw) istart).
  set (e0 := add_m e _).
  destruct (seal_new_tail c w w0 e0 ss t tw ss t [] (ws_commit_idx tw) istart []
              Hc He HI0 eq_refl Hnid Hcl Hfa eq_refl eq_refl) as (Eset & Ecn & Hmut & _);
    [lia|rewrite (emax_unsealed _ _ Hu); lia|intros n []|].
  fold t' in Eset, Ecn, Hmut. rewrite Eset, Ecn. cbv iota. rewrite Hmut.
  cbn [delete_files fold_left snd].
  set (base := ws_commit_idx tw + 1).
  set (si := new_segment c (st_next_id w0) base).
  set (ps := {| ps_next_id := st_next_id w0 + 1; ps_segs := (ss ++ [t']) ++ [si] |}).
  split; [reflexivity|].
  exists [ACommit ps; ACreate (name_of si) (si_size_limit si)]. split; [split; reflexivity|].
  assert (Hrot : act_rotation (e_disk e) (ACommit ps) = 1).
  { unfold act_rotation. rewrite Hmeta.
    assert (Hfl : file_last (e_disk e) t = si_base t + ws_n tw - 1).
    { unfold file_last. destruct (vis_tail _ _ _ _ HT) as (f & Hf & Hlen & _).
      rewrite (file_ents_ok _ _ _ Hf), Hlen. destruct (N.eqb_spec (ws_n tw) 0); [lia|reflexivity]. }
    unfold is_rotation. cbn [ps ps_segs persistent ps_next_id]. rewrite Hsegs, !rev_unit.
    rewrite Hfl, Hu, segs_eqb_refl.
    cbn [t' seal_info si new_segment si_max si_sealed si_id si_base si_min si_codec si_size_limit
         si_index_start negb w0 st_next_id].
    rewrite Hci', !N.eqb_refl. fold istart.
    destruct (N.ltb_spec 0 istart); [|unfold istart in *; lia].
    destruct (N.ltb_spec 0 (si_base t + ws_n tw - 1)); [|lia].
    unfold base. cbn [t' seal_info si_max]. rewrite Hci', !N.eqb_refl. reflexivity. }
  cbn [rot_count]. change (e_disk e0) with (e_disk e) in *. rewrite Hrot.
  cbn [create_env commit_env io_post e_m e0 add_m with_m m_rotations act_rotation]. lia.
Qed.

Lemma delete_range_R c w e ss tl tw mn mx r w' e' :
  cfg_ok c -> e_fault e = None -> WInvS c w (e_disk e) ss tl tw -> ws_index_start tw = 0 ->
  st_next_id w + 1 < two64 -> mx + 1 < two64 ->
  delete_range c w mn mx e = (r, w', e') -> R e e'.
Proof.
  intros Hc He HI His Hnid Hmx. assert (HI0 := HI).
  destruct HI as (Hcl & Hfa & Hmeta & _).
  unfold delete_range. rewrite Hcl.
  destruct (mx <? mn); [intros H; inversion H; subst; apply R_refl; exact He|].
  rewrite Hfa. cbv zeta.
  destruct (N.ltb_spec mx (first_index (st_segs w) (st_tail w))) as [G1|G1];
    [intros H; inversion H; subst; apply R_refl; exact He|].
  destruct (N.ltb_spec (last_index (st_segs w) (st_tail w)) mn) as [G2|G2];
    [intros H; inversion H; subst; apply R_refl; exact He|]. cbn [orb].
  destruct (N.leb_spec mn (first_index (st_segs w) (st_tail w))) as [G3|G3].
  - apply truncate_head_R; assumption.
  - destruct (N.leb_spec (last_index (st_segs w) (st_tail w)) mx) as [G4|G4].
    + apply (truncate_tail_R c w e ss tl tw); try assumption; lia.
    + intros H; inversion H; subst; apply R_refl; exact He.
Qed.

Lemma get_log_R w i e r e' : e_fault e = None -> get_log w i e = (r, e') -> R e e'.
Proof.
  intros He H. unfold get_log in H.
  repeat match type of H with
         | context [if ?b then _ else _] => destruct b
         | context [match ?x with _ => _ end] => destruct x
         end;
  inversion H; subst; try (apply R_refl; exact He); (apply R_with_m; [exact He|reflexivity]).
Qed.

Lemma set_stable_R w k v n e r e' : e_fault e = None -> set_stable w k v n e = (r, e') -> R e e'.
Proof.
  intros He. unfold set_stable. destruct (st_closed w); [intros H; inversion H; subst; apply R_refl; exact He|].
  assert (R0 : R e (inc_stable e true)) by (apply R_with_m; [exact He|reflexivity]).
  destruct (negb (key_ok k)); [intros H; inversion H; subst; exact R0|].
  rewrite (io_ok _ (inc_stable e true) He). intros H; inversion H; subst.
  eapply R_trans; [exact R0|]. apply R_plain. reflexivity.
Qed.

Lemma get_stable_R w k e r e' : e_fault e = None -> get_stable w k e = (r, e') -> R e e'.
Proof.
  intros He. unfold get_stable. destruct (st_closed w); intros H; inversion H; subst;
    [apply R_refl; exact He|apply R_with_m; [exact He|reflexivity]].
Qed.

Lemma settle_R c s : cfg_ok c -> SInv c s -> s_nid s + 1 < two64 -> R (ss_env s) (ss_env (settle c s)).
Proof.
  intros Hc (He & ss & t & tw & HI) Hnid. unfold settle.
  assert (Hro : st_rotate (ss_wal s) = (if 0 <? ws_index_start tw then Some (ws_index_start tw) else None))
    by apply HI.
  rewrite Hro. destruct (N.ltb_spec 0 (ws_index_start tw)) as [Hp|Hp]; [|apply R_refl; exact He].
  assert (RR := rotate_R c _ _ ss t tw Hc He HI Hp Hnid).
  destruct (rotate c (ss_wal s) (ss_env s)) as [w' e']. exact RR.
Qed.

Lemma step_R c s o r s' :
  cfg_ok c -> sop_ok o -> SInv c s -> s_nid s + 2 < two64 -> o <> OReopen ->
  step_model c s o = (r, s') -> R (ss_env s) (ss_env s').
Proof.
  intros Hc Hop HS Hnid Hno Hstep.
  destruct o as [ls|mn mx|i| | |k v n|k|]; cbn [step_model] in Hstep.
  - destruct (settle_ok c s Hc HS ltac:(lia)) as (ss & t & tw & He & HI & His & _ & _ & Hid1 & Hid2).
    assert (R0 := settle_R c s Hc HS ltac:(lia)).
    destruct (store_logs c _ ls _) as [[r0 w'] e'] eqn:Es. inversion Hstep; subst. cbn [ss_env].
    eapply R_trans; [exact R0|]. eapply store_logs_R; eassumption.
  - destruct (settle_ok c s Hc HS ltac:(lia)) as (ss & t & tw & He & HI & His & _ & _ & Hid1 & Hid2).
    assert (R0 := settle_R c s Hc HS ltac:(lia)).
    destruct (delete_range c _ mn mx _) as [[r0 w'] e'] eqn:Es. inversion Hstep; subst. cbn [ss_env].
    eapply R_trans; [exact R0|].
    eapply (delete_range_R c _ _ ss t tw mn mx); try eassumption. unfold s_nid in *. lia.
  - destruct HS as (He & _). destruct (get_log _ i _) as [r0 e'] eqn:Eg. inversion Hstep; subst. cbn [ss_env].
    eapply get_log_R; eassumption.
  - inversion Hstep; subst. apply R_refl. apply HS.
  - inversion Hstep; subst. apply R_refl. apply HS.
  - destruct HS as (He & _). destruct (set_stable _ k v n _) as [r0 e'] eqn:Eg. inversion Hstep; subst. cbn [ss_env].
    eapply set_stable_R; eassumption.
  - destruct HS as (He & _). destruct (get_stable _ k _) as [r0 e'] eqn:Eg. inversion Hstep; subst. cbn [ss_env].
    eapply get_stable_R; eassumption.
  - contradiction.
Qed.

(* Open: the trace is extended (its own commits belong to no lifetime) *)
Definition E (e e' : env) : Prop := e_fault e' = None /\ exists new, ext e e' new.

Lemma R_E e e' : R e e' -> E e e'.
Proof. intros (F & new & X & _). split; [exact F|]. exists new. exact X. Qed.
Lemma E_refl e : e_fault e = None -> E e e.
Proof. intros H. apply R_E. apply R_refl. exact H. Qed.
Lemma E_trans e1 e2 e3 : E e1 e2 -> E e2 e3 -> E e1 e3.
Proof.
  intros (_ & n1 & X1) (F & n2 & X2). split; [exact F|]. exists (n1 ++ n2). exact (ext_trans _ _ _ _ _ X1 X2).
Qed.
Lemma E_io a e : E e (io_post a e).
Proof. split; [reflexivity|]. exists [a]. split; reflexivity. Qed.
Lemma E_fault e e' : E e e' -> e_fault e' = None.
Proof. intros (H & _). exact H. Qed.

Lemma open_segs_E c : forall segs acc e r segs' tail e',
  e_fault e = None -> open_segs c segs acc e = (r, segs', tail, e') -> E e e'.
Proof.
  induction segs as [|si rest IH]; intros acc e r segs' tail e' He H; cbn [open_segs] in H.
  - inversion H; subst. apply E_refl. exact He.
  - destruct (negb (si_codec si =? c_codec c)); [inversion H; subst; apply E_refl; exact He|].
    destruct (negb (si_sealed si)).
    + destruct rest; [|inversion H; subst; apply E_refl; exact He].
      destruct (seg_recover si e) as [x|].
      * destruct x as [sw|]; [|inversion H; subst; apply E_refl; exact He].
        destruct (0 <? ws_index_start sw); inversion H; subst; apply E_refl; exact He.
      * destruct (seg_create si e) as [sw e1] eqn:Ec.
        assert (R1 := R_E _ _ (seg_create_R _ _ _ _ He Ec)).
        destruct sw as [sw|]; [|inversion H; subst; exact R1].
        destruct (0 <? ws_index_start sw); inversion H; subst; exact R1.
    + destruct (lookup _ _) as [f|]; [|inversion H; subst; apply E_refl; exact He].
      destruct (cur_end f =? 0); [inversion H; subst; apply E_refl; exact He|].
      eapply IH; eassumption.
Qed.

Lemma open_wal_E c e r e' : e_fault e = None -> open_wal c e = (r, e') -> E e e'.
Proof.
  intros He. unfold open_wal.
  destruct (_ && _); [intros H; inversion H; subst; apply E_refl; exact He|].
  assert (X : exists e0, (if dk_inited (e_disk e) then (true, e) else io AInitMeta e) = (true, e0) /\ E e e0).
  { destruct (dk_inited (e_disk e)); [exists e; split; [reflexivity|apply E_refl; exact He]|].
    rewrite (io_ok _ _ He). eexists. split; [reflexivity|apply E_io]. }
  destruct X as (e0 & -> & E0). cbn [negb]. assert (He0 := E_fault _ _ E0).
  unfold armed. rewrite He0. cbn [andb].
  destruct (open_segs c _ [] e0) as [[[r0 segs] tail] e1] eqn:Eo.
  assert (E1 : E e e1) by (eapply E_trans; [exact E0|eapply open_segs_E; eassumption]).
  assert (He1 := E_fault _ _ E1).
  destruct r0; try (intros H; inversion H; subst; exact E1).
  destruct tail as [tw|].
  - intros H; inversion H; subst. eapply E_trans; [exact E1|]. apply R_E. apply delete_files_R. exact He1.
  - rewrite (io_ok _ _ He1). cbn [negb].
    match goal with |- context [seg_create ?si ?ex] => destruct (seg_create si ex) as [sw e3] eqn:Ec end.
    assert (E3 : E e e3).
    { eapply E_trans; [exact E1|]. eapply E_trans; [apply E_io|].
      apply R_E. eapply seg_create_R; [|exact Ec]. reflexivity. }
    destruct sw; intros H; inversion H; subst; [|exact E3].
    eapply E_trans; [exact E3|]. apply R_E. apply delete_files_R. apply (E_fault _ _ E3).
Qed.

Lemma step_E c s o r s' :
  cfg_ok c -> sop_ok o -> SInv c s -> s_nid s + 2 < two64 ->
  step_model c s o = (r, s') -> E (ss_env s) (ss_env s').
Proof.
  intros Hc Hop HS Hnid Hstep.
  assert (D : o = OReopen \/ o <> OReopen) by (destruct o; (left; reflexivity) || (right; discriminate)).
  destruct D as [->|Hno]; [|apply R_E; eapply step_R; eassumption].
  cbn [step_model] in Hstep. destruct HS as (He & _).
  destruct (open_wal c (ss_env s)) as [ro e'] eqn:Eo. assert (X := open_wal_E _ _ _ _ He Eo).
  destruct ro; inversion Hstep; subst; exact X.
Qed.

Lemma run_E c : forall os s,
  cfg_ok c -> Forall sop_ok os -> SInv c s -> s_nid s + 2 * N.of_nat (length os) < two64 ->
  E (ss_env s) (ss_env (snd (run_model c s os))).
Proof.
  induction os as [|o os IH]; intros s Hc Hops HS Hnid; [apply E_refl; apply HS|].
  inversion Hops as [|? ? Hop Hops']; subst. cbn [run_model]. cbn [length] in Hnid.
  destruct (step_model c s o) as [r s1] eqn:Estep.
  destruct (step_ok c s o {| sp_log := s_abs s; sp_kv := s_kv s |} r s1 Hc Hop HS ltac:(lia) eq_refl eq_refl Estep)
    as (HS1 & _ & _ & _ & Hid1 & Hid2).
  assert (E1 := step_E c s o r s1 Hc Hop HS ltac:(lia) Estep).
  specialize (IH s1 Hc Hops' HS1 ltac:(lia)).
  destruct (run_model c s1 os) as [rs s2]. cbn [snd] in *. eapply E_trans; eassumption.
Qed.

Lemma run_R c : forall os s,
  cfg_ok c -> Forall sop_ok os -> SInv c s -> s_nid s + 2 * N.of_nat (length os) < two64 ->
  Forall (fun o => o <> OReopen) os ->
  R (ss_env s) (ss_env (snd (run_model c s os))).
Proof.
  induction os as [|o os IH]; intros s Hc Hops HS Hnid Hno; [apply R_refl; apply HS|].
  inversion Hops as [|? ? Hop Hops']; subst. inversion Hno as [|? ? Hn1 Hno']; subst.
  cbn [run_model]. cbn [length] in Hnid.
  destruct (step_model c s o) as [r s1] eqn:Estep.
  destruct (step_ok c s o {| sp_log := s_abs s; sp_kv := s_kv s |} r s1 Hc Hop HS ltac:(lia) eq_refl eq_refl Estep)
    as (HS1 & _ & _ & _ & Hid1 & Hid2).
  assert (R1 := step_R c s o r s1 Hc Hop HS ltac:(lia) Hn1 Estep).
  specialize (IH s1 Hc Hops' HS1 ltac:(lia) Hno').
  destruct (run_model c s1 os) as [rs s2]. cbn [snd] in *. eapply R_trans; eassumption.
Qed.

Lemma run_model_app c : forall a b s,
  snd (run_model c s (a ++ b)) = snd (run_model c (snd (run_model c s a)) b).
Proof.
  induction a as [|o a IH]; intros b s; [reflexivity|]. cbn [app run_model].
  destruct (step_model c s o) as [r s1]. specialize (IH b s1).
  destruct (run_model c s1 (a ++ b)) as [x1 y1]. destruct (run_model c s1 a) as [x2 y2]. cbn [snd] in *.
  rewrite IH. destruct (run_model c y2 b). reflexivity.
Qed.

(* the disk is what the trace replays to *)
Definition TInv (e : env) : Prop := e_disk e = fold_left apply_act (rev (e_acts e)) empty_disk.

Lemma TInv_E e e' : TInv e -> E e e' -> TInv e'.
Proof.
  unfold TInv. intros T (_ & new & A & D). rewrite A, D, rev_app_distr, rev_involutive, fold_left_app, <- T.
  reflexivity.
Qed.

Lemma trace_rotations_ext e1 e2 new :
  TInv e1 -> ext e1 e2 new ->
  trace_rotations (length (e_acts e1)) (e_acts e2) = rot_count (e_disk e1) new.
Proof.
  unfold TInv. intros T (A & _). unfold trace_rotations. cbv zeta.
  rewrite rev_append_rev, app_nil_r, A, rev_app_distr, rev_involutive.
  rewrite <- (rev_length (e_acts e1)).
  rewrite firstn_app, skipn_app, Nat.sub_diag, firstn_all, skipn_all. cbn [firstn skipn app].
  rewrite app_nil_r, <- T. reflexivity.
Qed.

Lemma last_life_spec : forall os p l,
  last_life os = (p, l) -> os = p ++ l /\ Forall (fun o => o <> OReopen) l.
Proof.
  induction os as [|o os IH]; intros p l H; cbn [last_life] in H.
  - inversion H; subst. split; [reflexivity|constructor].
  - destruct (last_life os) as [p0 l0]. destruct (IH _ _ eq_refl) as (-> & HF).
    destruct p0 as [|x p0].
    + destruct o; inversion H; subst; (split; [reflexivity|]); try exact HF; constructor; try exact HF; discriminate.
    + inversion H; subst. split; [reflexivity|exact HF].
Qed.

(* Any stretch of calls without a Close;Open: the counter moved by the
   rotations the trace shows for that stretch. *)
Theorem rotations_segment c os1 os2 s0 :
  cfg_ok c -> Forall sop_ok (os1 ++ os2) -> short_enough (os1 ++ os2) -> initial c = Some s0 ->
  Forall (fun o => o <> OReopen) os2 ->
  let s1 := snd (run_model c s0 os1) in
  let s2 := snd (run_model c s0 (os1 ++ os2)) in
  m_rotations (e_m (ss_env s2)) =
  m_rotations (e_m (ss_env s1)) + trace_rotations (length (e_acts (ss_env s1))) (e_acts (ss_env s2)).
Proof.
  intros Hc Hops Hshort Hinit Hno s1 s2. unfold s2. rewrite run_model_app. fold s1.
  apply Forall_app in Hops. destruct Hops as [Hops1 Hops2].
  unfold short_enough in Hshort. rewrite app_length in Hshort.
  destruct (initial_inv c s0 Hc Hinit) as (HS & Ha0 & Hk0 & Hid & _).
  assert (Hb1 : s_nid s0 + 2 * N.of_nat (length os1) < two64) by (rewrite Hid; unfold two64; lia).
  destruct (run_ok c os1 s0 spec_init Hc Hops1 HS Hb1) as (_ & _ & _ & HS1 & Hid1);
    [symmetry; exact Ha0|symmetry; exact Hk0|]. fold s1 in HS1, Hid1.
  assert (T0 : TInv (ss_env s0)).
  { unfold initial in Hinit. destruct (open_wal c fresh_env) as [ro e] eqn:Eo.
    destruct ro; [|discriminate]. inversion Hinit; subst. cbn [ss_env].
    apply (TInv_E fresh_env); [reflexivity|]. eapply open_wal_E; [|exact Eo]. reflexivity. }
  assert (T1 : TInv (ss_env s1)) by (apply (TInv_E _ _ T0); apply run_E; assumption).
  assert (RR : R (ss_env s1) (ss_env (snd (run_model c s1 os2)))).
  { apply run_R; try assumption. rewrite Hid in Hid1. unfold two64. lia. }
  destruct RR as (_ & new & X & M). rewrite (trace_rotations_ext _ _ _ T1 X). exact M.
Qed.

Theorem rotations_true c os s0 :
  cfg_ok c -> Forall sop_ok os -> short_enough os -> initial c = Some s0 ->
  rotations_show c s0 os.
Proof.
  intros Hc Hops Hshort Hinit. unfold rotations_show.
  destruct (last_life os) as [p l] eqn:El. destruct (last_life_spec _ _ _ El) as (-> & Hno). cbn [fst].
  apply rotations_segment; assumption.
Qed.
