(* FaultSim.v -- lock-step simulation used by the fault-safety proof (C10).
   A run of a WAL operation with an armed I/O fault on the real disk is compared
   with the fault-free run of the same operation on a "shadow" disk that differs
   from the real one only in what no operation ever reads: directory-durability
   flags, and a stale unsynced batch (left behind a failed fsync) in one file.
   Either both runs agree, or the real run failed at an I/O action and its disk is
   related to a disk the shadow run passes through. *)
From RW Require Import Base.Bytes Base.BytesFacts Fmt.Codec Fmt.Frame Wal.Model Wal.Spec Wal.Hist
  Wal.CrashInv Wal.ModelFacts Wal.CrashFacts0 Wal.CrashFacts1 Wal.CrashFacts2 Wal.CrashFacts3 Wal.CrashFacts4 Gen.Constants.
From RW Require Import Base.LiaSetup.
Open Scope N_scope.

Definition frel (f g : dfile) : Prop :=
  df_ents f = df_ents g /\ df_end f = df_end g /\ df_seal f = df_seal g /\
  (df_pend f = df_pend g \/ df_pend g = None).

Definition lrel (l lc : list (fname * dfile)) : Prop :=
  Forall2 (fun a b => fst a = fst b /\ frel (snd a) (snd b)) l lc.

(* [X] = the file names whose pending batch may differ *)
Definition drel (X : list fname) (d dc : disk) : Prop :=
  lrel (dk_files d) (dk_files dc) /\ dk_meta d = dk_meta dc /\ dk_stable d = dk_stable dc /\
  dk_inited d = dk_inited dc /\ NoDup (map fst (dk_files dc)) /\
  (forall n f g, lookup n (dk_files d) = Some f -> lookup n (dk_files dc) = Some g -> ~ In n X ->
                 df_pend f = df_pend g).

Lemma frel_refl f : frel f f.
Proof. unfold frel. auto 10. Qed.

Lemma lrel_refl l : lrel l l.
Proof. induction l as [|a l IH]; constructor; [split; [reflexivity|apply frel_refl]|exact IH]. Qed.

Lemma drel_refl X d : NoDup (map fst (dk_files d)) -> drel X d d.
Proof.
  intros ND. split; [apply lrel_refl|]. repeat split; auto. intros n f g H1 H2 _. congruence.
Qed.

Lemma lrel_keys l lc : lrel l lc -> map fst l = map fst lc.
Proof. induction 1 as [|a b l lc (H & _) _ IH]; cbn; [reflexivity|]. rewrite H, IH. reflexivity. Qed.

Lemma lrel_lookup n l lc : lrel l lc ->
  match lookup n l, lookup n lc with
  | Some f, Some g => frel f g
  | None, None => True
  | _, _ => False
  end.
Proof.
  induction 1 as [|[m f] [m' g] l lc (H & Hf) _ IH]; cbn [lookup]; [exact I|].
  cbn [fst snd] in *. subst m'. destruct (fname_eqb n m); [exact Hf|exact IH].
Qed.

Lemma lrel_lookup_some n l lc f : lrel l lc -> lookup n l = Some f -> exists g, lookup n lc = Some g /\ frel f g.
Proof.
  intros H E. pose proof (lrel_lookup n l lc H) as K. rewrite E in K.
  destruct (lookup n lc) as [g|]; [exists g; auto|destruct K].
Qed.
Lemma lrel_lookup_some_r n l lc g : lrel l lc -> lookup n lc = Some g -> exists f, lookup n l = Some f /\ frel f g.
Proof.
  intros H E. pose proof (lrel_lookup n l lc H) as K. rewrite E in K.
  destruct (lookup n l) as [f|]; [exists f; auto|destruct K].
Qed.
Lemma lrel_lookup_none n l lc : lrel l lc -> lookup n l = None <-> lookup n lc = None.
Proof.
  intros H. pose proof (lrel_lookup n l lc H) as K.
  destruct (lookup n l), (lookup n lc); split; intros; try reflexivity; try discriminate; destruct K.
Qed.

Lemma lrel_update n f g l lc : lrel l lc -> frel f g -> lrel (update n f l) (update n g lc).
Proof.
  induction 1 as [|[m f0] [m' g0] l lc (H & Hf) Hr IH]; intros Hfg; cbn [update].
  - constructor; [split; [reflexivity|exact Hfg]|constructor].
  - cbn [fst snd] in *. subst m'. destruct (fname_eqb n m).
    + constructor; [split; [reflexivity|exact Hfg]|exact Hr].
    + constructor; [split; [reflexivity|exact Hf]|apply IH; exact Hfg].
Qed.

Lemma lrel_remove n l lc : lrel l lc -> lrel (remove n l) (remove n lc).
Proof.
  induction 1 as [|[m f0] [m' g0] l lc (H & Hf) Hr IH]; cbn [remove]; [constructor|].
  cbn [fst snd] in *. subst m'. destruct (fname_eqb n m); [exact Hr|].
  constructor; [split; [reflexivity|exact Hf]|exact IH].
Qed.

Lemma drel_incl X X' d dc : incl X X' -> drel X d dc -> drel X' d dc.
Proof.
  intros Hi (H1 & H2 & H3 & H4 & H5 & H6). repeat split; auto. intros n f g A B Hn. apply (H6 n f g A B).
  intros K. apply Hn. apply Hi. exact K.
Qed.

Lemma drel_weaken X d dc : drel [] d dc -> drel X d dc.
Proof. apply drel_incl. intros x []. Qed.

Lemma drel_NoDup X d dc : drel X d dc -> NoDup (map fst (dk_files d)).
Proof. intros (H1 & _ & _ & _ & H5 & _). rewrite (lrel_keys _ _ H1). exact H5. Qed.

Lemma drel_lookup_none X d dc n : drel X d dc -> lookup n (dk_files d) = None <-> lookup n (dk_files dc) = None.
Proof. intros (H1 & _). apply lrel_lookup_none. exact H1. Qed.

Definition rem (n : fname) (X : list fname) : list fname := filter (fun m => negb (fname_eqb m n)) X.

Lemma rem_in n X m : In m (rem n X) <-> In m X /\ m <> n.
Proof.
  unfold rem. rewrite filter_In. split; intros (A & B); split; auto.
  - intros ->. rewrite fname_eqb_refl in B. discriminate.
  - apply fname_eqb_neq in B. rewrite B. reflexivity.
Qed.
Lemma rem_not n X : ~ In n (rem n X).
Proof. rewrite rem_in. intros (_ & K). congruence. Qed.
Lemma rem_incl n X : incl (rem n X) X.
Proof. intros m H. apply rem_in in H. apply H. Qed.
Lemma rem_notin n X m : ~ In m (rem n X) -> ~ In m X \/ m = n.
Proof.
  intros H. destruct (fname_eqb m n) eqn:E; [right; apply fname_eqb_eq; exact E|left].
  intros K. apply H. apply rem_in. split; [exact K|]. apply fname_eqb_neq. exact E.
Qed.

(* actions preserve the relation *)
Definition simple_act (a : act) : Prop :=
  match a with AWrite _ _ _ _ | ASync _ => False | _ => True end.

Lemma drel_act_simple X d dc a : simple_act a -> drel X d dc -> drel X (apply_act d a) (apply_act dc a).
Proof.
  intros Hs (H1 & H2 & H3 & H4 & H5 & H6).
  destruct a as [n sz|n off l b|n|n|ps|k v| | |a']; try destruct Hs; cbn [apply_act].
  - (* create *)
    split; [cbn [dk_files]; apply lrel_update; [exact H1|apply frel_refl]|]. cbn [dk_files dk_meta dk_stable dk_inited].
    repeat split; auto; [apply update_NoDup; exact H5|].
    intros m f g A B Hne. rewrite lookup_update in A, B. destruct (fname_eqb m n); [congruence|].
    apply (H6 m f g A B Hne).
  - (* delete *)
    split; [cbn [dk_files]; apply lrel_remove; exact H1|]. cbn [dk_files dk_meta dk_stable dk_inited].
    repeat split; auto; [apply remove_NoDup; exact H5|].
    intros m f g A B Hne. pose proof H5 as H5'. rewrite <- (lrel_keys _ _ H1) in H5'.
    rewrite lookup_remove in A by exact H5'. rewrite lookup_remove in B by exact H5.
    destruct (fname_eqb m n); [discriminate|]. apply (H6 m f g A B Hne).
  - repeat split; auto.
  - repeat split; cbn; auto. congruence.
  - repeat split; auto.
  - repeat split; auto.
  - repeat split; auto.
Qed.

(* a creation that leaves a file of another requested size *)
Lemma drel_create X d dc n sz sz' : drel X d dc -> drel X (apply_act d (ACreate n sz)) (apply_act dc (ACreate n sz')).
Proof.
  intros (H1 & H2 & H3 & H4 & H5 & H6). cbn [apply_act].
  split; [cbn [dk_files]; apply lrel_update; [exact H1|unfold frel; cbn; auto]|]. cbn [dk_files dk_meta dk_stable dk_inited].
  repeat split; auto; [apply update_NoDup; exact H5|].
  intros m f g A B Hne. rewrite lookup_update in A, B. destruct (fname_eqb m n); [inversion A; inversion B; reflexivity|].
  apply (H6 m f g A B Hne).
Qed.

(* deleting a possibly stale file removes it from the set *)
Lemma drel_delete_stale n X d dc : drel X d dc -> drel (rem n X) (apply_act d (ADelete n)) (apply_act dc (ADelete n)).
Proof.
  intros (H1 & H2 & H3 & H4 & H5 & H6). cbn [apply_act].
  split; [cbn [dk_files]; apply lrel_remove; exact H1|]. cbn [dk_files dk_meta dk_stable dk_inited].
  repeat split; auto; [apply remove_NoDup; exact H5|].
  intros m f g A B Hn. pose proof H5 as H5'. rewrite <- (lrel_keys _ _ H1) in H5'.
  rewrite lookup_remove in A by exact H5'. rewrite lookup_remove in B by exact H5.
  destruct (fname_eqb m n) eqn:E; [discriminate|]. apply (H6 m f g A B).
  destruct (rem_notin n X m Hn) as [K|K]; [exact K|]. subst m. rewrite fname_eqb_refl in E. discriminate.
Qed.

(* a write whose offset is not the end of a stale batch *)
Definition wguard (d : disk) (n : fname) (off : N) : Prop :=
  forall f p, lookup n (dk_files d) = Some f -> df_pend f = Some p -> off <> pb_end p.

Lemma drel_write X d dc n off l b :
  drel X d dc -> (In n X -> wguard d n off) ->
  drel (rem n X) (apply_act d (AWrite n off l b)) (apply_act dc (AWrite n off l b)).
Proof.
  intros (H1 & H2 & H3 & H4 & H5 & H6) Hg. cbn [apply_act].
  pose proof (lrel_lookup n _ _ H1) as K.
  destruct (lookup n (dk_files d)) as [f|] eqn:Ef, (lookup n (dk_files dc)) as [g|] eqn:Eg; [|destruct K|destruct K|].
  - destruct K as (K1 & K2 & K3 & K5).
    assert (Hb : match df_pend f with
                 | Some p => if off =? pb_end p then {| pb_ents := pb_ents p ++ pb_ents b; pb_end := pb_end b; pb_seal := pb_seal b |} else b
                 | None => b end =
                 match df_pend g with
                 | Some p => if off =? pb_end p then {| pb_ents := pb_ents p ++ pb_ents b; pb_end := pb_end b; pb_seal := pb_seal b |} else b
                 | None => b end).
    { destruct K5 as [K5|K5]; [rewrite K5; reflexivity|].
      rewrite K5. destruct (df_pend f) as [p|] eqn:Ep; [|reflexivity].
      assert (Ho : In n X).
      { destruct (in_dec (fun a b => match N.eq_dec (fst a) (fst b), N.eq_dec (snd a) (snd b) with
                                       | left e1, left e2 => left (match a, b return fst a = fst b -> snd a = snd b -> a = b with
                                                                   (a1, a2), (b1, b2) => fun p q => f_equal2 pair p q end e1 e2)
                                       | right ne, _ => right (fun E => ne (f_equal fst E))
                                       | _, right ne => right (fun E => ne (f_equal snd E)) end) n X) as [I|NI]; [exact I|].
        exfalso. specialize (H6 n f g Ef Eg NI). congruence. }
      specialize (Hg Ho f p Ef Ep). replace (off =? pb_end p) with false by lia. reflexivity. }
    split; [cbn [dk_files]; apply lrel_update; [exact H1|]|].
    { unfold frel. cbn [df_ents df_end df_seal df_pend]. repeat split; auto. left. rewrite Hb. reflexivity. }
    cbn [dk_files dk_meta dk_stable dk_inited]. repeat split; auto; [apply update_NoDup; exact H5|].
    intros m f' g' A B Hne. rewrite lookup_update in A, B. destruct (fname_eqb m n) eqn:E.
    + inversion A; inversion B; subst. cbn [df_pend]. rewrite Hb. reflexivity.
    + apply (H6 m f' g' A B). destruct (rem_notin n X m Hne) as [Y|Y]; [exact Y|].
      subst m. rewrite fname_eqb_refl in E. discriminate.
  - repeat split; auto. intros m f' g' A B Hne. apply (H6 m f' g' A B).
    destruct (rem_notin n X m Hne) as [Y|Y]; [exact Y|]. subst m. congruence.
Qed.

Lemma drel_sync X d dc n :
  drel X d dc -> ~ In n X -> drel X (apply_act d (ASync n)) (apply_act dc (ASync n)).
Proof.
  intros (H1 & H2 & H3 & H4 & H5 & H6) Hne. cbn [apply_act].
  pose proof (lrel_lookup n _ _ H1) as K.
  destruct (lookup n (dk_files d)) as [f|] eqn:Ef, (lookup n (dk_files dc)) as [g|] eqn:Eg; [|destruct K|destruct K|].
  - destruct K as (K1 & K2 & K3 & _). pose proof (H6 n f g Ef Eg Hne) as K5.
    assert (Hfr : frel (match df_pend f with
                    | None => {| df_ents := df_ents f; df_end := df_end f; df_seal := df_seal f; df_pend := None; df_dir := true; df_size := df_size f |}
                    | Some b => {| df_ents := df_ents f ++ pb_ents b; df_end := pb_end b; df_seal := pb_seal b; df_pend := None; df_dir := true; df_size := df_size f |} end)
                   (match df_pend g with
                    | None => {| df_ents := df_ents g; df_end := df_end g; df_seal := df_seal g; df_pend := None; df_dir := true; df_size := df_size g |}
                    | Some b => {| df_ents := df_ents g ++ pb_ents b; df_end := pb_end b; df_seal := pb_seal b; df_pend := None; df_dir := true; df_size := df_size g |} end)).
    { rewrite K5. destruct (df_pend g); unfold frel; cbn; repeat split; auto; congruence. }
    split; [cbn [dk_files]; apply lrel_update; [exact H1|exact Hfr]|].
    cbn [dk_files dk_meta dk_stable dk_inited]. repeat split; auto; [apply update_NoDup; exact H5|].
    intros m f' g' A B Hne'. rewrite lookup_update in A, B. destruct (fname_eqb m n) eqn:E.
    + inversion A; inversion B; subst. rewrite K5. destruct (df_pend g); reflexivity.
    + apply (H6 m f' g' A B Hne').
  - repeat split; auto.
Qed.

(* the real environment [e] and its shadow [ec]; the shadow never has a fault armed, so each of
   its steps succeeds (io_ok).  [Rd] below is [R] across a trailing run of deletions; [RD] and
   [RV] (FaultInv.v) speak of one disk: what recovery will find on it, what readers are served *)
Definition R (X : list fname) (e ec : env) : Prop :=
  drel X (e_disk e) (e_disk ec) /\ e_fault ec = None.

(* the shadow run: what it appended to the history, and its final disk *)
Definition aext (ec0 ec1 : env) : Prop :=
  exists acts, e_acts ec1 = rev acts ++ e_acts ec0 /\ e_disk ec1 = fold_left apply_act acts (e_disk ec0).

(* a disk the shadow run ec0 ~> ecN passes through *)
Definition pfx (ec0 ecN : env) (dm : disk) : Prop :=
  exists a1 a2, e_acts ecN = rev a2 ++ rev a1 ++ e_acts ec0 /\ dm = fold_left apply_act a1 (e_disk ec0).

Lemma aext_refl e : aext e e.
Proof. exists []. split; reflexivity. Qed.
Lemma aext_trans e0 e1 e2 : aext e0 e1 -> aext e1 e2 -> aext e0 e2.
Proof.
  intros (a1 & A1 & D1) (a2 & A2 & D2). exists (a1 ++ a2). split.
  - rewrite A2, A1, rev_app_distr, app_assoc. reflexivity.
  - rewrite fold_left_app, <- D1. exact D2.
Qed.
Lemma aext_io a e : aext e (io_env a e).
Proof. exists [a]. split; reflexivity. Qed.
Lemma aext_with_m e m : aext e (with_m e m).
Proof. exists []. split; reflexivity. Qed.
Lemma aext_add_m e f : aext e (add_m e f).
Proof. apply aext_with_m. Qed.

Lemma pfx_start e0 eN : aext e0 eN -> pfx e0 eN (e_disk e0).
Proof. intros (a & A & _). exists [], a. split; [exact A|reflexivity]. Qed.
Lemma pfx_end e0 eN : aext e0 eN -> pfx e0 eN (e_disk eN).
Proof. intros (a & A & D). exists a, []. split; [exact A|exact D]. Qed.
Lemma pfx_shift e0 e1 eN d : aext e0 e1 -> pfx e1 eN d -> pfx e0 eN d.
Proof.
  intros (a & A & D) (a1 & a2 & A' & D'). exists (a ++ a1), a2. split.
  - rewrite A', A, rev_app_distr, <- !app_assoc. reflexivity.
  - rewrite fold_left_app, <- D. exact D'.
Qed.
Lemma pfx_more e0 e1 e2 d : pfx e0 e1 d -> aext e1 e2 -> pfx e0 e2 d.
Proof.
  intros (a1 & a2 & A & D) (a & A' & _). exists a1, (a2 ++ a). split; [|exact D].
  rewrite A', A, rev_app_distr, <- !app_assoc. reflexivity.
Qed.

Lemma ext_aext P e0 e1 : ext P e0 e1 -> aext e0 e1.
Proof. intros (_ & acts & A & _ & D & _). exists acts. auto. Qed.

Lemma ext_pfx (P : disk -> Prop) e0 eN d : ext P e0 eN -> pfx e0 eN d -> P d.
Proof.
  intros (_ & acts & A & _ & _ & Hp) (a1 & a2 & A' & D). subst d.
  rewrite A in A'. rewrite app_assoc in A'. apply app_inv_tail in A'.
  rewrite <- rev_app_distr in A'. apply (f_equal (@rev act)) in A'. rewrite !rev_involutive in A'. subst acts.
  specialize (Hp (length a1)). rewrite firstn_app, firstn_all, Nat.sub_diag in Hp. cbn in Hp. rewrite app_nil_r in Hp. exact Hp.
Qed.

Lemma io_cases3 a e : is_delete a = false ->
  (exists e', io a e = (true, e') /\ e_disk e' = apply_act (e_disk e) a /\ e_acts e' = a :: e_acts e /\ e_m e' = e_m e /\
              e_fx e' = e_fx e /\ (e_fault e = None -> e_fault e' = None)) \/
  (exists e', io a e = (false, e') /\ e_disk e' = e_disk e /\ e_fault e' = None /\ e_m e' = e_m e /\ e_fx e' = e_fx e) \/
  (* a transaction that landed *)
  (exists e', io a e = (false, e') /\ is_txn a = true /\ e_disk e' = apply_act (e_disk e) a /\ e_fault e' = None /\
              e_m e' = e_m e /\ e_fx e' = e_fx e).
Proof.
  intros Ed. unfold io. rewrite Ed. destruct (e_fault e) as [[|k]|].
  - destruct (is_txn a) eqn:Et, (fx_land (e_fx e)); cbn [andb];
      [right; right; eexists; split; [reflexivity|]; cbn; auto| | |];
      (right; left; eexists; split; [reflexivity|]; cbn; auto).
  - left. eexists. split; [reflexivity|]. cbn. repeat split; auto. discriminate.
  - left. eexists. split; [reflexivity|]. cbn. auto.
Qed.

Lemma io_cases a e : is_delete a = false -> is_txn a = false ->
  (exists e', io a e = (true, e') /\ e_disk e' = apply_act (e_disk e) a /\ e_acts e' = a :: e_acts e /\ e_m e' = e_m e /\
              e_fx e' = e_fx e /\ (e_fault e = None -> e_fault e' = None)) \/
  (exists e', io a e = (false, e') /\ e_disk e' = e_disk e /\ e_fault e' = None /\ e_m e' = e_m e /\ e_fx e' = e_fx e).
Proof.
  intros Ed Et. destruct (io_cases3 a e Ed) as [H|[H|(e' & _ & K & _)]]; [left; exact H|right; exact H|congruence].
Qed.

Lemma drel_rem_weaken n X d dc : drel (rem n X) d dc -> drel X d dc.
Proof. apply drel_incl. apply rem_incl. Qed.

Lemma R_rem_weaken n X e ec : R (rem n X) e ec -> R X e ec.
Proof. intros (H & F). split; [eapply drel_rem_weaken; eauto|exact F]. Qed.

Lemma R_incl X X' e ec : incl X X' -> R X e ec -> R X' e ec.
Proof. intros Hi (H & F). split; [eapply drel_incl; eauto|exact F]. Qed.

Lemma R_weaken X e ec : R [] e ec -> R X e ec.
Proof. apply R_incl. intros x []. Qed.

Lemma R_add_m X e ec f g : R X e ec -> R X (add_m e f) (add_m ec g).
Proof. intros H. exact H. Qed.

Lemma io_env_fault a e : e_fault (io_env a e) = None. Proof. reflexivity. Qed.

Definition nodel_act (a : act) : Prop := simple_act a /\ is_delete a = false.

Lemma io_lock X a e ec : R X e ec -> nodel_act a ->
  io a ec = (true, io_env a ec) /\
  ((exists e', io a e = (true, e') /\ R X e' (io_env a ec) /\ e_fx e' = e_fx e) \/
   (exists e', io a e = (false, e') /\ e_disk e' = e_disk e /\ e_fault e' = None /\ e_fx e' = e_fx e) \/
   (exists e', io a e = (false, e') /\ is_txn a = true /\ R X e' (io_env a ec) /\
               e_disk e' = apply_act (e_disk e) a /\ e_fault e' = None /\ e_fx e' = e_fx e)).
Proof.
  intros (Hd & Hf) (Hs & Hnd). split; [apply io_ok; exact Hf|].
  destruct (io_cases3 a e Hnd) as [(e' & E & D & _ & _ & Fx & _)|[(e' & E & D & F & _ & Fx)|(e' & E & T & D & F & _ & Fx)]].
  - left. exists e'. split; [exact E|]. split; [|exact Fx]. split; [|reflexivity]. rewrite D. cbn [io_env e_disk].
    apply drel_act_simple; assumption.
  - right. left. exists e'. auto.
  - right. right. exists e'. split; [exact E|]. split; [exact T|]. split; [|auto].
    split; [|reflexivity]. rewrite D. cbn [io_env e_disk]. apply drel_act_simple; assumption.
Qed.

(* deletions: they all succeed, or (deletion faults armed) they all fail and
   change nothing *)
Definition del_fails (e : env) : bool := armed e && fx_del (e_fx e).

Fixpoint rems (ns : list fname) (X : list fname) : list fname :=
  match ns with [] => X | n :: r => rems r (rem n X) end.

Lemma rems_incl ns : forall X, incl (rems ns X) X.
Proof.
  induction ns as [|n ns IH]; intros X; [apply incl_refl|]. cbn [rems].
  intros m H. apply (rem_incl n X). apply IH. exact H.
Qed.

Lemma rems_in ns : forall X m, In m (rems ns X) -> ~ In m ns.
Proof.
  induction ns as [|n ns IH]; intros X m H; [intros []|]. cbn [rems] in H. intros [<-|K].
  - apply (rems_incl ns) in H. apply (rem_not n X H).
  - apply (IH _ _ H K).
Qed.

Lemma del_fails_ext e e' : e_fault e' = e_fault e -> e_fx e' = e_fx e -> del_fails e' = del_fails e.
Proof. intros A B. unfold del_fails, armed. rewrite A, B. reflexivity. Qed.

Lemma io_delete n e :
  e_fault (snd (io (ADelete n) e)) = e_fault e /\ e_fx (snd (io (ADelete n) e)) = e_fx e /\
  e_disk (snd (io (ADelete n) e)) = (if del_fails e then e_disk e else apply_act (e_disk e) (ADelete n)).
Proof. unfold io, del_fails. cbn [is_delete]. destruct (armed e && fx_del (e_fx e)); cbn; auto. Qed.

Lemma delete_files_real ns : forall e,
  e_fault (delete_files ns e) = e_fault e /\ e_fx (delete_files ns e) = e_fx e /\
  e_disk (delete_files ns e) = (if del_fails e then e_disk e else del_disk ns (e_disk e)).
Proof.
  induction ns as [|n ns IH]; intros e.
  - cbn. destruct (del_fails e); auto.
  - unfold delete_files, del_disk. cbn [fold_left]. fold (delete_files ns (snd (io (ADelete n) e))).
    fold (del_disk ns (apply_act (e_disk e) (ADelete n))).
    destruct (IH (snd (io (ADelete n) e))) as (A & B & C). destruct (io_delete n e) as (D1 & D2 & D3).
    rewrite A, B, C, (del_fails_ext _ _ D1 D2), D1, D2, D3. destruct (del_fails e); auto.
Qed.

Lemma delete_files_lock ns : forall X e ec, R X e ec ->
  aext ec (delete_files ns ec) /\ e_fault (delete_files ns ec) = None /\
  e_disk (delete_files ns ec) = del_disk ns (e_disk ec) /\
  e_fault (delete_files ns e) = e_fault e /\
  (if del_fails e then e_disk (delete_files ns e) = e_disk e
   else R (rems ns X) (delete_files ns e) (delete_files ns ec)).
Proof.
  intros X e ec HR. pose proof HR as (Hd & Hf).
  destruct (delete_files_real ns e) as (A & B & C).
  assert (Hsh : forall ns ec, e_fault ec = None ->
            aext ec (delete_files ns ec) /\ e_fault (delete_files ns ec) = None /\ e_disk (delete_files ns ec) = del_disk ns (e_disk ec)).
  { clear. induction ns as [|n ns IH]; intros ec Hf; [split; [apply aext_refl|auto]|].
    unfold delete_files, del_disk. cbn [fold_left]. fold (delete_files ns (snd (io (ADelete n) ec))).
    fold (del_disk ns (apply_act (e_disk ec) (ADelete n))).
    rewrite (io_ok _ _ Hf). cbn [snd]. destruct (IH (io_env (ADelete n) ec) eq_refl) as (A1 & A2 & A3).
    split; [eapply aext_trans; [apply aext_io|exact A1]|]. split; [exact A2|exact A3]. }
  destruct (Hsh ns ec Hf) as (S1 & S2 & S3).
  split; [exact S1|]. split; [exact S2|]. split; [exact S3|]. split; [exact A|].
  destruct (del_fails e) eqn:E; [exact C|].
  split; [|exact S2]. rewrite C, S3. clear - Hd.
  revert X e ec Hd. induction ns as [|n ns IH]; intros X e ec Hd; [exact Hd|].
  unfold del_disk. cbn [fold_left rems]. fold (del_disk ns (apply_act (e_disk e) (ADelete n))).
  fold (del_disk ns (apply_act (e_disk ec) (ADelete n))).
  set (e1 := {| e_acts := e_acts e; e_disk := apply_act (e_disk e) (ADelete n); e_fault := e_fault e; e_fx := e_fx e; e_m := e_m e |}).
  set (ec1 := {| e_acts := e_acts ec; e_disk := apply_act (e_disk ec) (ADelete n); e_fault := e_fault ec; e_fx := e_fx ec; e_m := e_m ec |}).
  apply (IH (rem n X) e1 ec1). apply drel_delete_stale. exact Hd.
Qed.

Lemma seg_create_lock X si e ec sw e' swc ec' : R X e ec ->
  seg_create si e = (sw, e') -> seg_create si ec = (swc, ec') ->
  aext ec ec' /\ e_fault ec' = None /\
  ((sw = swc /\ R X e' ec') \/
   (swc = Some (new_wseg si) /\ sw = None /\ e_fault e' = None /\
    e_disk ec' = apply_act (e_disk ec) (ACreate (name_of si) (si_size_limit si)) /\
    (e_disk e' = e_disk e \/ drel X (e_disk e') (e_disk ec')))).
Proof.
  intros HR. unfold seg_create. destruct (si_base si =? 0).
  - intros [= <- <-] [= <- <-]. split; [apply aext_refl|]. split; [apply HR|]. left. auto.
  - pose proof (drel_lookup_none X _ _ (name_of si) (proj1 HR)) as Hn.
    destruct (lookup (name_of si) (dk_files (e_disk e))) as [f|] eqn:Ef, (lookup (name_of si) (dk_files (e_disk ec))) as [g|] eqn:Eg.
    + destruct (io_lock X (AFail (ACreate (name_of si) (si_size_limit si))) e ec HR (conj I eq_refl)) as (Ec & [(e1 & Er & HR1 & _)|[(e1 & Er & D & F & _)|(e1 & _ & K & _)]]); [| |discriminate K];
        rewrite Ec, Er; intros [= <- <-] [= <- <-];
        (split; [apply aext_io|]); (split; [reflexivity|]); left; (split; [reflexivity|]); [exact HR1|].
      split; [|reflexivity]. rewrite D. cbn [io_env e_disk apply_act]. apply HR.
    + exfalso. destruct Hn as (_ & Hn). specialize (Hn eq_refl). discriminate.
    + exfalso. destruct Hn as (Hn & _). specialize (Hn eq_refl). discriminate.
    + destruct (io_lock X (ACreate (name_of si) (si_size_limit si)) e ec HR (conj I eq_refl)) as (Ec & [(e1 & Er & HR1 & _)|[(e1 & Er & D & F & Fx)|(e1 & _ & K & _)]]); [| |discriminate K];
        rewrite Ec, Er; intros [= <- <-] [= <- <-];
        (split; [apply aext_io|]); (split; [reflexivity|]).
      * left. auto.
      * right. split; [reflexivity|]. split; [reflexivity|].
        destruct (fx_leave (e_fx e)).
        -- split; [exact F|]. split; [reflexivity|]. right. unfold leave_entry. cbn [e_disk io_env]. rewrite D.
           apply drel_create. apply HR.
        -- split; [exact F|]. split; [reflexivity|]. left. exact D.
Qed.

(* Writer.Append and Writer.ForceSeal: after the checks that need no I/O ([g] is their
   verdict, None = go on) one frame is written at the writer's offset and synced *)
Definition write_sync (a : act) (n : fname) (e : env) : bool * env :=
  let '(ok1, e1) := io a e in if ok1 then io (ASync n) e1 else (false, e1).

Definition guarded_write (g : option result) (a : act) (w w2 : wseg) (e : env) : result * wseg * env :=
  match g with
  | Some r => (r, w, e)
  | None => let '(ok, e2) := write_sync a (ws_name w) e in if ok then (ROk, w2, e2) else (RErrIO, w, e2)
  end.

Lemma write_sync_ok a n e : e_fault e = None -> write_sync a n e = (true, io_env (ASync n) (io_env a e)).
Proof. intros Hf. unfold write_sync. rewrite (io_ok _ _ Hf). apply io_ok. reflexivity. Qed.

Lemma sh_guarded_write g a w w2 ec r w' ec' : e_fault ec = None -> guarded_write g a w w2 ec = (r, w', ec') ->
  aext ec ec' /\ e_fault ec' = None.
Proof.
  intros Hf. unfold guarded_write. destruct g; [intros [= _ _ <-]; split; [apply aext_refl|exact Hf]|].
  rewrite (write_sync_ok _ _ _ Hf). intros [= _ _ <-]. split; [eapply aext_trans; apply aext_io|reflexivity].
Qed.

Lemma write_sync_lock X n off l b e ec : R X e ec -> (In n X -> wguard (e_disk e) n off) ->
  let a := AWrite n off l b in
  (exists e', write_sync a n e = (true, e') /\ R (rem n X) e' (io_env (ASync n) (io_env a ec))) \/
  (exists e', write_sync a n e = (false, e') /\ e_fault e' = None /\
     (e_disk e' = e_disk e \/
      (drel (rem n X) (e_disk e') (apply_act (e_disk ec) a) /\
       pfx ec (io_env (ASync n) (io_env a ec)) (apply_act (e_disk ec) a)))).
Proof.
  intros (Hd & Hf) Hg. cbv zeta. set (a := AWrite n off l b). unfold write_sync.
  destruct (io_cases a e eq_refl eq_refl) as [(e1 & E & D & _)|(e1 & E & D & F & _)]; rewrite E; [|right; exists e1; auto].
  assert (HR1 : drel (rem n X) (e_disk e1) (apply_act (e_disk ec) a)) by (rewrite D; apply drel_write; assumption).
  destruct (io_cases (ASync n) e1 eq_refl eq_refl) as [(e2 & E2 & D2 & _)|(e2 & E2 & D2 & F2 & _)]; rewrite E2.
  - left. exists e2. split; [reflexivity|]. split; [|reflexivity]. rewrite D2. apply (drel_sync _ _ _ _ HR1 (rem_not _ _)).
  - right. exists e2. split; [reflexivity|]. split; [exact F2|]. right. rewrite D2. split; [exact HR1|].
    eapply pfx_more; [apply (pfx_end ec (io_env a ec)); apply aext_io|apply aext_io].
Qed.

Lemma guarded_write_lock X g w w2 off l b e ec r w' e' rc wc ec' :
  let a := AWrite (ws_name w) off l b in
  R X e ec -> (In (ws_name w) X -> wguard (e_disk e) (ws_name w) off) ->
  guarded_write g a w w2 e = (r, w', e') -> guarded_write g a w w2 ec = (rc, wc, ec') ->
  (r = rc /\ w' = wc /\ R X e' ec' /\
   match g with
   | Some r0 => rc = r0 /\ e' = e /\ ec' = ec /\ w' = w
   | None => rc = ROk /\ R (rem (ws_name w) X) e' ec'
   end) \/
  (g = None /\ rc = ROk /\ r = RErrIO /\ w' = w /\ e_fault e' = None /\
   (e_disk e' = e_disk e \/
    (drel (rem (ws_name w) X) (e_disk e') (apply_act (e_disk ec) a) /\ pfx ec ec' (apply_act (e_disk ec) a)))).
Proof.
  cbv zeta. set (a := AWrite (ws_name w) off l b). intros HR Hg. unfold guarded_write.
  destruct g as [r0|]; [intros [= <- <- <-] [= <- <- <-]; left; auto 10|].
  rewrite (write_sync_ok a _ ec (proj2 HR)).
  destruct (write_sync_lock X _ off l b e ec HR Hg) as [(e2 & Er & HR2)|(e2 & Er & F & D)]; fold a in Er; rewrite Er;
    intros [= <- <- <-] [= <- <- <-].
  - left. split; [reflexivity|]. split; [reflexivity|]. split; [apply (R_rem_weaken (ws_name w) X); exact HR2|auto].
  - right. auto 10.
Qed.

(* Writer.Append *)
Definition append_act (w : wseg) (ls : list log) : act :=
  let n' := ws_n w + llen ls in
  let buf := (if ws_hdr w then 32 else 0) + frames_size ls in
  let seal := ws_limit w <? (ws_off w + (buf + index_frame_size n') mod two32) mod two32 in
  let buf2 := if seal then buf + index_frame_size n' else buf in
  let istart := if seal then ws_off w + buf + 8 else 0 in
  let total := buf2 + 8 in
  AWrite (ws_name w) (ws_off w) total {| pb_ents := ls; pb_end := (ws_off w + total) mod two32; pb_seal := istart |}.

Definition append_wseg (w : wseg) (ls : list log) : wseg :=
  let n' := ws_n w + llen ls in
  let buf := (if ws_hdr w then 32 else 0) + frames_size ls in
  let seal := ws_limit w <? (ws_off w + (buf + index_frame_size n') mod two32) mod two32 in
  let buf2 := if seal then buf + index_frame_size n' else buf in
  let istart := if seal then ws_off w + buf + 8 else 0 in
  let total := buf2 + 8 in
  {| ws_name := ws_name w; ws_base := ws_base w; ws_min := ws_min w;
     ws_limit := ws_limit w; ws_n := n'; ws_off := (ws_off w + total) mod two32;
     ws_hdr := false; ws_index_start := istart; ws_commit_idx := ws_base w + n' - 1 |}.

Definition append_guard (w : wseg) (ls : list log) : option result :=
  match ls with
  | [] => Some ROk
  | l0 :: _ =>
      if 0 <? ws_index_start w then Some RErrSealed
      else if existsb (fun l => MaxEntrySize <? enc_len l) ls then Some RErrTooBig
      else if negb (l_index l0 =? ws_base w + ws_n w) then Some RErrNonMono
      else None
  end.

Lemma seg_append_eq w ls e :
  seg_append w ls e = guarded_write (append_guard w ls) (append_act w ls) w (append_wseg w ls) e.
Proof.
  unfold seg_append, guarded_write, append_guard. destruct ls as [|l0 lr]; [reflexivity|].
  destruct (0 <? _); [reflexivity|]. destruct (existsb _ _); [reflexivity|]. destruct (negb _); [reflexivity|].
  unfold write_sync, append_act, append_wseg. cbv zeta.
  destruct (io _ e) as [[] e1]; [|reflexivity]. cbn [negb]. destruct (io _ e1) as [[] e2]; reflexivity.
Qed.

Lemma append_guard_cases w ls :
  match append_guard w ls with
  | Some r => r = ROk -> ls = []
  | None => exists l0 lr, ls = l0 :: lr /\ l_index l0 = ws_base w + ws_n w /\ ws_index_start w = 0
  end.
Proof.
  unfold append_guard. destruct ls as [|l0 lr]; [reflexivity|].
  destruct (0 <? _) eqn:Eis; [discriminate|]. destruct (existsb _ _); [discriminate|].
  destruct (negb _) eqn:Eidx; [discriminate|]. exists l0, lr. split; [reflexivity|]. split; lia.
Qed.

Lemma append_act_form tw ls : exists l b, append_act tw ls = AWrite (ws_name tw) (ws_off tw) l b.
Proof. unfold append_act. cbv zeta. eexists _, _. reflexivity. Qed.

(* Writer.ForceSeal *)
Definition force_act (w : wseg) : act :=
  let buf := (if ws_hdr w then 32 else 0) + index_frame_size (ws_n w) in
  let istart := ws_off w + (if ws_hdr w then 32 else 0) + 8 in
  let total := buf + 8 in
  AWrite (ws_name w) (ws_off w) total {| pb_ents := []; pb_end := (ws_off w + total) mod two32; pb_seal := istart |}.

Definition force_wseg (w : wseg) : wseg :=
  let buf := (if ws_hdr w then 32 else 0) + index_frame_size (ws_n w) in
  let istart := ws_off w + (if ws_hdr w then 32 else 0) + 8 in
  let total := buf + 8 in
  {| ws_name := ws_name w; ws_base := ws_base w; ws_min := ws_min w;
     ws_limit := ws_limit w; ws_n := ws_n w; ws_off := (ws_off w + total) mod two32;
     ws_hdr := false; ws_index_start := istart; ws_commit_idx := ws_base w + ws_n w - 1 |}.

Definition force_guard (w : wseg) : option result :=
  if 0 <? ws_index_start w then Some ROk else if ws_n w =? 0 then Some RErrOther else None.

Lemma seg_force_seal_eq w e :
  seg_force_seal w e = guarded_write (force_guard w) (force_act w) w (force_wseg w) e.
Proof.
  unfold seg_force_seal, guarded_write, force_guard. destruct (0 <? _); [reflexivity|]. destruct (_ =? 0); [reflexivity|].
  unfold write_sync, force_act, force_wseg. cbv zeta.
  destruct (io _ e) as [[] e1]; [|reflexivity]. cbn [negb]. destruct (io _ e1) as [[] e2]; reflexivity.
Qed.

Lemma force_guard_cases w :
  match force_guard w with
  | Some r => r = ROk -> ws_index_start w <> 0
  | None => ws_index_start w = 0 /\ ws_n w <> 0
  end.
Proof. unfold force_guard. destruct (0 <? _) eqn:Eis; [lia|]. destruct (_ =? 0) eqn:En; [discriminate|lia]. Qed.

Lemma force_act_form tw : exists l b, force_act tw = AWrite (ws_name tw) (ws_off tw) l b.
Proof. unfold force_act. cbv zeta. eexists _, _. reflexivity. Qed.

Definition set_failed (w : wal) : wal :=
  {| st_next_id := st_next_id w; st_segs := st_segs w; st_tail := st_tail w;
     st_rotate := st_rotate w; st_failed := true; st_closed := st_closed w |}.

Definition tx_ps (t : txn) : pstate := {| ps_next_id := tx_next_id t; ps_segs := tx_segs t |}.

(* the fault-free shadow run only extends the history; the lemmas [sh_<operation>] below and in
   FaultSim2.v say so of each operation ([sh] alone, in FaultInv.v, is the normalised disk) *)
Definition shok (ec ec' : env) : Prop := aext ec ec' /\ e_fault ec' = None.

Lemma shok_refl ec : e_fault ec = None -> shok ec ec.
Proof. intros H. split; [apply aext_refl|exact H]. Qed.
Lemma shok_trans e0 e1 e2 : shok e0 e1 -> shok e1 e2 -> shok e0 e2.
Proof. intros (A & _) (B & F). split; [eapply aext_trans; eauto|exact F]. Qed.
Lemma shok_io a ec : shok ec (io_env a ec).
Proof. split; [apply aext_io|reflexivity]. Qed.
Lemma shok_add_m ec f : e_fault ec = None -> shok ec (add_m ec f).
Proof. intros H. split; [apply aext_add_m|exact H]. Qed.

Lemma sh_seg_create si ec sw ec' : e_fault ec = None -> seg_create si ec = (sw, ec') -> shok ec ec'.
Proof.
  intros Hf. unfold seg_create. destruct (si_base si =? 0); [intros [= <- <-]; apply shok_refl; exact Hf|].
  destruct (lookup _ _).
  - rewrite (io_ok _ _ Hf). intros [= <- <-]. apply shok_io.
  - rewrite (io_ok _ _ Hf). intros [= <- <-]. apply shok_io.
Qed.

Lemma sh_delete_files ns : forall ec, e_fault ec = None -> shok ec (delete_files ns ec).
Proof.
  induction ns as [|n ns IH]; intros ec Hf; [apply shok_refl; exact Hf|].
  unfold delete_files. cbn [fold_left]. fold (delete_files ns (snd (io (ADelete n) ec))).
  rewrite (io_ok _ _ Hf). cbn [snd]. eapply shok_trans; [apply shok_io|apply IH; reflexivity].
Qed.

Lemma sh_seg_append tw ls ec r tw' ec' : e_fault ec = None -> seg_append tw ls ec = (r, tw', ec') -> shok ec ec'.
Proof. rewrite seg_append_eq. apply sh_guarded_write. Qed.

Lemma sh_seg_force_seal tw ec r tw' ec' : e_fault ec = None -> seg_force_seal tw ec = (r, tw', ec') -> shok ec ec'.
Proof. rewrite seg_force_seal_eq. apply sh_guarded_write. Qed.

Lemma sh_mutate_gen defer w t ec r w' ec' dl : e_fault ec = None ->
  mutate_gen defer w t ec = (r, w', ec', dl) -> shok ec ec'.
Proof.
  intros Hf. unfold mutate_gen. rewrite (io_ok _ _ Hf). cbn [negb].
  destruct (tx_create t) as [si|].
  - destruct (seg_create si _) as [sw e2] eqn:Es. pose proof (sh_seg_create _ _ _ _ (io_env_fault _ _) Es) as H2.
    destruct sw; intros [= <- <- <- <-].
    + destruct defer; [eapply shok_trans; [apply shok_io|exact H2]|].
      eapply shok_trans; [apply shok_io|]. eapply shok_trans; [exact H2|]. apply sh_delete_files. apply H2.
    + eapply shok_trans; [apply shok_io|exact H2].
  - intros [= <- <- <- <-]. destruct defer; [apply shok_io|].
    eapply shok_trans; [apply shok_io|]. apply sh_delete_files. reflexivity.
Qed.

Lemma sh_mutate w t ec r w' ec' : e_fault ec = None -> mutate w t ec = (r, w', ec') -> shok ec ec'.
Proof.
  intros Hf. unfold mutate. destruct (mutate_gen false w t ec) as [[[r0 w0] e0] d0] eqn:E.
  intros K; inversion K; subst. eapply sh_mutate_gen; eauto.
Qed.

Lemma seg_create_some si e sw e' : seg_create si e = (Some sw, e') ->
  sw = new_wseg si /\ lookup (name_of si) (dk_files (e_disk e)) = None.
Proof.
  unfold seg_create. destruct (si_base si =? 0); [intros E; inversion E|].
  destruct (lookup _ _).
  - destruct (io _ e) as [ok e1]. intros E; inversion E.
  - destruct (io _ e) as [ok e1]. destruct ok; intros E; inversion E; auto.
Qed.

(* the outcome of a trailing run of deletions: both runs deleted, or the real run's
   deletions all failed and it stays related to the shadow state before them *)
Definition Rd (X : list fname) (ns : list fname) (ec0 e' ec' : env) : Prop :=
  R (rems ns X) e' ec' \/
  (exists ecp, R X e' ecp /\ ec' = delete_files ns ecp /\ aext ec0 ecp /\ e_fault e' <> None).

Lemma Rd_nil X ec0 e' ec' : Rd X [] ec0 e' ec' -> R X e' ec'.
Proof. intros [H|(ecp & H & -> & _)]; exact H. Qed.
Lemma Rd_of_R X ec0 e' ec' : R X e' ec' -> Rd X [] ec0 e' ec'.
Proof. intros H. left. exact H. Qed.

Lemma Rd_shift X ns ec0 ec1 e' ec' : aext ec0 ec1 -> Rd X ns ec1 e' ec' -> Rd X ns ec0 e' ec'.
Proof.
  intros Ha [H|(ecp & H & E & A & F)]; [left; exact H|right]. exists ecp. split; [exact H|]. split; [exact E|].
  split; [eapply aext_trans; eauto|exact F].
Qed.

Lemma delete_files_Rd X ns e ec ec0 : R X e ec -> aext ec0 ec ->
  Rd X ns ec0 (delete_files ns e) (delete_files ns ec) /\ e_fault (delete_files ns e) = e_fault e.
Proof.
  intros HR Ha. destruct (delete_files_lock ns X e ec HR) as (_ & _ & _ & A & B). split; [|exact A].
  destruct (del_fails e) eqn:Ed.
  - right. exists ec. split; [split; [|apply HR]; rewrite B; apply HR|]. split; [reflexivity|]. split; [exact Ha|].
    rewrite A. unfold del_fails, armed in Ed. destruct (e_fault e); [discriminate|discriminate].
  - left. exact B.
Qed.

(* the metadata commit happened (and possibly the file creation after it left an empty
   file): the real disk is related to a disk [dm] the shadow run passes through, which
   lists [ps] and keeps every file of the shadow's starting disk *)
Definition post_commit (X : list fname) (ec ec' : env) (d' : disk) (ps : pstate) : Prop :=
  exists dm, drel X d' dm /\ pfx ec ec' dm /\ dk_meta dm = Some ps /\
    (forall n, lookup n (dk_files (e_disk ec)) <> None -> lookup n (dk_files dm) = lookup n (dk_files (e_disk ec))) /\
    dk_stable dm = dk_stable (e_disk ec) /\
    (forall n f, lookup n (dk_files dm) = Some f -> lookup n (dk_files (e_disk ec)) = None -> df_pend f = None).

Lemma post_commit_shift X ec0 ec ec' d' ps : aext ec0 ec -> e_disk ec = e_disk ec0 ->
  post_commit X ec ec' d' ps -> post_commit X ec0 ec' d' ps.
Proof.
  intros Ha Hd (dm & A & B & C & D & E & F). exists dm. split; [exact A|]. split; [eapply pfx_shift; eauto|].
  split; [exact C|]. rewrite <- Hd. auto.
Qed.

(* the disk right after the shadow's commit is such a disk *)
Lemma post_commit_commit X ec ecN d' ps : drel X d' (apply_act (e_disk ec) (ACommit ps)) ->
  aext (io_env (ACommit ps) ec) ecN -> post_commit X ec ecN d' ps.
Proof.
  intros Hd Ha. exists (e_disk (io_env (ACommit ps) ec)). split; [exact Hd|].
  split; [eapply pfx_more; [apply pfx_end; apply aext_io|exact Ha]|].
  split; [reflexivity|]. split; [intros n _; reflexivity|]. split; [reflexivity|]. intros n f Hl Hn. cbn in Hl. congruence.
Qed.

(* the files the call deletes after the commit: none if the commit failed or they are deferred *)
Definition dels_of (defer : bool) (rc : result) (t : txn) : list fname :=
  match rc with ROk => if defer then [] else tx_delete t | _ => [] end.

(* the real run stopped (its commit landed, nothing was created) where the shadow run went
   on to its trailing deletions *)
Definition landed (X : list fname) (ns : list fname) (ec0 e' ec' : env) : Prop :=
  exists ecp, R X e' ecp /\ ec' = delete_files ns ecp /\ aext ec0 ecp.

(* what the real run of a failed state transaction leaves: the WAL refuses writes, and
   A  nothing changed on the disk, or
   B  the metadata is committed and a new tail file is missing (its creation failed, or the
      commit itself failed and landed), or
   C  the commit of a transaction that creates nothing failed and landed, or
   D  the shadow run could not create the new tail either (excluded later: it ends failed) *)
Definition commit_failed (X : list fname) (defer : bool) (t : txn) (e ec : env) (e' : env)
  (rc : result) (wc' : wal) (ec' : env) : Prop :=
  e_disk e' = e_disk e \/
  (rc = ROk /\ tx_create t <> None /\
   post_commit X ec ec' (e_disk e') (tx_ps t) /\
   dk_meta (e_disk ec') = Some (tx_ps t) /\
   (defer = false -> forall n, In n (tx_delete t) -> lookup n (dk_files (e_disk ec')) = None) /\
   NoDup (map fst (dk_files (e_disk ec')))) \/
  (rc = ROk /\ tx_create t = None /\ e_disk e' = apply_act (e_disk e) (ACommit (tx_ps t)) /\
   post_commit X ec ec' (e_disk e') (tx_ps t) /\ dk_meta (e_disk ec') = Some (tx_ps t) /\
   landed X (dels_of defer ROk t) ec e' ec' /\
   st_segs wc' = tx_segs t /\ st_tail wc' = tx_tail t) \/
  (rc <> ROk /\ st_failed wc' = true).

(* the trailing deletions of a state transaction, deferred or not *)
Lemma fin_del_eq (defer : bool) t e :
  (if defer then e else delete_files (tx_delete t) e) = delete_files (dels_of defer ROk t) e.
Proof. destruct defer; reflexivity. Qed.

Lemma sh_deleted ns ec ps : e_fault ec = None -> dk_meta (e_disk ec) = Some ps -> NoDup (map fst (dk_files (e_disk ec))) ->
  dk_meta (e_disk (delete_files ns ec)) = Some ps /\
  (forall n, In n ns -> lookup n (dk_files (e_disk (delete_files ns ec))) = None) /\
  NoDup (map fst (dk_files (e_disk (delete_files ns ec)))).
Proof.
  intros Hf Hm ND. rewrite (delete_files_disk _ _ Hf). destruct (del_disk_meta ns (e_disk ec)) as (M1 & _).
  split; [rewrite M1; exact Hm|]. split; [|apply del_disk_NoDup; exact ND]. intros n Hin. rewrite (del_disk_lookup _ _ n ND).
  replace (mem_name n ns) with true; [reflexivity|]. symmetry. apply mem_name_spec. exact Hin.
Qed.

(* the shadow run after the creation of the new tail file behind its commit *)
Lemma sh_created_deleted ns si ps ec1 ec2 : e_fault ec2 = None ->
  e_disk ec2 = apply_act (e_disk ec1) (ACreate (name_of si) (si_size_limit si)) ->
  dk_meta (e_disk ec1) = Some ps -> NoDup (map fst (dk_files (e_disk ec1))) ->
  dk_meta (e_disk ec2) = Some ps /\
  dk_meta (e_disk (delete_files ns ec2)) = Some ps /\
  (forall n, In n ns -> lookup n (dk_files (e_disk (delete_files ns ec2))) = None) /\
  NoDup (map fst (dk_files (e_disk (delete_files ns ec2)))).
Proof.
  intros Hf Dc Hm ND. assert (Hm2 : dk_meta (e_disk ec2) = Some ps) by (rewrite Dc; exact Hm).
  split; [exact Hm2|]. apply sh_deleted; [exact Hf|exact Hm2|].
  rewrite Dc. cbn [apply_act dk_files]. apply update_NoDup. exact ND.
Qed.

(* the real run fails in three ways.  Commit failed, nothing applied: A.  Commit landed, or the
   creation behind a good commit failed: in both the real run stops on the disk the shadow run
   had after the same prefix (commit, or commit and creation), and the shadow goes on: B, C, D *)
Lemma mutate_gen_lock X defer w t e ec r w' e' dl rc wc' ec' dlc : R X e ec ->
  mutate_gen defer w t e = (r, w', e', dl) -> mutate_gen defer w t ec = (rc, wc', ec', dlc) ->
  (r = rc /\ w' = wc' /\ dl = dlc /\ Rd X (dels_of defer rc t) ec e' ec' /\
   (rc <> ROk -> st_failed wc' = true)) \/
  (e_fault e' = None /\ r = RErrIO /\ dl = [] /\ w' = set_failed w /\
   commit_failed X defer t e ec e' rc wc' ec').
Proof.
  intros HR. unfold mutate_gen, commit_failed. fold (tx_ps t). fold (set_failed w).
  destruct (io_lock X (ACommit (tx_ps t)) e ec HR (conj I eq_refl))
    as (Ec & [(e1 & Er & HR1 & _)|[(e1 & Er & D & F & _)|(e1 & Er & _ & HR1 & D & F & _)]]); rewrite Ec, Er; cbn [negb].
  2:{ intros E1 _. inversion E1; subst. right. split; [exact F|]. split; [reflexivity|]. split; [reflexivity|].
      split; [reflexivity|]. left. exact D. }
  2:{ (* the commit landed: the shadow run goes on *)
      intros E1. inversion E1; subst. intros E2. right. split; [exact F|]. split; [reflexivity|]. split; [reflexivity|].
      split; [reflexivity|].
      set (ec1 := io_env (ACommit (tx_ps t)) ec) in *.
      assert (Ha1 : aext ec ec1) by apply aext_io.
      pose proof (fun ecN => post_commit_commit X ec ecN _ _ (proj1 HR1)) as Hpc.
      destruct (tx_create t) as [si|] eqn:Etc.
      - destruct (seg_create si ec1) as [swc ec2] eqn:Esc.
        pose proof (sh_seg_create si ec1 swc ec2 eq_refl Esc) as Hs2.
        destruct swc as [sw|]; [|inversion E2; subst; right; right; right; split; [discriminate|reflexivity]].
        destruct (seg_create_some _ _ _ _ Esc) as (_ & Hfresh).
        assert (Dc : e_disk ec2 = apply_act (e_disk ec1) (ACreate (name_of si) (si_size_limit si))).
        { revert Esc. unfold seg_create. destruct (si_base si =? 0); [discriminate|]. rewrite Hfresh.
          rewrite (io_ok _ _ (eq_refl : e_fault ec1 = None)). intros K; inversion K; reflexivity. }
        right. left. rewrite fin_del_eq in E2. set (ns := dels_of defer ROk t) in *. injection E2 as <- _ <- _.
        destruct (sh_created_deleted ns si (tx_ps t) ec1 ec2 (proj2 Hs2) Dc eq_refl ltac:(apply HR1)) as (_ & Hm' & Hdel' & ND'). subst ns.
        split; [reflexivity|]. split; [discriminate|].
        split; [apply Hpc; eapply aext_trans; [apply Hs2|apply sh_delete_files; apply Hs2]|]. split; [exact Hm'|].
        split; [intros ->; exact Hdel'|exact ND'].
      - right. right. left. rewrite fin_del_eq in E2. set (ns := dels_of defer ROk t) in *. injection E2 as <- <- <- _. cbn [st_segs st_tail].
        split; [reflexivity|]. split; [reflexivity|]. split; [exact D|].
        split; [apply Hpc; apply sh_delete_files; reflexivity|].
        rewrite (delete_files_disk _ _ (eq_refl : e_fault ec1 = None)). destruct (del_disk_meta ns (e_disk ec1)) as (M1 & _).
        split; [rewrite M1; reflexivity|].
        split; [exists ec1; split; [exact HR1|]; split; [reflexivity|exact Ha1]|]. auto. }
  set (ec1 := io_env (ACommit (tx_ps t)) ec) in *.
  assert (Ha1 : aext ec ec1) by apply aext_io.
  destruct (tx_create t) as [si|] eqn:Etc.
  - destruct (seg_create si e1) as [sw e2] eqn:Es. destruct (seg_create si ec1) as [swc ec2] eqn:Esc.
    destruct (seg_create_lock X si e1 ec1 sw e2 swc ec2 HR1 Es Esc) as (A1 & A2 & [(-> & HR2)|(-> & -> & F & Dc & Hreal)]).
    + destruct swc as [sw|].
      * rewrite !fin_del_eq. intros [= <- <- <- <-] [= <- <- <- <-]. left.
        split; [reflexivity|]. split; [reflexivity|]. split; [reflexivity|]. split; [|congruence].
        apply (delete_files_Rd X _ e2 ec2 ec HR2). eapply aext_trans; eauto.
      * intros [= <- <- <- <-] [= <- <- <- <-]. left.
        split; [reflexivity|]. split; [reflexivity|]. split; [reflexivity|]. split; [apply Rd_of_R; exact HR2|reflexivity].
    + intros E1. inversion E1; subst. intros E2. right.
      split; [exact F|]. split; [reflexivity|]. split; [reflexivity|]. split; [reflexivity|]. right. left.
      assert (Hsh : shok ec2 ec' /\ rc = ROk /\ dk_meta (e_disk ec2) = Some (tx_ps t) /\ dk_meta (e_disk ec') = Some (tx_ps t) /\
                    (defer = false -> forall n, In n (tx_delete t) -> lookup n (dk_files (e_disk ec')) = None) /\
                    NoDup (map fst (dk_files (e_disk ec')))).
      { rewrite fin_del_eq in E2. set (ns := dels_of defer ROk t) in *. injection E2 as <- _ <- _.
        destruct (sh_created_deleted ns si (tx_ps t) ec1 ec2 A2 Dc eq_refl ltac:(apply HR1)) as (Hm2 & Hm' & Hdel' & ND'). subst ns.
        split; [apply sh_delete_files; exact A2|]. split; [reflexivity|]. split; [exact Hm2|]. split; [exact Hm'|].
        split; [intros ->; exact Hdel'|exact ND']. }
      destruct Hsh as (Hsh & -> & Hm2 & Hm' & Hdel' & ND').
      split; [reflexivity|]. split; [discriminate|].
      assert (Hsl : seg_create si ec1 = (Some (new_wseg si), ec2)) by exact Esc.
      destruct (seg_create_some _ _ _ _ Hsl) as (_ & Hfresh).
      destruct Hreal as [Hd|Hd].
      * split; [|split; [exact Hm'|split; [exact Hdel'|exact ND']]].
        apply post_commit_commit; [rewrite Hd; apply HR1|eapply aext_trans; [exact A1|apply Hsh]].
      * split; [|split; [exact Hm'|split; [exact Hdel'|exact ND']]].
        exists (e_disk ec2). split; [exact Hd|].
        split; [eapply pfx_more; [apply (pfx_end ec ec2); eapply aext_trans; eauto|apply Hsh]|].
        split; [exact Hm2|]. split; [|split; [rewrite Dc; reflexivity|]].
        { intros n Hn. rewrite Dc. cbn [apply_act dk_files]. apply lookup_update_neq. intros ->. apply Hn. exact Hfresh. }
        intros n f Hl Hn. rewrite Dc in Hl. cbn [apply_act dk_files] in Hl.
        destruct (fname_eqb n (name_of si)) eqn:En.
        { apply fname_eqb_eq in En. subst n. rewrite lookup_update_eq in Hl. inversion Hl; reflexivity. }
        apply fname_eqb_neq in En. rewrite lookup_update_neq in Hl by exact En.
        cbn [ec1 io_env e_disk apply_act dk_files] in Hl. congruence.
  - rewrite !fin_del_eq. intros [= <- <- <- <-] [= <- <- <- <-]. left.
    split; [reflexivity|]. split; [reflexivity|]. split; [reflexivity|]. split; [|congruence].
    apply (delete_files_Rd X _ e1 ec1 ec HR1 Ha1).
Qed.

Lemma mutate_lock X w t e ec r w' e' rc wc' ec' : R X e ec ->
  mutate w t e = (r, w', e') -> mutate w t ec = (rc, wc', ec') ->
  (r = rc /\ w' = wc' /\ Rd X (dels_of false rc t) ec e' ec' /\
   (rc <> ROk -> st_failed wc' = true)) \/
  (e_fault e' = None /\ r = RErrIO /\ w' = set_failed w /\ commit_failed X false t e ec e' rc wc' ec').
Proof.
  intros HR. unfold mutate.
  destruct (mutate_gen false w t e) as [[[r0 w0] e0] d0] eqn:E1.
  destruct (mutate_gen false w t ec) as [[[rc0 wc0] ec0] dc0] eqn:E2.
  intros K1 K2; inversion K1; inversion K2; subst.
  destruct (mutate_gen_lock X false w t e ec _ _ _ _ _ _ _ _ HR E1 E2) as [(A & B & C & D & F)|(A & B & C & D & F)].
  - left. auto.
  - right. auto.
Qed.
