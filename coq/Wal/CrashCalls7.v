(* CrashCalls7.v -- the scans of truncateHead/truncateTail over a segment list
   and what the new lists read as. *)
From RW Require Import Base.Bytes Base.BytesFacts Fmt.Codec Fmt.CodecFacts Fmt.Frame Wal.Model Wal.Spec Wal.Hist
  Wal.CrashInv Wal.ModelFacts Wal.CrashFacts0 Wal.CrashFacts1 Wal.CrashFacts2 Wal.CrashFacts3 Wal.CrashFacts4 Wal.CrashFacts5
  Wal.CrashFacts6 Wal.CrashGlue Wal.CrashCalls1 Wal.CrashCalls3 Wal.CrashCalls4 Wal.CrashCalls6 Gen.Constants Base.LiaSetup.
Open Scope N_scope.

Lemma suffix_split {A} (p : A -> bool) l :
  Forall (fun x => p x = true) l \/
  exists K k D, l = K ++ k :: D /\ p k = false /\ Forall (fun x => p x = true) D.
Proof.
  induction l as [|x l IH]; [left; constructor|].
  destruct IH as [Hall|(K & k & D & -> & Hk & HD)].
  - destruct (p x) eqn:E; [left; constructor; assumption|].
    right. exists [], x, l. auto.
  - right. exists (x :: K), k, D. auto.
Qed.

Lemma prefix_split {A} (p : A -> bool) l :
  Forall (fun x => p x = true) l \/
  exists D h R, l = D ++ h :: R /\ p h = false /\ Forall (fun x => p x = true) D.
Proof.
  induction l as [|x l IH]; [left; constructor|].
  destruct (p x) eqn:E.
  - destruct IH as [Hall|(D & h & R & -> & Hh & HD)].
    + left. constructor; assumption.
    + right. exists (x :: D), h, R. split; [reflexivity|]. split; [exact Hh|constructor; assumption].
  - right. exists [], x, l. auto.
Qed.

Lemma head_scan_skip new_min tl D : forall rest del ntr,
  Forall (fun s => si_sealed s = true /\ si_max s < new_min) D ->
  exists ntr', head_scan new_min tl (D ++ rest) del ntr = head_scan new_min tl rest (del ++ map name_of D) ntr'.
Proof.
  induction D as [|s D IH]; intros rest del ntr H.
  - exists ntr. cbn. rewrite app_nil_r. reflexivity.
  - inversion H as [|? ? (Hs & Hm) HD]; subst. cbn [app head_scan]. rewrite Hs.
    destruct (new_min <=? si_max s) eqn:E; [lia|].
    destruct (IH rest (del ++ [name_of s]) (if si_min s <=? si_max s then (ntr + (si_max s - si_min s + 1)) mod two64 else ntr) HD)
      as (ntr' & E'). exists ntr'. rewrite E'. cbn [map]. rewrite <- app_assoc. reflexivity.
Qed.

Lemma tail_scan_skip new_max li X : forall rrest del ntr,
  Forall (fun s => new_max < si_base s) X ->
  exists ntr', tail_scan new_max li (X ++ rrest) del ntr = tail_scan new_max li rrest (del ++ map name_of X) ntr'.
Proof.
  induction X as [|s X IH]; intros rrest del ntr H.
  - exists ntr. cbn. rewrite app_nil_r. reflexivity.
  - inversion H as [|? ? Hs HX]; subst. cbn [app tail_scan].
    destruct (si_base s <=? new_max) eqn:E; [lia|].
    destruct (IH rrest (del ++ [name_of s])
                ((ntr + sub64 (if si_sealed s then si_max s else li) (si_min s) + 1) mod two64) HX) as (ntr' & E').
    exists ntr'. rewrite E'. cbn [map]. rewrite <- app_assoc. reflexivity.
Qed.

Definition with_min (h : seginfo) (nm : N) : seginfo :=
  {| si_id := si_id h; si_base := si_base h; si_min := nm; si_max := si_max h; si_codec := si_codec h;
     si_index_start := si_index_start h; si_sealed := si_sealed h; si_size_limit := si_size_limit h |}.

Lemma seg_visible_with_min d h nm :
  si_sealed h = true -> 1 <= si_base h -> si_base h <= si_min h -> si_min h <= nm -> nm <= si_max h ->
  seg_visible 0 d (with_min h nm) = skipn (N.to_nat (nm - si_min h)) (seg_visible 0 d h).
Proof.
  intros Hs Hb Hbm H1 H2. unfold seg_visible. cbn [with_min si_sealed si_max si_min si_base]. rewrite Hs.
  change (name_of (with_min h nm)) with (name_of h).
  destruct ((si_max h =? 0) || (si_max h <? nm)) eqn:E1; [lia|].
  destruct ((si_max h =? 0) || (si_max h <? si_min h)) eqn:E2; [lia|].
  rewrite skipn_firstn_comm, skipn_skipn'. f_equal; [lia|]. f_equal. lia.
Qed.

Lemma sealed_ok_with_min d h nm : sealed_ok d h -> nm <= si_max h -> sealed_ok d (with_min h nm).
Proof.
  intros (H1 & H2 & f & Hf & H3) Hnm. split; [exact H1|]. split; [exact Hnm|]. exists f. exact (conj Hf H3).
Qed.

Lemma sealed_es_app d A B : sealed_es d (A ++ B) = sealed_es d A ++ sealed_es d B.
Proof. unfold sealed_es. apply flat_map_app. Qed.

(* the entries of a sealed prefix D in front of h *)
Lemma sealed_prefix_len d D h R t :
  Forall (sealed_ok d) (D ++ h :: R) -> Forall swf (D ++ h :: R) -> linked ((D ++ h :: R) ++ [t]) ->
  llen (sealed_es d D) + hd_min (D ++ h :: R) t = si_min h.
Proof.
  intros Hso Hw Hl. destruct (list_eq_dec_nil D) as [->|Hne].
  - unfold sealed_es, hd_min. cbn. lia.
  - apply Forall_app in Hso. destruct Hso as (HsD & _). apply Forall_app in Hw. destruct Hw as (HwD & _).
    assert (HlD : linked (D ++ [h])).
    { rewrite <- app_assoc in Hl. cbn [app] in Hl.
      replace (D ++ h :: R ++ [t]) with ((D ++ [h]) ++ (R ++ [t])) in Hl by (rewrite <- app_assoc; reflexivity).
      eapply linked_app_l; eauto. }
    pose proof (sealed_es_len d D h HsD HwD HlD Hne) as Hlen.
    assert (Hmin : si_min h = si_base h).
    { destruct (exists_last Hne) as (D' & x & ->). rewrite <- app_assoc in HlD. cbn [app] in HlD.
      destruct (linked_mid D' x h [] HlD) as (_ & Hm). exact Hm. }
    assert (Hhd : hd_min (D ++ h :: R) t = hd_min D h) by (unfold hd_min; destruct D; [congruence|reflexivity]).
    lia.
Qed.

Lemma chain_base_lt A y B x :
  linked (A ++ y :: B) -> Forall sst A -> In x A -> si_base x < si_base y.
Proof.
  intros Hl Hs Hin. destruct (exists_last (l := A)) as (A' & z & ->); [intros E; subst; destruct Hin|].
  rewrite <- app_assoc in Hl. cbn [app] in Hl.
  destruct (linked_mid A' z y B Hl) as (Hb & _).
  apply Forall_app in Hs. destruct Hs as (HsA' & HsZ). inversion HsZ as [|? ? Hz _]; subst. unfold sst in Hz.
  apply in_app_or in Hin. destruct Hin as [Hin|[<-|[]]]; [|lia].
  assert (HlA : linked (A' ++ [z])).
  { replace (A' ++ z :: y :: B) with ((A' ++ [z]) ++ y :: B) in Hl by (rewrite <- app_assoc; reflexivity).
    eapply linked_app_l; eauto. }
  pose proof (linked_app_lt A' z HlA HsA') as Hlt. rewrite Forall_forall in Hlt, HsA'.
  specialize (Hlt _ Hin). specialize (HsA' _ Hin). unfold sst in HsA'. lia.
Qed.

Lemma linked_replace_head h h' X : linked (h :: X) -> si_max h' = si_max h -> linked (h' :: X).
Proof. intros Hl Hm. destruct X as [|x X']; [exact I|]. rewrite linked_cons2 in *. rewrite Hm. exact Hl. Qed.

Lemma not_listed_by_base l n :
  (forall y, In y l -> si_base y <> fst n) -> listed l n = false.
Proof.
  intros H. destruct (listed l n) eqn:E; [|reflexivity]. apply listed_spec in E. destruct E as (y & Hin & Hn).
  exfalso. apply (H y Hin). rewrite <- Hn. reflexivity.
Qed.

Lemma not_listed_by_id l n :
  (forall y, In y l -> si_id y <> snd n) -> listed l n = false.
Proof.
  intros H. destruct (listed l n) eqn:E; [|reflexivity]. apply listed_spec in E. destruct E as (y & Hin & Hn).
  exfalso. apply (H y Hin). rewrite <- Hn. reflexivity.
Qed.

From Coq Require Import Sorted.
Definition lt_base (a b : seginfo) : Prop := si_base a < si_base b.

Lemma chain_sorted S t : linked (S ++ [t]) -> Forall sst S -> StronglySorted lt_base (S ++ [t]).
Proof.
  induction S as [|a S IH]; intros Hl Hs.
  - cbn. constructor; constructor.
  - inversion Hs as [|? ? Ha Hs']; subst. unfold sst in Ha.
    pose proof (linked_cons_inv _ _ Hl) as Hl'. specialize (IH Hl' Hs').
    cbn [app]. constructor; [exact IH|].
    destruct (S ++ [t]) as [|b rest] eqn:E; [constructor|].
    cbn [app] in Hl. rewrite E in Hl. rewrite linked_cons2 in Hl. destruct Hl as (Hb & _).
    inversion IH as [|? ? _ Hall]; subst. constructor; [unfold lt_base; lia|].
    eapply Forall_impl; [|exact Hall]. intros y Hy. unfold lt_base in *. lia.
Qed.

Lemma sorted_app_lt A : forall B x y,
  StronglySorted lt_base (A ++ B) -> In x A -> In y B -> si_base x < si_base y.
Proof.
  induction A as [|a A IH]; intros B x y Hs Hx Hy; [destruct Hx|].
  cbn [app] in Hs. inversion Hs as [|? ? Hs' Hall]; subst.
  destruct Hx as [<-|Hx].
  - rewrite Forall_forall in Hall. apply (Hall y). apply in_or_app. right. exact Hy.
  - eapply IH; eauto.
Qed.
