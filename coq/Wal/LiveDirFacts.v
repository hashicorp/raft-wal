(* LiveDirFacts.v -- the directory of a running WAL is exact after every call
   (Wal/LiveDir.v).  The crash proof (CrashCalls*.v) already keeps LInv, which says
   that every listed segment has its file; what is added here is the converse:
   every file is the file of a listed segment ([cov]).  It is an invariant of the
   name sets only: names of files before a call + created - deleted, against the
   segment list before the call with the transaction's changes. *)
From RW Require Import Base.Bytes Base.BytesFacts Fmt.Codec Fmt.CodecFacts Fmt.Frame Wal.Model Wal.Spec Wal.Hist
  Wal.CrashInv Wal.ModelFacts Wal.CrashFacts0 Wal.CrashFacts1 Wal.CrashFacts2 Wal.CrashFacts3 Wal.CrashFacts4 Wal.CrashFacts5
  Wal.CrashFacts6 Wal.CrashGlue Wal.CrashCalls1 Wal.CrashCalls2 Wal.CrashCalls3 Wal.CrashCalls4 Wal.CrashCalls5
  Wal.CrashCalls6 Wal.CrashCalls7 Wal.CrashCalls8 Wal.CrashCalls9 Wal.CrashCalls10 Wal.CrashThm Wal.LiveDir
  Wal.CrashExamples Wal.CrashExamplesFacts Gen.Constants.
From Coq Require Import Sorted.
From RW Require Import Base.LiaSetup.
Open Scope N_scope.

Lemma in_names_lookup n d : In n (names d) <-> lookup n (dk_files d) <> None.
Proof.
  unfold names. split.
  - intros Hin E. apply lookup_None in E. contradiction.
  - intros H. destruct (lookup n (dk_files d)) as [f|] eqn:E; [|congruence].
    eapply lookup_some_in; eauto.
Qed.

Lemma update_names n f fs : lookup n fs <> None -> map fst (update n f fs) = map fst fs.
Proof.
  induction fs as [|[m g] r IH]; cbn [lookup update map fst]; intros H; [congruence|].
  destruct (fname_eqb n m) eqn:E; cbn [map fst].
  - apply fname_eqb_eq in E. subst. reflexivity.
  - rewrite IH by exact H. reflexivity.
Qed.

Lemma names_write d n off l b : names (apply_act d (AWrite n off l b)) = names d.
Proof.
  unfold names. cbn [apply_act]. destruct (lookup n (dk_files d)) as [f|] eqn:E; [|reflexivity].
  cbn [dk_files]. apply update_names. congruence.
Qed.

Lemma names_sync d n : names (apply_act d (ASync n)) = names d.
Proof.
  unfold names. cbn [apply_act]. destruct (lookup n (dk_files d)) as [f|] eqn:E; [|reflexivity].
  cbn [dk_files]. apply update_names. congruence.
Qed.

Lemma names_create d n sz k : In k (names (apply_act d (ACreate n sz))) <-> k = n \/ In k (names d).
Proof. unfold names. cbn [apply_act dk_files]. apply update_keys_in. Qed.

Lemma NoDup_create d n sz : NoDup (names d) -> NoDup (names (apply_act d (ACreate n sz))).
Proof. unfold names. cbn [apply_act dk_files]. apply update_NoDup. Qed.

Lemma names_del_disk ns d k :
  NoDup (names d) -> In k (names (del_disk ns d)) -> In k (names d) /\ ~ In k ns.
Proof.
  intros ND Hin. apply in_names_lookup in Hin. rewrite (del_disk_lookup ns d k ND) in Hin.
  destruct (mem_name k ns) eqn:E; [congruence|]. split; [apply in_names_lookup; exact Hin|].
  intros Hk. apply mem_name_spec in Hk. congruence.
Qed.

Lemma NoDup_del_disk ns d : NoDup (names d) -> NoDup (names (del_disk ns d)).
Proof. apply del_disk_NoDup. Qed.

Lemma delete_files_fault ns : forall e, e_fault e = None -> e_fault (delete_files ns e) = None.
Proof.
  unfold delete_files. induction ns as [|n ns IH]; intros e Hf; cbn [fold_left]; [exact Hf|].
  rewrite (io_ok (ADelete n) e Hf). cbn [snd]. apply IH. reflexivity.
Qed.

Lemma covx_nil segs d : covx segs [] d <-> cov segs d.
Proof.
  unfold covx, cov. split; intros H n Hn; [destruct (H n Hn) as [K|[]]; exact K|left; auto].
Qed.

Lemma cov_names segs d d' : names d' = names d -> cov segs d -> cov segs d'.
Proof. unfold cov. intros E H n Hn. rewrite E in Hn. auto. Qed.

Lemma covx_names segs del d d' : names d' = names d -> covx segs del d -> covx segs del d'.
Proof. unfold covx. intros E H n Hn. rewrite E in Hn. auto. Qed.

Lemma covx_delete segs del e :
  e_fault e = None -> NoDup (names (e_disk e)) -> covx segs del (e_disk e) ->
  cov segs (e_disk (delete_files del e)).
Proof.
  intros Hf ND H n Hn. rewrite (delete_files_disk del e Hf) in Hn.
  destruct (names_del_disk del (e_disk e) n ND Hn) as (H1 & H2).
  destruct (H n H1) as [K|K]; [exact K|contradiction].
Qed.

(* dir_exact in terms of cov *)
Lemma dir_exact_cov d ps : dk_meta d = Some ps -> dir_exact d = true -> cov (ps_segs ps) d.
Proof.
  intros Hm H n Hn. unfold dir_exact in H. rewrite Hm in H. apply andb_true_iff in H. destruct H as (H & _).
  rewrite forallb_forall in H. unfold names in Hn. apply in_map_iff in Hn. destruct Hn as ([m f] & <- & Hin).
  apply (H _ Hin).
Qed.

Lemma LInv_cov_exact c nb w d : LInv c nb w d -> cov (st_segs w) d -> dir_exact d = true.
Proof.
  intros HL Hc. pose proof HL as (_ & _ & HD & _ & Hm & _).
  apply (dir_exact_intro d (persistent w) Hm (DIs_NoDup _ _ _ HD)).
  - intros n f Hl. apply Hc. apply in_names_lookup. congruence.
  - intros s Hin. eapply LInv_listed_files; eauto.
Qed.

Lemma LInv_exact_cov c nb w d : LInv c nb w d -> dir_exact d = true -> cov (st_segs w) d.
Proof.
  intros (_ & _ & _ & _ & Hm & _) H. apply (dir_exact_cov d (persistent w) Hm H).
Qed.

Lemma listed_cons x r n : listed (x :: r) n = fname_eqb (name_of x) n || listed r n.
Proof. reflexivity. Qed.

Lemma listed_in s l : In s l -> listed l (name_of s) = true.
Proof. intros H. apply listed_spec. exists s. auto. Qed.

Lemma listed_names l n : listed l n = true <-> In n (map name_of l).
Proof.
  rewrite listed_spec, in_map_iff. split; intros (s & A & B); exists s; auto.
Qed.

(* seg_set keeps every name except those of other segments with the same base *)
Lemma seg_set_listed si l n :
  listed l n = true -> (fst n = si_base si -> n = name_of si) -> listed (seg_set si l) n = true.
Proof.
  intros Hl Hb. induction l as [|x r IH]; [discriminate|]. cbn [seg_set].
  destruct (si_base si <? si_base x) eqn:E1.
  - rewrite listed_cons, Hl. apply orb_true_r.
  - destruct (si_base si =? si_base x) eqn:E2.
    + rewrite listed_cons in *. apply orb_true_iff in Hl. destruct Hl as [Hx|Hr]; [|rewrite Hr; apply orb_true_r].
      apply fname_eqb_eq in Hx. subst n. rewrite <- Hb; [rewrite fname_eqb_refl; reflexivity|].
      cbn. apply N.eqb_eq in E2. congruence.
    + rewrite listed_cons in *. apply orb_true_iff in Hl. destruct Hl as [Hx|Hr]; [rewrite Hx; reflexivity|].
      rewrite (IH Hr). apply orb_true_r.
Qed.

Lemma seg_set_listed_self si l : listed (seg_set si l) (name_of si) = true.
Proof.
  induction l as [|x r IH]; cbn [seg_set].
  - rewrite listed_cons, fname_eqb_refl. reflexivity.
  - destruct (si_base si <? si_base x); [rewrite listed_cons, fname_eqb_refl; reflexivity|].
    destruct (si_base si =? si_base x); [rewrite listed_cons, fname_eqb_refl; reflexivity|].
    rewrite listed_cons, IH. apply orb_true_r.
Qed.

Lemma tail_info_none l : tail_info l = None -> l = [].
Proof. exact (ModelFacts.tail_info_none l). Qed.

(* bases are pairwise distinct in a sorted list *)
Lemma sorted_base_inj l x y :
  StronglySorted lt_base l -> In x l -> In y l -> si_base x = si_base y -> x = y.
Proof.
  induction l as [|a l IH]; intros Hs Hx Hy Hb; [destruct Hx|].
  inversion Hs as [|? ? Hs' Hall]; subst. rewrite Forall_forall in Hall. unfold lt_base in Hall.
  destruct Hx as [<-|Hx]; destruct Hy as [<-|Hy].
  - reflexivity.
  - specialize (Hall _ Hy). lia.
  - specialize (Hall _ Hx). lia.
  - apply IH; assumption.
Qed.

Definition max_idx (tl : N) (s : seginfo) : N := if si_sealed s then si_max s else tl.

Lemma head_scan_parts nm tl : forall segs del ntr rest del' ntr' head,
  head_scan nm tl segs del ntr = (rest, del', ntr', head) ->
  exists D, segs = D ++ rest /\ del' = del ++ map name_of D /\
    head = match rest with [] => None | h :: _ => Some h end /\
    Forall (fun s => max_idx tl s < nm) D /\
    match rest with [] => True | h :: _ => nm <= max_idx tl h end.
Proof. exact (head_scan_inv nm tl). Qed.

Lemma tail_scan_parts nm li : forall rsegs del ntr rrest del' ntr',
  tail_scan nm li rsegs del ntr = (rrest, del', ntr') ->
  exists X, rsegs = X ++ rrest /\ del' = del ++ map name_of X /\
    Forall (fun s => nm < si_base s) X /\
    match rrest with [] => True | t0 :: _ => si_base t0 <= nm end.
Proof. exact (tail_scan_inv nm li). Qed.

(* the deletions of a transaction, run now or handed back to the caller *)
Lemma deferred_delete_names (defer : bool) del e :
  e_fault e = None -> NoDup (names (e_disk e)) ->
  let e' := if defer then e else delete_files del e in
  e_fault e' = None /\ NoDup (names (e_disk e')) /\
  forall n, In n (names (e_disk e')) -> In n (names (e_disk e)) /\ (defer = false -> ~ In n del).
Proof.
  intros Hf ND. destruct defer; cbv zeta.
  - split; [exact Hf|]. split; [exact ND|]. intros n Hn. split; [exact Hn|discriminate].
  - split; [apply delete_files_fault; exact Hf|]. rewrite (delete_files_disk _ e Hf).
    split; [apply NoDup_del_disk; exact ND|]. intros n Hn.
    destruct (names_del_disk _ _ _ ND Hn) as (K1 & K2). auto.
Qed.

Lemma mutate_gen_files defer w t e r w' e' dels :
  e_fault e = None -> NoDup (names (e_disk e)) -> st_failed w = false ->
  mutate_gen defer w t e = (r, w', e', dels) -> st_failed w' = false ->
  r = ROk /\ st_segs w' = tx_segs t /\ dels = (if defer then tx_delete t else []) /\
  e_fault e' = None /\ NoDup (names (e_disk e')) /\
  forall n, In n (names (e_disk e')) ->
    (In n (names (e_disk e)) \/ exists si, tx_create t = Some si /\ n = name_of si) /\
    (defer = false -> ~ In n (tx_delete t)).
Proof.
  intros Hf ND Hw H Hw'. unfold mutate_gen in H. rewrite (io_ok _ e Hf) in H. cbn [negb] in H.
  set (e1 := io_env (ACommit {| ps_next_id := tx_next_id t; ps_segs := tx_segs t |}) e) in *.
  assert (Hf1 : e_fault e1 = None) by reflexivity.
  assert (Hn1 : names (e_disk e1) = names (e_disk e)) by reflexivity.
  destruct (tx_create t) as [si|] eqn:Ec.
  - unfold seg_create in H. destruct (si_base si =? 0).
    { inversion H; subst. cbn in Hw'. discriminate. }
    destruct (lookup (name_of si) (dk_files (e_disk e1))) eqn:El.
    { rewrite (io_ok _ e1 Hf1) in H. inversion H; subst. cbn in Hw'. discriminate. }
    rewrite (io_ok _ e1 Hf1) in H.
    set (e2 := io_env (ACreate (name_of si) (si_size_limit si)) e1) in *.
    assert (ND2 : NoDup (names (e_disk e2))) by (apply NoDup_create; rewrite Hn1; exact ND).
    destruct (deferred_delete_names defer (tx_delete t) e2 eq_refl ND2) as (F3 & ND3 & Hin3).
    inversion H; subst. cbn [st_segs]. repeat (split; [reflexivity || assumption|]).
    intros n Hn. destruct (Hin3 n Hn) as (K1 & K2). split; [|exact K2].
    apply names_create in K1. rewrite Hn1 in K1. destruct K1 as [->|K1]; [right; exists si; auto|left; exact K1].
  - assert (ND1 : NoDup (names (e_disk e1))) by (rewrite Hn1; exact ND).
    destruct (deferred_delete_names defer (tx_delete t) e1 eq_refl ND1) as (F3 & ND3 & Hin3).
    inversion H; subst. cbn [st_segs]. repeat (split; [reflexivity || assumption|]).
    intros n Hn. destruct (Hin3 n Hn) as (K1 & K2). split; [left; rewrite <- Hn1; exact K1|exact K2].
Qed.

Lemma mutate_gen_cov defer w t e r w' e' dels segs :
  e_fault e = None -> NoDup (names (e_disk e)) -> st_failed w = false ->
  mutate_gen defer w t e = (r, w', e', dels) -> st_failed w' = false ->
  cov segs (e_disk e) ->
  (forall n, listed segs n = true -> ~ In n (tx_delete t) -> listed (tx_segs t) n = true) ->
  (forall si, tx_create t = Some si -> listed (tx_segs t) (name_of si) = true) ->
  r = ROk /\ st_segs w' = tx_segs t /\ e_fault e' = None /\ NoDup (names (e_disk e')) /\
  covx (st_segs w') dels (e_disk e') /\ (defer = false -> dels = []).
Proof.
  intros Hf ND Hw H Hw' Hc Hkeep Hnew.
  destruct (mutate_gen_files defer w t e r w' e' dels Hf ND Hw H Hw') as (E1 & E2 & E3 & E4 & E5 & E6).
  split; [exact E1|]. split; [exact E2|]. split; [exact E4|]. split; [exact E5|].
  split; [|intros ->; exact E3]. rewrite E2. intros n Hn. destruct (E6 n Hn) as ([K|(si & Hs & ->)] & K2).
  - destruct (mem_name n (tx_delete t)) eqn:Em.
    + apply mem_name_spec in Em. destruct defer; [right; rewrite E3; exact Em|exfalso; apply (K2 eq_refl); exact Em].
    + left. apply Hkeep; [apply Hc; exact K|]. intros Hin. apply mem_name_spec in Hin. congruence.
  - left. apply Hnew. exact Hs.
Qed.

Lemma mutate_cov w t e r w' e' segs :
  e_fault e = None -> NoDup (names (e_disk e)) -> st_failed w = false ->
  mutate w t e = (r, w', e') -> st_failed w' = false ->
  cov segs (e_disk e) ->
  (forall n, listed segs n = true -> ~ In n (tx_delete t) -> listed (tx_segs t) n = true) ->
  (forall si, tx_create t = Some si -> listed (tx_segs t) (name_of si) = true) ->
  cov (st_segs w') (e_disk e') /\ st_segs w' = tx_segs t /\ e_fault e' = None.
Proof.
  intros Hf ND Hw H Hw' Hc Hkeep Hnew. unfold mutate in H.
  destruct (mutate_gen false w t e) as [[[r1 w1] e1] d1] eqn:Em. inversion H; subst.
  destruct (mutate_gen_cov false w t e r w' e' d1 segs Hf ND Hw Em Hw' Hc Hkeep Hnew) as (_ & E2 & E3 & _ & E5 & E6).
  rewrite (E6 eq_refl) in E5. apply covx_nil in E5. auto.
Qed.

(* head truncation: no invariant needed *)
Lemma truncate_head_cov c w nm e r w' e' :
  e_fault e = None -> NoDup (names (e_disk e)) -> st_failed w = false ->
  truncate_head c w nm e = (r, w', e') -> st_failed w' = false ->
  cov (st_segs w) (e_disk e) -> cov (st_segs w') (e_disk e').
Proof.
  intros Hf ND Hw H Hw' Hc. unfold truncate_head in H.
  destruct (head_scan nm (tail_last (st_tail w)) (st_segs w) [] 0) as [[[rest del] ntr] head] eqn:Ehs.
  destruct (head_scan_parts _ _ _ _ _ _ _ _ _ Ehs) as (D & E1 & E2 & E3 & _). cbn [app] in E2.
  destruct rest as [|h R]; subst head.
  - unfold create_next in H. cbv beta iota zeta in H. change (tail_info []) with (@None seginfo) in H. cbv beta iota in H.
    match type of H with mutate _ _ ?e0 = _ =>
      eapply (mutate_cov _ _ e0 _ _ _ (st_segs w)) in H; [apply H|exact Hf|exact ND|exact Hw|exact Hw'|exact Hc| |] end.
    + cbn [tx_segs tx_delete]. intros n Hl Hd. exfalso. apply Hd. rewrite E2. apply listed_names.
      rewrite E1, app_nil_r in Hl. exact Hl.
    + cbn [tx_segs tx_create seg_set]. intros si Hs. inversion Hs; subst. rewrite listed_cons, fname_eqb_refl. reflexivity.
  - match type of H with mutate _ _ ?e0 = _ =>
      eapply (mutate_cov _ _ e0 _ _ _ (st_segs w)) in H; [apply H|exact Hf|exact ND|exact Hw|exact Hw'|exact Hc| |] end.
    + cbn [tx_segs tx_delete]. intros n Hl Hd. rewrite seg_set_head by reflexivity.
      rewrite E1, listed_app in Hl. apply orb_true_iff in Hl. destruct Hl as [Hl|Hl].
      * exfalso. apply Hd. rewrite E2. apply listed_names. exact Hl.
      * rewrite listed_cons in *. exact Hl.
    + cbn [tx_create]. discriminate.
Qed.

(* appends and the force-seal do not change the set of names *)
Lemma seg_append_names tw ls e r tw' e' :
  e_fault e = None -> seg_append tw ls e = (r, tw', e') ->
  names (e_disk e') = names (e_disk e) /\ e_fault e' = None.
Proof.
  intros Hf H. unfold seg_append in H. destruct ls as [|l0 ls']; [inversion H; subst; auto|].
  destruct (0 <? ws_index_start tw); [inversion H; subst; auto|].
  destruct (existsb _ (l0 :: ls')); [inversion H; subst; auto|].
  destruct (negb (l_index l0 =? ws_base tw + ws_n tw)); [inversion H; subst; auto|].
  cbv zeta in H. rewrite (io_ok _ e Hf) in H. cbn [negb] in H.
  match type of H with context [io (ASync ?n) ?e1] => rewrite (io_ok (ASync n) e1 eq_refl) in H end.
  cbn [negb] in H. inversion H; subst. cbn [io_env e_disk e_fault]. rewrite names_sync, names_write. auto.
Qed.

Lemma seg_force_seal_names tw e r tw' e' :
  e_fault e = None -> seg_force_seal tw e = (r, tw', e') ->
  names (e_disk e') = names (e_disk e) /\ e_fault e' = None.
Proof.
  intros Hf H. unfold seg_force_seal in H.
  destruct (0 <? ws_index_start tw); [inversion H; subst; auto|].
  destruct (ws_n tw =? 0); [inversion H; subst; auto|].
  cbv zeta in H. rewrite (io_ok _ e Hf) in H. cbn [negb] in H.
  match type of H with context [io (ASync ?n) ?e1] => rewrite (io_ok (ASync n) e1 eq_refl) in H end.
  cbn [negb] in H. inversion H; subst. cbn [io_env e_disk e_fault]. rewrite names_sync, names_write. auto.
Qed.

Lemma store_go_names last ls w e r w' e' :
  e_fault e = None -> store_go last ls w e = (r, w', e') ->
  st_segs w' = st_segs w /\ st_failed w' = st_failed w /\
  names (e_disk e') = names (e_disk e) /\ e_fault e' = None.
Proof.
  intros Hf H. unfold store_go in H. destruct (check_logs last ls) as [res nbytes].
  destruct res; try (injection H as <- <- <-; auto; fail).
  destruct (st_tail w) as [tw|]; [|inversion H; subst; auto].
  destruct (seg_append tw ls e) as [[r1 tw'] e1] eqn:Ea.
  destruct (seg_append_names _ _ _ _ _ _ Hf Ea) as (N1 & F1).
  destruct r1; injection H as <- <- <-; auto.
Qed.

Definition tt_finish (c : cfg) (w : wal) (del : list fname) (t' : seginfo) (ntr' : N) (rest : list seginfo)
  (tw : option wseg) (e : env) : result * wal * env :=
  let segs1 := seg_set t' rest in
  let '(nid, segs2, si) := create_next c (st_next_id w) segs1 0 in
  let e0 := add_m e (fun m => {| m_bytes_written := m_bytes_written m; m_entries_written := m_entries_written m;
                                 m_appends := m_appends m; m_bytes_read := m_bytes_read m;
                                 m_entries_read := m_entries_read m; m_rotations := m_rotations m;
                                 m_head_trunc := m_head_trunc m; m_tail_trunc := (m_tail_trunc m + ntr') mod two64;
                                 m_stable_gets := m_stable_gets m; m_stable_sets := m_stable_sets m |}) in
  mutate {| st_next_id := st_next_id w; st_segs := st_segs w; st_tail := tw; st_rotate := st_rotate w;
            st_failed := st_failed w; st_closed := st_closed w |}
         {| tx_next_id := nid; tx_segs := segs2; tx_delete := del; tx_create := Some si; tx_tail := None |} e0.

Lemma truncate_tail_unfold c w new_max e :
  truncate_tail c w new_max e =
  let lastidx := last_index (st_segs w) (st_tail w) in
  let '(rrest, del, ntr) := tail_scan new_max lastidx (rev (st_segs w)) [] 0 in
  match rrest with
  | [] =>
      let '(nid, segs2, si) := create_next c (st_next_id w) [] 0 in
      mutate w {| tx_next_id := nid; tx_segs := segs2; tx_delete := del; tx_create := Some si; tx_tail := None |} e
  | t :: _ =>
      let rest := rev rrest in
      if si_sealed t then
        let t' := {| si_id := si_id t; si_base := si_base t; si_min := si_min t; si_max := new_max;
                     si_codec := si_codec t; si_index_start := si_index_start t; si_sealed := true;
                     si_size_limit := si_size_limit t |} in
        tt_finish c w del t' ((ntr + sub64 (si_max t) new_max) mod two64) rest (st_tail w) e
      else
        match st_tail w with
        | None => (RErrOther, w, e)
        | Some tw =>
            let '(r, tw', e1) := seg_force_seal tw e in
            match r with
            | ROk =>
                let t' := {| si_id := si_id t; si_base := si_base t; si_min := si_min t; si_max := new_max;
                             si_codec := si_codec t; si_index_start := ws_index_start tw'; si_sealed := true;
                             si_size_limit := si_size_limit t |} in
                tt_finish c w del t' ((ntr + sub64 lastidx new_max) mod two64) rest (Some tw') e1
            | _ => (r, {| st_next_id := st_next_id w; st_segs := st_segs w; st_tail := Some tw';
                          st_rotate := st_rotate w; st_failed := st_failed w; st_closed := st_closed w |}, e1)
            end
        end
  end.
Proof. reflexivity. Qed.

Lemma tt_finish_cov c w del t' ntr' X t0 tw e r w' e' segs nm :
  e_fault e = None -> NoDup (names (e_disk e)) -> st_failed w = false ->
  tt_finish c w del t' ntr' (X ++ [t0]) tw e = (r, w', e') -> st_failed w' = false ->
  cov segs (e_disk e) ->
  (forall n, listed segs n = true -> ~ In n del -> listed (X ++ [t0]) n = true) ->
  Forall (fun s => si_base s < si_base t0) X -> name_of t' = name_of t0 -> si_max t' = nm ->
  si_base t0 <= nm -> nm + 1 < two64 ->
  cov (st_segs w') (e_disk e').
Proof.
  intros Hf ND Hw H Hw' Hc Hkeep HX Hname Hmax Hb Hnm. unfold tt_finish in H. cbv zeta in H.
  assert (Hbase : si_base t' = si_base t0) by (apply (f_equal fst) in Hname; exact Hname).
  rewrite (seg_set_last t' X t0 HX Hbase) in H.
  unfold create_next in H. rewrite tail_info_app, Hmax in H. cbv beta iota zeta in H.
  rewrite (N.mod_small (nm + 1) two64) in H by exact Hnm.
  match type of H with mutate ?w0 _ ?e0 = _ =>
    eapply (mutate_cov w0 _ e0 _ _ _ segs) in H; [apply H|exact Hf|exact ND|exact Hw|exact Hw'|exact Hc| |] end.
  - cbn [tx_segs tx_delete]. intros n Hl Hd. specialize (Hkeep n Hl Hd).
    assert (Hl' : listed (X ++ [t']) n = true).
    { rewrite listed_app, listed_single in *. rewrite Hname. exact Hkeep. }
    apply seg_set_listed; [exact Hl'|]. cbn [new_segment si_base]. intros Hfst. exfalso.
    apply listed_spec in Hl'. destruct Hl' as (x & Hin & <-). cbn [name_of fst] in Hfst.
    apply in_app_or in Hin. destruct Hin as [Hin|[<-|[]]]; [|lia].
    rewrite Forall_forall in HX. specialize (HX _ Hin). cbn beta in HX. lia.
  - cbn [tx_segs tx_create]. intros si Hs. inversion Hs; subst. apply seg_set_listed_self.
Qed.

Lemma truncate_tail_cov c w nm e r w' e' :
  e_fault e = None -> NoDup (names (e_disk e)) -> st_failed w = false ->
  StronglySorted lt_base (st_segs w) -> nm + 1 < two64 ->
  truncate_tail c w nm e = (r, w', e') -> st_failed w' = false ->
  cov (st_segs w) (e_disk e) -> cov (st_segs w') (e_disk e').
Proof.
  intros Hf ND Hw Hsorted Hnm H Hw' Hc. rewrite truncate_tail_unfold in H. cbv zeta in H.
  destruct (tail_scan nm (last_index (st_segs w) (st_tail w)) (rev (st_segs w)) [] 0) as [[rrest del] ntr] eqn:Ets.
  destruct (tail_scan_parts _ _ _ _ _ _ _ _ Ets) as (Xd & E1 & E2 & E3 & E4). cbn [app] in E2.
  assert (Esegs : st_segs w = rev rrest ++ rev Xd).
  { rewrite <- rev_app_distr, <- E1, rev_involutive. reflexivity. }
  assert (Hkeep : forall n, listed (st_segs w) n = true -> ~ In n del -> listed (rev rrest) n = true).
  { intros n Hl Hd. rewrite Esegs, listed_app in Hl. apply orb_true_iff in Hl. destruct Hl as [Hl|Hl]; [exact Hl|].
    exfalso. apply Hd. rewrite E2. apply listed_names in Hl. rewrite map_rev in Hl. apply in_rev in Hl. exact Hl. }
  destruct rrest as [|t0 rr].
  - unfold create_next in H. change (tail_info []) with (@None seginfo) in H. cbv beta iota zeta in H.
    eapply (mutate_cov w _ e _ _ _ (st_segs w)) in H; [apply H|exact Hf|exact ND|exact Hw|exact Hw'|exact Hc| |].
    + cbn [tx_segs tx_delete]. intros n Hl Hd. specialize (Hkeep n Hl Hd). discriminate.
    + cbn [tx_segs tx_create seg_set]. intros si Hs. inversion Hs; subst. rewrite listed_cons, fname_eqb_refl. reflexivity.
  - cbn [rev] in *.
    assert (HX : Forall (fun s => si_base s < si_base t0) (rev rr)).
    { rewrite Forall_forall. intros z Hz. rewrite Esegs, <- app_assoc in Hsorted.
      apply (sorted_app_lt (rev rr) ([t0] ++ rev Xd) z t0 Hsorted Hz). left. reflexivity. }
    destruct (si_sealed t0).
    + eapply tt_finish_cov in H; try eassumption; reflexivity.
    + destruct (st_tail w) as [tw|]; [|inversion H; subst; exact Hc].
      destruct (seg_force_seal tw e) as [[r1 tw'] e1] eqn:Efs.
      destruct (seg_force_seal_names _ _ _ _ _ Hf Efs) as (N1 & F1).
      assert (ND1 : NoDup (names (e_disk e1))) by (rewrite N1; exact ND).
      assert (Hc1 : cov (st_segs w) (e_disk e1)) by (eapply cov_names; eauto).
      destruct r1; try (injection H as <- <- <-; exact Hc1).
      eapply tt_finish_cov in H; try eassumption; reflexivity.
Qed.

Lemma delete_range_cov c w mn mx e r w' e' :
  e_fault e = None -> NoDup (names (e_disk e)) -> st_failed w = false ->
  StronglySorted lt_base (st_segs w) -> mx + 1 < two64 ->
  delete_range c w mn mx e = (r, w', e') -> st_failed w' = false ->
  cov (st_segs w) (e_disk e) -> cov (st_segs w') (e_disk e').
Proof.
  intros Hf ND Hw Hs Hmx H Hw' Hc. unfold delete_range in H.
  destruct (st_closed w); [inversion H; subst; exact Hc|].
  destruct (mx <? mn) eqn:Emm; [inversion H; subst; exact Hc|].
  rewrite Hw in H.
  destruct ((mx <? first_index (st_segs w) (st_tail w)) || (last_index (st_segs w) (st_tail w) <? mn));
    [inversion H; subst; exact Hc|].
  destruct (mn <=? first_index (st_segs w) (st_tail w)).
  - apply (truncate_head_cov c w _ e r w' e' Hf ND Hw H Hw' Hc).
  - destruct (last_index (st_segs w) (st_tail w) <=? mx); [|inversion H; subst; exact Hc].
    apply (truncate_tail_cov c w (mn - 1) e r w' e' Hf ND Hw Hs ltac:(lia) H Hw' Hc).
Qed.

Lemma store_go_flag last ls w e r w' e' : store_go last ls w e = (r, w', e') -> st_failed w' = st_failed w.
Proof.
  intros H. unfold store_go in H. destruct (check_logs last ls) as [res nbytes].
  destruct res; try (injection H as <- <- <-; reflexivity).
  destruct (st_tail w) as [tw|]; [|inversion H; subst; reflexivity].
  destruct (seg_append tw ls e) as [[r1 tw'] e1]. destruct r1; injection H as <- <- <-; reflexivity.
Qed.

(* StoreLogs: the reset of the empty first segment defers its deletion *)
Lemma reset_first_cov c w nb e r w1 e1 dels :
  e_fault e = None -> NoDup (names (e_disk e)) -> st_failed w = false ->
  (last_index (st_segs w) (st_tail w) = 0 -> exists t, st_segs w = [t]) ->
  reset_first c w nb e = (r, w1, e1, dels) -> st_failed w1 = false ->
  cov (st_segs w) (e_disk e) ->
  e_fault e1 = None /\ NoDup (names (e_disk e1)) /\ covx (st_segs w1) dels (e_disk e1) /\
  (r = ROk \/ dels = []).
Proof.
  intros Hf ND Hw Hone H Hw1 Hc. unfold reset_first in H.
  destruct (0 <? last_index (st_segs w) (st_tail w)) eqn:El.
  { inversion H; subst. split; [exact Hf|]. split; [exact ND|]. split; [apply covx_nil; exact Hc|right; reflexivity]. }
  destruct (Hone ltac:(lia)) as (t & Es). rewrite Es in H. change (tail_info [t]) with (Some t) in H. cbv beta iota in H.
  destruct (si_base t =? nb).
  - destruct (mutate_gen_cov true w _ e r w1 e1 dels (st_segs w) Hf ND Hw H Hw1 Hc) as (E1 & E2 & E3 & E4 & E5 & _).
    + cbn [tx_segs tx_delete]. intros n Hl _. rewrite <- Es. exact Hl.
    + cbn [tx_create]. discriminate.
    + split; [exact E3|]. split; [exact E4|]. split; [exact E5|left; exact E1].
  - cbn [seg_del] in H. rewrite N.eqb_refl in H. unfold create_next in H.
    change (tail_info []) with (@None seginfo) in H. cbv beta iota zeta in H.
    destruct (mutate_gen_cov true w _ e r w1 e1 dels (st_segs w) Hf ND Hw H Hw1 Hc) as (E1 & E2 & E3 & E4 & E5 & _).
    + cbn [tx_segs tx_delete]. intros n Hl Hd. exfalso. apply Hd. left.
      rewrite Es, listed_single in Hl. apply fname_eqb_eq in Hl. exact Hl.
    + cbn [tx_segs tx_create seg_set]. intros si Hs. inversion Hs; subst. rewrite listed_cons, fname_eqb_refl. reflexivity.
    + split; [exact E3|]. split; [exact E4|]. split; [exact E5|left; exact E1].
Qed.

Lemma store_logs_cov c w ls e r w' e' :
  e_fault e = None -> NoDup (names (e_disk e)) -> st_failed w = false ->
  (last_index (st_segs w) (st_tail w) = 0 -> exists t, st_segs w = [t]) ->
  store_logs c w ls e = (r, w', e') -> st_failed w' = false ->
  cov (st_segs w) (e_disk e) -> cov (st_segs w') (e_disk e').
Proof.
  intros Hf ND Hw Hone H Hw' Hc. rewrite store_logs_unfold in H.
  destruct (st_closed w); [inversion H; subst; exact Hc|].
  destruct ls as [|l0 ls']; [inversion H; subst; exact Hc|].
  rewrite Hw in H. cbv zeta in H.
  destruct (tail_info (st_segs w)) as [ti|]; [|inversion H; subst; exact Hc].
  destruct ((last_index (st_segs w) (st_tail w) =? 0) && negb (l_index l0 =? si_base ti)).
  - destruct (reset_first c w (l_index l0) e) as [[[r1 w1] e1] dels] eqn:Er.
    assert (Hgo : forall r2 w2 e2, store_go (last_index (st_segs w) (st_tail w)) (l0 :: ls') w1 e1 = (r2, w2, e2) ->
              st_failed w2 = false -> r1 = ROk -> cov (st_segs w2) (e_disk (delete_files dels e2))).
    { intros r2 w2 e2 Hg Hw2 _.
      assert (Hw1 : st_failed w1 = false) by (rewrite <- (store_go_flag _ _ _ _ _ _ _ Hg); exact Hw2).
      destruct (reset_first_cov c w (l_index l0) e r1 w1 e1 dels Hf ND Hw Hone Er Hw1 Hc) as (F1 & ND1 & C1 & _).
      destruct (store_go_names _ _ _ _ _ _ _ F1 Hg) as (S2 & _ & N2 & F2).
      rewrite S2. apply covx_delete; [exact F2|rewrite N2; exact ND1|]. eapply covx_names; eauto. }
    destruct r1; try (inversion H; subst;
      destruct (reset_first_cov c w (l_index l0) e _ w' e' dels Hf ND Hw Hone Er Hw' Hc) as (_ & _ & C1 & [K | ->]);
      [discriminate|apply covx_nil; exact C1]; fail).
    destruct (store_go _ _ w1 e1) as [[r2 w2] e2] eqn:Eg. inversion H; subst. eapply Hgo; eauto.
  - destruct (store_go_names _ _ _ _ _ _ _ Hf H) as (S2 & _ & N2 & _). rewrite S2. eapply cov_names; eauto.
Qed.

Lemma rotate_cov c nb w e w' e' :
  LInv c nb w (e_disk e) -> e_fault e = None ->
  rotate c w e = (w', e') -> st_failed w' = false ->
  cov (st_segs w) (e_disk e) -> cov (st_segs w') (e_disk e').
Proof.
  intros HL Hf H Hw' Hc. unfold rotate in H.
  destruct (st_rotate w) as [istart|] eqn:Hrot; [|inversion H; subst; exact Hc].
  destruct (LInv_view _ _ _ _ HL) as (S & t & f & tw & V).
  pose proof (lv_rot _ _ _ _ _ _ _ _ V) as Hr. rewrite Hrot in Hr.
  destruct (0 <? df_seal f) eqn:Es; [|discriminate].
  assert (Hse : df_seal f <> 0) by lia.
  pose proof (lv_min_cond V) as Hmc.
  set (mx := tl_of (si_base t) (df_ents f)).
  destruct (lv_seal_nonempty V Hse) as (Hn0 & _).
  assert (Hmin : si_min t <= mx). { unfold mx, tl_of in *. destruct (llen (df_ents f) =? 0) eqn:Z; lia. }
  destruct (seal_tail_facts V mx istart Hse Hmin ltac:(unfold mx; lia)) as (_ & _ & _ & F4 & _ & _ & F7).
  rewrite (lv_closed _ _ _ _ _ _ _ _ V), (lv_segs _ _ _ _ _ _ _ _ V), tail_info_app in H.
  rewrite (lv_tail_last V) in H. fold mx in H. cbv zeta in H. fold (seal_info t mx istart) in H.
  rewrite (seg_set_last (seal_info t mx istart) S t (lv_bases_lt V) eq_refl) in H.
  unfold create_next in H. rewrite tail_info_app in H. change (si_max (seal_info t mx istart)) with mx in H.
  rewrite (N.mod_small (mx + 1) two64) in H by exact F7. cbv beta iota zeta in H.
  match type of H with context [mutate ?w0 ?tx ?e0] => destruct (mutate w0 tx e0) as [[r1 w1] e1] eqn:Em end.
  inversion H; subst w1 e1.
  eapply (mutate_cov _ _ _ _ _ _ (st_segs w)) in Em; [apply Em|exact Hf| |apply (lv_failed _ _ _ _ _ _ _ _ V)|exact Hw'|exact Hc| |].
  - eapply DIs_NoDup. apply (lv_dis _ _ _ _ _ _ _ _ V).
  - cbn [tx_segs tx_delete]. intros n Hl _. rewrite (lv_segs _ _ _ _ _ _ _ _ V) in Hl.
    assert (Hl' : listed (S ++ [seal_info t mx istart]) n = true).
    { rewrite listed_app, listed_single in *. exact Hl. }
    apply seg_set_listed; [exact Hl'|]. cbn [new_segment si_base]. intros Hfst. exfalso.
    apply listed_spec in Hl'. destruct Hl' as (x & Hin & <-). cbn [name_of fst] in Hfst.
    rewrite Forall_forall in F4. specialize (F4 _ Hin). cbn beta in F4. lia.
  - cbn [tx_segs tx_create]. intros si Hs. inversion Hs; subst. apply seg_set_listed_self.
Qed.

Lemma settle_cov c nb s :
  LInv c nb (ss_wal s) (e_disk (ss_env s)) -> e_fault (ss_env s) = None ->
  st_failed (ss_wal (settle c s)) = false ->
  cov (st_segs (ss_wal s)) (e_disk (ss_env s)) ->
  cov (st_segs (ss_wal (settle c s))) (e_disk (ss_env (settle c s))).
Proof.
  intros HL Hf Hw' Hc. unfold settle in *. destruct (st_rotate (ss_wal s)); [|exact Hc].
  destruct (rotate c (ss_wal s) (ss_env s)) as [w' e'] eqn:Er. cbn [ss_wal ss_env] in *.
  eapply rotate_cov; eauto.
Qed.

Lemma lv_sorted {c nb w d S t f tw} (V : lview c nb w d S t f tw) : StronglySorted lt_base (st_segs w).
Proof.
  rewrite (lv_segs _ _ _ _ _ _ _ _ V). apply chain_sorted; [apply (lv_linked _ _ _ _ _ _ _ _ V)|apply (lv_Ssst V)].
Qed.

Lemma lv_last0_single {c nb w d S t f tw} (V : lview c nb w d S t f tw) :
  last_index (st_segs w) (st_tail w) = 0 -> exists t0, st_segs w = [t0].
Proof.
  intros H. rewrite (lv_segs _ _ _ _ _ _ _ _ V) in *. destruct S as [|s S']; [exists t; reflexivity|]. exfalso.
  unfold last_index in H. destruct (0 <? tail_last (st_tail w)) eqn:E; [lia|].
  rewrite rev_app_distr in H. cbn [rev app] in H.
  pose proof (lv_bases_lt V) as Hlt. inversion Hlt as [|? ? Hs _]; subst.
  pose proof (lv_Swf V) as Hwf. inversion Hwf as [|? ? (Hb1 & _) _]; subst.
  destruct (rev S' ++ [s]) as [|y ys] eqn:Ey; [destruct (rev S'); discriminate|].
  destruct (si_base t =? 0) eqn:Eb; lia.
Qed.

Lemma get_log_disk w i e : e_disk (snd (get_log w i e)) = e_disk e.
Proof.
  unfold get_log. destruct (st_closed w); [reflexivity|]. cbv zeta.
  repeat match goal with |- context [match ?x with _ => _ end] => destruct x end; reflexivity.
Qed.

Lemma set_stable_names w k v n e :
  e_fault e = None -> names (e_disk (snd (set_stable w k v n e))) = names (e_disk e).
Proof.
  intros Hf. unfold set_stable. destruct (st_closed w); [reflexivity|].
  destruct (negb (key_ok k)); [reflexivity|].
  rewrite (io_ok _ (inc_stable e true) Hf). reflexivity.
Qed.

Lemma step_dir_exact c nb s o r s' :
  cfg_ok c -> sop_ok o -> nb + 2 < two64 ->
  LInv c nb (ss_wal s) (e_disk (ss_env s)) -> e_fault (ss_env s) = None -> sp_good (sp_of (e_disk (ss_env s))) ->
  step_model c s o = (r, s') ->
  dir_exact (e_disk (ss_env s)) = true -> dir_exact (e_disk (ss_env s')) = true.
Proof.
  intros Hc Ho Hnb HL Hf Hg Hst Hde.
  destruct (call_ok_all c o nb s _ Hc Ho Hnb HL Hf eq_refl Hg) as (r0 & s0 & Hst0 & _ & HL' & _).
  rewrite Hst in Hst0. inversion Hst0; subst r0 s0. clear Hst0.
  pose proof (LInv_exact_cov _ _ _ _ HL Hde) as Hcov.
  (* taken from the crash proof: LInv after the call (every listed segment has its file) and,
     inside it, that the call did not fail the WAL.  The name-set lemmas below are stated for
     that path only: mutate_gen_files dismisses a failed commit or create by st_failed w' = false. *)
  pose proof HL' as (_ & Hfail' & _).
  destruct o; cbn [step_model] in Hst.
  - (* StoreLogs *)
    destruct (settle_ok c nb s _ Hc HL Hf eq_refl ltac:(lia)) as (HL1 & _ & _ & He1).
    pose proof HL1 as (_ & Hfail1 & HD1 & _).
    pose proof (settle_cov c nb s HL Hf Hfail1 Hcov) as Hcov1.
    set (s1 := settle c s) in *.
    destruct (store_logs c (ss_wal s1) ls (ss_env s1)) as [[r1 w1] e1] eqn:Es. inversion Hst; subst r s'.
    cbn [ss_wal ss_env] in *. apply (LInv_cov_exact _ _ _ _ HL').
    destruct (LInv_view _ _ _ _ HL1) as (S & t & f & tw & V).
    eapply (store_logs_cov c (ss_wal s1) ls (ss_env s1)); eauto.
    + apply (ext_fault _ _ _ He1).
    + eapply DIs_NoDup; eauto.
    + apply (lv_last0_single V).
  - (* DeleteRange *)
    destruct (settle_ok c nb s _ Hc HL Hf eq_refl ltac:(lia)) as (HL1 & _ & _ & He1).
    pose proof HL1 as (_ & Hfail1 & HD1 & _).
    pose proof (settle_cov c nb s HL Hf Hfail1 Hcov) as Hcov1.
    set (s1 := settle c s) in *.
    destruct (delete_range c (ss_wal s1) mn mx (ss_env s1)) as [[r1 w1] e1] eqn:Es. inversion Hst; subst r s'.
    cbn [ss_wal ss_env] in *. apply (LInv_cov_exact _ _ _ _ HL').
    destruct (LInv_view _ _ _ _ HL1) as (S & t & f & tw & V).
    eapply (delete_range_cov c (ss_wal s1) mn mx (ss_env s1)); eauto.
    + apply (ext_fault _ _ _ He1).
    + eapply DIs_NoDup; eauto.
    + apply (lv_sorted V).
  - (* GetLog *)
    pose proof (get_log_disk (ss_wal s) i (ss_env s)) as Hd.
    destruct (get_log (ss_wal s) i (ss_env s)) as [r1 e1]. inversion Hst; subst r s'. cbn [ss_env snd] in *.
    rewrite Hd. exact Hde.
  - inversion Hst; subst. exact Hde.
  - inversion Hst; subst. exact Hde.
  - (* SetStable *)
    pose proof (set_stable_names (ss_wal s) k v is_nil (ss_env s) Hf) as Hn.
    destruct (set_stable (ss_wal s) k v is_nil (ss_env s)) as [r1 e1]. inversion Hst; subst r s'. cbn [ss_env ss_wal snd] in *.
    apply (LInv_cov_exact _ _ _ _ HL'). eapply cov_names; eauto.
  - (* GetStable *)
    unfold get_stable in Hst. destruct (st_closed (ss_wal s)); inversion Hst; subst; exact Hde.
  - (* Close; Open *)
    pose proof HL as (_ & _ & HD & HN & _).
    destruct (open_wal_ok c nb (ss_env s) Hc Hf HD HN ltac:(lia)) as (w & e' & Hop & _ & _ & Hde').
    rewrite Hop in Hst. inversion Hst; subst. exact Hde'.
Qed.

Theorem live_dir_exact : live_dir_exact_stmt.
Proof.
  intros c steps. induction steps as [|st pre IH] using rev_ind; intros s Hok Hmode.
  { cbn in Hmode. discriminate. }
  assert (Hok0 : hist_ok c pre) by (eapply hist_ok_prefix; exact Hok).
  pose proof (crash_refinement c _ (proj1 Hok) (proj1 (proj2 Hok)) (proj2 (proj2 Hok))) as Hall.
  rewrite hist_run_app in Hmode, Hall. unfold hist_run at 1 in Hmode. unfold hist_run at 1 in Hall. cbn [fold_left] in Hmode, Hall.
  pose proof (hist_invariant c pre Hok0) as (_ & Hga & _ & HM).
  set (h0 := hist_run c hist_init pre) in *.
  unfold hstep_run in Hmode, Hall. destruct (hs_mode h0) as [s0|d] eqn:Em.
  - destruct HM as (_ & HL & Hf & Hsp & _). specialize (IH s0 Hok0 eq_refl).
    destruct st as [o|o j cc| |j cc].
    + destruct (step_model c s0 o) as [r s1] eqn:Est. destruct (step_spec (hs_acked h0) o) as [r' sp'].
      cbn [hs_mode] in Hmode. inversion Hmode; subst s1.
      destruct Hok as (Hc & Hwf & Hshort). apply Forall_app in Hwf. destruct Hwf as (_ & Hwo).
      inversion Hwo as [|? ? Ho _]; subst. cbn [hstep_wf] in Ho.
      assert (Hb : 2 * N.of_nat (length pre) + 2 < two64).
      { unfold short_enough in Hshort. rewrite app_length in Hshort. cbn [length] in Hshort. unfold two64. lia. }
      eapply (step_dir_exact c _ s0 o r s Hc Ho Hb HL Hf); eauto. rewrite Hsp. exact Hga.
    + destruct (step_model c s0 o) as [r s1]. destruct (step_spec (hs_acked h0) o) as [r' sp'].
      destruct (Nat.leb _ j); cbn [hs_mode] in Hmode; discriminate.
    + rewrite Em in Hmode. inversion Hmode; subst. exact IH.
    + rewrite Em in Hmode. inversion Hmode; subst. exact IH.
  - destruct st as [o|o j cc| |j cc].
    + rewrite Em in Hmode. discriminate.
    + rewrite Em in Hmode. discriminate.
    + destruct (open_wal c (env_of d)) as [[w|x] e]; cbn [hs_mode hs_ok] in Hmode, Hall; [|discriminate].
      inversion Hmode; subst s. cbn [ss_env]. apply andb_true_iff in Hall. apply Hall.
    + destruct (open_wal c (env_of d)) as [ores e]. cbn [hs_mode] in Hmode. discriminate.
Qed.

(* DeleteRange: the segments wholly inside the range lose their files *)

Lemma mutate_segs w t e r w' e' :
  e_fault e = None -> NoDup (names (e_disk e)) -> st_failed w = false ->
  mutate w t e = (r, w', e') -> st_failed w' = false -> r = ROk /\ st_segs w' = tx_segs t.
Proof.
  intros Hf ND Hw H Hw'. unfold mutate in H.
  destruct (mutate_gen false w t e) as [[[r1 w1] e1] d1] eqn:Em. inversion H; subst.
  destruct (mutate_gen_files false w t e r w' e' d1 Hf ND Hw Em Hw') as (E1 & E2 & _). auto.
Qed.

Lemma seg_set_listed_inv si l n : listed (seg_set si l) n = true -> n = name_of si \/ listed l n = true.
Proof.
  induction l as [|x r IH]; cbn [seg_set]; intros H.
  - rewrite listed_single in H. apply fname_eqb_eq in H. left. symmetry. exact H.
  - destruct (si_base si <? si_base x).
    + rewrite listed_cons in H. apply orb_true_iff in H. destruct H as [H|H]; [left; apply fname_eqb_eq in H; symmetry; exact H|right; exact H].
    + destruct (si_base si =? si_base x).
      * rewrite listed_cons in H. apply orb_true_iff in H. destruct H as [H|H]; [left; apply fname_eqb_eq in H; symmetry; exact H|].
        right. rewrite listed_cons, H. apply orb_true_r.
      * rewrite listed_cons in H. apply orb_true_iff in H. destruct H as [H|H]; [right; rewrite listed_cons, H; reflexivity|].
        destruct (IH H) as [K|K]; [left; exact K|right; rewrite listed_cons, K; apply orb_true_r].
Qed.

Lemma truncate_head_shape c w nm e r w' e' :
  e_fault e = None -> NoDup (names (e_disk e)) -> st_failed w = false ->
  truncate_head c w nm e = (r, w', e') -> st_failed w' = false ->
  exists D rest, st_segs w = D ++ rest /\ Forall (fun s => max_idx (tail_last (st_tail w)) s < nm) D /\
    match rest with
    | [] => exists si, st_segs w' = [si] /\ si_id si = st_next_id w
    | h :: R => nm <= max_idx (tail_last (st_tail w)) h /\ exists h', name_of h' = name_of h /\ st_segs w' = h' :: R
    end.
Proof.
  intros Hf ND Hw H Hw'. unfold truncate_head in H.
  destruct (head_scan nm (tail_last (st_tail w)) (st_segs w) [] 0) as [[[rest del] ntr] head] eqn:Ehs.
  destruct (head_scan_parts _ _ _ _ _ _ _ _ _ Ehs) as (D & E1 & E2 & E3 & E4 & E5).
  exists D, rest. split; [exact E1|]. split; [exact E4|].
  destruct rest as [|h R]; subst head.
  - unfold create_next in H. cbv beta iota zeta in H. change (tail_info []) with (@None seginfo) in H. cbv beta iota in H.
    match type of H with mutate _ _ ?e0 = _ => destruct (mutate_segs _ _ e0 _ _ _ Hf ND Hw H Hw') as (_ & Es) end.
    cbn [tx_segs seg_set] in Es. eexists. split; [exact Es|reflexivity].
  - split; [exact E5|].
    match type of H with mutate _ _ ?e0 = _ => destruct (mutate_segs _ _ e0 _ _ _ Hf ND Hw H Hw') as (_ & Es) end.
    cbn [tx_segs] in Es. rewrite seg_set_head in Es by reflexivity. eexists. split; [|exact Es]. reflexivity.
Qed.

Lemma tt_finish_shape c w del t' ntr' X t0 tw e r w' e' nm :
  e_fault e = None -> NoDup (names (e_disk e)) -> st_failed w = false ->
  tt_finish c w del t' ntr' (X ++ [t0]) tw e = (r, w', e') -> st_failed w' = false ->
  Forall (fun s => si_base s < si_base t0) X -> name_of t' = name_of t0 -> si_max t' = nm ->
  forall n, listed (st_segs w') n = true -> snd n = st_next_id w \/ listed (X ++ [t0]) n = true.
Proof.
  intros Hf ND Hw H Hw' HX Hname Hmax n Hn. unfold tt_finish in H. cbv zeta in H.
  assert (Hbase : si_base t' = si_base t0) by (apply (f_equal fst) in Hname; exact Hname).
  rewrite (seg_set_last t' X t0 HX Hbase) in H.
  unfold create_next in H. rewrite tail_info_app, Hmax in H. cbv beta iota zeta in H.
  match type of H with mutate ?w0 _ ?e0 = _ => destruct (mutate_segs w0 _ e0 _ _ _ Hf ND Hw H Hw') as (_ & Es) end.
  cbn [tx_segs] in Es. rewrite Es in Hn. apply seg_set_listed_inv in Hn. destruct Hn as [->|Hn]; [left; reflexivity|].
  right. rewrite listed_app, listed_single in *. rewrite <- Hname. exact Hn.
Qed.

Lemma truncate_tail_shape c w nm e w' e' :
  e_fault e = None -> NoDup (names (e_disk e)) -> st_failed w = false ->
  StronglySorted lt_base (st_segs w) ->
  truncate_tail c w nm e = (ROk, w', e') -> st_failed w' = false ->
  forall n, listed (st_segs w') n = true ->
    snd n = st_next_id w \/ exists y, In y (st_segs w) /\ name_of y = n /\ si_base y <= nm.
Proof.
  intros Hf ND Hw Hsorted H Hw' n Hn. rewrite truncate_tail_unfold in H. cbv zeta in H.
  destruct (tail_scan nm (last_index (st_segs w) (st_tail w)) (rev (st_segs w)) [] 0) as [[rrest del] ntr] eqn:Ets.
  destruct (tail_scan_parts _ _ _ _ _ _ _ _ Ets) as (Xd & E1 & E2 & E3 & E4).
  assert (Esegs : st_segs w = rev rrest ++ rev Xd).
  { rewrite <- rev_app_distr, <- E1, rev_involutive. reflexivity. }
  destruct rrest as [|t0 rr].
  - unfold create_next in H. change (tail_info []) with (@None seginfo) in H. cbv beta iota zeta in H.
    destruct (mutate_segs w _ e _ _ _ Hf ND Hw H Hw') as (_ & Es). cbn [tx_segs seg_set] in Es.
    rewrite Es, listed_single in Hn. apply fname_eqb_eq in Hn. subst n. left. reflexivity.
  - cbn [rev] in *.
    assert (HX : Forall (fun s => si_base s < si_base t0) (rev rr)).
    { rewrite Forall_forall. intros z Hz. rewrite Esegs, <- app_assoc in Hsorted.
      apply (sorted_app_lt (rev rr) ([t0] ++ rev Xd) z t0 Hsorted Hz). left. reflexivity. }
    assert (Hfin : snd n = st_next_id w \/ listed (rev rr ++ [t0]) n = true ->
                   snd n = st_next_id w \/ exists y, In y (st_segs w) /\ name_of y = n /\ si_base y <= nm).
    { intros [K|K]; [left; exact K|right]. apply listed_spec in K. destruct K as (y & Hy & Hyn).
      exists y. split; [rewrite Esegs; apply in_or_app; left; exact Hy|]. split; [exact Hyn|].
      apply in_app_or in Hy. destruct Hy as [Hy|[<-|[]]]; [|exact E4].
      rewrite Forall_forall in HX. specialize (HX _ Hy). cbn beta in HX. lia. }
    destruct (si_sealed t0).
    + apply Hfin. eapply tt_finish_shape in H; try eassumption; reflexivity.
    + destruct (st_tail w) as [tw|]; [|discriminate].
      destruct (seg_force_seal tw e) as [[r1 tw'] e1] eqn:Efs.
      destruct (seg_force_seal_names _ _ _ _ _ Hf Efs) as (N1 & F1).
      assert (ND1 : NoDup (names (e_disk e1))) by (rewrite N1; exact ND).
      destruct r1; try discriminate.
      apply Hfin. eapply tt_finish_shape in H; try eassumption; reflexivity.
Qed.

(* order of the index ranges along the segment list of a live state *)
Lemma chain_order S t A x B y C :
  S ++ [t] = A ++ x :: B ++ y :: C -> linked (S ++ [t]) -> Forall sst S ->
  si_max x < si_base y /\ si_min y = si_base y /\ In x S.
Proof.
  intros E Hl Hs.
  set (P := A ++ x :: B).
  assert (EP : S ++ [t] = P ++ y :: C) by (unfold P; rewrite <- app_assoc; exact E).
  destruct (exists_last (l := y :: C)) as (C' & z & EC); [discriminate|].
  assert (ES : S = P ++ C').
  { rewrite EC, app_assoc in EP. apply app_inj_tail in EP. apply EP. }
  assert (HsP : Forall sst P) by (rewrite ES in Hs; apply Forall_app in Hs; apply Hs).
  assert (HlP : linked (P ++ [y])).
  { rewrite EP in Hl. replace (P ++ y :: C) with ((P ++ [y]) ++ C) in Hl by (rewrite <- app_assoc; reflexivity).
    eapply linked_app_l; eauto. }
  split.
  - pose proof (linked_app_lt P y HlP HsP) as Hlt. rewrite Forall_forall in Hlt. apply Hlt.
    unfold P. apply in_or_app. right. left. reflexivity.
  - split.
    + destruct (exists_last (l := P)) as (P' & q & EQ); [unfold P; destruct A; discriminate|].
      rewrite EQ, <- app_assoc in HlP. cbn [app] in HlP. apply (linked_mid P' q y [] HlP).
    + rewrite ES. apply in_or_app. left. unfold P. apply in_or_app. right. left. reflexivity.
Qed.

Lemma lv_range {c nb w d S t f tw} (V : lview c nb w d S t f tw) x :
  In x (st_segs w) -> si_min x <= max_idx (tail_last (st_tail w)) x ->
  first_index (st_segs w) (st_tail w) <= si_min x /\
  max_idx (tail_last (st_tail w)) x <= last_index (st_segs w) (st_tail w).
Proof.
  intros Hin Hne. rewrite (lv_segs _ _ _ _ _ _ _ _ V) in *.
  pose proof (lv_twf V) as (_ & _ & Hb1 & _ & Hbm & _).
  pose proof (lv_tok _ _ _ _ _ _ _ _ V) as (Hu & _).
  pose proof (lv_linked _ _ _ _ _ _ _ _ V) as Hl. pose proof (lv_Ssst V) as Hs.
  pose proof (lv_sealed _ _ _ _ _ _ _ _ V) as Hso.
  set (T := tail_last (st_tail w)) in *.
  assert (Hfirst : first_index (S ++ [t]) (st_tail w) <= hd_min S t).
  { unfold first_index, hd_min. fold T. destruct S as [|s S']; cbn [app hd].
    - destruct (negb (si_sealed t) && (T =? 0)); lia.
    - destruct (negb (si_sealed s) && (T =? 0)); lia. }
  apply in_app_or in Hin. destruct Hin as [Hin|[<-|[]]].
  - (* a sealed segment *)
    assert (Hsx : si_sealed x = true) by (rewrite Forall_forall in Hso; apply (Hso x Hin)).
    unfold max_idx in *. rewrite Hsx in *.
    split; [pose proof (hd_min_le S t x Hs Hl Hin); lia|].
    pose proof (linked_app_lt S t Hl Hs) as Hlt. rewrite Forall_forall in Hlt. specialize (Hlt x Hin). cbn beta in Hlt.
    unfold last_index. fold T. destruct (0 <? T) eqn:ET.
    + unfold T in *. rewrite (lv_tail_last V) in *. unfold tl_of in *. destruct (llen (df_ents f) =? 0); lia.
    + rewrite rev_app_distr. cbn [rev app]. destruct (rev S) as [|y ys] eqn:Er.
      { exfalso. apply (f_equal (@rev _)) in Er. rewrite rev_involutive in Er. subst S. destruct Hin. }
      destruct (si_base t =? 0) eqn:Eb; lia.
  - (* the tail *)
    unfold max_idx in *. rewrite Hu in *. split.
    + destruct (list_eq_dec_nil S) as [->|HneS]; [unfold hd_min in Hfirst; cbn [hd] in Hfirst; lia|].
      destruct (lv_hd_min_lt V HneS). lia.
    + unfold last_index. fold T. destruct (0 <? T) eqn:ET; lia.
Qed.

Lemma delete_range_drops c nb w e S t f tw mn mx w' e' :
  lview c nb w (e_disk e) S t f tw -> e_fault e = None -> mx + 1 < two64 ->
  delete_range c w mn mx e = (ROk, w', e') -> st_failed w' = false ->
  forall x, In x (st_segs w) -> seg_inside mn mx (tail_last (st_tail w)) x = true ->
  listed (st_segs w') (name_of x) = false.
Proof.
  intros V Hf Hmx H Hw' x Hin Hins.
  unfold seg_inside in Hins. fold (max_idx (tail_last (st_tail w)) x) in Hins.
  apply andb_true_iff in Hins. destruct Hins as (Hins & I3). apply andb_true_iff in Hins. destruct Hins as (I1 & I2).
  destruct (lv_range V x Hin ltac:(lia)) as (R1 & R2).
  pose proof (lv_sorted V) as Hsorted.
  assert (ND : NoDup (names (e_disk e))) by (eapply DIs_NoDup; apply (lv_dis _ _ _ _ _ _ _ _ V)).
  pose proof (lv_failed _ _ _ _ _ _ _ _ V) as Hw.
  assert (Hwfx : si_base x <= si_min x /\ si_id x < st_next_id w).
  { pose proof (lv_wf _ _ _ _ _ _ _ _ V) as Hwf. rewrite Forall_forall in Hwf. rewrite (lv_segs _ _ _ _ _ _ _ _ V) in Hin.
    destruct (Hwf x Hin) as (_ & _ & _ & _ & A & B). auto. }
  destruct Hwfx as (Hbx & Hidx).
  unfold delete_range in H. rewrite (lv_closed _ _ _ _ _ _ _ _ V) in H.
  destruct (mx <? mn) eqn:Emm; [exfalso; lia|]. rewrite Hw in H.
  destruct ((mx <? first_index (st_segs w) (st_tail w)) || (last_index (st_segs w) (st_tail w) <? mn)) eqn:Eout; [exfalso; lia|].
  destruct (listed (st_segs w') (name_of x)) eqn:El; [exfalso|reflexivity].
  destruct (mn <=? first_index (st_segs w) (st_tail w)) eqn:Emn.
  - (* head truncation *)
    rewrite (N.mod_small (mx + 1) two64) in H by exact Hmx.
    destruct (truncate_head_shape c w (mx + 1) e _ _ _ Hf ND Hw H Hw') as (D & rest & E1 & E2 & E3).
    destruct rest as [|h R].
    + destruct E3 as (si & Es & Eid). rewrite Es, listed_single in El. apply fname_eqb_eq in El.
      apply (f_equal snd) in El. cbn in El. lia.
    + destruct E3 as (Hh & h' & Hn' & Es). rewrite Es, listed_cons, Hn', <- listed_cons in El.
      apply listed_spec in El. destruct El as (y & Hy & Hyn).
      assert (y = x).
      { apply (sorted_base_inj (st_segs w)); [exact Hsorted| |exact Hin|apply (f_equal fst) in Hyn; exact Hyn].
        rewrite E1. apply in_or_app. right. exact Hy. }
      subst y. destruct Hy as [<-|Hy]; [lia|].
      apply in_split in Hy. destruct Hy as (Ra & Rb & ER). subst R.
      rewrite (lv_segs _ _ _ _ _ _ _ _ V) in E1.
      destruct (chain_order S t D h Ra x Rb E1 (lv_linked _ _ _ _ _ _ _ _ V) (lv_Ssst V)) as (C1 & _ & C3).
      pose proof (lv_sealed _ _ _ _ _ _ _ _ V) as Hso. rewrite Forall_forall in Hso. destruct (Hso h C3) as (Hsh & _).
      unfold max_idx in Hh. rewrite Hsh in Hh. lia.
  - (* tail truncation *)
    destruct (last_index (st_segs w) (st_tail w) <=? mx); [|discriminate].
    destruct (truncate_tail_shape c w (mn - 1) e _ _ Hf ND Hw Hsorted H Hw' _ El) as [K|(y & Hy & Hyn & Hyb)].
    + cbn in K. lia.
    + assert (y = x).
      { apply (sorted_base_inj (st_segs w)); [exact Hsorted|exact Hy|exact Hin|apply (f_equal fst) in Hyn; exact Hyn]. }
      subst y. apply in_split in Hin. destruct Hin as (A & B & EA).
      destruct (list_eq_dec_nil A) as [->|HneA].
      * cbn [app] in EA. rewrite EA in Emn, R1. unfold first_index in Emn, R1.
        assert (ET : negb (si_sealed x) && (tail_last (st_tail w) =? 0) = false).
        { unfold max_idx in I3. destruct (si_sealed x); [reflexivity|]. cbn [negb andb]. lia. }
        rewrite ET in Emn, R1. lia.
      * destruct (exists_last HneA) as (A' & z & EZ). subst A. rewrite (lv_segs _ _ _ _ _ _ _ _ V) in EA.
        rewrite <- app_assoc in EA. cbn [app] in EA.
        destruct (chain_order S t A' z [] x B EA (lv_linked _ _ _ _ _ _ _ _ V) (lv_Ssst V)) as (_ & C2 & _). lia.
Qed.

Theorem delete_reclaims : delete_reclaims_stmt.
Proof.
  intros c steps s mn mx Hok Hmode Hret s0 s'.
  assert (Hok0 : hist_ok c steps) by (eapply hist_ok_prefix; exact Hok).
  pose proof (hist_invariant c steps Hok0) as (_ & Hga & _ & HM). rewrite Hmode in HM.
  destruct HM as (_ & HL & Hf & Hsp & _).
  destruct Hok as (Hc & Hwf & Hshort). pose proof Hwf as Hwf2. apply Forall_app in Hwf2. destruct Hwf2 as (_ & Hwo).
  inversion Hwo as [|? ? Ho _]; subst. cbn [hstep_wf sop_ok] in Ho.
  assert (Hb : 2 * N.of_nat (length steps) + 2 < two64).
  { unfold short_enough in Hshort. rewrite app_length in Hshort. cbn [length] in Hshort. unfold two64. lia. }
  set (nb := 2 * N.of_nat (length steps)) in *.
  rewrite <- Hsp in Hga.
  destruct (call_ok_all c (ODelete mn mx) nb s _ Hc Ho Hb HL Hf eq_refl Hga) as (r & s1 & Hst & _ & HL' & _).
  assert (Hde : dir_exact (e_disk (ss_env s')) = true).
  { apply (live_dir_exact c (steps ++ [HOp (ODelete mn mx)]) s' (conj Hc (conj Hwf Hshort))).
    rewrite hist_run_app. unfold hist_run at 1. cbn [fold_left].
    destruct (hstep_run_op c (hist_run c hist_init steps) s (ODelete mn mx) Hmode) as (_ & _ & Hm'). exact Hm'. }
  unfold s' in *. rewrite Hst in *. cbn [fst snd] in *. subst r.
  pose proof (LInv_exact_cov _ _ _ _ HL' Hde) as Hcov.
  assert (H2 : forall n f, lookup n (dk_files (e_disk (ss_env s1))) = Some f -> listed (st_segs (ss_wal s1)) n = true).
  { intros n f Hl. apply Hcov. apply in_names_lookup. congruence. }
  split; [|split; [exact H2|intros x Hx; eapply LInv_listed_files; eauto]].
  intros x Hx Hins.
  destruct (settle_ok c nb s _ Hc HL Hf eq_refl ltac:(lia)) as (HL1 & _ & _ & He1). fold s0 in HL1, He1.
  destruct (LInv_view _ _ _ _ HL1) as (S & t & f & tw & V).
  cbn [step_model] in Hst. fold s0 in Hst.
  destruct (delete_range c (ss_wal s0) mn mx (ss_env s0)) as [[r1 w1] e1] eqn:Ed. inversion Hst; subst r1 s1.
  cbn [ss_wal ss_env] in *. pose proof HL' as (_ & Hfail' & _).
  pose proof (delete_range_drops c _ _ _ S t f tw mn mx w1 e1 V (ext_fault _ _ _ He1) Ho Ed Hfail' x Hx Hins) as Hdrop.
  destruct (lookup (name_of x) (dk_files (e_disk e1))) as [g|] eqn:El; [|reflexivity].
  rewrite (H2 _ _ El) in Hdrop. discriminate.
Qed.

Lemma ex_log_ok_5_1 : log_ok (ex_log 5 1). Proof. solve_log_ok. Qed.
Lemma ex_log_ok_6_1 : log_ok (ex_log 6 1). Proof. solve_log_ok. Qed.
Lemma ex_log_ok_7_1 : log_ok (ex_log 7 1). Proof. solve_log_ok. Qed.

Lemma hist_live_trunc_ok : hist_ok cfg128 hist_live_trunc.
Proof.
  unfold hist_live_trunc, hist_live_head, hist_live_stores. cbn [map app].
  split; [exact cfg128_ok|]. split; [|unfold short_enough; cbn [length]; lia].
  repeat (apply Forall_cons; [cbn [hstep_wf sop_ok];
    first [ exact I
          | split; [apply Forall_cons; [first [exact ex_log_ok_1_1|exact ex_log_ok_2_1|exact ex_log_ok_3_1|exact ex_log_ok_4_1
                                              |exact ex_log_ok_5_1|exact ex_log_ok_6_1|exact ex_log_ok_7_1]|apply Forall_nil]
                   |vm_compute; reflexivity]
          | unfold two64; lia ]|]).
  apply Forall_nil.
Qed.

Print Assumptions live_dir_exact.
Print Assumptions delete_reclaims.
