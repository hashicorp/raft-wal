(* FaultExamplesFacts.v -- the example fault histories satisfy the guards of the theorem. *)
From RW Require Import Base.Bytes Base.BytesFacts Fmt.Codec Fmt.Frame Wal.Model Wal.Spec Wal.Hist Wal.FaultHist
  Wal.CrashInv Wal.CrashThm Wal.CrashExamples Wal.CrashExamplesFacts Wal.FaultExamples Wal.FaultCor Gen.Constants.
From RW Require Import Base.LiaSetup.
Open Scope N_scope.

(* everything but the index, the term and the encoded length is the same for all example entries *)
Lemma ex_log_ok_of i t :
  (1 <=? i) && (i + 1 <? two64) && (t <? two64) && (enc_len (ex_log i t) <=? MaxEntrySize) = true -> log_ok (ex_log i t).
Proof.
  intros H. apply andb_true_iff in H. destruct H as (H & He). apply andb_true_iff in H. destruct H as (H & Ht).
  apply andb_true_iff in H. destruct H as (Hi & Hi2). apply N.leb_le in Hi, He. apply N.ltb_lt in Hi2, Ht.
  split; [|auto]. unfold two64 in *. solve_log_ok.
Qed.

Lemma ex_log_ok_2_2 : log_ok (ex_log 2 2). Proof. exact (ex_log_ok_of 2 2 eq_refl). Qed.
Lemma ex_log_ok_3_5 : log_ok (ex_log 3 5). Proof. exact (ex_log_ok_of 3 5 eq_refl). Qed.
Lemma ex_log_ok_5_1 : log_ok (ex_log 5 1). Proof. exact (ex_log_ok_of 5 1 eq_refl). Qed.
Lemma ex_log_ok_6_1 : log_ok (ex_log 6 1). Proof. exact (ex_log_ok_of 6 1 eq_refl). Qed.
Lemma ex_log_ok_7_1 : log_ok (ex_log 7 1). Proof. exact (ex_log_ok_of 7 1 eq_refl). Qed.
Lemma ex_log_ok_2_7 : log_ok (ex_log 2 7). Proof. exact (ex_log_ok_of 2 7 eq_refl). Qed.

Ltac solve_fsop_ok :=
  cbn [fstep_wf sop_ok];
  first [ exact I
        | split; [repeat (apply Forall_cons; [first [exact ex_log_ok_1_1|exact ex_log_ok_2_1|exact ex_log_ok_3_1
                                            |exact ex_log_ok_2_2|exact ex_log_ok_3_5|exact ex_log_ok_4_1|exact ex_log_ok_5_1|exact ex_log_ok_6_1|exact ex_log_ok_7_1|exact ex_log_ok_2_7]|]); apply Forall_nil
                 | vm_compute; reflexivity ]
        | unfold two64; lia
        | unfold wf_bytes, wf_byte, two31, len; cbn [length]; repeat split; try (repeat constructor; lia); lia ].

Ltac solve_fhist_ok cfgok :=
  split; [exact cfgok|]; split; [repeat (apply Forall_cons; [solve_fsop_ok|]); apply Forall_nil | unfold short_enough; cbn [length]; lia].

Lemma fh_fsync_then_shorter_ok : fault_hist_ok cfg256 fh_fsync_then_shorter.
Proof. unfold fh_fsync_then_shorter. solve_fhist_ok cfg256_ok. Qed.
Lemma fh_fsync_then_restart_ok : fault_hist_ok cfg256 fh_fsync_then_restart.
Proof. unfold fh_fsync_then_restart. solve_fhist_ok cfg256_ok. Qed.
Lemma fh_trunc_create_fails_ok : fault_hist_ok cfg256 fh_trunc_create_fails.
Proof. unfold fh_trunc_create_fails. solve_fhist_ok cfg256_ok. Qed.
Lemma fh_rotation_commit_fails_ok : fault_hist_ok cfg128 fh_rotation_commit_fails.
Proof. unfold fh_rotation_commit_fails. solve_fhist_ok cfg128_ok. Qed.
Lemma fh_fault_in_open_ok : fault_hist_ok cfg128 fh_fault_in_open.
Proof. unfold fh_fault_in_open. solve_fhist_ok cfg128_ok. Qed.
Lemma fh_misc_ok : fault_hist_ok cfg256 fh_misc.
Proof. unfold fh_misc. solve_fhist_ok cfg256_ok. Qed.
Lemma fh_delete_fails_ok : fault_hist_ok cfg128 fh_delete_fails.
Proof. unfold fh_delete_fails. solve_fhist_ok cfg128_ok. Qed.
Lemma fh_reset_delete_fails_ok : fault_hist_ok cfg256 fh_reset_delete_fails.
Proof. unfold fh_reset_delete_fails. solve_fhist_ok cfg256_ok. Qed.
Lemma fh_list_fails_ok : fault_hist_ok cfg128 fh_list_fails.
Proof. unfold fh_list_fails. solve_fhist_ok cfg128_ok. Qed.
Lemma fh_trunc_create_leaves_ok : fault_hist_ok cfg256 fh_trunc_create_leaves.
Proof. unfold fh_trunc_create_leaves. solve_fhist_ok cfg256_ok. Qed.
Lemma fh_rotate_create_leaves_ok : fault_hist_ok cfg128 fh_rotate_create_leaves.
Proof. unfold fh_rotate_create_leaves. solve_fhist_ok cfg128_ok. Qed.
Lemma fh_commit_lands_ok : fault_hist_ok cfg128 fh_commit_lands.
Proof. unfold fh_commit_lands. solve_fhist_ok cfg128_ok. Qed.
Lemma fh_set_lands_ok : fault_hist_ok cfg256 fh_set_lands.
Proof. unfold fh_set_lands. solve_fhist_ok cfg256_ok. Qed.
