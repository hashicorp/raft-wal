(* CrashThm.v -- corollaries of the crash-refinement theorem in the form used by
   Props/C01..C04, C13: what holds after ANY history of calls, crashes (at any
   I/O boundary, with any adversary choice, also inside recovery) and reopens. *)
From RW Require Import Base.Bytes Base.BytesFacts Fmt.Codec Fmt.CodecFacts Fmt.Frame Wal.Model Wal.Spec Wal.Hist
  Wal.CrashInv Wal.ModelFacts Wal.CrashFacts0 Wal.CrashFacts1 Wal.CrashFacts2 Wal.CrashFacts3 Wal.CrashFacts4 Wal.CrashFacts5
  Wal.CrashFacts6 Wal.CrashGlue Wal.CrashCalls1 Wal.CrashCalls2 Wal.CrashCalls3 Wal.CrashCalls4 Wal.CrashCalls5
  Wal.CrashCalls6 Wal.CrashCalls7 Wal.CrashCalls8 Wal.CrashCalls9 Wal.CrashCalls10 Gen.Constants Base.LiaSetup.
Open Scope N_scope.

Definition hist_ok (c : cfg) (steps : list hstep) : Prop :=
  cfg_ok c /\ Forall hstep_wf steps /\ short_enough steps.

Theorem hist_invariant c steps :
  hist_ok c steps -> GI c (2 * N.of_nat (length steps)) (hist_run c hist_init steps).
Proof.
  intros (Hc & Hwf & Hshort). exact (GI_hist c steps Hc (call_ok_all c) Hwf Hshort).
Qed.

Lemma short_bound {A} (steps : list A) : short_enough steps -> 2 * N.of_nat (length steps) + 2 < two64.
Proof. unfold short_enough, two64. lia. Qed.

Theorem recovery_after_any_history c steps d :
  hist_ok c steps -> hs_mode (hist_run c hist_init steps) = Down d ->
  exists w e, open_wal c (env_of d) = (OOk w, e) /\
    ({| sp_log := abs w (e_disk e); sp_kv := dk_stable (e_disk e) |} = hs_acked (hist_run c hist_init steps) \/
     {| sp_log := abs w (e_disk e); sp_kv := dk_stable (e_disk e) |} = hs_may (hist_run c hist_init steps)) /\
    dir_exact (e_disk e) = true /\ Forall not_fail (e_acts e).
Proof.
  intros Hok Hmode. pose proof (hist_invariant c steps Hok) as (_ & _ & _ & HM). rewrite Hmode in HM.
  destruct HM as (HD & HN & Hsp). destruct Hok as (Hc & _ & Hshort). pose proof (short_bound steps Hshort) as Hb.
  destruct (open_wal_ok c _ (env_of d) Hc eq_refl HD HN) as (w & e & Ho & Hext & HL & Hde); [lia|].
  exists w, e. split; [exact Ho|]. pose proof (ext_final _ _ _ Hext) as (_ & _ & Hs').
  rewrite (LInv_abs _ _ _ _ HL). fold (sp_of (e_disk e)). rewrite Hs'. cbn [env_of e_disk].
  split; [exact Hsp|]. split; [exact Hde|]. apply (ext_nofail _ _ _ Hext). constructor.
Qed.

Lemma result_class_ok r : result_eqb (res_class r) ROk = true -> r = ROk.
Proof. destruct r; cbn; try discriminate. reflexivity. Qed.

Theorem live_state_is_ledger c steps s :
  hist_ok c steps -> hs_mode (hist_run c hist_init steps) = Up s ->
  let a := hs_acked (hist_run c hist_init steps) in
  hs_may (hist_run c hist_init steps) = a /\
  {| sp_log := abs (ss_wal s) (e_disk (ss_env s)); sp_kv := dk_stable (e_disk (ss_env s)) |} = a /\
  (forall i, fst (get_log (ss_wal s) i (ss_env s)) =
             match spec_get (sp_log a) i with Some l => RLog l | None => RErrNotFound end) /\
  first_index_op (ss_wal s) = RVal (spec_first (sp_log a)) /\
  last_index_op (ss_wal s) = RVal (spec_last (sp_log a)) /\
  (forall k, fst (get_stable (ss_wal s) k (ss_env s)) = RBytes (kv_get k (sp_kv a))) /\
  Forall not_fail (e_acts (ss_env s)).
Proof.
  intros Hok Hmode a. pose proof (hist_invariant c steps Hok) as (_ & Hga & _ & HM). rewrite Hmode in HM.
  destruct HM as (Hma & HL & Hf & Hsp & Hnf). fold a in Hma, Hsp, Hga.
  split; [exact Hma|]. split; [rewrite (LInv_abs _ _ _ _ HL); exact Hsp|].
  destruct (LInv_view _ _ _ _ HL) as (S & t & f & tw & V).
  split.
  { intros i. destruct (get_log_ok c _ (ss_wal s) (ss_env s) S t f tw a i V Hsp Hga) as (r & x & y & Hgl & Hres).
    rewrite Hgl. cbn [fst step_spec] in *. destruct (spec_get (sp_log a) i) as [l|]; cbn [fst] in Hres.
    - apply res_class_log. exact Hres.
    - apply res_class_notfound. exact Hres. }
  split; [unfold first_index_op; rewrite (lv_closed _ _ _ _ _ _ _ _ V), (lv_first V), <- Hsp; reflexivity|].
  split; [unfold last_index_op; rewrite (lv_closed _ _ _ _ _ _ _ _ V), (lv_last V), <- Hsp; reflexivity|].
  split; [|exact Hnf].
  intros k. unfold get_stable. rewrite (lv_closed _ _ _ _ _ _ _ _ V). cbn [fst]. rewrite <- Hsp. reflexivity.
Qed.

Definition disk_of (h : hstate) : disk :=
  match hs_mode h with Up s => e_disk (ss_env s) | Down d => d end.

Theorem ids_below_next c steps ps n f :
  hist_ok c steps -> dk_meta (disk_of (hist_run c hist_init steps)) = Some ps ->
  lookup n (dk_files (disk_of (hist_run c hist_init steps))) = Some f -> snd n < ps_next_id ps.
Proof.
  intros Hok Hm Hl. pose proof (hist_invariant c steps Hok) as (_ & _ & _ & HM). unfold disk_of in *.
  assert (HD : DIs c (2 * N.of_nat (length steps)) (match hs_mode (hist_run c hist_init steps) with Up s => e_disk (ss_env s) | Down d => d end)).
  { destruct (hs_mode (hist_run c hist_init steps)); [apply HM|apply HM]. }
  apply (DIs_unfold _ _ _ ps Hm) in HD. destruct HD as (_ & _ & Hid & _). eapply Hid; eauto.
Qed.

Definition covers (i : N) (o : sop) : Prop :=
  match o with ODelete mn mx => mn <= i /\ i <= mx | _ => False end.

Lemma spec_get_slog_some first es i l :
  spec_get {| sl_first := first; sl_ents := es |} i = Some l <->
  first <= i /\ nth_error es (N.to_nat (i - first)) = Some l.
Proof.
  unfold spec_get, spec_last, sl_is_empty. cbn [sl_ents sl_first]. destruct es as [|x r].
  - cbn [orb]. split; [discriminate|]. intros (_ & H). destruct (N.to_nat (i - first)); discriminate.
  - cbn [orb]. destruct ((i <? first) || (first + llen (x :: r) - 1 <? i)) eqn:E.
    + split; [discriminate|]. intros (H1 & H2). exfalso.
      assert (nth_error (x :: r) (N.to_nat (i - first)) <> None) by congruence.
      apply nth_error_Some in H. unfold llen in E. lia.
    + split; [intros H; split; [lia|exact H]|intros (_ & H); exact H].
Qed.

Lemma slog_eta s : s = {| sl_first := sl_first s; sl_ents := sl_ents s |}.
Proof. destruct s; reflexivity. Qed.

Lemma spec_get_preserved a o i l :
  spec_get (sp_log a) i = Some l -> ~ covers i o ->
  spec_get (sp_log (snd (step_spec a o))) i = Some l.
Proof.
  intros Hg Hc. destruct o; cbn [step_spec]; try exact Hg.
  - (* store *)
    unfold spec_store. destruct ls as [|l0 r]; [exact Hg|].
    destruct (consecutive (l_index l0) (l0 :: r) && (sl_is_empty (sp_log a) || (l_index l0 =? spec_last (sp_log a) + 1))); [|exact Hg].
    cbn [snd sp_log]. rewrite (slog_eta (sp_log a)) in Hg. apply spec_get_slog_some in Hg. destruct Hg as (H1 & H2).
    assert (Hne : sl_is_empty (sp_log a) = false).
    { unfold sl_is_empty. destruct (sl_ents (sp_log a)); [destruct (N.to_nat (i - sl_first (sp_log a))); discriminate|reflexivity]. }
    rewrite Hne. apply spec_get_slog_some. split; [exact H1|].
    rewrite nth_error_app1; [exact H2|]. apply nth_error_Some. congruence.
  - (* delete *)
    cbn [covers] in Hc. unfold spec_delete.
    destruct ((mx <? mn) || sl_is_empty (sp_log a) || (mx <? sl_first (sp_log a)) || (spec_last (sp_log a) <? mn)) eqn:E0; [exact Hg|].
    pose proof Hg as Hg0. rewrite (slog_eta (sp_log a)) in Hg. apply spec_get_slog_some in Hg. destruct Hg as (H1 & H2).
    assert (Hlt : (N.to_nat (i - sl_first (sp_log a)) < length (sl_ents (sp_log a)))%nat) by (apply nth_error_Some; congruence).
    assert (Hlast : i <= spec_last (sp_log a)).
    { unfold spec_last. destruct (sl_is_empty (sp_log a)) eqn:Ee; [lia|]. unfold llen. lia. }
    destruct (mn <=? sl_first (sp_log a)) eqn:E1.
    + destruct (spec_last (sp_log a) <=? mx) eqn:E2; cbn [snd sp_log]; [exfalso; apply Hc; lia|].
      apply spec_get_slog_some. assert (Hi : mx < i) by lia. split; [lia|].
      rewrite nth_error_skipn. rewrite <- H2. f_equal. lia.
    + destruct (spec_last (sp_log a) <=? mx) eqn:E2; cbn [snd sp_log]; [|exact Hg0].
      apply spec_get_slog_some. split; [exact H1|]. assert (Hi : i < mn) by lia.
      rewrite nth_error_firstn by lia. exact H2.
  - destruct (spec_get (sp_log a) i0); exact Hg.
  - destruct (key_ok k); [exact Hg|]. destruct is_nil; exact Hg.
Qed.

(* the step runs, or crashes inside, a DeleteRange over index i: [hits (covers i)] *)
Definition touches (i : N) (st : hstep) : Prop :=
  match st with HOp o | HCrashIn o _ _ => covers i o | _ => False end.

(* the step runs, or crashes inside, a call in [bad] *)
Definition hits (bad : sop -> Prop) (st : hstep) : Prop :=
  match st with HOp o | HCrashIn o _ _ => bad o | _ => False end.

(* a property of spec states that every spec step keeps, except the calls in [bad], holds
   of both ledgers after a history without such calls *)
Lemma ledger_step (P : spst -> Prop) (bad : sop -> Prop) c h st :
  (forall a o, P a -> ~ bad o -> P (snd (step_spec a o))) ->
  P (hs_acked h) -> P (hs_may h) -> ~ hits bad st ->
  P (hs_acked (hstep_run c h st)) /\ P (hs_may (hstep_run c h st)).
Proof.
  intros Hstep Ha Hm Ht. unfold hstep_run. destruct (hs_mode h) as [s|d]; destruct st as [o|o j cc| |j cc]; auto.
  - destruct (step_model c s o) as [r s']. pose proof (Hstep (hs_acked h) o Ha Ht) as Hp.
    destruct (step_spec (hs_acked h) o) as [r' sp']. cbn [snd hs_acked hs_may] in *. auto.
  - destruct (step_model c s o) as [r s']. pose proof (Hstep (hs_acked h) o Ha Ht) as Hp.
    destruct (step_spec (hs_acked h) o) as [r' sp']. cbn [snd] in Hp.
    destruct (Nat.leb _ j); cbn [hs_acked hs_may]; auto.
  - destruct (open_wal c (env_of d)) as [[w|x] e]; cbn [hs_acked hs_may]; [|auto].
    destruct (spst_eqb _ (hs_acked h)); auto.
  - destruct (open_wal c (env_of d)) as [o e]. cbn [hs_acked hs_may]. auto.
Qed.

Lemma ledger_run (P : spst -> Prop) (bad : sop -> Prop) c steps :
  (forall a o, P a -> ~ bad o -> P (snd (step_spec a o))) -> forall h,
  P (hs_acked h) -> P (hs_may h) -> Forall (fun st => ~ hits bad st) steps ->
  P (hs_acked (hist_run c h steps)) /\ P (hs_may (hist_run c h steps)).
Proof.
  intros Hstep. unfold hist_run. induction steps as [|st steps IH]; intros h Ha Hm Hn; [auto|].
  inversion Hn as [|? ? H1 H2]; subst. cbn [fold_left].
  destruct (ledger_step P bad c h st Hstep Ha Hm H1) as (Ha' & Hm'). apply IH; auto.
Qed.

(* an acknowledged StoreLogs puts its entries into the ledger *)
Lemma spec_store_get a ls k l :
  fst (step_spec a (OStore ls)) = ROk -> nth_error ls k = Some l ->
  spec_get (sp_log (snd (step_spec a (OStore ls)))) (l_index l) = Some l.
Proof.
  intros Hok Hn. cbn [step_spec] in *. unfold spec_store in *. destruct ls as [|l0 r]; [destruct k; discriminate|].
  destruct (consecutive (l_index l0) (l0 :: r) && (sl_is_empty (sp_log a) || (l_index l0 =? spec_last (sp_log a) + 1))) eqn:E;
    [|discriminate]. cbn [snd sp_log]. apply andb_true_iff in E. destruct E as (Hc & He).
  pose proof (consecutive_nth _ _ _ _ Hc Hn) as Hidx.
  apply spec_get_slog_some. destruct (sl_is_empty (sp_log a)) eqn:Ee.
  - unfold sl_is_empty in Ee. destruct (sl_ents (sp_log a)) eqn:Es; [|discriminate]. cbn [app].
    split; [lia|]. replace (N.to_nat (l_index l - l_index l0)) with k by lia. exact Hn.
  - cbn [orb] in He. apply N.eqb_eq in He. unfold spec_last in He. rewrite Ee in He.
    assert (Hpos : 0 < llen (sl_ents (sp_log a))).
    { unfold sl_is_empty in Ee. destruct (sl_ents (sp_log a)); [discriminate|]. rewrite llen_cons. lia. }
    split; [lia|]. rewrite nth_error_app2 by (unfold llen in *; lia).
    replace (N.to_nat (l_index l - sl_first (sp_log a)) - length (sl_ents (sp_log a)))%nat with k by (unfold llen in *; lia).
    exact Hn.
Qed.

Lemma hist_run_app c h a b : hist_run c h (a ++ b) = hist_run c (hist_run c h a) b.
Proof. unfold hist_run. apply fold_left_app. Qed.

Lemma hist_ok_prefix c a b : hist_ok c (a ++ b) -> hist_ok c a.
Proof.
  intros (Hc & Hwf & Hs). split; [exact Hc|]. split; [apply Forall_app in Hwf; apply Hwf|].
  unfold short_enough in *. rewrite app_length in Hs. lia.
Qed.

Lemma result_eqb_eq a b : result_eqb a b = true -> a = b.
Proof.
  destruct a, b; cbn; try discriminate; try reflexivity; intros H.
  - apply N.eqb_eq in H. subst; reflexivity.
  - apply log_eqb_eq in H. subst; reflexivity.
  - apply beq_bytes_eq in H. subst; reflexivity.
Qed.

(* what one complete call does to the history state *)
Lemma hstep_run_op c h s o :
  hs_mode h = Up s ->
  hs_acked (hstep_run c h (HOp o)) = snd (step_spec (hs_acked h) o) /\
  hs_may (hstep_run c h (HOp o)) = snd (step_spec (hs_acked h) o) /\
  hs_mode (hstep_run c h (HOp o)) = Up (snd (step_model c s o)).
Proof.
  intros Hm. unfold hstep_run. rewrite Hm. destruct (step_model c s o) as [r s'].
  destruct (step_spec (hs_acked h) o) as [r' sp']. cbn. auto.
Qed.

(* every call's result and resulting state are the spec's, after any history *)
Theorem every_call_matches_spec c steps s o :
  hist_ok c (steps ++ [HOp o]) -> hs_mode (hist_run c hist_init steps) = Up s ->
  res_class (fst (step_model c s o)) = fst (step_spec (hs_acked (hist_run c hist_init steps)) o) /\
  {| sp_log := abs (ss_wal (snd (step_model c s o))) (e_disk (ss_env (snd (step_model c s o))));
     sp_kv := dk_stable (e_disk (ss_env (snd (step_model c s o)))) |}
  = snd (step_spec (hs_acked (hist_run c hist_init steps)) o).
Proof.
  intros Hok Hmode. pose proof (hist_ok_prefix _ _ _ Hok) as Hok0.
  pose proof (hist_invariant c steps Hok0) as (_ & Hga & _ & HM). rewrite Hmode in HM.
  destruct HM as (Hma & HL & Hf & Hsp & Hnf).
  destruct Hok as (Hc & Hwf & Hshort). apply Forall_app in Hwf. destruct Hwf as (_ & Hwo).
  inversion Hwo as [|? ? Ho _]; subst. cbn [hstep_wf] in Ho.
  assert (Hb : 2 * N.of_nat (length steps) + 2 < two64).
  { unfold short_enough in Hshort. rewrite app_length in Hshort. cbn [length] in Hshort. unfold two64. lia. }
  destruct (call_ok_all c o _ s _ Hc Ho Hb HL Hf Hsp Hga) as (r & s' & Hst & Hres & HL' & Hs' & _).
  rewrite Hst. cbn [fst snd]. split; [apply result_eqb_eq; exact Hres|].
  rewrite (LInv_abs _ _ _ _ HL'). exact Hs'.
Qed.

(* a call interrupted by a crash at any point is applied in full or not at all *)
Theorem interrupted_call_atomic c steps s o j cc d :
  hist_ok c (steps ++ [HCrashIn o j cc]) -> hs_mode (hist_run c hist_init steps) = Up s ->
  hs_mode (hist_run c hist_init (steps ++ [HCrashIn o j cc])) = Down d ->
  exists w e, open_wal c (env_of d) = (OOk w, e) /\
    ({| sp_log := abs w (e_disk e); sp_kv := dk_stable (e_disk e) |} = hs_acked (hist_run c hist_init steps) \/
     {| sp_log := abs w (e_disk e); sp_kv := dk_stable (e_disk e) |} = snd (step_spec (hs_acked (hist_run c hist_init steps)) o)) /\
    dir_exact (e_disk e) = true.
Proof.
  intros Hok Hmode Hd. destruct (recovery_after_any_history c _ d Hok Hd) as (w & e & Ho & Hgot & Hde & _).
  exists w, e. split; [exact Ho|]. split; [|exact Hde].
  rewrite hist_run_app in Hgot. unfold hist_run at 1 3 in Hgot. cbn [fold_left] in Hgot.
  set (h0 := hist_run c hist_init steps) in *. unfold hstep_run in Hgot. rewrite Hmode in Hgot.
  destruct (step_model c s o) as [r s']. destruct (step_spec (hs_acked h0) o) as [r' sp']. cbn [snd].
  destruct (Nat.leb _ j); cbn [hs_acked hs_may] in Hgot; tauto.
Qed.

(* FirstIndex..LastIndex is contiguous and every index in it is readable (C02) *)
Lemma spec_get_total s i :
  sl_is_empty s = false -> spec_first s <= i -> i <= spec_last s -> exists l, spec_get s i = Some l.
Proof.
  intros He H1 H2. unfold spec_get, spec_first, spec_last in *. rewrite He in *. cbn [orb].
  destruct ((i <? sl_first s) || (sl_first s + llen (sl_ents s) - 1 <? i)) eqn:E; [lia|].
  destruct (nth_error (sl_ents s) (N.to_nat (i - sl_first s))) eqn:En; [eauto|].
  apply nth_error_None in En. unfold sl_is_empty in He. destruct (sl_ents s); [discriminate|].
  unfold llen in *. cbn [length] in *. lia.
Qed.

Theorem range_is_readable c steps s i :
  hist_ok c steps -> hs_mode (hist_run c hist_init steps) = Up s ->
  forall fi la, first_index_op (ss_wal s) = RVal fi -> last_index_op (ss_wal s) = RVal la ->
  1 <= fi -> fi <= i -> i <= la ->
  exists l, fst (get_log (ss_wal s) i (ss_env s)) = RLog l /\
            spec_get (sp_log (hs_acked (hist_run c hist_init steps))) i = Some l.
Proof.
  intros Hok Hmode fi la Hfi Hla H0 H1 H2.
  destruct (live_state_is_ledger c _ s Hok Hmode) as (_ & _ & Hgl & Hfi' & Hla' & _).
  rewrite Hfi in Hfi'. rewrite Hla in Hla'. inversion Hfi'; inversion Hla'; subst.
  set (a := hs_acked (hist_run c hist_init steps)) in *.
  assert (He : sl_is_empty (sp_log a) = false).
  { unfold spec_first in H0. destruct (sl_is_empty (sp_log a)); [lia|reflexivity]. }
  destruct (spec_get_total (sp_log a) i He H1 H2) as (l & Hl). exists l. rewrite Hgl, Hl. auto.
Qed.

(* the WAL is writable after any history (C03) *)
Theorem writable_after_any_history c steps s l :
  hist_ok c (steps ++ [HOp (OStore [l])]) -> hs_mode (hist_run c hist_init steps) = Up s ->
  sl_is_empty (sp_log (hs_acked (hist_run c hist_init steps))) = true \/
  l_index l = spec_last (sp_log (hs_acked (hist_run c hist_init steps))) + 1 ->
  fst (step_model c s (OStore [l])) = ROk.
Proof.
  intros Hok Hmode Hidx. destruct (every_call_matches_spec c steps s (OStore [l]) Hok Hmode) as (Hres & _).
  set (a := hs_acked (hist_run c hist_init steps)) in *.
  assert (Hs : fst (step_spec a (OStore [l])) = ROk).
  { cbn [step_spec spec_store consecutive]. rewrite N.eqb_refl. cbn [andb].
    destruct Hidx as [He|He]; [rewrite He; reflexivity|].
    rewrite He, N.eqb_refl, orb_true_r. reflexivity. }
  rewrite Hs in Hres. destruct (fst (step_model c s (OStore [l]))); cbn in Hres; try discriminate. reflexivity.
Qed.

Definition stores (i : N) (o : sop) : Prop :=
  match o with OStore ls => exists l, In l ls /\ l_index l = i | _ => False end.
(* [hits (stores i)] *)
Definition restores (i : N) (st : hstep) : Prop :=
  match st with HOp o | HCrashIn o _ _ => stores i o | _ => False end.

Lemma spec_get_slog_none first es i :
  spec_get {| sl_first := first; sl_ents := es |} i = None <->
  (i < first \/ nth_error es (N.to_nat (i - first)) = None).
Proof.
  destruct (spec_get {| sl_first := first; sl_ents := es |} i) as [l|] eqn:E.
  - apply spec_get_slog_some in E. destruct E as (H1 & H2). split; [discriminate|]. intros [H|H]; [lia|congruence].
  - split; [|reflexivity]. intros _. destruct (i <? first) eqn:E1; [left; lia|]. right.
    destruct (nth_error es (N.to_nat (i - first))) as [l|] eqn:En; [|reflexivity].
    assert (spec_get {| sl_first := first; sl_ents := es |} i = Some l) by (apply spec_get_slog_some; split; [lia|exact En]).
    congruence.
Qed.

Lemma consecutive_index_in ls : forall i0 k l, consecutive i0 ls = true -> nth_error ls k = Some l ->
  In l ls /\ l_index l = i0 + N.of_nat k.
Proof.
  intros i0 k l Hc Hn. split; [eapply nth_error_In; eauto|eapply consecutive_nth; eauto].
Qed.

Lemma spec_get_none_preserved a o i :
  spec_get (sp_log a) i = None -> ~ stores i o -> spec_get (sp_log (snd (step_spec a o))) i = None.
Proof.
  intros Hg Hs. destruct o; cbn [step_spec]; try exact Hg.
  - unfold spec_store. destruct ls as [|l0 r]; [exact Hg|].
    destruct (consecutive (l_index l0) (l0 :: r) && (sl_is_empty (sp_log a) || (l_index l0 =? spec_last (sp_log a) + 1))) eqn:E; [|exact Hg].
    cbn [snd sp_log]. apply andb_true_iff in E. destruct E as (Hc & He).
    destruct (spec_get {| sl_first := if sl_is_empty (sp_log a) then l_index l0 else sl_first (sp_log a);
                          sl_ents := sl_ents (sp_log a) ++ l0 :: r |} i) as [x|] eqn:Ex; [|reflexivity].
    exfalso. apply spec_get_slog_some in Ex. destruct Ex as (H1 & H2).
    destruct (sl_is_empty (sp_log a)) eqn:Ee.
    + unfold sl_is_empty in Ee. destruct (sl_ents (sp_log a)) eqn:Es; [|discriminate]. cbn [app] in H2.
      destruct (consecutive_index_in _ _ _ _ Hc H2) as (Hin & Hi). apply Hs. exists x. split; [exact Hin|lia].
    + cbn [orb] in He. apply N.eqb_eq in He. unfold spec_last in He. rewrite Ee in He.
      destruct (Nat.ltb (N.to_nat (i - sl_first (sp_log a))) (length (sl_ents (sp_log a)))) eqn:El.
      * apply Nat.ltb_lt in El. rewrite nth_error_app1 in H2 by exact El.
        rewrite (slog_eta (sp_log a)) in Hg. apply spec_get_slog_none in Hg. destruct Hg as [Hg|Hg]; [lia|congruence].
      * apply Nat.ltb_ge in El. rewrite nth_error_app2 in H2 by exact El.
        destruct (consecutive_index_in _ _ _ _ Hc H2) as (Hin & Hi). apply Hs. exists x. split; [exact Hin|].
        assert (Hpos : 0 < llen (sl_ents (sp_log a))).
        { unfold sl_is_empty in Ee. destruct (sl_ents (sp_log a)); [discriminate|]. rewrite llen_cons. lia. }
        unfold llen in *. lia.
  - unfold spec_delete.
    destruct ((mx <? mn) || sl_is_empty (sp_log a) || (mx <? sl_first (sp_log a)) || (spec_last (sp_log a) <? mn)) eqn:E0; [exact Hg|].
    rewrite (slog_eta (sp_log a)) in Hg. apply spec_get_slog_none in Hg.
    destruct (mn <=? sl_first (sp_log a)) eqn:E1.
    + destruct (spec_last (sp_log a) <=? mx) eqn:E2; cbn [snd sp_log]; [reflexivity|].
      apply spec_get_slog_none. destruct (i <? mx + 1) eqn:E3; [left; lia|]. right.
      rewrite nth_error_skipn. destruct Hg as [Hg|Hg]; [lia|]. rewrite <- Hg. f_equal. lia.
    + destruct (spec_last (sp_log a) <=? mx) eqn:E2; cbn [snd sp_log].
      * apply spec_get_slog_none. destruct Hg as [Hg|Hg]; [left; exact Hg|]. right.
        apply nth_error_None. rewrite firstn_length. apply nth_error_None in Hg. lia.
      * rewrite (slog_eta (sp_log a)). apply spec_get_slog_none. exact Hg.
  - destruct (spec_get (sp_log a) i0); exact Hg.
  - destruct (key_ok k); [exact Hg|]. destruct is_nil; exact Hg.
Qed.

Lemma spec_delete_removes a mn mx i :
  fst (step_spec a (ODelete mn mx)) = ROk -> mn <= i -> i <= mx ->
  spec_get (sp_log (snd (step_spec a (ODelete mn mx)))) i = None.
Proof.
  intros Hok H1 H2. cbn [step_spec] in *. unfold spec_delete in *.
  destruct ((mx <? mn) || sl_is_empty (sp_log a) || (mx <? sl_first (sp_log a)) || (spec_last (sp_log a) <? mn)) eqn:E0.
  - cbn [snd sp_log]. unfold spec_get. destruct (sl_is_empty (sp_log a)) eqn:Ee; [reflexivity|]. cbn [orb].
    destruct ((i <? sl_first (sp_log a)) || (spec_last (sp_log a) <? i)) eqn:E; [reflexivity|lia].
  - destruct (mn <=? sl_first (sp_log a)) eqn:E1.
    + destruct (spec_last (sp_log a) <=? mx) eqn:E2; cbn [snd sp_log]; [reflexivity|].
      apply spec_get_slog_none. left. lia.
    + destruct (spec_last (sp_log a) <=? mx) eqn:E2; cbn [snd sp_log] in *; [|discriminate].
      apply spec_get_slog_none. right. apply nth_error_None. rewrite firstn_length. lia.
Qed.

Lemma hist_ok_pre1 c pre o post : hist_ok c (pre ++ HOp o :: post) -> hist_ok c (pre ++ [HOp o]).
Proof.
  replace (pre ++ HOp o :: post) with ((pre ++ [HOp o]) ++ post) by (rewrite <- app_assoc; reflexivity).
  apply hist_ok_prefix.
Qed.

(* The ledger's answer [v] at index [i] right after an acknowledged call is what every later state
   shows, as long as no later call is in [bad], the calls that may change that answer. *)
Theorem ledger_value_stays c pre o post s i v (bad : sop -> Prop) :
  (forall a o', spec_get (sp_log a) i = v -> ~ bad o' -> spec_get (sp_log (snd (step_spec a o'))) i = v) ->
  hist_ok c (pre ++ HOp o :: post) ->
  hs_mode (hist_run c hist_init pre) = Up s ->
  spec_get (sp_log (snd (step_spec (hs_acked (hist_run c hist_init pre)) o))) i = v ->
  Forall (fun st => ~ hits bad st) post ->
  spec_get (sp_log (hs_acked (hist_run c hist_init (pre ++ HOp o :: post)))) i = v /\
  match hs_mode (hist_run c hist_init (pre ++ HOp o :: post)) with
  | Up s' => fst (get_log (ss_wal s') i (ss_env s')) = match v with Some l => RLog l | None => RErrNotFound end
  | Down d => exists w e, open_wal c (env_of d) = (OOk w, e)
  end.
Proof.
  intros Hkeep Hok Hmode Hget Hpost.
  set (h0 := hist_run c hist_init pre) in *.
  destruct (hstep_run_op c h0 s o Hmode) as (Ha1 & Hm1 & _).
  replace (pre ++ HOp o :: post) with ((pre ++ [HOp o]) ++ post) in * by (rewrite <- app_assoc; reflexivity).
  set (h := hist_run c hist_init ((pre ++ [HOp o]) ++ post)).
  assert (Hled : spec_get (sp_log (hs_acked h)) i = v).
  { unfold h. rewrite hist_run_app.
    apply (ledger_run (fun a => spec_get (sp_log a) i = v) bad); [exact Hkeep| | |exact Hpost];
      rewrite hist_run_app; unfold hist_run at 1; cbn [fold_left]; fold h0.
    - rewrite Ha1. exact Hget.
    - rewrite Hm1. exact Hget. }
  split; [exact Hled|].
  destruct (hs_mode h) as [s'|d] eqn:Emode.
  - destruct (live_state_is_ledger c _ s' Hok Emode) as (_ & _ & Hgl & _). fold h in Hgl. rewrite Hgl, Hled. reflexivity.
  - destruct (recovery_after_any_history c _ d Hok Emode) as (w & e & Ho & _). eauto.
Qed.


(* a deleted index stays deleted until it is stored again (C04) *)
Theorem acked_delete_stays c pre mn mx post s i :
  hist_ok c (pre ++ HOp (ODelete mn mx) :: post) ->
  hs_mode (hist_run c hist_init pre) = Up s ->
  fst (step_model c s (ODelete mn mx)) = ROk -> mn <= i -> i <= mx ->
  Forall (fun st => ~ restores i st) post ->
  match hs_mode (hist_run c hist_init (pre ++ HOp (ODelete mn mx) :: post)) with
  | Up s' => fst (get_log (ss_wal s') i (ss_env s')) = RErrNotFound
  | Down d => exists w e, open_wal c (env_of d) = (OOk w, e)
  end.
Proof.
  intros Hok Hmode Hret H1 H2 Hpost.
  destruct (every_call_matches_spec c pre s _ (hist_ok_pre1 _ _ _ _ Hok) Hmode) as (Hres & _).
  rewrite Hret in Hres.
  apply (ledger_value_stays c pre _ post s i None _ (fun a o => spec_get_none_preserved a o i) Hok Hmode
           (spec_delete_removes _ mn mx i (eq_sym Hres) H1 H2) Hpost).
Qed.

(* once StoreLogs has returned nil for an entry ... (C01) *)
Theorem acked_entry_survives c pre ls post s k l :
  hist_ok c (pre ++ HOp (OStore ls) :: post) ->
  hs_mode (hist_run c hist_init pre) = Up s ->
  fst (step_model c s (OStore ls)) = ROk ->
  nth_error ls k = Some l ->
  Forall (fun st => ~ touches (l_index l) st) post ->
  match hs_mode (hist_run c hist_init (pre ++ HOp (OStore ls) :: post)) with
  | Up s' => fst (get_log (ss_wal s') (l_index l) (ss_env s')) = RLog l /\
             exists fi la, first_index_op (ss_wal s') = RVal fi /\ last_index_op (ss_wal s') = RVal la /\
                           fi <= l_index l /\ l_index l <= la
  | Down d => exists w e, open_wal c (env_of d) = (OOk w, e)
  end.
Proof.
  intros Hok Hmode Hret Hn Hpost.
  destruct (every_call_matches_spec c pre s _ (hist_ok_pre1 _ _ _ _ Hok) Hmode) as (Hres & _).
  rewrite Hret in Hres.
  destruct (ledger_value_stays c pre _ post s _ (Some l) _ (fun a o => spec_get_preserved a o _ l) Hok Hmode
              (spec_store_get _ ls k l (eq_sym Hres) Hn) Hpost) as (Hled & H).
  destruct (hs_mode (hist_run c hist_init (pre ++ HOp (OStore ls) :: post))) as [s'|d] eqn:Emode; [|exact H].
  split; [exact H|].
  destruct (live_state_is_ledger c _ s' Hok Emode) as (_ & _ & _ & Hfi & Hla & _).
  eexists _, _. split; [exact Hfi|]. split; [exact Hla|].
  unfold spec_get in Hled. unfold spec_first.
  destruct (sl_is_empty _) eqn:Ee; [discriminate|]. cbn [orb] in Hled.
  destruct ((l_index l <? _) || (_ <? l_index l)) eqn:E; [discriminate|lia].
Qed.

(* Close+Open without a crash also leaves an exact directory (C13) *)
Theorem reopen_dir_exact c steps s :
  hist_ok c (steps ++ [HOp OReopen]) -> hs_mode (hist_run c hist_init steps) = Up s ->
  fst (step_model c s OReopen) = ROk /\
  dir_exact (e_disk (ss_env (snd (step_model c s OReopen)))) = true.
Proof.
  intros Hok Hmode. pose proof (hist_ok_prefix _ _ _ Hok) as Hok0.
  pose proof (hist_invariant c steps Hok0) as (_ & Hga & _ & HM). rewrite Hmode in HM.
  destruct HM as (Hma & HL & Hf & Hsp & Hnf). destruct Hok as (Hc & _ & Hshort).
  assert (Hb : 2 * N.of_nat (length steps) + 1 < two64).
  { unfold short_enough in Hshort. rewrite app_length in Hshort. cbn [length] in Hshort. unfold two64. lia. }
  pose proof HL as (_ & _ & HD & HN & _).
  destruct (open_wal_ok c _ (ss_env s) Hc Hf HD HN Hb) as (w & e' & Ho & _ & _ & Hde).
  cbn [step_model]. rewrite Ho. cbn [fst snd ss_env]. auto.
Qed.
