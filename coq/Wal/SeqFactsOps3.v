(* SeqFactsOps3.v -- GetLog, FirstIndex/LastIndex, the stable store, and
   Close+Open on invariant states. *)
From RW Require Import Base.Bytes Base.BytesFacts Fmt.Codec Fmt.CodecFacts Fmt.Frame
  Wal.Model Wal.Spec Wal.SeqInv Wal.ModelFacts Wal.SeqFactsBase Wal.SeqFactsAbs Wal.SeqFactsTxn Wal.SeqFactsOps1
  Wal.SeqFactsOps2 Gen.Constants Base.LiaSetup.
Open Scope N_scope.

Definition raw_get (w : wal) (idx : N) (d : disk) : option log :=
  let from_tail :=
      match st_tail w, tail_info (st_segs w) with
      | Some t, Some ti => if si_min ti <=? idx then tail_lookup t idx d else None
      | Some t, None => tail_lookup t idx d
      | None, _ => None
      end in
  match from_tail with
  | Some l => Some l
  | None =>
      match find_segment (st_segs w) idx with
      | None => None
      | Some s =>
          let is_tail := match st_tail w with
                         | Some t => fname_eqb (ws_name t) (name_of s)
                         | None => false
                         end in
          if is_tail
          then match st_tail w with Some t => tail_lookup t idx d | None => None end
          else seg_read (name_of s) (si_base s) idx d
      end
  end.

Lemma get_log_raw w idx e : st_closed w = false ->
  get_log w idx e = match raw_get w idx (e_disk e) with
                    | Some l => (RLog (codec_view l), inc_read e (enc_len l) true)
                    | None => (RErrNotFound, inc_read e 0 false)
                    end.
Proof.
  intros Hcl. unfold get_log, raw_get. rewrite Hcl. cbv zeta.
  destruct (match st_tail w with
            | Some t => match tail_info (st_segs w) with
                        | Some ti => if si_min ti <=? idx then tail_lookup t idx (e_disk e) else None
                        | None => tail_lookup t idx (e_disk e) end
            | None => None end); [reflexivity|].
  destruct (find_segment (st_segs w) idx); [|reflexivity].
  destruct (match st_tail w with Some t => fname_eqb (ws_name t) (name_of s) | None => false end); reflexivity.
Qed.

Lemma seg_read_ents n b idx d : seg_read n b idx d = nth_error (file_ents n d) (N.to_nat (idx - b)).
Proof.
  unfold seg_read, file_ents. destruct (lookup n (dk_files d)); [reflexivity|].
  destruct (N.to_nat (idx - b)); reflexivity.
Qed.

(* an entry read from the file of a listed segment inside its visible range
   is the entry the abstract log has at that index *)
Lemma seg_lookup_abs c w d ss t tw s idx l :
  WInvS c w d ss t tw -> In s (ss ++ [t]) ->
  si_min s <= idx -> idx <= emax (ws_commit_idx tw) s ->
  nth_error (file_ents (name_of s) d) (N.to_nat (idx - si_base s)) = Some l ->
  spec_get (abs w d) idx = Some l /\ log_ok l.
Proof.
  intros HI Hs Hmin Hmax Hnth.
  destruct (abs_props _ _ _ _ _ _ HI) as (_ & _ & _ & Haok & _).
  assert (Hcons := abs_consecutive _ _ _ _ _ _ HI). assert (Hents := abs_ents _ _ _ _ _ _ HI).
  destruct (listed_seg _ _ _ _ _ _ (winv_sealed HI) (winv_tail_ok HI) Hs) as (Hb1 & Hb2 & (f & Hf & Hflen) & _).
  rewrite (file_ents_ok _ _ _ Hf) in Hnth.
  assert (Hidx : l_index l = idx).
  { destruct Hf as (_ & _ & Hc & _). rewrite (consecutive_nth _ _ _ _ Hc Hnth). lia. }
  assert (Hin : In l (sl_ents (abs w d))).
  { rewrite Hents. apply in_flat_map. exists s. split; [exact Hs|].
    rewrite seg_visible_eq by lia. rewrite (file_ents_ok _ _ _ Hf).
    apply (nth_error_In _ (N.to_nat (idx - si_min s))).
    rewrite nth_error_firstn by lia. rewrite nth_error_skipn. rewrite <- Hnth. f_equal. lia. }
  split; [apply (spec_get_iff _ _ _ Hcons); split; assumption|].
  rewrite Forall_forall in Haok. apply Haok. exact Hin.
Qed.

(* every index of the abstract log lies in the visible range of a listed segment *)
Lemma covering c w d ss t tw idx l :
  WInvS c w d ss t tw -> spec_get (abs w d) idx = Some l ->
  exists s, In s (ss ++ [t]) /\ si_min s <= idx /\ idx <= emax (ws_commit_idx tw) s.
Proof.
  intros HI Hget. apply (spec_get_iff _ _ _ (abs_consecutive _ _ _ _ _ _ HI)) in Hget.
  destruct Hget as [Hin Hidx]. rewrite (abs_ents _ _ _ _ _ _ HI) in Hin.
  apply in_flat_map in Hin. destruct Hin as (s & Hs & Hl). exists s. split; [exact Hs|].
  apply In_nth_error in Hl. destruct Hl as [k Hk].
  assert (Hklen : (k < length (seg_visible (ws_commit_idx tw) d s))%nat) by (apply nth_error_Some; congruence).
  destruct (listed_seg _ _ _ _ _ _ (winv_sealed HI) (winv_tail_ok HI) Hs) as (_ & _ & _ & Hlen & Hc).
  assert (Hik := consecutive_nth _ _ _ _ Hc Hk). unfold llen in Hlen. lia.
Qed.

Lemma tail_lookup_some c d t tw idx l :
  tail_ok c d t tw -> tail_lookup tw idx d = Some l ->
  si_base t <= idx /\ idx <= ws_commit_idx tw /\
  nth_error (file_ents (name_of t) d) (N.to_nat (idx - si_base t)) = Some l.
Proof.
  intros HT. pose proof (tail_ok_name HT) as Hname. pose proof (tail_ok_base HT) as Hbase.
  unfold tail_lookup. rewrite Hname, Hbase.
  destruct (N.ltb_spec idx (si_base t)); cbn [orb]; [discriminate|].
  destruct (idx <? ws_min tw); cbn [orb]; [discriminate|].
  destruct (N.ltb_spec (ws_commit_idx tw) idx); [discriminate|].
  rewrite seg_read_ents. auto.
Qed.

Lemma tail_lookup_hit c d t tw idx :
  tail_ok c d t tw -> si_min t <= idx -> idx <= ws_commit_idx tw ->
  tail_lookup tw idx d = nth_error (file_ents (name_of t) d) (N.to_nat (idx - si_base t)).
Proof.
  intros HT Hm Hc. pose proof (tail_ok_name HT) as Hname. pose proof (tail_ok_base HT) as Hbase.
  pose proof (tail_ok_range HT) as Hr. pose proof (tail_ok_min HT) as Hwmin.
  unfold tail_lookup. rewrite Hname, Hbase.
  destruct (N.ltb_spec idx (si_base t)); [lia|]. destruct (N.ltb_spec idx (ws_min tw)); [lia|].
  destruct (N.ltb_spec (ws_commit_idx tw) idx); [lia|]. cbn [orb]. apply seg_read_ents.
Qed.

Lemma raw_get_sound c w d ss t tw idx l :
  WInvS c w d ss t tw -> raw_get w idx d = Some l ->
  exists s, In s (ss ++ [t]) /\ si_min s <= idx /\ idx <= emax (ws_commit_idx tw) s /\
            nth_error (file_ents (name_of s) d) (N.to_nat (idx - si_base s)) = Some l.
Proof.
  intros (_ & _ & _ & _ & _ & Hsegs & Htail & HS & HT & HL & _).
  unfold raw_get. rewrite Hsegs, Htail, tail_info_snoc. cbv zeta.
  pose proof (tail_ok_unsealed HT) as Hu.
  assert (Hlt := linked_base_lt ss t (Forall_impl _ (sealed_srange c d) HS) HL).
  assert (Htail_case : forall l0, si_min t <= idx -> tail_lookup tw idx d = Some l0 ->
            exists s, In s (ss ++ [t]) /\ si_min s <= idx /\ idx <= emax (ws_commit_idx tw) s /\
                      nth_error (file_ents (name_of s) d) (N.to_nat (idx - si_base s)) = Some l0).
  { intros l0 Hm Hl. destruct (tail_lookup_some _ _ _ _ _ _ HT Hl) as (H1 & H2 & H3).
    exists t. rewrite (emax_unsealed _ _ Hu). repeat split; auto. apply in_or_app. right. left. reflexivity. }
  destruct (N.leb_spec (si_min t) idx) as [Hm|Hm].
  - destruct (tail_lookup tw idx d) as [l0|] eqn:Etl.
    + intros H; inversion H; subst. apply Htail_case; assumption.
    + destruct (find_segment (ss ++ [t]) idx) as [s|] eqn:Efs; [|discriminate].
      destruct (find_segment_sound _ _ _ Efs) as (Hin & Hmin & Hmax).
      pose proof (tail_ok_name HT) as Hname. rewrite Hname.
      destruct (fname_eqb (name_of t) (name_of s)) eqn:En; [discriminate|].
      intros Hr. rewrite seg_read_ents in Hr.
      apply in_app_or in Hin. destruct Hin as [Hin|[<-|[]]]; [|rewrite fname_eqb_refl in En; discriminate].
      exists s. rewrite Forall_forall in HS. destruct (HS s Hin) as (Hsl & _ & Hb1 & Hb2 & Hb3 & _).
      rewrite (emax_sealed _ _ Hsl). repeat split; auto; [apply in_or_app; left; exact Hin|lia].
  - destruct (find_segment (ss ++ [t]) idx) as [s|] eqn:Efs; [|discriminate].
    destruct (find_segment_sound _ _ _ Efs) as (Hin & Hmin & Hmax).
    pose proof (tail_ok_name HT) as Hname. rewrite Hname.
    apply in_app_or in Hin. destruct Hin as [Hin|[<-|[]]]; [|lia].
    rewrite Forall_forall in HS, Hlt. destruct (HS s Hin) as (Hsl & _ & Hb1 & Hb2 & Hb3 & _). specialize (Hlt s Hin).
    rewrite (fname_neq_base (name_of t) (name_of s)) by (cbn [name_of fst]; lia).
    intros Hr. rewrite seg_read_ents in Hr. exists s. rewrite (emax_sealed _ _ Hsl).
    repeat split; auto; [apply in_or_app; left; exact Hin|lia].
Qed.

Lemma raw_get_complete c w d ss t tw idx s :
  WInvS c w d ss t tw -> In s (ss ++ [t]) -> si_min s <= idx -> idx <= emax (ws_commit_idx tw) s ->
  raw_get w idx d = nth_error (file_ents (name_of s) d) (N.to_nat (idx - si_base s)) /\
  raw_get w idx d <> None.
Proof.
  intros (_ & _ & _ & _ & _ & Hsegs & Htail & HS & HT & HL & _) Hs Hmin Hmax.
  destruct (listed_seg _ _ _ _ _ _ HS HT Hs) as (Hb1 & Hb2 & (f & Hf & Hflen) & _).
  assert (Hsome : nth_error (file_ents (name_of s) d) (N.to_nat (idx - si_base s)) <> None).
  { rewrite (file_ents_ok _ _ _ Hf). apply nth_error_Some. unfold llen in Hflen. lia. }
  assert (Heq : raw_get w idx d = nth_error (file_ents (name_of s) d) (N.to_nat (idx - si_base s)));
    [|split; [exact Heq|rewrite Heq; exact Hsome]].
  unfold raw_get. rewrite Hsegs, Htail, tail_info_snoc. cbv zeta.
  pose proof (tail_ok_unsealed HT) as Hu.
  assert (Hlt := linked_lt ss t (Forall_impl _ (sealed_srange c d) HS) HL).
  apply in_app_or in Hs. destruct Hs as [Hs|[<-|[]]].
  - (* a sealed segment *)
    rewrite Forall_forall in Hlt. assert (Hlt_s := Hlt s Hs).
    assert (HSs : sealed_ok c d s) by (rewrite Forall_forall in HS; apply HS; exact Hs).
    assert (Hsl : si_sealed s = true) by apply HSs. rewrite (emax_sealed _ _ Hsl) in Hmax.
    assert (Hft : (if si_min t <=? idx then tail_lookup tw idx d else None) = None).
    { destruct (si_min t <=? idx); [|reflexivity]. unfold tail_lookup.
      pose proof (tail_ok_base HT) as Hbase. rewrite Hbase.
      destruct (N.ltb_spec idx (si_base t)); [reflexivity|lia]. }
    rewrite Hft.
    apply in_split in Hs. destruct Hs as (pre & post & Ess).
    assert (Efs : find_segment (ss ++ [t]) idx = Some s).
    { assert (Hx : exists x rest, post ++ [t] = x :: rest) by (destruct post; cbn [app]; eauto).
      destruct Hx as (x & rest & Ex). rewrite Ess, <- app_assoc. cbn [app]. rewrite Ex.
      assert (Hl2 : linked (pre ++ s :: x :: rest)).
      { rewrite <- Ex. replace (pre ++ s :: post ++ [t]) with (ss ++ [t]); [exact HL|].
        rewrite Ess, <- app_assoc. reflexivity. }
      destruct (linked_app_inv _ _ _ Hl2) as [Hl3 Hl4]. destruct Hl4 as (E1 & _).
      apply find_segment_complete; try lia.
      apply linked_base_lt; [|exact Hl3].
      rewrite Ess in HS. apply Forall_app in HS. destruct HS as [HS _].
      eapply Forall_impl; [|exact HS]. apply sealed_srange. }
    rewrite Efs. pose proof (tail_ok_name HT) as Hname. rewrite Hname.
    rewrite (fname_neq_base (name_of t) (name_of s)) by (cbn [name_of fst]; lia).
    apply seg_read_ents.
  - (* the tail *)
    rewrite (emax_unsealed _ _ Hu) in Hmax.
    destruct (N.leb_spec (si_min t) idx); [|lia].
    rewrite (tail_lookup_hit _ _ _ _ _ HT Hmin Hmax).
    destruct (nth_error (file_ents (name_of t) d) (N.to_nat (idx - si_base t))); [reflexivity|congruence].
Qed.

(* what GetLog reads is what the abstract log holds *)
Lemma raw_get_spec c w d ss t tw idx :
  WInvS c w d ss t tw -> raw_get w idx d = spec_get (abs w d) idx.
Proof.
  intros HI. destruct (raw_get w idx d) as [l|] eqn:Er.
  - destruct (raw_get_sound _ _ _ _ _ _ _ _ HI Er) as (s & Hs & Hmin & Hmax & Hnth).
    destruct (seg_lookup_abs _ _ _ _ _ _ _ _ _ HI Hs Hmin Hmax Hnth) as [Hget _]. symmetry. exact Hget.
  - destruct (spec_get (abs w d) idx) as [l|] eqn:Eg; [|reflexivity]. exfalso.
    destruct (covering _ _ _ _ _ _ _ _ HI Eg) as (s & Hs & Hmin & Hmax).
    destruct (raw_get_complete _ _ _ _ _ _ _ _ HI Hs Hmin Hmax) as [_ Hnn]. congruence.
Qed.

Lemma get_log_ok c w e ss t tw idx :
  WInvS c w (e_disk e) ss t tw ->
  exists r e',
    get_log w idx e = (r, e') /\ e_disk e' = e_disk e /\ e_fault e' = e_fault e /\
    r = match spec_get (abs w (e_disk e)) idx with Some l => RLog l | None => RErrNotFound end /\
    e' = match raw_get w idx (e_disk e) with
         | Some l => inc_read e (enc_len l) true
         | None => inc_read e 0 false
         end.
Proof.
  intros HI. pose proof (winv_closed HI) as Hcl.
  rewrite (get_log_raw _ _ _ Hcl), <- (raw_get_spec _ _ _ _ _ _ idx HI).
  destruct (raw_get w idx (e_disk e)) as [l|] eqn:Er; [|eexists _, _; repeat split; reflexivity].
  destruct (raw_get_sound _ _ _ _ _ _ _ _ HI Er) as (s & Hs & Hmin & Hmax & Hnth).
  destruct (seg_lookup_abs _ _ _ _ _ _ _ _ _ HI Hs Hmin Hmax Hnth) as [_ Hok].
  destruct (log_ok_codec l Hok) as [Hcv _]. rewrite Hcv.
  eexists _, _. repeat split; reflexivity.
Qed.

Lemma first_last_ok c w d ss t tw : WInvS c w d ss t tw ->
  first_index_op w = RVal (spec_first (abs w d)) /\ last_index_op w = RVal (spec_last (abs w d)).
Proof.
  intros HI. destruct (abs_props _ _ _ _ _ _ HI) as (Hsf & Hsl & _).
  pose proof (winv_closed HI) as Hcl.
  unfold first_index_op, last_index_op. rewrite Hcl, Hsf, Hsl. split; reflexivity.
Qed.

Lemma set_stable_ok c w e ss t tw k v n :
  e_fault e = None -> WInvS c w (e_disk e) ss t tw ->
  exists r e',
    set_stable w k v n e = (r, e') /\ e_fault e' = None /\ WInvS c w (e_disk e') ss t tw /\
    abs w (e_disk e') = abs w (e_disk e) /\
    dk_files (e_disk e') = dk_files (e_disk e) /\ dk_meta (e_disk e') = dk_meta (e_disk e) /\
    (r, dk_stable (e_disk e')) =
      (if key_ok k then (ROk, kv_set k v (dk_stable (e_disk e)))
       else (if n then ROk else RErrOther, dk_stable (e_disk e))) /\
    e_m e' = e_m (inc_stable e true).
Proof.
  intros He HI. pose proof (winv_closed HI) as Hcl.
  unfold set_stable. rewrite Hcl. destruct (key_ok k); cbn [negb].
  - assert (He0 : e_fault (inc_stable e true) = None) by exact He.
    rewrite (io_ok _ _ He0). eexists _, _. split; [reflexivity|]. split; [reflexivity|].
    pose proof (winv_inited HI) as Hini.
    destruct (WInvS_frame c w (e_disk e) (e_disk (io_post (ASetStable k v) (inc_stable e true))) ss t tw HI)
      as [G1 G2]; try reflexivity.
    { cbn. rewrite Hini. reflexivity. }
    { intros m Hm. exact Hm. }
    split; [exact G1|]. split; [exact G2|]. repeat split; reflexivity.
  - eexists _, _. split; [reflexivity|]. split; [exact He|]. split; [exact HI|]. repeat split; reflexivity.
Qed.

Lemma get_stable_ok c w e ss t tw k :
  WInvS c w (e_disk e) ss t tw ->
  get_stable w k e = (RBytes (kv_get k (dk_stable (e_disk e))), inc_stable e false).
Proof. intros HI. pose proof (winv_closed HI) as Hcl. unfold get_stable. rewrite Hcl. reflexivity. Qed.

Lemma open_segs_sealed c e : forall ss acc rest,
  Forall (sealed_ok c (e_disk e)) ss ->
  open_segs c (ss ++ rest) acc e = open_segs c rest (rev ss ++ acc) e.
Proof.
  induction ss as [|s ss IH]; intros acc rest HS; [reflexivity|].
  inversion HS as [|? ? Hs HS']; subst. cbn [app open_segs].
  destruct Hs as (H1 & H2 & _ & _ & _ & _ & f & (Hl & Hp & _) & He & _).
  rewrite H2, N.eqb_refl, H1. cbn [negb]. rewrite Hl.
  unfold cur_end. rewrite Hp. destruct (N.eqb_spec (df_end f) 0); [contradiction|].
  rewrite IH by exact HS'. cbn [rev]. rewrite <- app_assoc. reflexivity.
Qed.

(* the writer RecoverTail builds from the tail file *)
Definition recovered (t : seginfo) (f : dfile) : wseg :=
  {| ws_name := name_of t; ws_base := si_base t; ws_min := si_min t; ws_limit := si_size_limit t;
     ws_n := llen (cur_ents f); ws_off := cur_end f; ws_hdr := (cur_end f =? 0);
     ws_index_start := cur_seal f;
     ws_commit_idx := if llen (cur_ents f) =? 0 then 0 else si_base t + llen (cur_ents f) - 1 |}.

Lemma recovered_ok c d t tw : tail_ok c d t tw ->
  exists f, lookup (name_of t) (dk_files d) = Some f /\
    tail_ok c d t (recovered t f) /\ ws_commit_idx (recovered t f) = ws_commit_idx tw /\
    ws_index_start (recovered t f) = ws_index_start tw /\ ws_n (recovered t f) = ws_n tw.
Proof.
  intros (Hunsl & Hcodec & Hslim & Hb1 & Hbmin & Hminn & Hn64 & Hname & Hbase & Hlimit & Hwmin & Hcommit
          & Hhdr & Hn8 & Hoff32 & Hfit & Hnonempty
          & f & Hf & Hn & He & Hs).
  exists f. destruct Hf as (Hl & Hp & Hc & Hok). split; [exact Hl|].
  unfold recovered, cur_ents, cur_end, cur_seal. rewrite Hp, Hn, He, Hs.
  cbn [ws_commit_idx ws_index_start ws_n]. split; [|auto].
  unfold tail_ok. cbn [ws_n ws_name ws_base ws_min ws_limit ws_off ws_hdr ws_index_start ws_commit_idx].
  repeat split; auto; try lia.
  exists f. repeat split; auto.
Qed.

Lemma garbage_not_listed segs on_disk s n :
  In s segs -> In n (filter (fun n => negb (listed segs n)) on_disk) -> fname_eqb (name_of s) n = false.
Proof.
  intros Hs Hn. apply filter_In in Hn. destruct Hn as [_ Hn]. apply negb_true_iff in Hn.
  destruct (fname_eqb (name_of s) n) eqn:E; [|reflexivity].
  assert (Hl : listed segs n = true) by (apply existsb_exists; exists s; split; assumption). congruence.
Qed.

Lemma cfg_codec_check c : cfg_ok c ->
  negb (FirstExternalCodecID <=? c_codec c) && negb (c_codec c =? BinaryCodecID) = false.
Proof.
  intros ([H|H] & _).
  - rewrite H, N.eqb_refl. apply andb_false_r.
  - destruct (N.leb_spec FirstExternalCodecID (c_codec c)); [reflexivity|lia].
Qed.

Lemma reopen_ok c w e ss t tw :
  cfg_ok c -> e_fault e = None -> WInvS c w (e_disk e) ss t tw -> st_next_id w + 1 < two64 ->
  exists w' e' ss' t' tw',
    open_wal c e = (OOk w', e') /\ e_fault e' = None /\ WInvS c w' (e_disk e') ss' t' tw' /\
    ws_index_start tw' = 0 /\ abs w' (e_disk e') = abs w (e_disk e) /\
    dk_stable (e_disk e') = dk_stable (e_disk e) /\
    st_next_id w <= st_next_id w' /\ st_next_id w' <= st_next_id w + 1 /\ e_m e' = e_m e.
Proof.
  intros Hc He HI Hnid. assert (HI0 := HI).
  destruct HI as (Hcl & Hfa & Hmeta & Hini & Hfr & Hsegs & Htail & HS & HT & HL & Hro).
  (* no crash: Open reads the disk the running WAL left, with metadata persistent w.  It walks the same
     ss ++ [t], and RecoverTail's writer agrees with tw in all the invariant and abs look at *)
  destruct (recovered_ok _ _ _ _ HT) as (f & Hlk & HTr & Hrc & Hri & Hrn).
  unfold open_wal. rewrite (cfg_codec_check c Hc), Hini. cbn [negb]. unfold armed. rewrite He. cbn [andb]. rewrite Hmeta. cbv zeta.
  cbn [persistent ps_segs ps_next_id]. rewrite Hsegs.
  rewrite (open_segs_sealed c e ss [] [t] HS). cbn [open_segs].
  pose proof (tail_ok_codec HT) as Hcod. pose proof (tail_ok_unsealed HT) as Hu.
  rewrite (proj2 (N.eqb_eq _ _) Hcod), Hu. cbn [negb]. unfold seg_recover. rewrite Hlk. cbv zeta.
  fold (recovered t f). rewrite app_nil_r, rev_append_rev, rev_involutive.
  set (garbage := filter (fun n => negb (listed (ss ++ [t]) n)) (map fst (dk_files (e_disk e)))).
  assert (Hgarb : forall s n, In s (ss ++ [t]) -> In n garbage -> fname_eqb (name_of s) n = false).
  { intros s n Hs Hn. eapply garbage_not_listed; eauto. }
  destruct (N.ltb_spec 0 (ws_index_start (recovered t f))) as [Hpend|Hpend].
  - (* the file is sealed, the metadata not yet: the sealing append returned before the background
       rotation ran, and Open does it (wal.go: `if sealed`, then `!recoveredTail`).  The log is the same:
       seal_new_tail at the last commit cuts nothing (abs_upto_last) *)
    fold (seal_info t (ws_commit_idx (recovered t f)) (ws_index_start (recovered t f))).
    rewrite Hrc. set (istart := ws_index_start (recovered t f)).
    set (t' := seal_info t (ws_commit_idx tw) istart).
    rewrite tail_info_snoc.
    assert (Hn : 0 < ws_n tw) by (apply (tail_ok_seal HT); lia).
    destruct (tail_commit _ _ _ _ HT) as [Hci Hb1].
    assert (Hci' : ws_commit_idx tw = si_base t + ws_n tw - 1).
    { rewrite Hci. destruct (N.eqb_spec (ws_n tw) 0); [lia|reflexivity]. }
    pose proof (tail_ok_range HT) as Hr.
    assert (Hlt := linked_base_lt ss t (Forall_impl _ (sealed_srange c (e_disk e)) HS) HL).
    change (si_max t') with (ws_commit_idx tw).
    rewrite !mod64_small by lia.
    set (si := new_segment c (st_next_id w) (ws_commit_idx tw + 1)).
    rewrite seg_set_add.
    2:{ apply Forall_app. split.
        - eapply Forall_impl; [|exact Hlt]. intros s Hs. cbn [si new_segment si_base] in *. lia.
        - constructor; [|constructor]. cbn [si new_segment si_base t' seal_info]. lia. }
    rewrite (io_ok _ _ He). cbn [negb].
    assert (Hnone : lookup (name_of si) (dk_files (e_disk e)) = None) by (apply Hfr; cbn; lia).
    rewrite seg_create_ok; [|reflexivity|cbn [si new_segment si_base]; lia|exact Hnone].
    set (w0 := {| st_next_id := st_next_id w; st_segs := []; st_tail := None; st_rotate := None;
                  st_failed := false; st_closed := false |}).
    destruct (seal_new_tail c w w0 e ss t tw ss t [] (ws_commit_idx tw) istart garbage
                Hc He HI0 eq_refl Hnid eq_refl eq_refl eq_refl eq_refl)
      as (_ & _ & _ & G3 & G1 & G4 & G5 & G2).
    { lia. }
    { rewrite (emax_unsealed _ _ Hu). lia. }
    { intros n Hn'. split; [|intros s Hs; apply Hgarb; assumption].
      apply filter_In in Hn'. apply in_lookup_not_none, Hn'. }
    eexists _, _, _, _, _. split; [reflexivity|]. split; [exact G3|]. split; [exact G1|].
    split; [reflexivity|]. split; [|split; [exact G4|]].
    2:{ cbn [wal_with st_next_id w0]. split; [lia|]. split; [lia|exact G5]. }
    etransitivity; [exact G2|].
    assert (HLc : last_index (st_segs w) (st_tail w) = ws_commit_idx tw).
    { rewrite Hsegs, Htail, (last_index_inv c (e_disk e) ss _ _ HT), Hci'.
      destruct (N.eqb_spec (ws_n tw) 0); [lia|reflexivity]. }
    rewrite <- HLc. apply (abs_upto_last _ _ _ _ _ _ HI0). lia.
  - (* the tail is recovered as it was *)
    assert (His : ws_index_start tw = 0) by lia.
    rewrite rev_append_rev, rev_involutive.
    set (w1 := {| st_next_id := st_next_id w; st_segs := ss ++ [t]; st_tail := Some (recovered t f);
                  st_rotate := None; st_failed := false; st_closed := false |}).
    assert (HI1 : WInvS c w1 (e_disk e) ss t (recovered t f)).
    { apply WInvS_intro; unfold w1; cbn [st_closed st_failed st_next_id st_segs st_tail st_rotate]; auto.
      - rewrite Hmeta. unfold persistent. rewrite Hsegs. reflexivity.
      - rewrite Hri, His. reflexivity. }
    destruct (WInvS_delete_files c w1 e ss t _ garbage HI1 He Hgarb) as (G1 & G2 & G3 & G4 & G5).
    eexists _, _, _, _, _. split; [reflexivity|]. split; [exact G3|]. split; [exact G1|].
    split; [lia|]. split; [|split; [exact G4|cbn [w1 st_next_id]; repeat split; try lia; exact G5]].
    rewrite G2. unfold abs, first_index, w1. cbn [st_segs st_tail tail_last].
    rewrite Hsegs, Htail. cbn [tail_last]. rewrite Hrc. reflexivity.
Qed.
