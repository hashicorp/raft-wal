(* CrashFacts6.v -- the reading of a well-formed segment list as a contiguous
   log: lengths, positions, FirstIndex/LastIndex, segment lookup. *)
From RW Require Import Base.Bytes Base.BytesFacts Fmt.Codec Fmt.CodecFacts Fmt.Frame Wal.Model Wal.Spec Wal.Hist
  Wal.CrashInv Wal.ModelFacts Wal.CrashFacts0 Wal.CrashFacts1 Wal.CrashFacts2 Wal.CrashFacts3 Wal.CrashFacts4 Wal.CrashFacts5
  Gen.Constants Base.LiaSetup.
Open Scope N_scope.

Lemma seg_visible_sealed_facts d s :
  sealed_ok d s -> 1 <= si_base s -> si_base s <= si_min s ->
  llen (seg_visible 0 d s) = si_max s - si_min s + 1 /\
  forall i, si_min s <= i -> i <= si_max s ->
    nth_error (seg_visible 0 d s) (N.to_nat (i - si_min s)) =
    nth_error (file_ents (name_of s) d) (N.to_nat (i - si_base s)).
Proof.
  intros (Hse & Hmm & f & Hf & Hd & Hp & He & Hlen) Hb Hbm.
  unfold seg_visible. rewrite Hse.
  destruct ((si_max s =? 0) || (si_max s <? si_min s)) eqn:E; [lia|].
  assert (Hfe : file_ents (name_of s) d = df_ents f).
  { unfold file_ents. rewrite Hf. unfold cur_ents. rewrite Hp. reflexivity. }
  rewrite Hfe. split.
  - unfold llen. rewrite firstn_length, skipn_length. unfold llen in Hlen. lia.
  - intros i H1 H2. rewrite nth_error_firstn by lia. rewrite nth_error_skipn. f_equal. lia.
Qed.

Lemma sealed_es_cons d s S : sealed_es d (s :: S) = seg_visible 0 d s ++ sealed_es d S.
Proof. reflexivity. Qed.

(* the part of [seg_wf] that the length of a reading depends on *)
Definition swf (s : seginfo) : Prop := 1 <= si_base s /\ si_base s <= si_min s.

Lemma sealed_es_len d S t :
  Forall (sealed_ok d) S -> Forall swf S -> linked (S ++ [t]) -> S <> [] ->
  llen (sealed_es d S) + hd_min S t = si_base t.
Proof.
  induction S as [|s S IH]; intros Hso Hw Hl Hne; [congruence|].
  inversion Hso as [|? ? Hs Hso']; subst. inversion Hw as [|? ? Hws Hw']; subst.
  destruct Hws as (Hb & Hbm).
  destruct (seg_visible_sealed_facts d s Hs Hb Hbm) as (Hlen & _).
  pose proof Hs as (_ & Hmm & _).
  rewrite sealed_es_cons, llen_app, Hlen. unfold hd_min. cbn [hd].
  destruct S as [|s' S'].
  - cbn in Hl. unfold sealed_es. cbn [flat_map]. change (llen (@nil log)) with 0. lia.
  - change (linked (s :: s' :: S' ++ [t])) in Hl. rewrite linked_cons2 in Hl. destruct Hl as (H1 & H2 & H3).
    specialize (IH Hso' Hw' H3 ltac:(discriminate)). unfold hd_min in IH. cbn [hd] in IH. lia.
Qed.

Lemma chain_after L : forall a t s,
  linked (a :: L ++ [t]) -> Forall sst L -> In s L -> si_max a < si_min s.
Proof.
  induction L as [|b L IH]; intros a t s Hl Hs Hin; [destruct Hin|].
  change (linked (a :: b :: L ++ [t])) in Hl. rewrite linked_cons2 in Hl. destruct Hl as (L1 & L2 & L3).
  inversion Hs as [|? ? Hb Hs']; subst. unfold sst in Hb.
  destruct Hin as [<-|Hin]; [lia|].
  specialize (IH b t s L3 Hs' Hin). lia.
Qed.

Lemma sealed_swf_sst d S : Forall (sealed_ok d) S -> Forall swf S -> Forall sst S.
Proof.
  induction S as [|x l IHl]; intros A B; [constructor|].
  inversion A as [|? ? Ax A']; inversion B as [|? ? Bx B']; subst. constructor; [|auto].
  destruct Ax as (_ & Hm & _). destruct Bx as (_ & Hbm'). split; assumption.
Qed.

Lemma sealed_es_nth d S t s i X :
  Forall (sealed_ok d) S -> Forall swf S -> linked (S ++ [t]) -> In s S ->
  si_min s <= i -> i <= si_max s ->
  nth_error (sealed_es d S ++ X) (N.to_nat (i - hd_min S t)) =
  nth_error (file_ents (name_of s) d) (N.to_nat (i - si_base s)).
Proof.
  induction S as [|a S IH]; intros Hso Hw Hl Hin H1 H2; [destruct Hin|].
  inversion Hso as [|? ? Hs Hso']; subst. inversion Hw as [|? ? Hws Hw']; subst.
  destruct Hws as (Hb & Hbm).
  destruct (seg_visible_sealed_facts d a Hs Hb Hbm) as (Hlen & Hnth).
  pose proof Hs as (_ & Hmm & _).
  rewrite sealed_es_cons, <- app_assoc. unfold hd_min. cbn [hd].
  destruct Hin as [<-|Hin].
  - rewrite nth_error_app1 by (unfold llen in Hlen; lia). apply Hnth; assumption.
  - pose proof (chain_after S a t s Hl (sealed_swf_sst d S Hso' Hw') Hin) as Haft.
    destruct S as [|s' S']; [destruct Hin|].
    change (linked (a :: s' :: S' ++ [t])) in Hl. rewrite linked_cons2 in Hl. destruct Hl as (L1 & L2 & L3).
    specialize (IH Hso' Hw' L3 Hin H1 H2). unfold hd_min in IH. cbn [hd] in IH.
    rewrite nth_error_app2 by (unfold llen in Hlen; lia). rewrite <- IH. f_equal. unfold llen in Hlen. lia.
Qed.

Lemma list_eq_dec_nil {A} (l : list A) : l = [] \/ l <> [].
Proof. destruct l; [left; reflexivity|right; discriminate]. Qed.

Record lview (c : cfg) (nb : N) (w : wal) (d : disk) (S : list seginfo) (t : seginfo) (f : dfile) (tw : wseg) : Prop := {
  lv_segs : st_segs w = S ++ [t];
  lv_tail : st_tail w = Some tw;
  lv_file : lookup (name_of t) (dk_files d) = Some f;
  lv_pend : df_pend f = None;
  lv_tw : tw_ok t f tw;
  lv_rot : st_rotate w = (if 0 <? df_seal f then Some (df_seal f) else None);
  lv_meta : dk_meta d = Some {| ps_next_id := st_next_id w; ps_segs := S ++ [t] |};
  lv_nid : st_next_id w <= nb;
  lv_ids : forall n g, lookup n (dk_files d) = Some g -> snd n < st_next_id w;
  lv_wf : Forall (seg_wf c (st_next_id w)) (S ++ [t]);
  lv_linked : linked (S ++ [t]);
  lv_sealed : Forall (sealed_ok d) S;
  lv_tok : tail_ok c d t;
  lv_closed : st_closed w = false;
  lv_failed : st_failed w = false;
  lv_dis : DIs c nb d;
  lv_nopend : no_pend d;
  lv_read : dread d = slog_of (hd_min S t)
                        (sealed_es d S ++ skipn (N.to_nat (si_min t - si_base t)) (df_ents f)) }.

Lemma LInv_view c nb w d : LInv c nb w d -> exists S t f tw, lview c nb w d S t f tw.
Proof.
  intros (H1 & H2 & H3 & H4 & H5 & t & f & tw & Ht & Hf & Htw & Hok & Hrot).
  destruct (DIs_segs _ _ _ _ H3 H5) as (S & t' & Hs). cbn [persistent ps_segs] in Hs.
  assert (t' = t). { rewrite Hs, tail_info_app in Ht. inversion Ht. reflexivity. } subst t'.
  destruct (DIs_parts _ _ _ _ _ _ H3 H5 Hs) as (P1 & P2 & P3 & P4 & P5 & P6 & P7).
  cbn [persistent ps_next_id] in *.
  exists S, t, f, tw. constructor; auto.
  - apply (H4 _ _ Hf).
  - rewrite H5. unfold persistent. rewrite Hs. reflexivity.
  - rewrite (dread_decomp c nb d _ S t H3 H5 Hs). unfold tail_es, file_ents. rewrite Hf.
    unfold cur_ents. rewrite (H4 _ _ Hf). reflexivity.
Qed.

Lemma LInv_of_view {c nb w d S t f tw} (V : lview c nb w d S t f tw) : LInv c nb w d.
Proof.
  split; [apply (lv_closed _ _ _ _ _ _ _ _ V)|]. split; [apply (lv_failed _ _ _ _ _ _ _ _ V)|].
  split; [apply (lv_dis _ _ _ _ _ _ _ _ V)|]. split; [apply (lv_nopend _ _ _ _ _ _ _ _ V)|].
  split; [rewrite (lv_meta _ _ _ _ _ _ _ _ V); unfold persistent; rewrite (lv_segs _ _ _ _ _ _ _ _ V); reflexivity|].
  exists t, f, tw. split; [rewrite (lv_segs _ _ _ _ _ _ _ _ V); apply tail_info_app|].
  split; [apply (lv_file _ _ _ _ _ _ _ _ V)|]. split; [apply (lv_tail _ _ _ _ _ _ _ _ V)|].
  split; [apply (lv_tw _ _ _ _ _ _ _ _ V)|apply (lv_rot _ _ _ _ _ _ _ _ V)].
Qed.

Lemma wf_swf c nid S : Forall (seg_wf c nid) S -> Forall swf S.
Proof. apply Forall_impl. intros s (_ & _ & H1 & _ & H2 & _). split; assumption. Qed.

(* the entries a live state reads, with the tail's file f given instead of looked up *)
Definition lv_es (d : disk) (S : list seginfo) (t : seginfo) (f : dfile) : list log :=
  sealed_es d S ++ skipn (N.to_nat (si_min t - si_base t)) (df_ents f).

Lemma lv_twf {c nb w d S t f tw} (V : lview c nb w d S t f tw) : seg_wf c (st_next_id w) t.
  Proof. pose proof (lv_wf _ _ _ _ _ _ _ _ V) as H. rewrite Forall_forall in H. apply H. apply in_or_app; right; left; reflexivity. Qed.

Lemma lv_Swf {c nb w d S t f tw} (V : lview c nb w d S t f tw) : Forall swf S.
  Proof. pose proof (lv_wf _ _ _ _ _ _ _ _ V) as H. apply Forall_app in H. eapply wf_swf. apply H. Qed.

Lemma lv_min_cond {c nb w d S t f tw} (V : lview c nb w d S t f tw) :
    if llen (df_ents f) =? 0 then si_min t = si_base t else si_min t <= si_base t + llen (df_ents f) - 1.
  Proof.
    pose proof (lv_tok _ _ _ _ _ _ _ _ V) as (_ & H). rewrite (lv_file _ _ _ _ _ _ _ _ V) in H. apply H.
  Qed.

(* the tail file of a live state: its sizes, and no uint64 wrap of its last index *)
Lemma lv_fsz {c nb w d S t f tw} (V : lview c nb w d S t f tw) :
  fsz_ok (c_seg_size c) (df_ents f) (df_end f) (df_seal f) /\ si_base t + llen (df_ents f) < two64.
Proof.
  pose proof (lv_tok _ _ _ _ _ _ _ _ V) as (_ & H). rewrite (lv_file _ _ _ _ _ _ _ _ V) in H.
  destruct H as (Hz & _ & _ & _ & _ & Hb). unfold cur_ents in Hb. rewrite (lv_pend _ _ _ _ _ _ _ _ V) in Hb. auto.
Qed.

Lemma lv_seal_nonempty {c nb w d S t f tw} (V : lview c nb w d S t f tw) :
  df_seal f <> 0 -> 0 < llen (df_ents f) /\ tl_of (si_base t) (df_ents f) = si_base t + llen (df_ents f) - 1.
Proof.
  intros Hse. destruct (lv_fsz V) as ((_ & _ & _ & _ & Hne) & _). apply Hne, llen_pos in Hse.
  unfold tl_of. destruct (llen (df_ents f) =? 0) eqn:Z; [lia|auto].
Qed.

Lemma lv_rot_none {c nb w d S t f tw} (V : lview c nb w d S t f tw) : st_rotate w = None -> df_seal f = 0.
Proof.
  intros Hrot. pose proof (lv_rot _ _ _ _ _ _ _ _ V) as Hr. rewrite Hrot in Hr.
  destruct (0 <? df_seal f) eqn:E; [discriminate|lia].
Qed.

Lemma lv_hd_min_lt {c nb w d S t f tw} (V : lview c nb w d S t f tw) : S <> [] -> hd_min S t < si_base t /\ si_min t = si_base t.
  Proof.
    intros Hne. pose proof (lv_linked _ _ _ _ _ _ _ _ V) as Hl. pose proof (lv_sealed _ _ _ _ _ _ _ _ V) as Hso.
    pose proof (lv_Swf V) as Hw.
    pose proof (linked_app_lt S t Hl (sealed_swf_sst d S Hso Hw)) as Hlt.
    destruct S as [|s S']; [congruence|]. unfold hd_min. cbn [hd].
    inversion Hlt as [|? ? Hs _]; subst. inversion Hso as [|? ? (_ & Hmm & _) _]; subst.
    split; [lia|].
    clear - Hl. revert s Hl. induction S' as [|y S'' IH]; intros s Hl.
    - cbn in Hl. tauto.
    - change (linked (s :: y :: S'' ++ [t])) in Hl. rewrite linked_cons2 in Hl. destruct Hl as (_ & _ & Hl). eapply IH; eauto.
  Qed.

Lemma lv_len {c nb w d S t f tw} (V : lview c nb w d S t f tw) :
  llen (lv_es d S t f) + hd_min S t = si_base t + llen (df_ents f).
Proof.
  unfold lv_es. rewrite llen_app.
  pose proof (lv_min_cond V) as Hmc. pose proof (lv_twf V) as (_ & _ & Hb1 & _ & Hbm & _).
  assert (Hsk : llen (skipn (N.to_nat (si_min t - si_base t)) (df_ents f)) + si_min t = si_base t + llen (df_ents f)).
  { unfold llen. rewrite skipn_length. unfold llen in Hmc.
    destruct (N.of_nat (length (df_ents f)) =? 0) eqn:Z; lia. }
  destruct (list_eq_dec_nil S) as [ES|Hne].
  - subst S. unfold sealed_es, hd_min. cbn [flat_map hd]. change (llen (@nil log)) with 0. lia.
  - pose proof (sealed_es_len d S t (lv_sealed _ _ _ _ _ _ _ _ V) (lv_Swf V) (lv_linked _ _ _ _ _ _ _ _ V) Hne) as Hl.
    destruct (lv_hd_min_lt V Hne) as (_ & Hmt). lia.
Qed.

Lemma lv_es_nil {c nb w d S t f tw} (V : lview c nb w d S t f tw) :
  lv_es d S t f = [] <-> (S = [] /\ llen (df_ents f) = 0).
Proof.
  pose proof (lv_len V) as Hl. pose proof (lv_min_cond V) as Hmc. rewrite <- llen_0. split.
  - intros Hz. destruct (list_eq_dec_nil S) as [ES|Hne].
    + split; [exact ES|]. subst S. unfold hd_min in Hl. cbn [hd] in Hl.
      destruct (llen (df_ents f) =? 0) eqn:Z; lia.
    + destruct (lv_hd_min_lt V Hne). lia.
  - intros (-> & Hz). unfold hd_min in Hl. cbn [hd] in Hl. rewrite Hz in Hmc. cbn in Hmc. lia.
Qed.

Lemma lv_tail_last {c nb w d S t f tw} (V : lview c nb w d S t f tw) :
  tail_last (st_tail w) = tl_of (si_base t) (df_ents f).
Proof. rewrite (lv_tail _ _ _ _ _ _ _ _ V). cbn. apply (lv_tw _ _ _ _ _ _ _ _ V). Qed.

Lemma slog_of_first first es : es <> [] -> sl_first (slog_of first es) = first /\ sl_ents (slog_of first es) = es
  /\ sl_is_empty (slog_of first es) = false.
Proof. destruct es; [congruence|]. intros _. cbn. auto. Qed.

Lemma lv_first {c nb w d S t f tw} (V : lview c nb w d S t f tw) :
  first_index (st_segs w) (st_tail w) = spec_first (dread d).
Proof.
  rewrite (lv_read _ _ _ _ _ _ _ _ V). fold (lv_es d S t f). unfold first_index, spec_first.
  rewrite (lv_segs _ _ _ _ _ _ _ _ V), (lv_tail_last V).
  pose proof (lv_es_nil V) as Hn. pose proof (lv_min_cond V) as Hmc.
  pose proof (lv_sealed _ _ _ _ _ _ _ _ V) as Hso.
  pose proof (lv_tok _ _ _ _ _ _ _ _ V) as (Hu & _). pose proof (lv_twf V) as (_ & _ & Hb1 & _).
  destruct (list_eq_dec_nil (lv_es d S t f)) as [Ee|Ee].
  - rewrite Ee. cbn. destruct Hn as (Hn & _). destruct (Hn Ee) as (-> & Hz). cbn [app]. rewrite Hu.
    unfold tl_of. rewrite Hz. reflexivity.
  - destruct (slog_of_first (hd_min S t) _ Ee) as (E1 & E2 & E3). rewrite E1, E3.
    destruct S as [|s S'].
    + cbn [app]. rewrite Hu. cbn [negb andb]. unfold tl_of.
      destruct (llen (df_ents f) =? 0) eqn:Z.
      * exfalso. apply Ee. apply Hn. split; [reflexivity|lia].
      * destruct (si_base t + llen (df_ents f) - 1 =? 0) eqn:Z2; [lia|]. reflexivity.
    + cbn [app]. inversion Hso as [|? ? (Hse & _) _]; subst. rewrite Hse. reflexivity.
Qed.

Lemma lv_last {c nb w d S t f tw} (V : lview c nb w d S t f tw) :
  last_index (st_segs w) (st_tail w) = spec_last (dread d).
Proof.
  rewrite (lv_read _ _ _ _ _ _ _ _ V). fold (lv_es d S t f). unfold last_index, spec_last.
  rewrite (lv_segs _ _ _ _ _ _ _ _ V), (lv_tail_last V).
  pose proof (lv_es_nil V) as Hn. pose proof (lv_len V) as Hl. pose proof (lv_twf V) as (_ & _ & Hb1 & _).
  pose proof (lv_min_cond V) as Hmc.
  destruct (list_eq_dec_nil (lv_es d S t f)) as [Ee|Ee].
  - rewrite Ee. cbn [slog_of sl_is_empty sl_empty sl_ents]. destruct Hn as (Hn & _). destruct (Hn Ee) as (-> & Hz).
    unfold tl_of. rewrite Hz. reflexivity.
  - destruct (slog_of_first (hd_min S t) _ Ee) as (E1 & E2 & E3). rewrite E1, E2, E3.
    unfold tl_of. destruct (llen (df_ents f) =? 0) eqn:Z.
    + change (0 <? 0) with false. cbn iota. rewrite rev_app_distr. cbn [rev app].
      destruct (list_eq_dec_nil S) as [ES|Hne]; [exfalso; apply Ee; apply Hn; split; [exact ES|clear - Z; lia]|].
      destruct (lv_hd_min_lt V Hne) as (Hlt & _).
      destruct (rev S) as [|x r] eqn:Er.
      { apply (f_equal (@rev _)) in Er. rewrite rev_involutive in Er. cbn in Er. congruence. }
      destruct (si_base t =? 0) eqn:Zb; clear - Zb Hb1 Hl Z; lia.
    + destruct (0 <? si_base t + llen (df_ents f) - 1) eqn:Z2; [|clear - Z Z2 Hb1; lia].
      destruct (list_eq_dec_nil S) as [ES|Hne].
      * subst S. unfold hd_min in *. cbn [hd] in *. clear - Hl Hmc Z. lia.
      * destruct (lv_hd_min_lt V Hne) as (Hx & Hy). clear - Hl Hy. lia.
Qed.
