(* CrashCalls9.v -- truncateTail. *)
From RW Require Import Base.Bytes Base.BytesFacts Fmt.Codec Fmt.CodecFacts Fmt.Frame Wal.Model Wal.Spec Wal.Hist
  Wal.CrashInv Wal.ModelFacts Wal.CrashFacts0 Wal.CrashFacts1 Wal.CrashFacts2 Wal.CrashFacts3 Wal.CrashFacts4 Wal.CrashFacts5
  Wal.CrashFacts6 Wal.CrashGlue Wal.CrashCalls1 Wal.CrashCalls3 Wal.CrashCalls4 Wal.CrashCalls6 Wal.CrashCalls7
  Wal.CrashCalls8 Gen.Constants.
From Coq Require Import Sorted.
From RW Require Import Base.LiaSetup.
Open Scope N_scope.

Lemma seg_visible_seal_sealed d k mx i :
  si_sealed k = true -> 1 <= si_base k -> si_base k <= si_min k -> si_min k <= mx -> mx <= si_max k ->
  seg_visible 0 d (seal_info k mx i) = firstn (N.to_nat (mx - si_min k + 1)) (seg_visible 0 d k).
Proof.
  intros Hs Hb Hbm H1 H2. unfold seg_visible. cbn [seal_info si_sealed si_max si_min si_base]. rewrite Hs.
  change (name_of (seal_info k mx i)) with (name_of k).
  destruct ((mx =? 0) || (mx <? si_min k)) eqn:E1; [lia|].
  destruct ((si_max k =? 0) || (si_max k <? si_min k)) eqn:E2; [lia|].
  rewrite firstn_firstn. f_equal. lia.
Qed.

Lemma sealed_ok_seal_info d k mx i :
  sealed_ok d k -> si_min k <= mx -> mx <= si_max k -> sealed_ok d (seal_info k mx i).
Proof.
  intros (H1 & H2 & f & Hf & H3 & H4 & H5 & H6) Ha Hb. split; [reflexivity|]. split; [exact Ha|].
  exists f. change (name_of (seal_info k mx i)) with (name_of k). cbn [seal_info si_max si_base].
  repeat split; auto. lia.
Qed.

Lemma slog_of_inj first es es' : es <> [] -> slog_of first es = slog_of first es' -> es = es'.
Proof.
  intros Hne H. destruct es as [|x r]; [congruence|]. destruct es' as [|y r']; cbn in H; [discriminate|].
  inversion H. reflexivity.
Qed.

(* the segment holding new_max is already sealed *)
Lemma trunc_tail_sealed c nb (A : spst -> Prop) w0 w e0 e K k D' t f tw new_max dels :
  cfg_ok c -> lview c nb w (e_disk e) (K ++ k :: D') t f tw -> ext (DP c nb A) e0 e ->
  st_rotate w0 = None -> st_failed w0 = false -> st_closed w0 = false ->
  st_next_id w + 1 <= nb -> nb < two64 ->
  si_base k <= new_max -> (forall y, In y (D' ++ [t]) -> new_max < si_base y) ->
  hd_min (K ++ k :: D') t <= new_max ->
  (forall n, In n dels -> exists y, In y (D' ++ [t]) /\ name_of y = n) ->
  let d := e_disk e in
  let S := K ++ k :: D' in
  let a1 := {| sp_log := slog_of (hd_min S t) (firstn (N.to_nat (new_max + 1 - hd_min S t)) (lv_es d S t f)); sp_kv := dk_stable d |} in
  let t' := seal_info k new_max (si_index_start k) in
  let si := new_segment c (st_next_id w) (new_max + 1) in
  A a1 ->
  exists w' e',
    mutate w0 {| tx_next_id := st_next_id w + 1; tx_segs := (K ++ [t']) ++ [si]; tx_delete := dels;
                 tx_create := Some si; tx_tail := None |} e = (ROk, w', e') /\
    ext (DP c nb A) e0 e' /\ LInv c nb w' (e_disk e') /\ sp_of (e_disk e') = a1.
Proof.
  intros Hc V He Hrot Hfail Hclosed Hnid Hnb Hbk HD Hfirst Hdels d S a1 t' si HA.
  subst d. set (d := e_disk e) in *.
  pose proof (lv_sealed _ _ _ _ _ _ _ _ V) as Hso. pose proof (lv_Swf V) as Hw. pose proof (lv_Ssst V) as Hsst.
  pose proof (lv_linked _ _ _ _ _ _ _ _ V) as Hl. pose proof (lv_wf _ _ _ _ _ _ _ _ V) as Hwf.
  fold S in Hso, Hw, Hsst, Hl, Hwf.
  assert (HsoK := Hso). unfold S in HsoK. apply Forall_app in HsoK. destruct HsoK as (HsoK & HsoH).
  inversion HsoH as [|? ? Hsk HsoD]; subst.
  assert (HwK := Hw). unfold S in HwK. apply Forall_app in HwK. destruct HwK as (HwK & HwH).
  inversion HwH as [|? ? (Hkb1 & Hkbm) HwD]; subst.
  pose proof Hsk as (Hks & Hkmm & _).
  pose proof (sealed_prefix_len d K k D' t Hso Hw Hl) as Hplen. fold S in Hplen.
  assert (HlK : linked (K ++ [k])).
  { unfold S in Hl. rewrite <- app_assoc in Hl. cbn [app] in Hl.
    replace (K ++ k :: D' ++ [t]) with ((K ++ [k]) ++ (D' ++ [t])) in Hl by (rewrite <- app_assoc; reflexivity).
    eapply linked_app_l; eauto. }
  (* new_max lies inside k *)
  assert (Hmx : new_max <= si_max k).
  { unfold S in Hl. rewrite <- app_assoc in Hl. cbn [app] in Hl.
    destruct (D' ++ [t]) as [|y Y] eqn:EY; [destruct D'; discriminate|].
    destruct (linked_mid K k y Y Hl) as (Hb & _). specialize (HD y (or_introl eq_refl)). clear - Hb HD. lia. }
  assert (Hmink : si_min k <= new_max).
  { destruct (list_eq_dec_nil K) as [->|Hne].
    - unfold hd_min in Hfirst. cbn in Hfirst. exact Hfirst.
    - destruct (exists_last Hne) as (K' & x & EK). rewrite EK in HlK. rewrite <- app_assoc in HlK. cbn [app] in HlK.
      destruct (linked_mid K' x k [] HlK) as (_ & Hm). clear - Hm Hbk. lia. }
  pose proof (chain_sorted S t Hl Hsst) as Hsorted.
  (* no file is rewritten: seg_visible stops at si_max, so lowering k's max to new_max in
     the metadata is the whole truncation, and the ACommit inside mutate is the commit
     point (before it a disk reads as the old log, from it on as a1) *)
  assert (Er : slog_of (hd_min (K ++ [t']) si) (sealed_es d (K ++ [t'])) =
               slog_of (hd_min S t) (firstn (N.to_nat (new_max + 1 - hd_min S t)) (lv_es d S t f))).
  { assert (Eh : hd_min (K ++ [t']) si = hd_min S t) by (unfold hd_min, S; destruct K; reflexivity).
    rewrite Eh. f_equal. rewrite sealed_es_app. unfold sealed_es at 2. cbn [flat_map]. rewrite app_nil_r.
    unfold t'. rewrite (seg_visible_seal_sealed d k new_max _ Hks Hkb1 Hkbm Hmink Hmx).
    unfold lv_es. unfold S at 2. rewrite sealed_es_app, sealed_es_cons, <- !app_assoc.
    destruct (seg_visible_sealed_facts d k Hsk Hkb1 Hkbm) as (Hvl & _).
    replace (N.to_nat (new_max + 1 - hd_min S t)) with (length (sealed_es d K) + N.to_nat (new_max - si_min k + 1))%nat
      by (clear - Hplen Hmink; unfold llen in Hplen; lia).
    rewrite (firstn_app_plus (sealed_es d K) _ (length (sealed_es d K)) _ eq_refl). f_equal.
    rewrite firstn_app. replace (N.to_nat (new_max - si_min k + 1) - length (seg_visible 0 d k))%nat with O by (clear - Hvl Hmx; unfold llen in Hvl; lia).
    cbn [firstn]. rewrite app_nil_r. reflexivity. }
  unfold mutate.
  destruct (mutate_newtail_view c nb A false w0 w e0 e _ t f tw (K ++ [t']) (new_max + 1) dels Hc V He)
    as (w' & e' & Hmut & He' & HL' & Hs' & _).
  - exact Hrot.
  - exact Hfail.
  - exact Hclosed.
  - exact Hnid.
  - unfold S in Hwf. rewrite <- app_assoc in Hwf. apply Forall_app in Hwf. destruct Hwf as (HwfK & Hwf').
    cbn [app] in Hwf'. inversion Hwf' as [|? ? Hwk _]; subst. apply Forall_app. split; [exact HwfK|].
    constructor; [apply seal_info_wf; exact Hwk|constructor].
  - fold d. apply Forall_app. split; [exact HsoK|]. constructor; [|constructor].
    apply sealed_ok_seal_info; assumption.
  - clear. lia.
  - pose proof (linked_app_lt S t Hl Hsst) as Hlt. rewrite Forall_forall in Hlt.
    specialize (Hlt k ltac:(unfold S; apply in_or_app; right; left; reflexivity)).
    pose proof (lv_twf V) as (_ & _ & _ & Hb2 & _). clear - Hlt Hb2 Hmx. lia.
  - rewrite <- app_assoc. cbn [app]. apply linked_snoc; [|reflexivity|reflexivity].
    eapply linked_replace_last; [exact HlK|reflexivity|reflexivity].
  - (* deleted names are not listed any more: a name is (base, id); the bases of D' ++ [t]
       lie above those kept (sorted chain), and the new tail's id is above every listed id *)
    intros n Hin. destruct (Hdels n Hin) as (y & Hy & <-).
    rewrite listed_app, listed_single. apply orb_false_iff. split.
    + apply not_listed_by_base. intros z Hz. cbn [name_of fst].
      assert (Hzb : exists z0, In z0 (K ++ [k]) /\ si_base z0 = si_base z).
      { apply in_app_or in Hz. destruct Hz as [Hz|[<-|[]]]; [exists z; split; [apply in_or_app; left; exact Hz|reflexivity]|].
        exists k. split; [apply in_or_app; right; left; reflexivity|reflexivity]. }
      destruct Hzb as (z0 & Hz0 & <-).
      assert (Hs2 : StronglySorted lt_base ((K ++ [k]) ++ (D' ++ [t]))).
      { unfold S in Hsorted. rewrite <- !app_assoc in *. cbn [app] in *. exact Hsorted. }
      pose proof (sorted_app_lt (K ++ [k]) (D' ++ [t]) z0 y Hs2 Hz0 Hy) as Hzy. clear - Hzy. unfold lt_base in Hzy. lia.
    + apply fname_eqb_neq. unfold name_of. cbn [new_segment si_base si_id]. intros E. inversion E as [[E1 E2]].
      rewrite Forall_forall in Hwf. destruct (Hwf y) as (_ & _ & _ & _ & _ & Hid); [unfold S; rewrite <- app_assoc; cbn [app]; apply in_or_app; right; right; exact Hy|].
      clear - E2 Hid. cbn [name_of snd] in *. lia.
  - fold d si t'. rewrite Er. exact HA.
  - fold si t' in Hmut. rewrite Hmut. exists w', e'. split; [reflexivity|]. split; [exact He'|]. split; [exact HL'|].
    rewrite Hs'. fold d si t'. unfold a1. rewrite Er. reflexivity.
Qed.

(* the segment holding new_max is the (non-empty) tail, already force-sealed on disk *)
Lemma trunc_tail_unsealed c nb (A : spst -> Prop) w0 w e0 e S t f tw new_max istart :
  cfg_ok c -> lview c nb w (e_disk e) S t f tw -> ext (DP c nb A) e0 e ->
  st_rotate w0 = None -> st_failed w0 = false -> st_closed w0 = false ->
  st_next_id w + 1 <= nb -> nb < two64 ->
  df_seal f <> 0 -> hd_min S t <= new_max -> si_base t <= new_max -> new_max <= tl_of (si_base t) (df_ents f) ->
  let d := e_disk e in
  let a1 := {| sp_log := slog_of (hd_min S t) (firstn (N.to_nat (new_max + 1 - hd_min S t)) (lv_es d S t f)); sp_kv := dk_stable d |} in
  let t' := seal_info t new_max istart in
  let si := new_segment c (st_next_id w) (new_max + 1) in
  A a1 ->
  exists w' e',
    mutate w0 {| tx_next_id := st_next_id w + 1; tx_segs := (S ++ [t']) ++ [si]; tx_delete := [];
                 tx_create := Some si; tx_tail := None |} e = (ROk, w', e') /\
    ext (DP c nb A) e0 e' /\ LInv c nb w' (e_disk e') /\ sp_of (e_disk e') = a1.
Proof.
  intros Hc V He Hrot Hfail Hclosed Hnid Hnb Hse Hfirst Hbt Hmx d a1 t' si HA.
  subst d. set (d := e_disk e) in *.
  pose proof (lv_twf V) as (_ & _ & Hb1 & _ & Hbm & _).
  assert (Hmint : si_min t <= new_max).
  { destruct (list_eq_dec_nil S) as [->|Hne]; [unfold hd_min in Hfirst; cbn in Hfirst; exact Hfirst|].
    destruct (lv_hd_min_lt V Hne) as (_ & Hmt). clear - Hmt Hbt. lia. }
  destruct (seal_tail_facts V new_max istart Hse Hmint Hmx) as (F1 & F2 & F3 & F4 & F5 & F6 & F7).
  fold t' in F1, F2, F3, F4, F5, F6.
  assert (Er : slog_of (hd_min (S ++ [t']) si) (sealed_es d (S ++ [t'])) =
               slog_of (hd_min S t) (firstn (N.to_nat (new_max + 1 - hd_min S t)) (lv_es d S t f))).
  { rewrite F6, F5. f_equal. unfold lv_es. rewrite <- (lv_tail_es V).
    destruct (list_eq_dec_nil S) as [->|Hne].
    - unfold sealed_es, hd_min. cbn [flat_map hd app]. f_equal. clear - Hmint. lia.
    - destruct (lv_hd_min_lt V Hne) as (Hlt & Hmt).
      pose proof (sealed_es_len d S t (lv_sealed _ _ _ _ _ _ _ _ V) (lv_Swf V) (lv_linked _ _ _ _ _ _ _ _ V) Hne) as Hlen.
      replace (N.to_nat (new_max + 1 - hd_min S t)) with (length (sealed_es d S) + N.to_nat (new_max - si_min t + 1))%nat
        by (clear - Hlen Hmt Hbt; unfold llen in Hlen; lia).
      rewrite (firstn_app_plus (sealed_es d S) _ (length (sealed_es d S)) _ eq_refl). reflexivity. }
  unfold mutate.
  destruct (mutate_newtail_view c nb A false w0 w e0 e S t f tw (S ++ [t']) (new_max + 1) [] Hc V He)
    as (w' & e' & Hmut & He' & HL' & Hs' & _).
  - exact Hrot.
  - exact Hfail.
  - exact Hclosed.
  - exact Hnid.
  - exact F1.
  - exact F2.
  - clear. lia.
  - exact F7.
  - apply F3; reflexivity.
  - intros n [].
  - fold d si. rewrite Er. exact HA.
  - fold si in Hmut. rewrite Hmut. exists w', e'. split; [reflexivity|]. split; [exact He'|]. split; [exact HL'|].
    rewrite Hs'. fold d si. unfold a1. rewrite Er. reflexivity.
Qed.

Lemma truncate_tail_ok c nb (A : spst -> Prop) w e S t f tw new_max :
  cfg_ok c -> lview c nb w (e_disk e) S t f tw -> e_fault e = None -> st_rotate w = None ->
  st_next_id w + 1 <= nb -> nb < two64 ->
  lv_es (e_disk e) S t f <> [] -> hd_min S t <= new_max -> new_max + 1 <= si_base t + llen (df_ents f) - 1 ->
  let d := e_disk e in
  let a1 := {| sp_log := slog_of (hd_min S t) (firstn (N.to_nat (new_max + 1 - hd_min S t)) (lv_es d S t f)); sp_kv := dk_stable d |} in
  A (sp_of d) -> A a1 ->
  exists w' e', truncate_tail c w new_max e = (ROk, w', e') /\ ext (DP c nb A) e e' /\
                LInv c nb w' (e_disk e') /\ sp_of (e_disk e') = a1.
Proof.
  intros Hc V Hf Hrot Hnid Hnb Hne Hfirst Hlast d a1 HAa HA. subst d. set (d := e_disk e) in *.
  assert (Hnm : new_max + 1 < two64) by (destruct (lv_fsz V) as (_ & Hbd); clear - Hbd Hlast; lia).
  assert (Hnid1 : st_next_id w + 1 < two64) by (clear - Hnid Hnb; lia).
  pose proof (LInv_of_view V) as HLd. fold d in HLd.
  assert (He00 : ext (DP c nb A) e e).
  { apply ext_refl; [exact Hf|]. eapply LInv_DP; [exact HLd|exact HAa]. }
  pose proof (lv_sealed _ _ _ _ _ _ _ _ V) as Hso. pose proof (lv_tok _ _ _ _ _ _ _ _ V) as (Hu & _).
  pose proof (lv_twf V) as (_ & _ & Hb1 & _ & Hbm & _). pose proof (lv_Swf V) as Hw.
  pose proof (lv_nid _ _ _ _ _ _ _ _ V) as Hnid0.
  unfold truncate_tail. rewrite (lv_last V), (lv_segs _ _ _ _ _ _ _ _ V).
  (* K ++ k :: D: wal.go's reverse scan deletes D whole and stops at k, the first segment
     from the end with BaseIndex <= newMax *)
  destruct (suffix_split (fun s => new_max <? si_base s) (S ++ [t])) as [Hall|(K & k & D & ES & Hk & HD)].
  { (* impossible: the first segment starts at or below new_max *)
    exfalso. rewrite Forall_forall in Hall.
    destruct S as [|s S'].
    - specialize (Hall t (or_introl eq_refl)). cbn beta in Hall. unfold hd_min in Hfirst. cbn in Hfirst.
      clear - Hall Hfirst Hbm. lia.
    - specialize (Hall s (or_introl eq_refl)). cbn beta in Hall. unfold hd_min in Hfirst. cbn [hd] in Hfirst.
      inversion Hw as [|? ? (Hsb & Hsm) _]; subst. clear - Hall Hfirst Hsm. lia. }
  assert (Hbk : si_base k <= new_max) by (clear - Hk; lia).
  assert (HD' : Forall (fun s => new_max < si_base s) (rev D)).
  { rewrite Forall_forall in *. intros s Hs. apply in_rev in Hs. specialize (HD s Hs). cbn beta in HD. clear - HD. lia. }
  rewrite ES. rewrite rev_app_distr. cbn [rev]. rewrite <- app_assoc. cbn [app].
  destruct (tail_scan_skip new_max (spec_last (dread d)) (rev D) (k :: rev K) [] 0 HD') as (ntr' & Ets).
  rewrite Ets. cbn [tail_scan app]. rewrite (proj2 (N.leb_le _ _) Hbk).
  cbn [rev]. rewrite rev_involutive.
  destruct (si_sealed k) eqn:Eks.
  - (* already sealed: k is one of S *)
    destruct (list_eq_dec_nil D) as [->|HneD].
    { exfalso. apply app_inj_tail in ES. destruct ES as (_ & <-). congruence. }
    destruct (exists_last HneD) as (D' & x & ED). subst D.
    replace (K ++ k :: D' ++ [x]) with ((K ++ k :: D') ++ [x]) in ES by (rewrite <- app_assoc; reflexivity).
    apply app_inj_tail in ES. destruct ES as (ES & <-). subst S.
    fold (seal_info k new_max (si_index_start k)).
    assert (HK : Forall (fun z => si_base z < si_base k) K).
    { pose proof (chain_sorted _ t (lv_linked _ _ _ _ _ _ _ _ V) (lv_Ssst V)) as Hsorted.
      rewrite <- app_assoc in Hsorted. cbn [app] in Hsorted.
      rewrite Forall_forall. intros z Hz.
      apply (sorted_app_lt K (k :: D' ++ [t]) z k Hsorted Hz (or_introl eq_refl)). }
    rewrite (seal_create_next c (st_next_id w) K k (seal_info k new_max (si_index_start k)) HK eq_refl Hbk Hnm Hnid1).
    cbv zeta. cbn [seal_info si_max]. fold (seal_info k new_max (si_index_start k)).
    match goal with |- context [mutate ?w0 _ (add_m e ?m)] =>
      destruct (trunc_tail_sealed c nb A w0 w e (add_m e m) K k D' t f tw new_max (map name_of (rev (D' ++ [t]))) Hc V
                  (ext_add_m _ _ _ m He00) Hrot (lv_failed _ _ _ _ _ _ _ _ V) (lv_closed _ _ _ _ _ _ _ _ V) Hnid Hnb)
        as (w' & e' & Hmut & He' & HL' & Hs') end.
    + exact Hbk.
    + intros y Hy. rewrite Forall_forall in HD. specialize (HD y Hy). cbn beta in HD. clear - HD. lia.
    + exact Hfirst.
    + intros n Hin. apply in_map_iff in Hin. destruct Hin as (y & <- & Hy). exists y. split; [apply in_rev; exact Hy|reflexivity].
    + exact HA.
    + cbn [app] in Hmut. rewrite Hmut. exists w', e'. auto.
  - (* the tail itself: force-seal first *)
    assert (ED : D = [] /\ K = S /\ k = t).
    { destruct (list_eq_dec_nil D) as [->|HneD].
      - apply app_inj_tail in ES. destruct ES as (-> & ->). auto.
      - exfalso. destruct (exists_last HneD) as (D' & x & ED). subst D.
        replace (K ++ k :: D' ++ [x]) with ((K ++ k :: D') ++ [x]) in ES by (rewrite <- app_assoc; reflexivity).
        apply app_inj_tail in ES. destruct ES as (ES & _). rewrite Forall_forall in Hso.
        destruct (Hso k) as (Hks & _); [rewrite ES; apply in_or_app; right; left; reflexivity|]. congruence. }
    destruct ED as (-> & -> & ->). clear ES.
    rewrite (lv_tail _ _ _ _ _ _ _ _ V).
    pose proof (lv_rot_none V Hrot) as Hse.
    assert (Hn1 : 1 <= llen (df_ents f)) by (clear - Hbk Hlast; lia).
    (* ForceSeal only appends an index block to the tail file: from here to the commit in
       trunc_tail_unsealed a crash still reads a (Hs1), and Open would finish it as a plain
       rotation (CrashFacts4.open_rest_ok, sealed tail) *)
    destruct (force_seal_ok c nb A w e e S t f tw Hc V He00 Hse Hn1 HAa)
      as (tw' & e1 & Hfs & He1 & HL1 & Hs1 & Hist & (f' & Hf' & Hents')).
    rewrite Hfs.
    set (w2 := {| st_next_id := st_next_id w; st_segs := st_segs w; st_tail := Some tw';
                  st_rotate := if 0 <? ws_index_start tw' then Some (ws_index_start tw') else None;
                  st_failed := st_failed w; st_closed := st_closed w |}) in *.
    destruct (LInv_view _ _ _ _ HL1) as (S2 & t2 & f2 & tw2 & V2).
    assert (E2 : S2 = S /\ t2 = t).
    { pose proof (lv_segs _ _ _ _ _ _ _ _ V2) as E. cbn [w2 st_segs] in E. rewrite (lv_segs _ _ _ _ _ _ _ _ V) in E.
      apply app_inj_tail in E. destruct E; auto. }
    destruct E2 as (-> & ->).
    assert (Ef2 : f2 = f').
    { pose proof (lv_file _ _ _ _ _ _ _ _ V2) as E. rewrite Hf' in E. inversion E. reflexivity. }
    subst f2.
    assert (Hse2 : df_seal f' <> 0).
    { pose proof (lv_rot _ _ _ _ _ _ _ _ V2) as Hr. cbn [w2 st_rotate] in Hr.
      rewrite (proj2 (N.ltb_lt _ _) Hist) in Hr.
      destruct (0 <? df_seal f') eqn:E; [clear - E; lia|discriminate]. }
    fold (seal_info t new_max (ws_index_start tw')).
    rewrite (seal_create_next c (st_next_id w) S t (seal_info t new_max (ws_index_start tw')) (lv_bases_lt V) eq_refl Hbk Hnm Hnid1).
    cbv zeta. cbn [seal_info si_max]. fold (seal_info t new_max (ws_index_start tw')).
    (* the reading did not change by the force-seal; the view V2 is over the new file f',
       so the entries it shows are recovered from the equal readings *)
    assert (Eles : lv_es (e_disk e1) S t f' = lv_es d S t f).
    { pose proof (lv_read _ _ _ _ _ _ _ _ V2) as R2. pose proof (lv_read _ _ _ _ _ _ _ _ V) as R1.
      fold (lv_es (e_disk e1) S t f') in R2. fold d in R1. fold (lv_es d S t f) in R1.
      assert (Hd : dread (e_disk e1) = dread d) by (unfold sp_of in Hs1; inversion Hs1 as [[Hx Hy]]; exact Hx).
      rewrite R2, R1 in Hd. symmetry. apply (slog_of_inj (hd_min S t)); [exact Hne|symmetry; exact Hd]. }
    assert (Hkv : dk_stable (e_disk e1) = dk_stable d) by (unfold sp_of in Hs1; inversion Hs1 as [[Hx Hy]]; exact Hy).
    cbn [rev map].
    match goal with |- context [mutate ?w0 _ (add_m e1 ?m)] =>
      destruct (trunc_tail_unsealed c nb A w0 w2 e (add_m e1 m) S t f' tw2 new_max (ws_index_start tw') Hc V2
                  (ext_add_m _ _ _ m He1) Hrot (lv_failed _ _ _ _ _ _ _ _ V) (lv_closed _ _ _ _ _ _ _ _ V) Hnid Hnb Hse2 Hfirst)
        as (w' & e' & Hmut & He' & HL' & Hs') end.
    + exact Hbk.
    + rewrite Hents'. unfold tl_of. destruct (llen (df_ents f) =? 0) eqn:Z; clear - Hlast Hn1 Z; lia.
    + cbn [add_m with_m e_disk]. rewrite Eles, Hkv. exact HA.
    + cbn [app w2 st_next_id] in Hmut. rewrite Hmut. exists w', e'. split; [reflexivity|]. split; [exact He'|].
      split; [exact HL'|]. rewrite Hs'. cbn [add_m with_m e_disk]. rewrite Eles, Hkv. reflexivity.
Qed.
