(* FaultCor.v -- corollaries of fault_safety in plain terms (used by Props/C10.v). *)
From RW Require Import Base.Bytes Base.BytesFacts Fmt.Codec Fmt.CodecFacts Fmt.Frame Wal.Model Wal.Spec Wal.Hist Wal.FaultHist
  Wal.CrashInv Wal.ModelFacts Wal.CrashFacts0 Wal.CrashFacts1 Wal.CrashFacts2 Wal.CrashFacts3 Wal.CrashFacts4 Wal.CrashFacts5
  Wal.CrashFacts6 Wal.CrashGlue Wal.CrashCalls1 Wal.CrashCalls2 Wal.SeqFactsBase Wal.FaultSim Wal.FaultSim2 Wal.FaultInv Wal.FaultFacts2
  Wal.FaultFacts3 Wal.FaultNames Wal.FaultStore Wal.FaultDelete Wal.FaultSteps Wal.FaultThm Gen.Constants.
From RW Require Import Base.LiaSetup.
Open Scope N_scope.

Definition fault_hist_ok (c : cfg) (steps : list fstep) : Prop :=
  cfg_ok c /\ Forall fstep_wf steps /\ short_enough steps.

Theorem fault_invariant c steps s0 : fault_hist_ok c steps -> initial c = Some s0 ->
  exists nb, nb + 4 < two64 /\ FInv c nb (fault_run c (fault_init s0) steps).
Proof.
  intros (Hc & Hwf & Hshort) Hinit. exists (1 + 2 * N.of_nat (length steps)).
  assert (Hb : 1 + 2 * N.of_nat (length steps) + 4 < two64) by (unfold short_enough in Hshort; unfold two64; lia).
  split; [exact Hb|]. apply (FInv_run c steps 1 (fault_init s0) Hc Hwf ltac:(lia) (FInv_init c s0 Hc Hinit)).
Qed.

(* readers of the running process see the nominal state *)
Lemma FInv_observed c nb h : FInv c nb h -> st_closed (ss_wal (fs_s h)) = false -> observed (fs_s h) = fs_nom h.
Proof.
  intros (_ & _ & _ & _ & _ & _ & _ & HM) Hcl. destruct (fs_s h) as [w e] eqn:E. cbn [ss_wal ss_env] in *.
  eapply observed_Mode; eauto.
Qed.

Lemma FInv_getlog c nb h i : cfg_ok c -> nb + 2 < two64 -> FInv c nb h -> st_closed (ss_wal (fs_s h)) = false -> i < two64 ->
  result_eqb (res_class (fst (get_log (ss_wal (fs_s h)) i (ss_env (fs_s h))))) (fst (step_spec (fs_nom h) (OGet i))) = true.
Proof.
  intros Hc Hnb (_ & _ & Hgn & _ & _ & _ & _ & HM) Hcl Hi. destruct (fs_s h) as [w e] eqn:E. cbn [ss_wal ss_env] in *.
  destruct (read_step c nb w e (fs_nom h) (OGet i) Hc Hi Hnb I (Mode_RV _ _ _ _ _ _ HM Hcl) Hcl Hgn) as (r & e' & Hst & _ & _ & Hres).
  cbn [step_model ss_wal ss_env] in Hst. destruct (get_log w i e) as [r0 e0]. inversion Hst; subst. exact Hres.
Qed.

(* entries of an accepted StoreLogs *)
Lemma spec_store_get nom ls nom' l : spec_accepts nom (OStore ls) = Some nom' -> In l ls ->
  l_index l + 1 < two64 -> spec_get (sp_log nom') (l_index l) = Some l.
Proof.
  unfold spec_accepts. cbn [step_spec]. unfold spec_store. intros Hacc Hin Hb.
  destruct ls as [|l0 ls']; [destruct Hin|]. set (ls := l0 :: ls') in *.
  destruct (consecutive (l_index l0) ls && (sl_is_empty (sp_log nom) || (l_index l0 =? spec_last (sp_log nom) + 1))) eqn:E; [|discriminate].
  inversion Hacc; subst nom'. clear Hacc. cbn [sp_log].
  apply andb_true_iff in E. destruct E as (Hcons & Hpos).
  destruct (In_nth_error _ _ Hin) as (k & Hk). pose proof (consecutive_nth _ _ k l Hcons Hk) as Hidx.
  assert (Hklt : (k < length ls)%nat) by (apply nth_error_Some; congruence).
  unfold sl_is_empty in Hpos |- *. unfold spec_last, sl_is_empty in Hpos.
  destruct (sl_ents (sp_log nom)) as [|e0 es] eqn:Ees.
  - cbn [app orb]. unfold spec_get, spec_last, sl_is_empty. cbn [sl_ents sl_first]. unfold ls at 1 2. cbn [orb].
    replace (l_index l <? l_index l0) with false by lia.
    replace (l_index l0 + llen ls - 1 <? l_index l) with false by (unfold llen; lia). cbn [orb].
    replace (N.to_nat (l_index l - l_index l0)) with k by lia. exact Hk.
  - cbn [orb] in Hpos. apply N.eqb_eq in Hpos. unfold llen in Hpos.
    set (first := sl_first (sp_log nom)) in *.
    unfold spec_get, spec_last, sl_is_empty. cbn [sl_ents sl_first app orb].
    replace (l_index l <? first) with false by (unfold llen in *; cbn [length] in *; lia).
    replace (first + llen (e0 :: es ++ ls) - 1 <? l_index l) with false by (unfold llen in *; cbn [length] in *; rewrite app_length; lia).
    cbn [orb]. change (e0 :: es ++ ls) with ((e0 :: es) ++ ls). rewrite nth_error_app2 by (cbn [length] in *; lia).
    replace (N.to_nat (l_index l - first) - length (e0 :: es))%nat with k by (cbn [length] in *; lia). exact Hk.
Qed.

Lemma get_log_fst w i e1 e2 : e_disk e1 = e_disk e2 -> fst (get_log w i e1) = fst (get_log w i e2).
Proof.
  intros H. unfold get_log. rewrite H. destruct (st_closed w); [reflexivity|].
  repeat match goal with |- context [match ?x with _ => _ end] => destruct x end; reflexivity.
Qed.

(* one more StoreLogs after any history *)
Lemma store_step_cases c nb h f fx ls : cfg_ok c -> sop_ok (OStore ls) -> nb + 4 < two64 -> FInv c nb h ->
  st_closed (ss_wal (fs_s h)) = false ->
  let '(r, s1) := step_model c (with_fault (fs_s h) f fx) (OStore ls) in
  st_closed (ss_wal s1) = false /\
  exists h', FInv c (nb + 2) h' /\ fs_s h' = with_fault s1 None fx_none /\
    ((r = ROk /\ spec_accepts (fs_nom h) (OStore ls) = Some (fs_nom h')) \/
     (r <> ROk /\ fs_nom h' = fs_nom h)).
Proof.
  intros Hc Hop Hnb HI Hcl.
  pose proof (fop_step c nb h f fx (OStore ls) Hc Hop ltac:(discriminate) ltac:(lia) HI) as HI'.
  unfold fop_run in HI'. rewrite Hcl in HI'. cbn [is_mutating] in HI'.
  pose proof HI as (Hok & Hf & Hgn & Hin & Hga & Hdo & HRD & HM).
  destruct (fs_s h) as [w e] eqn:Es. cbn [ss_wal ss_env] in *.
  destruct (mut_step c nb w {| e_acts := e_acts e; e_disk := e_disk e; e_fault := f; e_fx := fx; e_m := e_m e |} (fs_nom h) (fs_alts h) (fs_defer h) (OStore ls) Hc Hop eq_refl ltac:(lia) Hcl HM HRD Hin Hdo)
    as (r & w' & e' & Hst & Hcl' & Hpost).
  change (with_fault {| ss_wal := w; ss_env := e |} f fx) with {| ss_wal := w; ss_env := {| e_acts := e_acts e; e_disk := e_disk e; e_fault := f; e_fx := fx; e_m := e_m e |} |} in *.
  rewrite Hst in HI' |- *. cbn [ss_wal]. split; [exact Hcl'|].
  destruct Hpost as [(-> & nom' & Hacc & _)|[(Hr & _)|(_ & k & v & n & nom' & K & _)]]; [| |discriminate K].
  - rewrite Hacc in HI'. eexists. split; [exact HI'|]. split; [reflexivity|]. left. split; [reflexivity|exact Hacc].
  - destruct r; try congruence; (eexists; split; [exact HI'|]; split; [reflexivity|]; right; split; [discriminate|reflexivity]).
Qed.

(* (a) while the WAL is open, readers see exactly the nominal state: every call
   that returned nil applied, every call that returned an error not applied *)
Theorem nominal_view c steps s0 : fault_hist_ok c steps -> initial c = Some s0 ->
  let h := fault_run c (fault_init s0) steps in
  st_closed (ss_wal (fs_s h)) = false ->
  observed (fs_s h) = fs_nom h /\
  forall i, i < two64 ->
    result_eqb (res_class (fst (get_log (ss_wal (fs_s h)) i (ss_env (fs_s h))))) (fst (step_spec (fs_nom h) (OGet i))) = true.
Proof.
  intros Hok Hinit h Hcl. destruct (fault_invariant c steps s0 Hok Hinit) as (nb & Hnb & HI). fold h in HI.
  split; [eapply FInv_observed; eauto|]. intros i Hi. apply (FInv_getlog c nb h i (proj1 Hok) ltac:(lia) HI Hcl Hi).
Qed.

(* (b) every entry of a StoreLogs that returned nil is returned by GetLog *)
Theorem acked_visible_in_process c steps s0 f fx ls l : fault_hist_ok c steps -> initial c = Some s0 -> sop_ok (OStore ls) ->
  let h := fault_run c (fault_init s0) steps in
  st_closed (ss_wal (fs_s h)) = false ->
  let '(r, s1) := step_model c (with_fault (fs_s h) f fx) (OStore ls) in
  r = ROk -> In l ls -> fst (get_log (ss_wal s1) (l_index l) (ss_env s1)) = RLog l.
Proof.
  intros Hok Hinit Hop h Hcl. destruct (fault_invariant c steps s0 Hok Hinit) as (nb & Hnb & HI). fold h in HI.
  pose proof (store_step_cases c nb h f fx ls (proj1 Hok) Hop Hnb HI Hcl) as K.
  destruct (step_model c (with_fault (fs_s h) f fx) (OStore ls)) as [r s1]. destruct K as (Hcl1 & h' & HI' & Hs' & Hcase).
  intros -> Hin. destruct Hcase as [(_ & Hacc)|(K & _)]; [|congruence].
  assert (Hl : log_ok l) by (destruct Hop as (Hl & _); unfold logs_ok in Hl; rewrite Forall_forall in Hl; apply Hl; exact Hin).
  pose proof Hl as (Hwf & _ & Hb & _).
  assert (Hcl' : st_closed (ss_wal (fs_s h')) = false) by (rewrite Hs'; exact Hcl1).
  pose proof (FInv_getlog c (nb + 2) h' (l_index l) (proj1 Hok) ltac:(lia) HI' Hcl' ltac:(lia)) as Hg.
  cbn [step_spec] in Hg. rewrite (spec_store_get _ _ _ l Hacc Hin Hb) in Hg. cbn [fst] in Hg.
  rewrite Hs' in Hg. cbn [with_fault ss_wal ss_env] in Hg.
  apply res_class_log. erewrite get_log_fst; [exact Hg|reflexivity].
Qed.

(* (c) a StoreLogs that returned an error changed nothing readers can see: GetLog
   answers from the state before the call *)
Theorem failed_store_invisible c steps s0 f fx ls i : fault_hist_ok c steps -> initial c = Some s0 -> sop_ok (OStore ls) ->
  let h := fault_run c (fault_init s0) steps in
  st_closed (ss_wal (fs_s h)) = false -> i < two64 ->
  let '(r, s1) := step_model c (with_fault (fs_s h) f fx) (OStore ls) in
  r <> ROk ->
  result_eqb (res_class (fst (get_log (ss_wal s1) i (ss_env s1)))) (fst (step_spec (fs_nom h) (OGet i))) = true.
Proof.
  intros Hok Hinit Hop h Hcl Hi. destruct (fault_invariant c steps s0 Hok Hinit) as (nb & Hnb & HI). fold h in HI.
  pose proof (store_step_cases c nb h f fx ls (proj1 Hok) Hop Hnb HI Hcl) as K.
  destruct (step_model c (with_fault (fs_s h) f fx) (OStore ls)) as [r s1]. destruct K as (Hcl1 & h' & HI' & Hs' & Hcase).
  intros Hr. destruct Hcase as [(K & _)|(_ & Hnom)]; [congruence|].
  assert (Hcl' : st_closed (ss_wal (fs_s h')) = false) by (rewrite Hs'; exact Hcl1).
  pose proof (FInv_getlog c (nb + 2) h' i (proj1 Hok) ltac:(lia) HI' Hcl' Hi) as Hg.
  rewrite Hnom, Hs' in Hg. cbn [with_fault ss_wal ss_env] in Hg.
  erewrite get_log_fst; [exact Hg|reflexivity].
Qed.

(* in particular an index beyond the nominal log is not found *)
Corollary failed_store_not_found c steps s0 f fx ls l : fault_hist_ok c steps -> initial c = Some s0 -> sop_ok (OStore ls) ->
  let h := fault_run c (fault_init s0) steps in
  st_closed (ss_wal (fs_s h)) = false -> In l ls -> spec_get (sp_log (fs_nom h)) (l_index l) = None ->
  let '(r, s1) := step_model c (with_fault (fs_s h) f fx) (OStore ls) in
  r <> ROk -> fst (get_log (ss_wal s1) (l_index l) (ss_env s1)) = RErrNotFound.
Proof.
  intros Hok Hinit Hop h Hcl Hin Hnone.
  assert (Hl : l_index l < two64).
  { destruct Hop as (Hl & _). unfold logs_ok in Hl. rewrite Forall_forall in Hl. destruct (Hl l Hin) as (_ & _ & Hb & _). lia. }
  pose proof (failed_store_invisible c steps s0 f fx ls (l_index l) Hok Hinit Hop Hcl Hl) as K. cbv zeta in K. fold h in K.
  destruct (step_model c (with_fault (fs_s h) f fx) (OStore ls)) as [r s1]. intros Hr. specialize (K Hr).
  cbn [step_spec] in K. rewrite Hnone in K. cbn [fst] in K. apply res_class_notfound. exact K.
Qed.

(* (d) a restart (no power loss) after any history opens the WAL and presents a state in
   which every failed call is applied as a whole or not at all: a member of
   candidates alts defer, i.e. an alternative (each failed call applied in place or not)
   possibly followed by one failed StoreLogs in full *)
Theorem reopen_whole_or_nothing c steps s0 : fault_hist_ok c steps -> initial c = Some s0 ->
  let h := fault_run c (fault_init s0) steps in
  let h' := fstep_run c h FRestart in
  st_closed (ss_wal (fs_s h')) = false /\ fs_ok h' = true /\
  In (fs_nom h') (candidates (fs_alts h) (fs_defer h)) /\ observed (fs_s h') = fs_nom h'.
Proof.
  intros Hok Hinit h h'. destruct (fault_invariant c steps s0 Hok Hinit) as (nb & Hnb & HI). fold h in HI.
  pose proof (FInv_step c nb h FRestart (proj1 Hok) I ltac:(lia) HI) as HI'. fold h' in HI'.
  unfold h'. cbn [fstep_run].
  destruct (reopen_step c nb h None fx_none (proj1 Hok) ltac:(lia) HI) as (r & s1 & Hst & Hcase). cbv zeta in Hst.
  unfold h' in HI'. cbn [fstep_run] in HI'. rewrite Hst in HI' |- *.
  destruct Hcase as [(-> & Hcl & HL & HN & Hcand & Hfe)|(_ & Hfn & _)]; [|congruence].
  destruct s1 as [w1 e1]. cbn [ss_wal ss_env] in *.
  rewrite (observed_clean c (nb + 1) w1 e1 HL HN), (matches_in _ _ Hcand) in HI' |- *.
  cbn [fs_s fs_nom fs_ok ss_wal]. split; [exact Hcl|]. split; [apply HI'|]. split; [exact Hcand|].
  apply (observed_clean c (nb + 1) w1 e1 HL HN).
Qed.


(* the local effect of the three further fault kinds *)

(* a failed file creation leaves the disk as it was, or with the empty file *)
Lemma failed_create_effect si e e' : seg_create si e = (None, e') ->
  e_disk e' = e_disk e \/ e_disk e' = apply_act (e_disk e) (ACreate (name_of si) 0).
Proof.
  unfold seg_create. destruct (si_base si =? 0); [intros E; inversion E; auto|].
  destruct (lookup _ _).
  - destruct (io_cases (AFail (ACreate (name_of si) (si_size_limit si))) e eq_refl eq_refl) as [(x & Ex & Dx & _)|(x & Ex & Dx & _)];
      rewrite Ex; intros E; inversion E; subst; left; rewrite Dx; reflexivity.
  - destruct (io_cases (ACreate (name_of si) (si_size_limit si)) e eq_refl eq_refl) as [(x & Ex & Dx & _)|(x & Ex & Dx & _)];
      rewrite Ex; intros E; inversion E; subst.
    destruct (fx_leave (e_fx e)); [right; unfold leave_entry; cbn [e_disk]; rewrite Dx; reflexivity|left; exact Dx].
Qed.

(* a failed deletion keeps the file and does not use up the armed fault *)
Lemma failed_delete_effect n e e' : io (ADelete n) e = (false, e') ->
  e_disk e' = e_disk e /\ e_fault e' = e_fault e /\ armed e = true /\ fx_del (e_fx e) = true.
Proof.
  unfold io. cbn [is_delete]. destruct (armed e) eqn:Ea, (fx_del (e_fx e)) eqn:Ed; cbn [andb]; intros E; inversion E; subst.
  cbn. auto.
Qed.

(* Open with a failing directory listing: an error, the disk is left as MetaStore.Load made it *)
Lemma failed_listing_fails_open c e :
  negb (FirstExternalCodecID <=? c_codec c) && negb (c_codec c =? BinaryCodecID) = false ->
  dk_inited (e_disk e) = true -> armed e = true -> fx_list (e_fx e) = true ->
  open_wal c e = (OErr RErrIO, list_failed e) /\ e_disk (list_failed e) = e_disk e /\
  fx_list (e_fx (list_failed e)) = false.
Proof.
  intros Hc Hi Ha Hl. unfold open_wal. rewrite Hc, Hi. cbn [negb]. rewrite Ha, Hl. cbn [andb]. auto.
Qed.
