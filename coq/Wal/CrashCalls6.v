(* CrashCalls6.v -- building blocks of DeleteRange: a transaction that keeps the
   tail (head truncation), and the force-seal of the tail (tail truncation). *)
From RW Require Import Base.Bytes Base.BytesFacts Fmt.Codec Fmt.CodecFacts Fmt.Frame Wal.Model Wal.Spec Wal.Hist
  Wal.CrashInv Wal.ModelFacts Wal.CrashFacts0 Wal.CrashFacts1 Wal.CrashFacts2 Wal.CrashFacts3 Wal.CrashFacts4 Wal.CrashFacts5
  Wal.CrashFacts6 Wal.CrashGlue Wal.CrashCalls1 Wal.CrashCalls3 Wal.CrashCalls4 Gen.Constants Base.LiaSetup.
Open Scope N_scope.

Lemma mutate_keep_ok c nb (A : spst -> Prop) w e0 e S t f tw S' t' del :
  lview c nb w (e_disk e) S t f tw -> ext (DP c nb A) e0 e ->
  name_of t' = name_of t -> si_base t' = si_base t -> si_min t <= si_min t' -> si_size_limit t' = si_size_limit t ->
  Forall (seg_wf c (st_next_id w)) (S' ++ [t']) -> linked (S' ++ [t']) ->
  Forall (sealed_ok (e_disk e)) S' -> tail_ok c (e_disk e) t' ->
  (forall n, In n del -> listed (S' ++ [t']) n = false) ->
  let s1 := {| sp_log := slog_of (hd_min S' t') (sealed_es (e_disk e) S' ++ tail_es (e_disk e) t');
               sp_kv := dk_stable (e_disk e) |} in
  A s1 ->
  exists w' e',
    mutate w {| tx_next_id := st_next_id w; tx_segs := S' ++ [t']; tx_delete := del;
                tx_create := None; tx_tail := st_tail w |} e = (ROk, w', e') /\
    ext (DP c nb A) e0 e' /\ LInv c nb w' (e_disk e') /\ sp_of (e_disk e') = s1.
Proof.
  intros V He Hname Hbase Hmin Hlim Hwf Hl Hso Htok Hdel s1 HA.
  set (d := e_disk e) in *. pose proof (ext_fault _ _ _ He) as Hf.
  pose proof (lv_dis _ _ _ _ _ _ _ _ V) as HD.
  set (ps' := {| ps_next_id := st_next_id w; ps_segs := S' ++ [t'] |}).
  assert (HD1 : DIs c nb (apply_act d (ACommit ps'))).
  { apply DIs_commit; auto.
    - intros ps E. rewrite (lv_meta _ _ _ _ _ _ _ _ V) in E. inversion E. cbn. lia.
    - apply (lv_nid _ _ _ _ _ _ _ _ V). }
  unfold mutate, mutate_gen. cbn [tx_next_id tx_segs tx_delete tx_create tx_tail].
  rewrite (io_ok _ e Hf). cbn [negb]. fold ps'. set (e1 := io_env (ACommit ps') e).
  assert (Hm1 : dk_meta (e_disk e1) = Some ps') by reflexivity.
  assert (HN1 : no_pend (e_disk e1)) by (eapply no_pend_same; [|apply (lv_nopend _ _ _ _ _ _ _ _ V)]; reflexivity).
  assert (Hs1 : sp_of (e_disk e1) = s1).
  { unfold sp_of. change (e_disk e1) with (apply_act d (ACommit ps')).
    rewrite (dread_decomp c nb _ ps' S' t' HD1 eq_refl eq_refl). reflexivity. }
  assert (HP1 : DP c nb A (e_disk e1)) by (apply DP_no_pend; [exact HD1|exact HN1|rewrite Hs1; exact HA]).
  assert (He1 : ext (DP c nb A) e0 e1) by (apply ext_io; [exact He|exact I|exact HP1]).
  set (w' := {| st_next_id := st_next_id w; st_segs := S' ++ [t']; st_tail := st_tail w;
                st_rotate := st_rotate w; st_failed := st_failed w; st_closed := st_closed w |}).
  assert (HL1 : LInv c nb w' (e_disk e1)).
  { split; [apply (lv_closed _ _ _ _ _ _ _ _ V)|]. split; [apply (lv_failed _ _ _ _ _ _ _ _ V)|].
    split; [exact HD1|]. split; [exact HN1|]. split; [reflexivity|].
    exists t', f, tw. split; [apply tail_info_app|].
    split; [rewrite Hname; apply (lv_file _ _ _ _ _ _ _ _ V)|].
    split; [apply (lv_tail _ _ _ _ _ _ _ _ V)|]. split; [|apply (lv_rot _ _ _ _ _ _ _ _ V)].
    pose proof (lv_tw _ _ _ _ _ _ _ _ V) as (T1 & T2 & T3 & T4 & T5 & T6 & T7 & T8).
    unfold tw_ok. rewrite Hname, Hbase, Hlim. repeat split; auto. lia. }
  destruct (DP_delete_files c nb A e0 ps' del e1 He1 Hm1 Hdel) as (He2 & Hd2).
  exists w', (delete_files del e1). split; [reflexivity|]. split; [exact He2|].
  split; [rewrite Hd2; apply LInv_del_disk; [exact HL1|exact Hdel]|].
  rewrite Hd2, <- Hs1. apply (sp_of_del_disk del ps' _ Hm1 Hdel).
Qed.

Lemma force_seal_sizes L off n h :
  L < two30 -> 8 * n <= off -> off <= L + 8 -> 1 <= n -> (h = 0 \/ h = 32) ->
  let total := h + index_frame_size n + 8 in
  let end' := (off + total) mod two32 in
  8 * n <= end' /\ end' < two32 /\ end' <> 0.
Proof.
  intros HL Hn Hoff Hn1 Hh. cbv zeta.
  pose proof (index_frame_size_le n) as Hidx. revert Hidx. generalize (index_frame_size n). intros X Hidx.
  assert (T32 : two32 = 4294967296) by reflexivity. assert (T30 : two30 = 1073741824) by reflexivity.
  rewrite (N.mod_small (off + (h + X + 8)) two32) by lia. repeat split; lia.
Qed.

Lemma force_seal_ok c nb (A : spst -> Prop) w e0 e S t f tw :
  cfg_ok c -> lview c nb w (e_disk e) S t f tw -> ext (DP c nb A) e0 e ->
  df_seal f = 0 -> 1 <= llen (df_ents f) -> A (sp_of (e_disk e)) ->
  exists tw' e',
    seg_force_seal tw e = (ROk, tw', e') /\ ext (DP c nb A) e0 e' /\
    LInv c nb {| st_next_id := st_next_id w; st_segs := st_segs w; st_tail := Some tw';
                 st_rotate := if 0 <? ws_index_start tw' then Some (ws_index_start tw') else None;
                 st_failed := st_failed w; st_closed := st_closed w |} (e_disk e') /\
    sp_of (e_disk e') = sp_of (e_disk e) /\ 0 < ws_index_start tw' /\
    (exists f', lookup (name_of t) (dk_files (e_disk e')) = Some f' /\ df_ents f' = df_ents f).
Proof.
  intros Hc V He Hse Hn1 HAa. set (d := e_disk e) in *.
  pose proof (ext_fault _ _ _ He) as Hf.
  pose proof (lv_tw _ _ _ _ _ _ _ _ V) as (Tn & Tb & Tm & Tl & Tnn & To & Ti & Tc).
  destruct (lv_fsz V) as ((Z1 & _ & Z3 & _) & Hbd). specialize (Z3 Hse).
  destruct Hc as (_ & _ & _ & Hc4).
  assert (Hh : (if ws_hdr tw then 32 else 0) = 0 \/ (if ws_hdr tw then 32 else 0) = 32) by (destruct (ws_hdr tw); auto).
  destruct (force_seal_sizes (c_seg_size c) (df_end f) (llen (df_ents f)) (if ws_hdr tw then 32 else 0) Hc4 Z1 Z3 Hn1 Hh)
    as (Q1 & Q2 & Q4).
  assert (Hn0 : (llen (df_ents f) =? 0) = false) by (clear - Hn1; lia).
  assert (Hist : 0 < df_end f + (if ws_hdr tw then 32 else 0) + 8) by (clear; lia).
  unfold seg_force_seal. rewrite Ti, Hse. change (0 <? 0) with false. cbn iota.
  rewrite Tnn, Hn0, To, Tn.
  set (istart := df_end f + (if ws_hdr tw then 32 else 0) + 8) in *.
  set (total := (if ws_hdr tw then 32 else 0) + index_frame_size (llen (df_ents f)) + 8) in *.
  set (b := {| pb_ents := []; pb_end := (df_end f + total) mod two32; pb_seal := istart |}).
  rewrite (io_ok _ e Hf). cbn [negb]. rewrite (io_ok _ (io_env _ e) eq_refl). cbn [negb].
  assert (Ea : {| sp_log := slog_of (hd_min S t) (lv_es d S t f ++ pb_ents b); sp_kv := dk_stable d |} = sp_of d).
  { unfold sp_of. rewrite (lv_read _ _ _ _ _ _ _ _ V). cbn [b pb_ents]. rewrite app_nil_r. reflexivity. }
  destruct (tail_batch_ok c nb A w e0 e S t f tw (df_end f) total b V He Hse) as (He2 & Hs2 & Hf2 & HL2).
  - cbn [b pb_ents pb_end pb_seal]. rewrite app_nil_r. unfold fsz_ok.
    split; [exact Q1|]. split; [exact Q2|]. split; [intros K; exfalso; revert K Hist; clear; intros; lia|].
    split; [intros _; exact Q4|]. intros _. apply llen_pos. revert Hn1; clear; intros; lia.
  - cbn [b pb_ents]. rewrite app_nil_r. exact Hbd.
  - exact HAa.
  - fold d. rewrite Ea. exact HAa.
  - fold d in Hs2. rewrite Ea in Hs2.
    eexists _, _. split; [reflexivity|]. split; [exact He2|].
    split; [|split; [exact Hs2|split; [exact Hist|]]].
    + apply HL2. unfold tw_ok, tl_of. cbn. rewrite app_nil_r, Hn0, Tb. repeat split; auto.
    + eexists. split; [exact Hf2|]. cbn. apply app_nil_r.
Qed.
