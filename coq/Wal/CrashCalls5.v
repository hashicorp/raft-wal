(* CrashCalls5.v -- settle (awaiting the background rotation) and call_ok for StoreLogs. *)
From RW Require Import Base.Bytes Base.BytesFacts Fmt.Codec Fmt.CodecFacts Fmt.Frame Wal.Model Wal.Spec Wal.Hist
  Wal.CrashInv Wal.ModelFacts Wal.CrashFacts0 Wal.CrashFacts1 Wal.CrashFacts2 Wal.CrashFacts3 Wal.CrashFacts4 Wal.CrashFacts5
  Wal.CrashFacts6 Wal.CrashGlue Wal.CrashCalls1 Wal.CrashCalls3 Wal.CrashCalls4 Gen.Constants Base.LiaSetup.
Open Scope N_scope.

Lemma settle_ok c nb s a :
  cfg_ok c -> LInv c nb (ss_wal s) (e_disk (ss_env s)) -> e_fault (ss_env s) = None ->
  sp_of (e_disk (ss_env s)) = a -> nb + 1 < two64 ->
  LInv c (nb + 1) (ss_wal (settle c s)) (e_disk (ss_env (settle c s))) /\
  st_rotate (ss_wal (settle c s)) = None /\
  sp_of (e_disk (ss_env (settle c s))) = a /\
  ext (DP c (nb + 1) (eq a)) (ss_env s) (ss_env (settle c s)).
Proof.
  intros Hc HL Hf Hsp Hnb. unfold settle. destruct (st_rotate (ss_wal s)) as [istart|] eqn:Er.
  - destruct (rotate_ok c nb (ss_wal s) (ss_env s) istart Hc HL Hf Hnb Er) as (w' & e' & Hrot & HL' & Hr' & Hs' & He').
    rewrite Hrot. cbn [ss_wal ss_env]. rewrite Hsp in *. auto.
  - split; [eapply LInv_mono; [|exact HL]; lia|]. split; [exact Er|]. split; [exact Hsp|].
    apply ext_refl; [exact Hf|]. eapply LInv_DP; [eapply LInv_mono; [|exact HL]; lia|symmetry; exact Hsp].
Qed.

Lemma call_store c ls : call_ok c (OStore ls).
Proof.
  intros nb s a Hc (Hok & HF) Hnb HL Hf Hsp Hg. cbn [step_model].
  destruct (settle_ok c nb s a Hc HL Hf Hsp ltac:(lia)) as (HL1 & Hr1 & Hs1 & He1).
  set (s1 := settle c s) in *.
  destruct (store_logs_ok c (nb + 1) (ss_wal s1) (ss_env s1) ls a Hc HL1 (ext_fault _ _ _ He1) Hr1 ltac:(lia) Hs1 Hok HF)
    as (r & w' & e' & Hst & Hres & HL' & Hs' & He').
  rewrite Hst. exists r, {| ss_wal := w'; ss_env := e' |}. split; [reflexivity|]. cbn [ss_wal ss_env].
  replace (nb + 2) with (nb + 1 + 1) by lia.
  split; [exact Hres|]. split; [exact HL'|]. split; [exact Hs'|].
  eapply ext_trans; [|exact He'].
  eapply ext_mono; [|exact He1]. intros d HP. eapply DP_mono; [| |exact HP]; [lia|]. intros x Hx. left. congruence.
Qed.
