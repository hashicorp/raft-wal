(* CrashFacts0.v -- the file map under [unpend] and [crash], used by the crash-invariant proofs;
   two facts about segment lists. *)
From RW Require Import Base.Bytes Base.BytesFacts Fmt.Codec Fmt.Frame Wal.Model Wal.Spec Wal.Hist Wal.CrashInv Wal.ModelFacts Gen.Constants
  Base.LiaSetup.
Open Scope N_scope.

Lemma llen_nil {A} : llen (@nil A) = 0. Proof. reflexivity. Qed.

Lemma lookup_unpend n d :
  lookup n (dk_files (unpend d)) = option_map unpend_file (lookup n (dk_files d)).
Proof.
  unfold unpend; cbn [dk_files]. induction (dk_files d) as [|[m g] r IH]; cbn [map lookup fst snd option_map]; [reflexivity|].
  destruct (fname_eqb n m); [reflexivity|exact IH].
Qed.
Lemma unpend_keys d : map fst (dk_files (unpend d)) = map fst (dk_files d).
Proof. unfold unpend; cbn [dk_files]. rewrite map_map. reflexivity. Qed.

Definition crashed_file (keep : bool) (f : dfile) : dfile :=
  match df_pend f with
  | Some b => if keep
              then {| df_ents := df_ents f ++ pb_ents b; df_end := pb_end b; df_seal := pb_seal b;
                      df_pend := None; df_dir := true; df_size := df_size f |}
              else {| df_ents := df_ents f; df_end := df_end f; df_seal := df_seal f;
                      df_pend := None; df_dir := true; df_size := df_size f |}
  | None => {| df_ents := df_ents f; df_end := df_end f; df_seal := df_seal f;
               df_pend := None; df_dir := true; df_size := df_size f |}
  end.

Lemma crash_file_eq cc n f :
  crash_file cc (n, f) =
  if negb (df_dir f) && negb (mem_name n (cc_keep_file cc)) then []
  else [(n, crashed_file (mem_name n (cc_keep_batch cc)) f)].
Proof.
  unfold crash_file, crashed_file.
  destruct (negb (df_dir f) && negb (mem_name n (cc_keep_file cc))); [reflexivity|].
  destruct (df_pend f); [destruct (mem_name n (cc_keep_batch cc))|]; reflexivity.
Qed.

Lemma crash_keys_in cc fs k : In k (map fst (flat_map (crash_file cc) fs)) -> In k (map fst fs).
Proof.
  induction fs as [|[m g] r IH]; cbn [flat_map map fst In]; [tauto|].
  rewrite crash_file_eq. destruct (negb (df_dir g) && negb (mem_name m (cc_keep_file cc))); cbn [app map fst In]; intuition.
Qed.
Lemma crash_NoDup cc fs : NoDup (map fst fs) -> NoDup (map fst (flat_map (crash_file cc) fs)).
Proof.
  induction fs as [|[m g] r IH]; cbn [flat_map map fst]; intros ND; [constructor|].
  inversion ND as [|? ? Hn ND']; subst.
  rewrite crash_file_eq. destruct (negb (df_dir g) && negb (mem_name m (cc_keep_file cc))); cbn [app map fst]; [auto|].
  constructor; [|auto]. intros K; apply Hn. eapply crash_keys_in; eauto.
Qed.
Lemma lookup_crash cc n fs : NoDup (map fst fs) ->
  lookup n (flat_map (crash_file cc) fs) =
  match lookup n fs with
  | None => None
  | Some f => if negb (df_dir f) && negb (mem_name n (cc_keep_file cc)) then None
              else Some (crashed_file (mem_name n (cc_keep_batch cc)) f)
  end.
Proof.
  induction fs as [|[m g] r IH]; cbn [flat_map lookup map fst]; intros ND; [reflexivity|].
  inversion ND as [|? ? Hn ND']; subst.
  rewrite crash_file_eq.
  destruct (fname_eqb n m) eqn:E.
  - apply fname_eqb_eq in E; subst.
    destruct (negb (df_dir g) && negb (mem_name m (cc_keep_file cc))); cbn [app lookup].
    + apply lookup_None. intros K; apply Hn. eapply crash_keys_in; eauto.
    + rewrite fname_eqb_refl. reflexivity.
  - destruct (negb (df_dir g) && negb (mem_name m (cc_keep_file cc))); cbn [app lookup]; [|rewrite E]; auto.
Qed.

Lemma tail_info_nil : tail_info [] = None.
Proof. reflexivity. Qed.

Lemma name_of_eq s s' : si_base s = si_base s' -> si_id s = si_id s' -> name_of s = name_of s'.
Proof. unfold name_of; intros -> ->; reflexivity. Qed.
