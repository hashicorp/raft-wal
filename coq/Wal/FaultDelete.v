(* FaultDelete.v -- DeleteRange with an injected I/O error, from a running WAL
   that accepts writes (possibly with a stale unsynced batch in its tail file). *)
From RW Require Import Base.Bytes Base.BytesFacts Fmt.Codec Fmt.CodecFacts Fmt.Frame Wal.Model Wal.Spec Wal.Hist Wal.FaultHist
  Wal.CrashInv Wal.ModelFacts Wal.CrashFacts0 Wal.CrashFacts1 Wal.CrashFacts2 Wal.CrashFacts3 Wal.CrashFacts4 Wal.CrashFacts5
  Wal.CrashFacts6 Wal.CrashGlue Wal.CrashCalls1 Wal.CrashCalls2 Wal.CrashCalls3 Wal.CrashCalls4 Wal.CrashCalls6
  Wal.CrashCalls7 Wal.CrashCalls8 Wal.CrashCalls9 Wal.CrashCalls10 Wal.FaultSim Wal.FaultSim2 Wal.FaultInv Wal.FaultFacts2
  Wal.FaultFacts3 Wal.FaultNames Wal.FaultStore Gen.Constants.
From RW Require Import Base.LiaSetup.
Open Scope N_scope.

(* the metadata commit succeeded but the file creation after it failed: the WAL
   refuses writes from now on; readers still see the old state *)
Lemma stale_batch_base c t t' f p defer : si_base t' = si_base t -> stale_batch c t f p defer -> stale_batch c t' f p defer.
Proof. intros E H. unfold stale_batch in *. rewrite E. exact H. Qed.

Lemma keeps_tail_view {c nb w d S t f tw} (V : lview c nb w d S t f tw) : keeps_tail w (name_of t).
Proof.
  intros sk r Hs Hr Hin. rewrite (lv_segs _ _ _ _ _ _ _ _ V) in Hs.
  destruct (exists_last Hr) as (r' & x & ->). rewrite app_assoc in Hs. apply app_inj_tail in Hs. destruct Hs as (Hs & _).
  apply in_map_iff in Hin. destruct Hin as (s & Hn & Hs'). 
  assert (HinS : In s S) by (rewrite Hs; apply in_or_app; left; exact Hs').
  apply (DIs_sealed_neq c nb d _ S t s (lv_dis _ _ _ _ _ _ _ _ V) (lv_meta _ _ _ _ _ _ _ _ V) eq_refl HinS). exact Hn.
Qed.

Lemma name_base a b : name_of a = name_of b -> si_base a = si_base b.
Proof. unfold name_of. intros H. inversion H. reflexivity. Qed.

Lemma live_unsealed {c nb w d S t f tw} (V : lview c nb w d S t f tw) : st_rotate w = None ->
  df_seal f = 0 /\ ws_index_start tw = 0.
Proof.
  intros Hrot. pose proof (lv_rot _ _ _ _ _ _ _ _ V) as K. rewrite Hrot in K.
  pose proof (lv_tw _ _ _ _ _ _ _ _ V) as (_ & _ & _ & _ & _ & _ & Ti & _).
  destruct (0 <? df_seal f) eqn:Z; [discriminate|]. split; lia.
Qed.

Lemma live_delete c nb w e nom alts defer mn mx :
  cfg_ok c -> mx + 1 < two64 -> nb + 1 < two64 ->
  Live c nb w (e_disk e) defer -> st_rotate w = None -> sp_of (sh (e_disk e)) = nom -> In nom alts ->
  exists r w' e', delete_range c w mn mx e = (r, w', e') /\ st_closed w' = false /\
    ((r = ROk /\ exists nom', spec_accepts nom (ODelete mn mx) = Some nom' /\
        Live c (nb + 1) w' (e_disk e') defer /\ sp_of (sh (e_disk e')) = nom') \/
     (r <> ROk /\ Mode c (nb + 1) w' (e_disk e') nom defer /\
      RD c (nb + 1) (e_disk e') (alts ++ app_op (ODelete mn mx) alts) defer)).
Proof.
  intros Hc Hmx Hnb HLive Hrot Hsp Hin.
  pose proof HLive as (HL & Hsto). pose proof (LInv_closed _ _ _ _ HL) as Hcl.
  destruct (live_shadow c nb w e defer HLive) as (HR & Hg & Hex & HX).
  set (X := stale_names (e_disk e)) in *. set (ec := shenv e) in *. set (d := e_disk e) in *.
  destruct (delete_range_ok c nb w ec mn mx nom Hc HL eq_refl Hrot Hnb Hsp Hmx) as (r0 & w0 & ec' & Hsl & Hres & HL' & Hsp' & Hext).
  destruct (delete_range c w mn mx e) as [[r w'] e'] eqn:Est. exists r, w', e'. split; [reflexivity|].
  destruct (delete_range_sub _ _ _ _ _ _ _ _ Est) as (_ & Hms).
  set (o1 := ODelete mn mx) in *. set (alts' := alts ++ app_op o1 alts).
  assert (Hia : incl alts alts') by (intros x Hx; apply in_or_app; left; exact Hx).
  assert (Hina : In nom alts') by (apply Hia; exact Hin).
  pose proof (LInv_closed _ _ _ _ HL') as Hcl0.
  destruct (LInv_view _ _ _ _ HL) as (S & t & f0 & tw & V).
  destruct (live_unsealed V Hrot) as (Hse & His).
  pose proof (lv_tw _ _ _ _ _ _ _ _ V) as (Tn & Tb & _ & _ & Tnn & To & _ & _).
  pose proof (lv_tok _ _ _ _ _ _ _ _ V) as (Hunsealed & _).
  pose proof (lv_tail _ _ _ _ _ _ _ _ V) as Htw.
  assert (Htinfo : tail_info (st_segs w) = Some t) by (rewrite (lv_segs _ _ _ _ _ _ _ _ V); apply tail_info_app).
  pose proof (fun n => stale_garbage c nb w d (e_disk e') defer t n HLive Hms Htinfo) as HXg. fold X in HXg.
  assert (HXw : forall n, In n X -> n <> name_of t -> forall s, In s (st_segs w) -> name_of s <> n).
  { intros n Hx Hne s Hs. destruct (HX n Hx) as [(t' & Ht' & ->)|Hu]; [rewrite Htinfo in Ht'; inversion Ht'; subst; congruence|].
    apply (Hu (persistent w) s (live_meta c nb w d HL) Hs). }
  assert (Hfin : forall dm, pfx ec ec' dm -> DIs c (nb + 1) dm /\ In (sp_of dm) (candidates alts' defer))
    by (intros dm; apply (ext_pfx_cand c (nb + 1) ec ec' nom o1 r0 alts defer dm Hext eq_refl Hres Hin)).
  destruct (delete_range_lock X c w mn mx e ec r w' e' r0 w0 ec' HR Hg Est Hsl) as [(-> & -> & Herr & Hok)|(Hf' & -> & Hfail)].
  - split; [exact Hcl0|].
    destruct (res_cases nom o1 r0 eq_refl Hres) as [(-> & Hacc)|(Hne & Hacc & Hsnd)].
    + left. split; [reflexivity|]. exists (snd (step_spec nom o1)). split; [exact Hacc|].
      destruct (Hok eq_refl) as [(-> & -> & Eec)|[(ns & HRd & Hfate)|(ns & X' & HRd & Hincl & Htl)]].
      * split; [eapply Live_mono; [| |exact HLive]; [lia|apply incl_refl]|]. rewrite Eec in Hsp'. exact Hsp'.
      * destruct (Rd_live c (nb + 1) _ w0 e' ec ec' X ns defer Hext HL' HRd) as (HLv & Hsps); [|split; [exact HLv|rewrite Hsps; exact Hsp']].
        intros n f p Hx Hni Hl Hp. destruct (fname_eqb n (name_of t)) eqn:En; [|right; apply (HXg n Hx); apply fname_eqb_neq; exact En].
        apply fname_eqb_eq in En. subst n.
        destruct (Hfate t Htinfo) as [(ti' & Hti' & Hn' & _ & Hkeep)|K]; [|contradiction].
        specialize (Hkeep (keeps_tail_view V)). fold d in Hkeep. rewrite Hl in Hkeep.
        left. exists ti'. split; [exact Hti'|]. split; [symmetry; exact Hn'|].
        apply (stale_batch_base c t ti' f p defer (name_base _ _ Hn')).
        apply (live_tail_batch c nb w d defer t f p HLive Htinfo (eq_sym Hkeep) Hp).
      * destruct (Rd_live c (nb + 1) _ w0 e' ec ec' X' ns defer Hext HL' HRd) as (HLv & Hsps); [|split; [exact HLv|rewrite Hsps; exact Hsp']].
        intros n f p Hx Hni Hl Hp. right. apply (HXg n (Hincl n Hx)). intros ->.
        destruct (Htl t tw Htinfo Hunsealed Htw Tn His) as [K|K]; contradiction.
    + right. split; [exact Hne|].
      destruct (Herr Hne) as [Hfl|(-> & -> & Eec)]; [destruct HL' as (_ & K & _); congruence|].
      apply (live_out c (nb + 1) w d nom alts' defer); [eapply Live_mono; [| |exact HLive]; [lia|apply incl_refl]|exact Hsp|exact Hina].
  - (* the real run failed at an I/O action *)
    assert (Hnofail : st_failed w0 = false) by apply HL'.
    destruct Hfail as [(-> & [Hd|[(ps & Hpc & Hmeta & Hgone)|[(ps & ns & Hrc & Hde & Hland & Hfate)|(_ & Hfl0)]]])|[(tw1 & Htw1 & _ & Hn0 & -> & Hwr)|
                       (tw1 & tw' & e1 & ec1 & X' & Htw1 & Hfsc & Hfs & HR1 & _ & HX' & Hsh1 & -> & Hrest)]]; [| | |congruence| |].
    + split; [exact Hcl|]. right. split; [discriminate|].
      apply (failed_unchanged c nb (nb + 1) w d (e_disk e') nom alts' defer defer ltac:(lia) (incl_refl _)); try assumption.
      rewrite Hd. apply deq_refl.
    + split; [exact Hcl|]. right. split; [discriminate|].
      pose proof (post_commit_meta _ _ _ _ _ Hpc) as Hmd'.
      apply (fail_after_commit c nb (nb + 1) (set_failed w) w (sh d) (e_disk e') X nom alts' defer ps ec ec' ltac:(lia) HL eq_refl Hsp eq_refl eq_refl eq_refl Hrot Hcl Hpc Hfin).
      * intros n Hx. destruct (fname_eqb n (name_of t)) eqn:En; [left; exists t; split; [exact Htinfo|apply fname_eqb_eq; exact En]|right].
        apply (HXw n Hx). apply fname_eqb_neq. exact En.
      * intros n s Hx Hs. destruct (fname_eqb n (name_of t)) eqn:En.
        -- apply fname_eqb_eq in En. subst n.
           pose proof HL' as (_ & _ & _ & _ & Hm0 & _). rewrite Hmeta in Hm0. inversion Hm0; subst ps.
           intros Hn. apply (LInv_listed_files c (nb + 1) w0 _ s HL' Hs). rewrite Hn. apply (Hgone t Htinfo Hunsealed).
        -- apply fname_eqb_neq in En. apply (HXg n Hx En ps s Hmd' Hs).
    + (* the commit of the head truncation landed: readers
         keep the old state, the next Open finds the truncation done *)
      subst r0. split; [exact Hcl|]. right. split; [discriminate|].
      assert (Hfl' : dk_files (e_disk e') = dk_files d) by (rewrite Hde; reflexivity).
      assert (Hst' : dk_stable (e_disk e') = dk_stable d) by (rewrite Hde; reflexivity).
      pose proof (LInv_NoDup_sh _ _ _ _ HL) as ND.
      destruct (res_cases nom o1 ROk eq_refl Hres) as [(_ & Hacc)|(K & _)]; [|congruence].
      split.
      * right. split; [exact Hcl|]. right. split; [reflexivity|]. split; [exact Hrot|].
        apply (RV_of_clean_disk c (nb + 1) (set_failed w) w (sh d) (e_disk e') nom).
        -- eapply LInv_mono; [|exact HL]. lia.
        -- exact Hsp.
        -- reflexivity.
        -- reflexivity.
        -- intros n _. unfold sh, map_files. cbn [dk_files]. rewrite Hfl'. reflexivity.
        -- cbn [sh map_files dk_stable]. symmetry. exact Hst'.
        -- rewrite Hfl'. exact ND.
        -- intros n f p Hl Hp. rewrite Hfl' in Hl. destruct (Hsto n f p Hl Hp) as [(t2 & Ht2 & Hn2 & _)|Hu].
           ++ left. exists t2. auto.
           ++ right. intros s Hs. apply (Hu (persistent w) s (live_meta c nb w d HL) Hs).
      * destruct (landed_post c (nb + 1) _ w0 e' ec ec' X ns
                    (fun n f p => exists t, tail_info (st_segs w0) = Some t /\ n = name_of t /\ stale_batch c t f p defer) Hext HL' Hland)
          as (HLs & Hcls & Hsps).
        { intros n f p Hx Hni Hl Hp. destruct (fname_eqb n (name_of t)) eqn:En; [|right; apply (HXg n Hx); apply fname_eqb_neq; exact En].
          apply fname_eqb_eq in En. subst n.
          destruct (Hfate t Htinfo) as [(ti' & Hti' & Hn' & _ & _)|K]; [|contradiction].
          rewrite Hfl' in Hl. left. exists ti'. split; [exact Hti'|]. split; [symmetry; exact Hn'|].
          apply (stale_batch_base c t ti' f p defer (name_base _ _ Hn')).
          apply (live_tail_batch c nb w d defer t f p HLive Htinfo Hl Hp). }
        apply (live_RD c (nb + 1) w0 (e_disk e') alts' defer (conj HLs Hcls)).
        rewrite Hsps, Hsp'. eapply in_alts_app_op; eauto.
    + (* the forced seal failed *)
      split; [exact Hcl|]. right. split; [discriminate|].
      rewrite Htw in Htw1. inversion Htw1; subst tw1.
      destruct Hwr as [Hd|(Hrel & Hpfx)].
      * rewrite Hd. apply (live_out c (nb + 1) w d nom alts' defer); [eapply Live_mono; [| |exact HLive]; [lia|apply incl_refl]|exact Hsp|exact Hina].
      * change (e_disk ec) with (sh d) in Hrel, Hpfx.
        destruct (force_act_pend V Hc Hse ltac:(lia)) as (len & b & Ea & Eb & Hlt).
        destruct (Hfin _ Hpfx) as (HDm & _).
        destruct (stale_after_write c nb (nb + 1) w (sh d) (e_disk e') (rem (ws_name tw) X) S t f0 tw defer _ len b V Hse ltac:(lia) Ea Hlt HDm Hrel) as (HLv & Hspv).
        { rewrite <- Tn. apply rem_not. }
        { intros n Hx. apply rem_in in Hx. destruct Hx as (Hx & Hn). apply (HXg n Hx). rewrite <- Tn. exact Hn. }
        { rewrite Eb. intros K. congruence. }
        rewrite Hsp in Hspv. apply (live_out c (nb + 1) w (e_disk e') nom alts' defer); assumption.
    + (* the tail was sealed, then the state transaction failed *)
      rewrite Htw in Htw1. inversion Htw1; subst tw1.
      specialize (HX' His). subst X'.
      assert (Hn1 : 1 <= llen (df_ents f0)).
      { pose proof (force_guard_cases tw) as K. rewrite seg_force_seal_eq in Hfsc. unfold guarded_write in Hfsc.
        destruct (force_guard tw) as [rg|]; [injection Hfsc as -> _ _; elim (K eq_refl His)|]. lia. }
      assert (Hext0 : ext (DP c nb (fun x => x = nom)) ec ec).
      { apply ext_refl; [reflexivity|]. apply (LInv_DP c nb w (sh d) _ HL). exact Hsp. }
      destruct (force_seal_ok c nb (fun x => x = nom) w ec ec S t f0 tw Hc V Hext0 Hse Hn1 Hsp)
        as (tw2 & ec2 & Hfs2 & _ & HLS & HspS & Hidx & _).
      rewrite Hfsc in Hfs2. injection Hfs2 as <- <-.
      replace (0 <? ws_index_start tw') with true in HLS by lia.
      change (e_disk ec) with (sh d) in HspS. rewrite Hsp in HspS.
      destruct HR1 as (Hrel1 & _).
      assert (HXr : forall n, In n (rem (ws_name tw) X) -> In n X /\ n <> name_of t).
      { intros n Hx. apply rem_in in Hx. rewrite Tn in Hx. exact Hx. }
      destruct Hrest as [(Hd & Hpfx)|[(ps & Hpc & Hmeta)|(_ & Hfl0)]]; [| |congruence].
      * (* the commit failed: the tail stays sealed, the WAL refuses writes *)
        split; [exact Hcl|]. right. split; [discriminate|].
        assert (HLs : LInv c (nb + 1) (set_rot (set_tail w (Some tw')) (Some (ws_index_start tw'))) (sh (e_disk e'))).
        { rewrite Hd, (drel_sh_eq _ _ _ Hrel1). eapply LInv_mono; [|apply LInv_sh; exact HLS]. lia. }
        assert (Hsps : sp_of (sh (e_disk e')) = nom) by (rewrite Hd, (drel_sh_eq _ _ _ Hrel1), (sp_of_sh_clean c nb _ _ HLS); exact HspS).
        assert (HN1 : no_pend (e_disk ec1)) by apply HLS.
        assert (HS : Seal c (nb + 1) (set_tail w (Some tw')) (e_disk e')).
        { exists tw'. split; [reflexivity|]. split; [exact Hidx|]. split; [exact Hrot|]. split; [exact HLs|].
          intros n f p Hl Hp. rewrite Hd in Hl.
          assert (Hx : In n (rem (ws_name tw) X)) by (apply (drel_stale_ok _ _ _ Hrel1 HN1 n f Hl); congruence).
          destruct (HXr n Hx) as (Hx1 & Hx2). apply (HXg n Hx1 Hx2). }
        split.
        -- right. split; [exact Hcl|]. right. split; [reflexivity|]. split; [exact Hrot|].
           apply (RV_ext c (nb + 1) (set_tail w (Some tw'))); [reflexivity|reflexivity|].
           rewrite <- Hsps. apply RV_of_seal. exact HS.
        -- rewrite Hd. apply (RD_rel c (nb + 1) (e_disk e1) (e_disk ec1) (rem (ws_name tw) X) alts' defer).
           ++ eapply DIs_mono; [|apply HLS]. lia.
           ++ exact HN1.
           ++ exact Hrel1.
           ++ intros n Hx. destruct (HXr n Hx) as (Hx1 & Hx2). apply (unlisted_meta (e_disk e') _ n); [|apply (HXg n Hx1 Hx2)].
              rewrite Hd. symmetry. apply Hrel1.
           ++ apply cand_alts. rewrite HspS. exact Hina.
      * (* the commit succeeded, the creation of the new tail failed *)
        split; [exact Hcl|]. right. split; [discriminate|].
        pose proof (post_commit_meta _ _ _ _ _ Hpc) as Hmd'.
        match type of HLS with LInv _ _ ?wS _ =>
          apply (fail_after_commit c nb (nb + 1) (set_failed (set_tail w (Some tw'))) wS (e_disk ec1) (e_disk e') (rem (ws_name tw) X) nom alts' defer ps ec1 ec' ltac:(lia) HLS eq_refl HspS eq_refl eq_refl eq_refl Hrot Hcl Hpc) end.
        -- intros dm Hp. apply Hfin. eapply pfx_shift; [apply Hsh1|exact Hp].
        -- intros n Hx. right. destruct (HXr n Hx) as (Hx1 & Hx2). apply (HXw n Hx1 Hx2).
        -- intros n s Hx Hs. destruct (HXr n Hx) as (Hx1 & Hx2). apply (HXg n Hx1 Hx2 ps s Hmd' Hs).
Qed.
