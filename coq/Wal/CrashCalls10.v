(* CrashCalls10.v -- call_ok for DeleteRange; call_ok for every call, and with CrashGlue.v
   the master theorem [crash_refinement]. *)
From RW Require Import Base.Bytes Base.BytesFacts Fmt.Codec Fmt.CodecFacts Fmt.Frame Wal.Model Wal.Spec Wal.Hist
  Wal.CrashInv Wal.ModelFacts Wal.CrashFacts0 Wal.CrashFacts1 Wal.CrashFacts2 Wal.CrashFacts3 Wal.CrashFacts4 Wal.CrashFacts5
  Wal.CrashFacts6 Wal.CrashGlue Wal.CrashCalls1 Wal.CrashCalls2 Wal.CrashCalls3 Wal.CrashCalls4 Wal.CrashCalls5
  Wal.CrashCalls6 Wal.CrashCalls7 Wal.CrashCalls8 Wal.CrashCalls9 Gen.Constants Base.LiaSetup.
Open Scope N_scope.

Lemma slog_of_cons first es : es <> [] -> slog_of first es = {| sl_first := first; sl_ents := es |}.
Proof. destruct es; [congruence|reflexivity]. Qed.

Lemma delete_range_ok c nb w e mn mx a :
  cfg_ok c -> LInv c nb w (e_disk e) -> e_fault e = None -> st_rotate w = None -> nb + 1 < two64 ->
  sp_of (e_disk e) = a -> mx + 1 < two64 ->
  exists r w' e', delete_range c w mn mx e = (r, w', e') /\
    result_eqb (res_class r) (fst (step_spec a (ODelete mn mx))) = true /\
    LInv c (nb + 1) w' (e_disk e') /\ sp_of (e_disk e') = snd (step_spec a (ODelete mn mx)) /\
    ext (DP c (nb + 1) (fun x => x = a \/ x = snd (step_spec a (ODelete mn mx)))) e e'.
Proof.
  intros Hc HL Hf Hrot Hnb Hsp Hmx. set (d := e_disk e) in *.
  pose proof (LInv_nid _ _ _ _ HL) as Hnid.
  assert (HL1 : LInv c (nb + 1) w d) by (eapply LInv_mono; [|exact HL]; lia).
  destruct (LInv_view _ _ _ _ HL1) as (S & t & f & tw & V).
  set (a' := snd (step_spec a (ODelete mn mx))).
  set (A := fun x : spst => x = a \/ x = a').
  assert (He0 : ext (DP c (nb + 1) A) e e).
  { apply ext_refl; [exact Hf|]. eapply LInv_DP; [exact HL1|left; exact Hsp]. }
  assert (Hspec : step_spec a (ODelete mn mx) =
            match spec_delete (dread d) mn mx with
            | Some l' => (ROk, {| sp_log := l'; sp_kv := dk_stable d |})
            | None => (RErrOther, a) end).
  { cbn [step_spec]. rewrite <- Hsp. reflexivity. }
  assert (Hnoop : spec_delete (dread d) mn mx = Some (dread d) ->
            exists r w' e', (ROk, w, e) = (r, w', e') /\
              result_eqb (res_class r) (fst (step_spec a (ODelete mn mx))) = true /\
              LInv c (nb + 1) w' (e_disk e') /\ sp_of (e_disk e') = a' /\ ext (DP c (nb + 1) A) e e').
  { intros Hsd. exists ROk, w, e. split; [reflexivity|]. unfold a'. rewrite Hspec, Hsd. cbn [fst snd].
    split; [reflexivity|]. split; [exact HL1|]. split; [reflexivity|exact He0]. }
  (* a truncation takes at most one id, for the fresh tail it creates when the old one goes
     (truncateTailLocked always, truncateHeadLocked when nothing remains) *)
  assert (Hn1 : st_next_id w + 1 <= nb + 1) by (clear - Hnid; lia).
  assert (Hmx1 : 1 <= mx + 1) by (clear; lia).
  unfold delete_range. rewrite (lv_closed _ _ _ _ _ _ _ _ V).
  destruct (mx <? mn) eqn:Emm.
  { apply Hnoop. unfold spec_delete. rewrite Emm. reflexivity. }
  rewrite (lv_failed _ _ _ _ _ _ _ _ V). rewrite (lv_first V), (lv_last V).
  rewrite (N.mod_small (mx + 1) two64) by exact Hmx.
  destruct (lv_log_cases V) as [(Ees & ES & Hn0 & Hdr & Hmb)|(Ees & Hdr & Hlast & H2)].
  - (* empty log *)
    rewrite Hdr. change (spec_first sl_empty) with 0. change (spec_last sl_empty) with 0.
    assert (Hsd : spec_delete sl_empty mn mx = Some sl_empty).
    { unfold spec_delete. cbn [sl_is_empty sl_empty sl_ents]. rewrite orb_true_r. reflexivity. }
    destruct ((mx <? 0) || (0 <? mn)) eqn:E1.
    { apply Hnoop. rewrite Hdr. exact Hsd. }
    replace (mn <=? 0) with true by lia.
    (* mn = 0 on an empty log: first = last = 0, so wal.go's no-op case does not catch it
       and truncateHeadLocked runs; it swaps the empty tail for a fresh one, the log stays
       empty (Ea1) and the spec's no-op is matched *)
    set (a1 := {| sp_log := slog_of (mx + 1) (skipn (N.to_nat (mx + 1 - hd_min S t)) (lv_es d S t f)); sp_kv := dk_stable d |}).
    assert (Ea1 : a1 = a) by (unfold a1; rewrite Ees, skipn_nil; cbn; rewrite <- Hsp; unfold sp_of; rewrite Hdr; reflexivity).
    destruct (truncate_head_ok c (nb + 1) A w e S t f tw (mx + 1) Hc V Hf Hrot Hn1 Hnb Hmx1)
      as (w' & e' & Htr & He' & HL' & Hs').
    + fold d. intros Hne. congruence.
    + left. exact Hsp.
    + fold d. fold a1. left. exact Ea1.
    + rewrite Htr. exists ROk, w', e'. split; [reflexivity|]. unfold a'. rewrite Hspec, Hdr, Hsd. cbn [fst snd].
      split; [reflexivity|]. split; [exact HL'|]. split; [|exact He'].
      rewrite Hs'. fold d. fold a1. rewrite Ea1, <- Hsp. unfold sp_of. rewrite Hdr. reflexivity.
  - (* non-empty log *)
    set (first := hd_min S t) in *. set (es := lv_es d S t f) in *.
    assert (Hf1 : 1 <= first).
    { pose proof (lv_twf V) as (_ & _ & Hb1 & _ & Hbm & _). unfold first.
      destruct (list_eq_dec_nil S) as [->|HneS]; [unfold hd_min; cbn; lia|].
      pose proof (lv_Swf V) as Hw. destruct S as [|s S']; [congruence|]. inversion Hw as [|? ? (Hsb & Hsm) _]; subst.
      unfold hd_min. cbn [hd]. lia. }
    pose proof (lv_len V) as Hlen. fold d es first in Hlen.
    assert (Hfirst : spec_first (dread d) = first).
    { rewrite Hdr. unfold spec_first. cbn [sl_is_empty sl_ents sl_first]. destruct es; [congruence|reflexivity]. }
    assert (Hie : sl_is_empty (dread d) = false).
    { rewrite Hdr. unfold sl_is_empty. cbn [sl_ents]. destruct es; [congruence|reflexivity]. }
    rewrite Hfirst.
    assert (Hsd : spec_delete (dread d) mn mx =
              if (mx <? first) || (spec_last (dread d) <? mn) then Some (dread d)
              else if mn <=? first then
                     if spec_last (dread d) <=? mx then Some sl_empty
                     else Some {| sl_first := mx + 1; sl_ents := skipn (N.to_nat (mx + 1 - first)) es |}
                   else if spec_last (dread d) <=? mx
                        then Some {| sl_first := first; sl_ents := firstn (N.to_nat (mn - first)) es |}
                        else None).
    { unfold spec_delete. rewrite Emm, Hie. cbn [orb].
      assert (E1 : sl_first (dread d) = first) by (rewrite Hdr; reflexivity).
      assert (E2 : sl_ents (dread d) = es) by (rewrite Hdr; reflexivity).
      rewrite E1, E2. reflexivity. }
    destruct ((mx <? first) || (spec_last (dread d) <? mn)) eqn:E1.
    { apply Hnoop. rewrite Hsd. reflexivity. }
    destruct (mn <=? first) eqn:E2.
    + (* head truncation *)
      set (a1 := {| sp_log := slog_of (mx + 1) (skipn (N.to_nat (mx + 1 - first)) es); sp_kv := dk_stable d |}).
      (* mx may lie beyond the last index (wal.go allows it: the whole log goes); then skipn
         leaves nothing and a1 is the empty log with no first index, as in the spec *)
      assert (Ea1 : a' = a1).
      { unfold a'. rewrite Hspec, Hsd. unfold a1. destruct (spec_last (dread d) <=? mx) eqn:E3; cbn [snd]; f_equal.
        - rewrite skipn_all2; [reflexivity|]. unfold llen in *. lia.
        - symmetry. apply slog_of_cons. intros E. apply (f_equal (@length _)) in E. rewrite skipn_length in E.
          cbn in E. unfold llen in *. lia. }
      destruct (truncate_head_ok c (nb + 1) A w e S t f tw (mx + 1) Hc V Hf Hrot Hn1 Hnb Hmx1)
        as (w' & e' & Htr & He' & HL' & Hs').
      * fold d first. intros _. lia.
      * left. exact Hsp.
      * fold d first es a1. right. symmetry. exact Ea1.
      * rewrite Htr. exists ROk, w', e'. split; [reflexivity|].
        split; [rewrite Hspec, Hsd; destruct (spec_last (dread d) <=? mx); reflexivity|].
        split; [exact HL'|]. split; [|exact He']. rewrite Hs'. fold d first es a1. symmetry. exact Ea1.
    + destruct (spec_last (dread d) <=? mx) eqn:E3.
      * (* tail truncation *)
        set (a1 := {| sp_log := slog_of first (firstn (N.to_nat (mn - 1 + 1 - first)) es); sp_kv := dk_stable d |}).
        assert (Ea1 : a' = a1).
        { unfold a'. rewrite Hspec, Hsd. unfold a1. cbn [snd]. f_equal.
          replace (mn - 1 + 1 - first) with (mn - first) by lia.
          symmetry. apply slog_of_cons. intros E. apply (f_equal (@length _)) in E. rewrite firstn_length in E.
          cbn in E. unfold llen in *. lia. }
        destruct (truncate_tail_ok c (nb + 1) A w e S t f tw (mn - 1) Hc V Hf Hrot Hn1 Hnb)
          as (w' & e' & Htr & He' & HL' & Hs').
        -- exact Ees.
        -- fold first. lia.
        -- lia.
        -- left. exact Hsp.
        -- fold d first es a1. right. symmetry. exact Ea1.
        -- rewrite Htr. exists ROk, w', e'. split; [reflexivity|].
           split; [rewrite Hspec, Hsd; reflexivity|].
           split; [exact HL'|]. split; [|exact He']. rewrite Hs'. fold d first es a1. symmetry. exact Ea1.
      * (* a range strictly inside the log *)
        exists RErrMiddle, w, e. split; [reflexivity|]. unfold a'. rewrite Hspec, Hsd. cbn [fst snd].
        split; [reflexivity|]. split; [exact HL1|]. split; [exact Hsp|exact He0].
Qed.

Lemma call_delete c mn mx : call_ok c (ODelete mn mx).
Proof.
  intros nb s a Hc Hmx Hnb HL Hf Hsp Hg. cbn [step_model]. cbn [sop_ok] in Hmx.
  destruct (settle_ok c nb s a Hc HL Hf Hsp ltac:(lia)) as (HL1 & Hr1 & Hs1 & He1).
  set (s1 := settle c s) in *.
  destruct (delete_range_ok c (nb + 1) (ss_wal s1) (ss_env s1) mn mx a Hc HL1 (ext_fault _ _ _ He1) Hr1 ltac:(lia) Hs1 Hmx)
    as (r & w' & e' & Hst & Hres & HL' & Hs' & He').
  rewrite Hst. exists r, {| ss_wal := w'; ss_env := e' |}. split; [reflexivity|]. cbn [ss_wal ss_env].
  replace (nb + 2) with (nb + 1 + 1) by lia.
  split; [exact Hres|]. split; [exact HL'|]. split; [exact Hs'|].
  eapply ext_trans; [|exact He'].
  eapply ext_mono; [|exact He1]. intros d HP. eapply DP_mono; [| |exact HP]; [lia|]. intros x Hx. left. congruence.
Qed.

Theorem call_ok_all c o : call_ok c o.
Proof.
  destruct o.
  - apply call_store.
  - apply call_delete.
  - apply call_get.
  - apply call_first.
  - apply call_last.
  - apply call_set.
  - apply call_gets.
  - apply call_reopen.
Qed.

Theorem crash_refinement : crash_refinement_stmt.
Proof.
  intros c steps Hc Hwf Hshort.
  apply (GI_hist c steps Hc (call_ok_all c) Hwf Hshort).
Qed.
