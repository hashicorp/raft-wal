(* BasicFacts.v -- small facts about the abstract disk, crashes, the stable map
   and the very first Open; used by Props/C05, Props/C08 and SeqFactsStable. *)
From RW Require Import Base.Bytes Base.BytesFacts Fmt.Codec Fmt.Frame Wal.Model Wal.Spec Wal.Hist Gen.Constants.
Open Scope N_scope.

(* crash_file: synced entries of a durable file survive every adversary choice;
   the pending batch is kept whole or dropped whole *)
Lemma crash_file_durable c n f :
  df_dir f = true ->
  exists f', crash_file c (n, f) = [(n, f')] /\ df_pend f' = None /\ df_dir f' = true /\
             (df_ents f' = df_ents f \/
              exists b, df_pend f = Some b /\ df_ents f' = df_ents f ++ pb_ents b /\ df_end f' = pb_end b).
Proof.
  intros Hd. unfold crash_file. rewrite Hd. cbn [negb andb].
  destruct (df_pend f) as [b|] eqn:Hp.
  - destruct (mem_name n (cc_keep_batch c)).
    + eexists; split; [reflexivity|]. cbn. repeat split. right. exists b. repeat split.
    + eexists; split; [reflexivity|]. cbn. repeat split. left. reflexivity.
  - eexists; split; [reflexivity|]. cbn. repeat split. left. reflexivity.
Qed.

Lemma crash_file_nondurable_dropped c n f :
  df_dir f = false -> mem_name n (cc_keep_file c) = false -> crash_file c (n, f) = [].
Proof. intros Hd Hk. unfold crash_file. rewrite Hd, Hk. reflexivity. Qed.

Lemma crash_disk_meta c d : dk_meta (crash_disk c d) = dk_meta d /\ dk_stable (crash_disk c d) = dk_stable d.
Proof. split; reflexivity. Qed.

(* maps built by kv_set have unique keys *)
Fixpoint kv_keys_unique (m : list kv) : Prop :=
  match m with
  | [] => True
  | (k, _) :: r => (forall v, ~ In (k, v) r) /\ (forall k' v', In (k', v') r -> beq_bytes k k' = false) /\ kv_keys_unique r
  end.

Lemma kv_get_notin k m : (forall k' v', In (k', v') m -> beq_bytes k k' = false) -> kv_get k m = [].
Proof.
  induction m as [|[k' v'] m IH]; intros H; cbn [kv_get]; [reflexivity|].
  unfold bytes_eqb. rewrite (H k' v' (or_introl eq_refl)). apply IH. intros k2 v2 Hin. apply (H k2 v2). right. exact Hin.
Qed.

Lemma beq_bytes_sym a b : beq_bytes a b = beq_bytes b a.
Proof.
  destruct (beq_bytes a b) eqn:E.
  - apply beq_bytes_eq in E. subst. symmetry. apply beq_bytes_refl.
  - destruct (beq_bytes b a) eqn:E2; [|reflexivity]. apply beq_bytes_eq in E2. subst.
    rewrite beq_bytes_refl in E. discriminate.
Qed.

Lemma kv_get_set_same k v m : kv_keys_unique m -> kv_get k (kv_set k v m) = v.
Proof.
  induction m as [|[k' v'] m IH]; intros Hu; cbn [kv_set kv_get].
  - destruct v as [|b v]; cbn [kv_get]; [reflexivity|]. unfold bytes_eqb. rewrite beq_bytes_refl. reflexivity.
  - destruct Hu as (Hn & Hd & Hu'). unfold bytes_eqb. destruct (beq_bytes k k') eqn:E.
    + destruct v as [|b v].
      * apply beq_bytes_eq in E. subst k'. apply kv_get_notin. exact Hd.
      * cbn [kv_get]. unfold bytes_eqb. rewrite beq_bytes_refl. reflexivity.
    + cbn [kv_get]. unfold bytes_eqb. rewrite E. apply IH. exact Hu'.
Qed.

Lemma kv_get_set_other k k2 v m : beq_bytes k2 k = false -> kv_get k2 (kv_set k v m) = kv_get k2 m.
Proof.
  intros Hne. induction m as [|[k' v'] m IH]; cbn [kv_set kv_get].
  - destruct v as [|b v]; cbn [kv_get]; [reflexivity|]. unfold bytes_eqb. rewrite Hne. reflexivity.
  - unfold bytes_eqb in *. destruct (beq_bytes k k') eqn:E.
    + apply beq_bytes_eq in E. subst k'. rewrite Hne.
      destruct v as [|b v]; cbn [kv_get]; [reflexivity|]. unfold bytes_eqb. rewrite Hne. reflexivity.
    + cbn [kv_get]. unfold bytes_eqb. destruct (beq_bytes k2 k'); [reflexivity|]. exact IH.
Qed.

(* ---- the very first Open: on an empty directory it succeeds, the log is empty,
        and the directory holds exactly the one listed tail file ---- *)
Lemma first_open c :
  cfg_ok c ->
  exists w e, open_wal c fresh_env = (OOk w, e) /\ abs w (e_disk e) = sl_empty /\
              dir_exact (e_disk e) = true /\ dk_stable (e_disk e) = [] /\
              first_index (st_segs w) (st_tail w) = 0 /\ last_index (st_segs w) (st_tail w) = 0.
Proof.
  intros (Hcodec & Hlt & Hs1 & Hs2).
  unfold open_wal.
  assert (Hchk : negb (FirstExternalCodecID <=? c_codec c) && negb (c_codec c =? BinaryCodecID) = false).
  { destruct Hcodec as [H|H].
    - rewrite H. rewrite N.eqb_refl. cbn [negb]. apply andb_false_r.
    - replace (FirstExternalCodecID <=? c_codec c) with true by (symmetry; apply N.leb_le; exact H). reflexivity. }
  rewrite Hchk. destruct c as [sz cd]. cbn [c_seg_size c_codec] in *.
  unfold fresh_env, io, seg_create, new_segment. cbn.
  do 2 eexists. split; [reflexivity|].
  unfold abs, seg_visible, dir_exact, first_index, last_index. cbn.
  repeat split; reflexivity.
Qed.
