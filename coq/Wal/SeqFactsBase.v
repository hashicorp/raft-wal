(* SeqFactsBase.v -- generic facts used by the sequential refinement proof:
   reading a consecutive log, 64-bit arithmetic, logs the codec stores faithfully,
   I/O without faults and what one action does to the disk. *)
From RW Require Import Base.Bytes Base.BytesFacts Fmt.Codec Fmt.CodecFacts Fmt.Frame
  Wal.Model Wal.Spec Wal.SeqInv Wal.ModelFacts Gen.Constants Base.LiaSetup.
Open Scope N_scope.

Lemma lookup_in_names n fs f : lookup n fs = Some f -> In n (map fst fs).
Proof. apply lookup_some_in. Qed.

Lemma spec_get_iff a idx l : consecutive (sl_first a) (sl_ents a) = true ->
  (spec_get a idx = Some l <-> In l (sl_ents a) /\ l_index l = idx).
Proof.
  intros Hc. unfold spec_get, spec_last, sl_is_empty. split.
  - destruct (sl_ents a) eqn:Ee; [discriminate|]. rewrite <- Ee in *. cbn [orb].
    destruct (N.ltb_spec idx (sl_first a)); [discriminate|]. destruct (_ <? idx); [discriminate|]. cbn [orb].
    intros Hn. split; [eapply nth_error_In; exact Hn|]. rewrite (consecutive_nth _ _ _ _ Hc Hn). lia.
  - intros [Hin <-]. assert (Hpos := consecutive_In_nth _ _ _ Hc Hin).
    apply In_nth_error in Hin. destruct Hin as [k Hk]. assert (Hik := consecutive_nth _ _ _ _ Hc Hk).
    assert (Hklen : (k < length (sl_ents a))%nat) by (apply nth_error_Some; congruence).
    destruct (sl_ents a) eqn:Ee; [cbn in Hklen; lia|]. rewrite <- Ee in *. cbn [orb]. unfold llen.
    destruct (N.ltb_spec (l_index l) (sl_first a)); [lia|].
    destruct (N.ltb_spec (sl_first a + N.of_nat (length (sl_ents a)) - 1) (l_index l)); [lia|]. exact Hpos.
Qed.

Lemma mod64_small a : a < two64 -> a mod two64 = a.
Proof. intros H. apply N.mod_small. exact H. Qed.
Lemma mod32_small a : a < two32 -> a mod two32 = a.
Proof. intros H. apply N.mod_small. exact H. Qed.
Lemma sub64_small a b : b <= a -> a < two64 -> sub64 a b = a - b.
Proof.
  intros H1 H2. unfold sub64. rewrite (N.mod_small b) by lia.
  replace (a + two64 - b) with ((a - b) + 1 * two64) by lia.
  rewrite N.mod_add by (unfold two64; lia). apply N.mod_small. lia.
Qed.

Lemma log_ok_codec l : log_ok l -> codec_view l = l /\ exists b, encode_log l = Some b.
Proof.
  intros (Hwf & _). destruct (decode_encode l Hwf) as (bs & He & Hd).
  unfold codec_view. rewrite He, Hd. split; [reflexivity|eauto].
Qed.

Lemma io_ok a e : e_fault e = None -> io a e = (true, io_post a e).
Proof.
  intros H. unfold io, io_post, armed. rewrite H. destruct (is_delete a); reflexivity.
Qed.
Lemma io_post_fault a e : e_fault (io_post a e) = None.
Proof. reflexivity. Qed.
Lemma io_post_disk a e : e_disk (io_post a e) = apply_act (e_disk e) a.
Proof. reflexivity. Qed.
Lemma io_post_m a e : e_m (io_post a e) = e_m e.
Proof. reflexivity. Qed.

Lemma apply_stable d a :
  dk_stable (apply_act d a) = match a with ASetStable k v => kv_set k v (dk_stable d) | _ => dk_stable d end.
Proof.
  destruct a; try reflexivity; cbn [apply_act];
    destruct (lookup n (dk_files d)); reflexivity.
Qed.
Lemma apply_meta d a :
  dk_meta (apply_act d a) = match a with ACommit ps => Some ps | _ => dk_meta d end.
Proof.
  destruct a; try reflexivity; cbn [apply_act];
    destruct (lookup n (dk_files d)); reflexivity.
Qed.
Lemma apply_inited d a :
  dk_inited d = true -> dk_inited (apply_act d a) = true.
Proof.
  intros H. destruct a; try reflexivity; try exact H; cbn [apply_act];
    destruct (lookup n (dk_files d)); exact H.
Qed.
Lemma apply_files_other d a :
  match a with ACommit _ | ASetStable _ _ | AInitMeta | AFail _ => dk_files (apply_act d a) = dk_files d
  | _ => True end.
Proof. destruct a; exact I || reflexivity. Qed.

Lemma lookup_create d n sz m :
  lookup m (dk_files (apply_act d (ACreate n sz))) =
  if fname_eqb m n then Some {| df_ents := []; df_end := 0; df_seal := 0; df_pend := None;
                                df_dir := false; df_size := sz |}
  else lookup m (dk_files d).
Proof. cbn [apply_act dk_files]. apply lookup_update. Qed.
Lemma lookup_delete_neq d n m :
  fname_eqb m n = false -> lookup m (dk_files (apply_act d (ADelete n))) = lookup m (dk_files d).
Proof. intros H. apply lookup_remove_neq, fname_eqb_neq, H. Qed.
Lemma lookup_delete_none d n m :
  lookup m (dk_files d) = None -> lookup m (dk_files (apply_act d (ADelete n))) = None.
Proof. cbn [apply_act dk_files]. apply lookup_remove_none. Qed.

(* a batch written at the synced end of a file and fsynced *)
Definition wsync (d : disk) (n : fname) (off l : N) (b : pbatch) : disk :=
  apply_act (apply_act d (AWrite n off l b)) (ASync n).
Lemma lookup_wsync d n off l b f m :
  lookup n (dk_files d) = Some f -> df_pend f = None ->
  lookup m (dk_files (wsync d n off l b)) =
  if fname_eqb m n then Some {| df_ents := df_ents f ++ pb_ents b; df_end := pb_end b; df_seal := pb_seal b;
                                df_pend := None; df_dir := true; df_size := df_size f |}
  else lookup m (dk_files d).
Proof.
  intros Hl Hp. unfold wsync. cbn [apply_act]. rewrite Hl, Hp. cbn [dk_files].
  rewrite lookup_update, fname_eqb_refl. cbn [df_pend dk_files df_ents df_size].
  rewrite !lookup_update. destruct (fname_eqb m n); reflexivity.
Qed.
Lemma wsync_other d n off l b :
  dk_meta (wsync d n off l b) = dk_meta d /\ dk_stable (wsync d n off l b) = dk_stable d /\
  dk_inited (wsync d n off l b) = dk_inited d.
Proof.
  unfold wsync. rewrite !apply_meta, !apply_stable.
  repeat split. cbn [apply_act].
  destruct (lookup n (dk_files d)); cbn [dk_files dk_inited]; [|destruct (lookup n (dk_files d)); reflexivity].
  rewrite lookup_update, fname_eqb_refl. reflexivity.
Qed.

Lemma delete_files_spec ns : forall e, e_fault e = None ->
  let e' := delete_files ns e in
  e_fault e' = None /\ e_m e' = e_m e /\
  dk_meta (e_disk e') = dk_meta (e_disk e) /\ dk_stable (e_disk e') = dk_stable (e_disk e) /\
  dk_inited (e_disk e') = dk_inited (e_disk e) /\
  (forall m, (forall n, In n ns -> fname_eqb m n = false) ->
             lookup m (dk_files (e_disk e')) = lookup m (dk_files (e_disk e))) /\
  (forall m, lookup m (dk_files (e_disk e)) = None -> lookup m (dk_files (e_disk e')) = None).
Proof.
  induction ns as [|n ns IH]; intros e He; cbn zeta.
  - unfold delete_files. cbn [fold_left]. repeat split; auto.
  - unfold delete_files. cbn [fold_left]. rewrite (io_ok _ _ He). cbn [snd].
    fold (delete_files ns (io_post (ADelete n) e)).
    destruct (IH (io_post (ADelete n) e) (io_post_fault _ _)) as (H1 & H2 & H3 & H4 & H5 & H6 & H7).
    repeat split; auto.
    + intros m Hm. rewrite H6 by (intros k Hk; apply Hm; right; exact Hk).
      rewrite io_post_disk. apply lookup_delete_neq. apply Hm. left; reflexivity.
    + intros m Hm. apply H7. rewrite io_post_disk. apply lookup_delete_none. exact Hm.
Qed.
