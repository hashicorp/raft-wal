(* CrashFacts2.v -- a crash preserves the structural invariant and yields the
   reading with or without the pending batch; single non-metadata actions. *)
From RW Require Import Base.Bytes Base.BytesFacts Fmt.Codec Fmt.Frame Wal.Model Wal.Spec Wal.Hist
  Wal.CrashInv Wal.ModelFacts Wal.CrashFacts0 Wal.CrashFacts1 Gen.Constants Base.LiaSetup.
Open Scope N_scope.

Lemma sealed_es_ext d d' S :
  (forall s, In s S -> file_ents (name_of s) d' = file_ents (name_of s) d) ->
  sealed_es d' S = sealed_es d S.
Proof. apply flat_visible_ext. Qed.

Lemma sealed_file_ents_unpend d s : sealed_ok d s -> file_ents (name_of s) (unpend d) = file_ents (name_of s) d.
Proof.
  intros (_ & _ & f & Hf & _ & Hp & _). rewrite file_ents_unpend. unfold file_ents. rewrite Hf.
  unfold cur_ents. rewrite Hp. reflexivity.
Qed.

Lemma sealed_es_unpend d S : Forall (sealed_ok d) S -> sealed_es (unpend d) S = sealed_es d S.
Proof.
  intros H. apply sealed_es_ext. intros s Hin. rewrite Forall_forall in H. apply sealed_file_ents_unpend. auto.
Qed.

Lemma crash_no_pend cc d : NoDup (map fst (dk_files d)) -> no_pend (crash_disk cc d).
Proof.
  intros ND n f. unfold crash_disk; cbn [dk_files]. rewrite lookup_crash by exact ND.
  destruct (lookup n (dk_files d)) as [g|]; [|discriminate].
  destruct (negb (df_dir g) && negb (mem_name n (cc_keep_file cc))); [discriminate|].
  intros H; inversion H; subst. unfold crashed_file.
  destruct (df_pend g); [destruct (mem_name n (cc_keep_batch cc))|]; reflexivity.
Qed.

Lemma crashed_sealed k f : df_pend f = None -> df_dir f = true ->
  df_ents (crashed_file k f) = df_ents f /\ df_end (crashed_file k f) = df_end f /\
  df_pend (crashed_file k f) = None /\ df_dir (crashed_file k f) = true.
Proof. intros Hp Hd. unfold crashed_file. rewrite Hp. cbn. auto. Qed.

Lemma crashed_cases k f :
  (df_ents (crashed_file k f) = cur_ents f /\ df_end (crashed_file k f) = cur_end f /\ df_seal (crashed_file k f) = cur_seal f
   \/ df_ents (crashed_file k f) = df_ents f /\ df_end (crashed_file k f) = df_end f /\ df_seal (crashed_file k f) = df_seal f)
  /\ df_pend (crashed_file k f) = None /\ df_dir (crashed_file k f) = true.
Proof.
  unfold crashed_file, cur_ents, cur_end, cur_seal. destruct (df_pend f); [destruct k|]; cbn; auto.
Qed.

Lemma DIs_crash c nb cc d : DIs c nb d -> DIs c nb (crash_disk cc d).
Proof.
  intros HD. pose proof (DIs_NoDup _ _ _ HD) as ND.
  destruct (dk_meta d) as [ps|] eqn:Hm.
  - destruct (DIs_segs _ _ _ _ HD Hm) as (S & t & Hs).
    destruct (DIs_parts _ _ _ _ _ _ HD Hm Hs) as (H1 & H2 & H3 & H4 & H5 & H6 & H7).
    apply (DIs_build c nb _ ps S t); auto.
    + cbn. apply crash_NoDup. exact ND.
    + intros n f. cbn [crash_disk dk_files]. rewrite lookup_crash by exact ND.
      destruct (lookup n (dk_files d)) as [g|] eqn:E; [|discriminate]. intros _. eapply H3; eauto.
    + rewrite Forall_forall in *. intros s Hin. destruct (H6 s Hin) as (Ha & Hb & f & Hf & Hd & Hp & He & Hl).
      split; [exact Ha|]. split; [exact Hb|].
      exists (crashed_file (mem_name (name_of s) (cc_keep_batch cc)) f).
      cbn [crash_disk dk_files]. rewrite lookup_crash by exact ND. rewrite Hf, Hd. cbn [negb andb].
      destruct (crashed_sealed (mem_name (name_of s) (cc_keep_batch cc)) f Hp Hd) as (E1 & E2 & E3 & E4).
      rewrite E1, E2, E3, E4. auto.
    + destruct H7 as (Hu & H7). split; [exact Hu|].
      cbn [crash_disk dk_files]. rewrite lookup_crash by exact ND.
      destruct (lookup (name_of t) (dk_files d)) as [f|]; [|exact H7].
      destruct H7 as (Ha & Hb & Hc & Hd & He & Hf).
      destruct (negb (df_dir f) && negb (mem_name (name_of t) (cc_keep_file cc))) eqn:Ek.
      * destruct (df_dir f); [discriminate|]. rewrite Hc in He by reflexivity. exact He.
      * set (g := crashed_file (mem_name (name_of t) (cc_keep_batch cc)) f).
        destruct (crashed_cases (mem_name (name_of t) (cc_keep_batch cc)) f) as (Hcase & Hp & Hdir).
        fold g in Hcase, Hp, Hdir.
        assert (Hcur : cur_ents g = df_ents g /\ cur_end g = df_end g /\ cur_seal g = df_seal g).
        { unfold cur_ents, cur_end, cur_seal. rewrite Hp. auto. }
        destruct Hcur as (C1 & C2 & C3). rewrite C1, C2, C3, Hp, Hdir.
        pose proof (llen_df_le_cur f) as Hle.
        destruct Hcase as [(E1 & E2 & E3)|(E1 & E2 & E3)]; rewrite E1, E2, E3.
        -- repeat split; try apply Hb; try congruence.
           destruct (llen (cur_ents f) =? 0) eqn:Z1; destruct (llen (df_ents f) =? 0) eqn:Z2; clear - Z1 Z2 Hle He Hf; lia.
        -- repeat split; try apply Ha; try congruence. clear - Hle Hf. lia.
  - unfold DIs in *. rewrite Hm in HD. destruct HD as (_ & HD).
    cbn [crash_disk dk_files dk_meta]. rewrite Hm, HD. cbn. split; [constructor|reflexivity].
Qed.

Lemma crash_reading c nb cc d :
  DIs c nb d -> sp_of (crash_disk cc d) = sp_of d \/ sp_of (crash_disk cc d) = sp_of (unpend d).
Proof.
  intros HD. pose proof (DIs_NoDup _ _ _ HD) as ND.
  pose proof (DIs_crash c nb cc d HD) as HDc. pose proof (DIs_unpend c nb d HD) as HDu.
  unfold sp_of. cbn [crash_disk unpend dk_stable].
  destruct (dk_meta d) as [ps|] eqn:Hm.
  - destruct (DIs_segs _ _ _ _ HD Hm) as (S & t & Hs).
    rewrite (dread_decomp c nb (crash_disk cc d) ps S t HDc Hm Hs).
    rewrite (dread_decomp c nb d ps S t HD Hm Hs).
    rewrite (dread_decomp c nb (unpend d) ps S t HDu Hm Hs).
    destruct (DIs_parts _ _ _ _ _ _ HD Hm Hs) as (H1 & H2 & H3 & H4 & H5 & H6 & H7).
    assert (Es : sealed_es (crash_disk cc d) S = sealed_es d S).
    { apply sealed_es_ext. intros s Hin. rewrite Forall_forall in H6.
      destruct (H6 s Hin) as (_ & _ & f & Hf & Hd & Hp & _). unfold file_ents.
      cbn [crash_disk dk_files]. rewrite lookup_crash by exact ND. rewrite Hf, Hd. cbn [negb andb].
      unfold crashed_file, cur_ents. rewrite Hp. cbn. reflexivity. }
    rewrite Es, (sealed_es_unpend d S H6).
    assert (Et : tail_es (crash_disk cc d) t = tail_es d t \/ tail_es (crash_disk cc d) t = tail_es (unpend d) t).
    { unfold tail_es. rewrite file_ents_unpend. unfold file_ents. cbn [crash_disk dk_files].
      rewrite lookup_crash by exact ND. destruct H7 as (_ & H7).
      destruct (lookup (name_of t) (dk_files d)) as [f|]; [|left; reflexivity].
      destruct H7 as (_ & _ & Hc & _).
      destruct (negb (df_dir f) && negb (mem_name (name_of t) (cc_keep_file cc))) eqn:Ek.
      - right. destruct (df_dir f); [discriminate|]. rewrite Hc by reflexivity. reflexivity.
      - destruct (crashed_cases (mem_name (name_of t) (cc_keep_batch cc)) f) as (Hcase & Hp & Hdir).
        assert (Hcg : cur_ents (crashed_file (mem_name (name_of t) (cc_keep_batch cc)) f)
                      = df_ents (crashed_file (mem_name (name_of t) (cc_keep_batch cc)) f)).
        { unfold cur_ents. rewrite Hp. reflexivity. }
        rewrite Hcg.
        destruct Hcase as [(E1 & _)|(E1 & _)]; rewrite E1; [left|right]; reflexivity. }
    destruct Et as [-> | ->]; [left|right]; reflexivity.
  - left. unfold dread. cbn [crash_disk dk_meta]. rewrite Hm. reflexivity.
Qed.

Lemma remove_map_unpend n fs :
  map (fun nf : fname * dfile => (fst nf, unpend_file (snd nf))) (remove n fs) =
  remove n (map (fun nf : fname * dfile => (fst nf, unpend_file (snd nf))) fs).
Proof.
  induction fs as [|[m g] r IH]; cbn [remove map fst snd]; [reflexivity|].
  destruct (fname_eqb n m); cbn [map fst snd]; [reflexivity|rewrite IH; reflexivity].
Qed.

Lemma unpend_delete d n : unpend (apply_act d (ADelete n)) = apply_act (unpend d) (ADelete n).
Proof. unfold unpend, apply_act; cbn [dk_files dk_meta dk_stable dk_inited]. rewrite remove_map_unpend. reflexivity. Qed.

Lemma listed_false_neq segs n s : listed segs n = false -> In s segs -> name_of s <> n.
Proof.
  intros H Hin E. assert (listed segs n = true); [|congruence]. apply listed_spec. eauto.
Qed.

Lemma DIs_delete c nb d n ps :
  DIs c nb d -> dk_meta d = Some ps -> listed (ps_segs ps) n = false -> DIs c nb (apply_act d (ADelete n)).
Proof.
  intros HD Hm Hl. pose proof (DIs_NoDup _ _ _ HD) as ND.
  eapply DIs_frame; [exact HD|reflexivity| | |].
  - cbn. apply remove_NoDup. exact ND.
  - intros m f. cbn [apply_act dk_files]. rewrite lookup_remove by exact ND.
    destruct (fname_eqb m n); [discriminate|eauto].
  - intros ps' s Hm' Hin. rewrite Hm in Hm'. inversion Hm'; subst ps'.
    cbn [apply_act dk_files]. apply lookup_remove_neq. eapply listed_false_neq; eauto.
Qed.

Lemma dread_delete d n ps :
  dk_meta d = Some ps -> listed (ps_segs ps) n = false -> dread (apply_act d (ADelete n)) = dread d.
Proof.
  intros Hm Hl. apply dread_ext; [reflexivity|].
  intros ps' s Hm' Hin. rewrite Hm in Hm'. inversion Hm'; subst ps'.
  apply file_ents_ext. cbn [apply_act dk_files]. apply lookup_remove_neq. eapply listed_false_neq; eauto.
Qed.

Lemma DP_delete c nb A d n ps :
  DP c nb A d -> dk_meta d = Some ps -> listed (ps_segs ps) n = false -> DP c nb A (apply_act d (ADelete n)).
Proof.
  intros (HD & Ha & Hu) Hm Hl. split; [eapply DIs_delete; eauto|]. split.
  - unfold sp_of in *. rewrite (dread_delete d n ps Hm Hl). exact Ha.
  - unfold sp_of in *. rewrite unpend_delete. rewrite (dread_delete (unpend d) n ps Hm Hl). exact Hu.
Qed.

(* stable store / InitMeta: the log part is untouched *)
Lemma DIs_setstable c nb d k v : DIs c nb d -> DIs c nb (apply_act d (ASetStable k v)).
Proof. apply DIs_same; reflexivity. Qed.
Lemma DIs_initmeta c nb d : DIs c nb d -> DIs c nb (apply_act d AInitMeta).
Proof. apply DIs_same; reflexivity. Qed.
Lemma dread_same d d' : dk_files d' = dk_files d -> dk_meta d' = dk_meta d -> dread d' = dread d.
Proof.
  intros Hf Hm. apply dread_ext; [exact Hm|]. intros. unfold file_ents. rewrite Hf. reflexivity.
Qed.
Lemma sp_of_initmeta d : sp_of (apply_act d AInitMeta) = sp_of d.
Proof. unfold sp_of. rewrite (dread_same d (apply_act d AInitMeta)) by reflexivity. reflexivity. Qed.
Lemma DP_initmeta c nb A d : DP c nb A d -> DP c nb A (apply_act d AInitMeta).
Proof.
  intros (HD & Ha & Hu). split; [apply DIs_initmeta; exact HD|]. split.
  - rewrite sp_of_initmeta. exact Ha.
  - change (unpend (apply_act d AInitMeta)) with (apply_act (unpend d) AInitMeta). rewrite sp_of_initmeta. exact Hu.
Qed.
Lemma sp_of_setstable d k v :
  sp_of (apply_act d (ASetStable k v)) = {| sp_log := dread d; sp_kv := kv_set k v (dk_stable d) |}.
Proof. unfold sp_of. rewrite (dread_same d (apply_act d (ASetStable k v))) by reflexivity. reflexivity. Qed.

Definition fresh_file (sz : N) : dfile :=
  {| df_ents := []; df_end := 0; df_seal := 0; df_pend := None; df_dir := false; df_size := sz |}.

Lemma tail_wf c nb d ps S t :
  DIs c nb d -> dk_meta d = Some ps -> ps_segs ps = S ++ [t] -> seg_wf c (ps_next_id ps) t.
Proof.
  intros HD Hm Hs. destruct (DIs_parts _ _ _ _ _ _ HD Hm Hs) as (_ & _ & _ & H4 & _).
  rewrite Forall_forall in H4. apply H4. apply in_or_app; right; left; reflexivity.
Qed.

Lemma DIs_create_tail c nb d ps S t sz :
  DIs c nb d -> dk_meta d = Some ps -> ps_segs ps = S ++ [t] ->
  lookup (name_of t) (dk_files d) = None ->
  DIs c nb (apply_act d (ACreate (name_of t) sz)).
Proof.
  intros HD Hm Hs Hn.
  destruct (DIs_parts _ _ _ _ _ _ HD Hm Hs) as (H1 & H2 & H3 & H4 & H5 & H6 & H7).
  destruct (tail_wf _ _ _ _ _ _ HD Hm Hs) as (_ & _ & Hb1 & Hb2 & _).
  eapply (DIs_update_tail c nb d _ ps S t (fresh_file sz)); eauto; try reflexivity.
  destruct H7 as (Hu & H7). rewrite Hn in H7. split; [exact Hu|].
  cbn [apply_act dk_files]. rewrite lookup_update_eq.
  cbn [df_ents df_end df_seal df_pend df_dir cur_ents cur_end cur_seal].
  change (llen (@nil log)) with 0. cbn [N.eqb].
  repeat split; try apply fsz_ok_nil; auto; try congruence. lia.
Qed.

Lemma sp_of_tail_ext d d' ps S t :
  dk_meta d = Some ps -> ps_segs ps = S ++ [t] ->
  dk_meta d' = dk_meta d -> dk_stable d' = dk_stable d ->
  (forall s, In s S -> lookup (name_of s) (dk_files d') = lookup (name_of s) (dk_files d)) ->
  file_ents (name_of t) d' = file_ents (name_of t) d ->
  sp_of d' = sp_of d.
Proof.
  intros Hm Hs Hm' Hst HS Ht. unfold sp_of. rewrite Hst. f_equal.
  apply dread_ext; [exact Hm'|]. intros ps' s E Hin. rewrite Hm in E; inversion E; subst ps'.
  rewrite Hs in Hin. apply in_app_or in Hin. destruct Hin as [Hin|[<-|[]]]; [|exact Ht].
  apply file_ents_ext. apply HS. exact Hin.
Qed.

Lemma DP_create_tail c nb A d ps S t sz :
  DP c nb A d -> dk_meta d = Some ps -> ps_segs ps = S ++ [t] ->
  lookup (name_of t) (dk_files d) = None ->
  DP c nb A (apply_act d (ACreate (name_of t) sz)).
Proof.
  intros (HD & Ha & Hu) Hm Hs Hn. split; [eapply DIs_create_tail; eauto|].
  assert (Hneq : forall s, In s S -> name_of s <> name_of t) by (intros; eapply DIs_sealed_neq; eauto).
  split.
  - rewrite (sp_of_tail_ext d _ ps S t Hm Hs); auto.
    + intros s Hin. cbn [apply_act dk_files]. apply lookup_update_neq. auto.
    + unfold file_ents. cbn [apply_act dk_files]. rewrite lookup_update_eq, Hn. reflexivity.
  - rewrite (sp_of_tail_ext (unpend d) _ ps S t Hm Hs); auto.
    + intros s Hin. rewrite !lookup_unpend. cbn [apply_act dk_files]. rewrite lookup_update_neq by auto. reflexivity.
    + rewrite !file_ents_unpend. cbn [apply_act dk_files]. rewrite lookup_update_eq, Hn. reflexivity.
Qed.

(* the write of a batch at the synced end of the tail file *)
Definition with_pend (f : dfile) (b : pbatch) : dfile :=
  {| df_ents := df_ents f; df_end := df_end f; df_seal := df_seal f; df_pend := Some b;
     df_dir := df_dir f; df_size := df_size f |}.

Lemma apply_write d n off l b f :
  lookup n (dk_files d) = Some f -> df_pend f = None ->
  apply_act d (AWrite n off l b) =
  {| dk_files := update n (with_pend f b) (dk_files d); dk_meta := dk_meta d;
     dk_stable := dk_stable d; dk_inited := dk_inited d |}.
Proof. intros Hf Hp. cbn [apply_act]. rewrite Hf, Hp. reflexivity. Qed.

Lemma DIs_write_tail c nb d ps S t f off l b :
  DIs c nb d -> dk_meta d = Some ps -> ps_segs ps = S ++ [t] ->
  lookup (name_of t) (dk_files d) = Some f -> df_pend f = None -> df_seal f = 0 ->
  fsz_ok (c_seg_size c) (df_ents f ++ pb_ents b) (pb_end b) (pb_seal b) ->
  si_base t + llen (df_ents f ++ pb_ents b) < two64 ->
  DIs c nb (apply_act d (AWrite (name_of t) off l b)).
Proof.
  intros HD Hm Hs Hf Hp Hse Hsz Hbd.
  destruct (DIs_parts _ _ _ _ _ _ HD Hm Hs) as (H1 & H2 & H3 & H4 & H5 & H6 & H7).
  rewrite (apply_write d _ off l b f Hf Hp).
  eapply (DIs_update_tail c nb d _ ps S t (with_pend f b)); eauto; try reflexivity.
  destruct H7 as (Hu & H7). rewrite Hf in H7. split; [exact Hu|].
  cbn [dk_files]. rewrite lookup_update_eq.
  destruct H7 as (Ha & Hb & Hc & Hd & He & Hg).
  unfold cur_ents, cur_end, cur_seal. cbn [with_pend df_ents df_end df_seal df_pend df_dir].
  split; [exact Ha|]. split; [exact Hsz|]. split; [exact Hc|]. split; [intros K; congruence|].
  split; [exact He|exact Hbd].
Qed.

Definition synced_file (f : dfile) : dfile :=
  {| df_ents := cur_ents f; df_end := cur_end f; df_seal := cur_seal f; df_pend := None;
     df_dir := true; df_size := df_size f |}.

Lemma apply_sync d n f :
  lookup n (dk_files d) = Some f ->
  apply_act d (ASync n) =
  {| dk_files := update n (synced_file f) (dk_files d); dk_meta := dk_meta d;
     dk_stable := dk_stable d; dk_inited := dk_inited d |}.
Proof.
  intros Hf. cbn [apply_act]. rewrite Hf. unfold synced_file, cur_ents, cur_end, cur_seal.
  destruct (df_pend f); reflexivity.
Qed.

Lemma DIs_sync_tail c nb d ps S t f :
  DIs c nb d -> dk_meta d = Some ps -> ps_segs ps = S ++ [t] ->
  lookup (name_of t) (dk_files d) = Some f ->
  DIs c nb (apply_act d (ASync (name_of t))).
Proof.
  intros HD Hm Hs Hf.
  destruct (DIs_parts _ _ _ _ _ _ HD Hm Hs) as (H1 & H2 & H3 & H4 & H5 & H6 & H7).
  rewrite (apply_sync d _ f Hf).
  eapply (DIs_update_tail c nb d _ ps S t (synced_file f)); eauto; try reflexivity.
  destruct H7 as (Hu & H7). rewrite Hf in H7. split; [exact Hu|].
  cbn [dk_files]. rewrite lookup_update_eq.
  destruct H7 as (Ha & Hb & Hc & Hd & He & Hg).
  pose proof (llen_df_le_cur f) as Hle.
  unfold synced_file. cbn [df_ents df_end df_seal df_pend df_dir cur_ents cur_end cur_seal].
  repeat split; try apply Hb; auto; try congruence.
  destruct (llen (cur_ents f) =? 0) eqn:Z1; destruct (llen (df_ents f) =? 0) eqn:Z2; clear - Z1 Z2 Hle He; lia.
Qed.

(* readings after a change of the tail file *)
Lemma dread_tail_file c nb d ps S t :
  DIs c nb d -> dk_meta d = Some ps -> ps_segs ps = S ++ [t] ->
  dread d = slog_of (hd_min S t) (sealed_es d S ++ tail_es d t) /\
  dread (unpend d) = slog_of (hd_min S t) (sealed_es d S ++ tail_es (unpend d) t).
Proof.
  intros HD Hm Hs. split; [eapply dread_decomp; eauto|].
  rewrite (dread_decomp c nb (unpend d) ps S t (DIs_unpend _ _ _ HD) Hm Hs).
  destruct (DIs_parts _ _ _ _ _ _ HD Hm Hs) as (H1 & H2 & H3 & H4 & H5 & H6 & H7).
  rewrite (sealed_es_unpend d S H6). reflexivity.
Qed.

Lemma sealed_es_update d d' S t f' :
  dk_files d' = update (name_of t) f' (dk_files d) ->
  (forall s, In s S -> name_of s <> name_of t) -> sealed_es d' S = sealed_es d S.
Proof.
  intros Hf Hn. apply sealed_es_ext. intros s Hin. apply file_ents_ext. rewrite Hf.
  apply lookup_update_neq. auto.
Qed.

(* what a disk reads as, with and without pending batches, in terms of the file [g]
   of its tail and of a disk [d] with the same sealed files *)
Lemma sp_of_tail_file c nb d d' ps S t g :
  DIs c nb d' -> dk_meta d' = Some ps -> ps_segs ps = S ++ [t] ->
  lookup (name_of t) (dk_files d') = Some g -> dk_stable d' = dk_stable d ->
  (forall s, In s S -> lookup (name_of s) (dk_files d') = lookup (name_of s) (dk_files d)) ->
  let rd es := {| sp_log := slog_of (hd_min S t) (sealed_es d S ++ skipn (N.to_nat (si_min t - si_base t)) es);
                  sp_kv := dk_stable d |} in
  sp_of d' = rd (cur_ents g) /\ sp_of (unpend d') = rd (df_ents g).
Proof.
  intros HD Hm Hs Hg Hst HS rd. destruct (dread_tail_file c nb d' ps S t HD Hm Hs) as (R & Ru).
  unfold sp_of, rd. rewrite R, Ru. cbn [unpend dk_stable]. rewrite Hst.
  rewrite (sealed_es_ext d d' S) by (intros s Hin; apply file_ents_ext, HS, Hin).
  unfold tail_es. rewrite file_ents_unpend. unfold file_ents. rewrite Hg. auto.
Qed.
