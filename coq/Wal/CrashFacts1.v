(* CrashFacts1.v -- frame lemmas for the structural invariant DIs and its
   preservation by the single actions that do not change the metadata, and by
   a crash. *)
From RW Require Import Base.Bytes Base.BytesFacts Fmt.Codec Fmt.Frame Wal.Model Wal.Spec Wal.Hist
  Wal.CrashInv Wal.ModelFacts Wal.CrashFacts0 Gen.Constants Base.LiaSetup.
Open Scope N_scope.

(* the three indexes of a segment are in order *)
Definition sst (s : seginfo) : Prop := si_base s <= si_min s /\ si_min s <= si_max s.

Lemma linked_cons_inv s r : linked (s :: r) -> linked r.
Proof. cbn [linked]. destruct r as [|s' r']; [intros; exact I|intros (_ & _ & H); exact H]. Qed.

Lemma linked_app_r A B : linked (A ++ B) -> linked B.
Proof. induction A as [|a A IH]; cbn [app]; [auto|]. intros H. apply IH. eapply linked_cons_inv; eauto. Qed.

Lemma linked_app_l A B : linked (A ++ B) -> linked A.
Proof.
  induction A as [|a A IH]; cbn [app]; [intros; exact I|].
  intros H. destruct A as [|a' A']; [exact I|].
  cbn [app] in *. destruct H as (H1 & H2 & H3). repeat split; auto.
Qed.

Lemma linked_mid A a b B : linked (A ++ a :: b :: B) -> si_base b = si_max a + 1 /\ si_min b = si_base b.
Proof. intros H. apply linked_app_r in H. cbn [linked] in H. tauto. Qed.

Lemma linked_app_lt S t : linked (S ++ [t]) -> Forall sst S -> Forall (fun s => si_max s < si_base t) S.
Proof.
  induction S as [|a S IH]; intros HL HS; [constructor|].
  inversion HS as [|? ? Ha HS']; subst.
  destruct S as [|b S'].
  - cbn in HL. constructor; [lia|constructor].
  - cbn [app] in HL. destruct HL as (H1 & H2 & H3).
    specialize (IH H3 HS'). constructor; [|exact IH].
    inversion IH as [|? ? Hb _]; subst. inversion HS' as [|? ? Hsb _]; subst.
    unfold sst in Hsb. lia.
Qed.

Lemma sealed_ok_sst c nid d s : seg_wf c nid s -> sealed_ok d s -> sst s.
Proof. unfold seg_wf, sealed_ok, sst. tauto. Qed.

Lemma Forall_sst c nid d S : Forall (seg_wf c nid) S -> Forall (sealed_ok d) S -> Forall sst S.
Proof.
  induction S as [|a S IH]; intros H1 H2; [constructor|].
  inversion H1; inversion H2; subst. constructor; [eapply sealed_ok_sst; eauto|auto].
Qed.

(* names of listed segments differ from the tail's *)
Lemma sealed_name_neq S t s :
  Forall (fun s => si_max s < si_base t) S -> Forall sst S -> In s S -> name_of s <> name_of t.
Proof.
  intros H1 H2 Hin. rewrite Forall_forall in H1, H2. specialize (H1 _ Hin). specialize (H2 _ Hin).
  unfold sst in H2. unfold name_of. intros E. inversion E. lia.
Qed.

Lemma sealed_ok_ext d d' s :
  lookup (name_of s) (dk_files d') = lookup (name_of s) (dk_files d) -> sealed_ok d s -> sealed_ok d' s.
Proof. unfold sealed_ok. intros ->. auto. Qed.

Lemma tail_ok_ext c d d' t :
  lookup (name_of t) (dk_files d') = lookup (name_of t) (dk_files d) -> tail_ok c d t -> tail_ok c d' t.
Proof. unfold tail_ok. intros ->. auto. Qed.

Lemma Forall_sealed_ext d d' S :
  (forall s, In s S -> lookup (name_of s) (dk_files d') = lookup (name_of s) (dk_files d)) ->
  Forall (sealed_ok d) S -> Forall (sealed_ok d') S.
Proof.
  intros H HS. rewrite Forall_forall in *. intros s Hin. eapply sealed_ok_ext; [apply H; exact Hin|auto].
Qed.

Lemma file_ents_ext n d d' :
  lookup n (dk_files d') = lookup n (dk_files d) -> file_ents n d' = file_ents n d.
Proof. unfold file_ents. intros ->. reflexivity. Qed.

Lemma flat_visible_ext tl d d' segs :
  (forall s, In s segs -> file_ents (name_of s) d' = file_ents (name_of s) d) ->
  flat_map (seg_visible tl d') segs = flat_map (seg_visible tl d) segs.
Proof.
  induction segs as [|s r IH]; intros H; cbn [flat_map]; [reflexivity|].
  rewrite (seg_visible_ext tl d d' s) by (apply H; left; reflexivity).
  rewrite IH by (intros; apply H; right; assumption). reflexivity.
Qed.

Lemma abs_gen_ext segs tl d d' :
  (forall s, In s segs -> file_ents (name_of s) d' = file_ents (name_of s) d) ->
  abs_gen segs tl d' = abs_gen segs tl d.
Proof. intros H. unfold abs_gen. rewrite (flat_visible_ext tl d d' segs H). reflexivity. Qed.

Lemma dread_ext d d' :
  dk_meta d' = dk_meta d ->
  (forall ps s, dk_meta d = Some ps -> In s (ps_segs ps) -> file_ents (name_of s) d' = file_ents (name_of s) d) ->
  dread d' = dread d.
Proof.
  intros Hm H. unfold dread. rewrite Hm. destruct (dk_meta d) as [ps|] eqn:E; [|reflexivity].
  assert (Hd : dtl ps d' = dtl ps d).
  { unfold dtl. destruct (tail_info (ps_segs ps)) as [t|] eqn:Et; [|reflexivity].
    rewrite (H ps t eq_refl); [reflexivity|].
    apply tail_info_In; exact Et. }
  rewrite Hd. apply abs_gen_ext. intros s Hs. apply (H ps s eq_refl Hs).
Qed.

Lemma DIs_unfold c nb d ps : dk_meta d = Some ps ->
  DIs c nb d <->
  (NoDup (map fst (dk_files d)) /\ ps_next_id ps <= nb /\
   (forall n f, lookup n (dk_files d) = Some f -> snd n < ps_next_id ps) /\
   exists S t, ps_segs ps = S ++ [t] /\ Forall (seg_wf c (ps_next_id ps)) (S ++ [t]) /\
               linked (S ++ [t]) /\ Forall (sealed_ok d) S /\ tail_ok c d t).
Proof. intros H. unfold DIs. rewrite H. tauto. Qed.

Lemma DIs_NoDup c nb d : DIs c nb d -> NoDup (map fst (dk_files d)).
Proof. unfold DIs; tauto. Qed.

Lemma DIs_mono c nb nb' d : nb <= nb' -> DIs c nb d -> DIs c nb' d.
Proof.
  intros Hle. unfold DIs. destruct (dk_meta d) as [ps|]; [|auto].
  intros (H1 & H2 & H3). split; [exact H1|]. split; [lia|exact H3].
Qed.

Lemma listed_spec segs n : listed segs n = true <-> exists s, In s segs /\ name_of s = n.
Proof.
  unfold listed. rewrite existsb_exists. split; intros (s & Hin & H); exists s; split; auto.
  - apply fname_eqb_eq; exact H.
  - apply fname_eqb_eq; exact H.
Qed.

(* the general frame lemma: same metadata, same listed files *)
Lemma DIs_frame c nb d d' :
  DIs c nb d -> dk_meta d' = dk_meta d ->
  NoDup (map fst (dk_files d')) ->
  (forall n f, lookup n (dk_files d') = Some f -> exists f0, lookup n (dk_files d) = Some f0) ->
  (forall ps s, dk_meta d = Some ps -> In s (ps_segs ps) ->
                lookup (name_of s) (dk_files d') = lookup (name_of s) (dk_files d)) ->
  DIs c nb d'.
Proof.
  intros HD Hm HN Hsub Hsame. unfold DIs in *. rewrite Hm. destruct HD as (_ & HD).
  split; [exact HN|]. destruct (dk_meta d) as [ps|] eqn:E.
  - destruct HD as (Hnb & Hid & S & t & Hs & Hwf & Hl & Hso & Ht).
    split; [exact Hnb|]. split.
    + intros n f Hf. destruct (Hsub _ _ Hf) as (f0 & Hf0). eapply Hid; eauto.
    + exists S, t. split; [exact Hs|]. split; [exact Hwf|]. split; [exact Hl|]. split.
      * eapply Forall_sealed_ext; [|exact Hso]. intros s Hin. apply (Hsame ps s eq_refl). rewrite Hs. apply in_or_app; left; exact Hin.
      * eapply tail_ok_ext; [|exact Ht]. apply (Hsame ps t eq_refl). rewrite Hs. apply in_or_app; right; left; reflexivity.
  - destruct (dk_files d') as [|[n f] r] eqn:Ef; [reflexivity|].
    destruct (Hsub n f) as (f0 & Hf0); [cbn [lookup]; rewrite fname_eqb_refl; reflexivity|].
    rewrite HD in Hf0. discriminate.
Qed.

Lemma DIs_parts c nb d ps S t :
  DIs c nb d -> dk_meta d = Some ps -> ps_segs ps = S ++ [t] ->
  NoDup (map fst (dk_files d)) /\ ps_next_id ps <= nb /\
  (forall n f, lookup n (dk_files d) = Some f -> snd n < ps_next_id ps) /\
  Forall (seg_wf c (ps_next_id ps)) (S ++ [t]) /\ linked (S ++ [t]) /\
  Forall (sealed_ok d) S /\ tail_ok c d t.
Proof.
  intros HD Hm Hs. apply (DIs_unfold c nb d ps Hm) in HD.
  destruct HD as (H1 & H2 & H3 & S' & t' & Hs' & H4 & H5 & H6 & H7).
  rewrite Hs in Hs'. apply app_inj_tail in Hs'. destruct Hs' as [-> ->]. tauto.
Qed.

Lemma DIs_build c nb d ps S t :
  dk_meta d = Some ps -> ps_segs ps = S ++ [t] ->
  NoDup (map fst (dk_files d)) -> ps_next_id ps <= nb ->
  (forall n f, lookup n (dk_files d) = Some f -> snd n < ps_next_id ps) ->
  Forall (seg_wf c (ps_next_id ps)) (S ++ [t]) -> linked (S ++ [t]) ->
  Forall (sealed_ok d) S -> tail_ok c d t -> DIs c nb d.
Proof.
  intros Hm Hs H1 H2 H3 H4 H5 H6 H7. apply (DIs_unfold c nb d ps Hm).
  split; [exact H1|]. split; [exact H2|]. split; [exact H3|]. exists S, t. tauto.
Qed.

Lemma DIs_segs c nb d ps : DIs c nb d -> dk_meta d = Some ps -> exists S t, ps_segs ps = S ++ [t].
Proof.
  intros HD Hm. apply (DIs_unfold c nb d ps Hm) in HD.
  destruct HD as (_ & _ & _ & S & t & Hs & _). eauto.
Qed.

(* sealed names differ from the tail's *)
Lemma DIs_sealed_neq c nb d ps S t s :
  DIs c nb d -> dk_meta d = Some ps -> ps_segs ps = S ++ [t] -> In s S -> name_of s <> name_of t.
Proof.
  intros HD Hm Hs Hin. destruct (DIs_parts _ _ _ _ _ _ HD Hm Hs) as (_ & _ & _ & Hwf & Hl & Hso & _).
  assert (Hsst : Forall sst S).
  { eapply Forall_sst; [|exact Hso]. apply Forall_app in Hwf. apply Hwf. }
  eapply sealed_name_neq; [apply linked_app_lt; eauto|exact Hsst|exact Hin].
Qed.

(* changing only the tail's file *)
Lemma DIs_update_tail c nb d d' ps S t f' :
  DIs c nb d -> dk_meta d = Some ps -> ps_segs ps = S ++ [t] ->
  dk_files d' = update (name_of t) f' (dk_files d) -> dk_meta d' = dk_meta d ->
  tail_ok c d' t -> DIs c nb d'.
Proof.
  intros HD Hm Hs Hf Hm' Ht.
  destruct (DIs_parts _ _ _ _ _ _ HD Hm Hs) as (H1 & H2 & H3 & H4 & H5 & H6 & H7).
  apply (DIs_build c nb d' ps S t); auto; try congruence.
  - rewrite Hf. apply update_NoDup. exact H1.
  - intros n f. rewrite Hf, lookup_update. destruct (fname_eqb n (name_of t)) eqn:E.
    + apply fname_eqb_eq in E; subst n. intros _. cbn [name_of snd].
      rewrite Forall_forall in H4. destruct (H4 t) as (_ & _ & _ & _ & _ & Hid); [apply in_or_app; right; left; reflexivity|exact Hid].
    + apply H3.
  - eapply Forall_sealed_ext; [|exact H6]. intros s Hin. rewrite Hf. apply lookup_update_neq.
    eapply DIs_sealed_neq; eauto.
Qed.

Lemma DIs_same c nb d d' :
  dk_files d' = dk_files d -> dk_meta d' = dk_meta d -> DIs c nb d -> DIs c nb d'.
Proof.
  intros Hf Hm HD. eapply DIs_frame; [exact HD|exact Hm| | |].
  - rewrite Hf. eapply DIs_NoDup; eauto.
  - intros n f. rewrite Hf. eauto.
  - intros. rewrite Hf. reflexivity.
Qed.

Lemma unpend_cur_ents f : cur_ents (unpend_file f) = df_ents f. Proof. reflexivity. Qed.

Lemma fsz_ok_nil L : fsz_ok L [] 0 0.
Proof. unfold fsz_ok, two32. change (llen (@nil log)) with 0. repeat split; try lia; congruence. Qed.

Lemma llen_df_le_cur f : llen (df_ents f) <= llen (cur_ents f).
Proof. unfold cur_ents. destruct (df_pend f); [rewrite llen_app|]; lia. Qed.

Lemma tail_ok_unpend c d t : tail_ok c d t -> tail_ok c (unpend d) t.
Proof.
  unfold tail_ok. intros (Hs & H). split; [exact Hs|]. rewrite lookup_unpend.
  destruct (lookup (name_of t) (dk_files d)) as [f|]; cbn [option_map]; [|exact H].
  destruct H as (H1 & H2 & H3 & H4 & H5 & H6).
  cbn [unpend_file df_ents df_end df_seal df_pend df_dir cur_ents cur_end cur_seal].
  repeat split; try apply H1; auto. pose proof (llen_df_le_cur f). lia.
Qed.

Lemma sealed_ok_unpend d s : sealed_ok d s -> sealed_ok (unpend d) s.
Proof.
  unfold sealed_ok. intros (H1 & H2 & f & Hf & H3 & H4 & H5 & H6). split; [exact H1|]. split; [exact H2|].
  exists (unpend_file f). rewrite lookup_unpend, Hf. cbn. auto.
Qed.

Lemma DIs_unpend c nb d : DIs c nb d -> DIs c nb (unpend d).
Proof.
  intros HD. unfold DIs in *. rewrite unpend_keys. cbn [unpend dk_meta].
  destruct HD as (HN & HD). split; [exact HN|].
  destruct (dk_meta d) as [ps|].
  - destruct HD as (H2 & H3 & S & t & Hs & H4 & H5 & H6 & H7). split; [exact H2|]. split.
    + intros n f. change (map (fun nf : fname * dfile => (fst nf, unpend_file (snd nf))) (dk_files d)) with (dk_files (unpend d)).
      rewrite lookup_unpend. destruct (lookup n (dk_files d)) eqn:E; [|discriminate]. intros _. eapply H3; eauto.
    + exists S, t. split; [exact Hs|]. split; [exact H4|]. split; [exact H5|]. split.
      * rewrite Forall_forall in *. intros s Hin. apply sealed_ok_unpend. auto.
      * apply tail_ok_unpend. exact H7.
  - unfold unpend; cbn [dk_files]. rewrite HD. reflexivity.
Qed.

Lemma file_ents_unpend n d :
  file_ents n (unpend d) = match lookup n (dk_files d) with Some f => df_ents f | None => [] end.
Proof. unfold file_ents. rewrite lookup_unpend. destruct (lookup n (dk_files d)); reflexivity. Qed.

(* the pieces of the reading [dread]: the spec log with entries es from index first on;
   the first visible index (of the first sealed segment, or of the tail t if there is none); *)
Definition slog_of (first : N) (es : list log) : slog :=
  match es with [] => sl_empty | _ => {| sl_first := first; sl_ents := es |} end.
Definition hd_min (S : list seginfo) (t : seginfo) : N := si_min (hd t S).
(* the visible entries of the tail and of the sealed segments (whole files: tl = 0) *)
Definition tail_es (d : disk) (t : seginfo) : list log :=
  skipn (N.to_nat (si_min t - si_base t)) (file_ents (name_of t) d).
Definition sealed_es (d : disk) (S : list seginfo) : list log := flat_map (seg_visible 0 d) S.

Lemma flat_visible_sealed tl d S : Forall (sealed_ok d) S -> flat_map (seg_visible tl d) S = sealed_es d S.
Proof.
  unfold sealed_es. induction S as [|s S IH]; intros H; cbn [flat_map]; [reflexivity|].
  inversion H as [|? ? Hs HS]; subst. rewrite IH by exact HS.
  rewrite (seg_visible_sealed tl 0 d s); [reflexivity|]. apply Hs.
Qed.

Lemma skipn_all2' {A} n (l : list A) : (length l <= n)%nat -> skipn n l = [].
Proof. apply skipn_all2. Qed.

Lemma tail_visible c d t :
  1 <= si_base t -> tail_ok c d t ->
  seg_visible (tl_of (si_base t) (file_ents (name_of t) d)) d t = tail_es d t.
Proof.
  unfold tail_ok, seg_visible, tail_es, tl_of, file_ents. intros Hb1 (Hs & H). rewrite Hs.
  destruct (lookup (name_of t) (dk_files d)) as [f|].
  - destruct H as (_ & _ & _ & _ & H5 & H6).
    pose proof (llen_df_le_cur f) as Hle.
    destruct (llen (cur_ents f) =? 0) eqn:E0.
    + change (0 =? 0) with true. cbn [orb]. symmetry. apply skipn_all2. unfold llen in *. lia.
    + assert (Hmin : si_min t <= si_base t + llen (cur_ents f) - 1).
      { destruct (llen (df_ents f) =? 0) eqn:E1; lia. }
      assert (Hb : si_base t <= si_min t \/ si_min t < si_base t) by lia.
      destruct ((si_base t + llen (cur_ents f) - 1 =? 0) || (si_base t + llen (cur_ents f) - 1 <? si_min t)) eqn:E2; [lia|].
      apply firstn_all2. rewrite skipn_length. unfold llen in *. lia.
  - change (llen (@nil log)) with 0. cbn. rewrite skipn_nil. reflexivity.
Qed.

Lemma slog_of_abs first first' es : (es <> [] -> first = first') -> slog_of first es = slog_of first' es.
Proof. intros H. destruct es; [reflexivity|]. cbn. rewrite H by discriminate. reflexivity. Qed.

Lemma dread_decomp c nb d ps S t :
  DIs c nb d -> dk_meta d = Some ps -> ps_segs ps = S ++ [t] ->
  dread d = slog_of (hd_min S t) (sealed_es d S ++ tail_es d t).
Proof.
  intros HD Hm Hs. destruct (DIs_parts _ _ _ _ _ _ HD Hm Hs) as (H1 & H2 & H3 & H4 & H5 & H6 & H7).
  unfold dread. rewrite Hm. unfold abs_gen, dtl. rewrite Hs, tail_info_app, flat_map_app.
  rewrite (flat_visible_sealed _ d S H6). cbn [flat_map]. rewrite app_nil_r.
  assert (Hb1 : 1 <= si_base t).
  { rewrite Forall_forall in H4. destruct (H4 t) as (_ & _ & Hb & _); [apply in_or_app; right; left; reflexivity|exact Hb]. }
  rewrite (tail_visible c d t Hb1 H7).
  change (match sealed_es d S ++ tail_es d t with
          | [] => sl_empty
          | _ :: _ => {| sl_first := first_gen (S ++ [t]) (tl_of (si_base t) (file_ents (name_of t) d));
                         sl_ents := sealed_es d S ++ tail_es d t |}
          end) with (slog_of (first_gen (S ++ [t]) (tl_of (si_base t) (file_ents (name_of t) d))) (sealed_es d S ++ tail_es d t)).
  apply slog_of_abs. intros Hne.
  unfold first_gen, hd_min. destruct S as [|s S'].
  - cbn [app hd]. destruct H7 as (Hu & _). rewrite Hu. cbn [negb andb].
    destruct (tl_of (si_base t) (file_ents (name_of t) d) =? 0) eqn:E; [|reflexivity].
    exfalso. apply Hne. cbn [sealed_es flat_map app]. unfold tail_es. apply skipn_all2.
    unfold tl_of in E. destruct (llen (file_ents (name_of t) d) =? 0) eqn:E1.
    + unfold llen in E1. lia.
    + rewrite Forall_forall in H4. destruct (H4 t) as (_ & _ & Hb & _); [left; reflexivity|]. lia.
  - cbn [app hd]. inversion H6 as [|? ? Hs0 _]; subst. destruct Hs0 as (Hse & _). rewrite Hse. reflexivity.
Qed.
