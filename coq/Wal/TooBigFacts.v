(* TooBigFacts.v -- WAL level half of C15: a batch containing an entry whose
   encoding exceeds MaxEntrySize is never acknowledged by StoreLogs, in any state
   (also after the reset of an empty first segment, also with an armed fault). *)
From RW Require Import Base.Bytes Fmt.Codec Fmt.Frame Wal.Model Gen.Constants.
Open Scope N_scope.

Definition has_too_big (ls : list log) : bool := existsb (fun l => MaxEntrySize <? enc_len l) ls.

Lemma seg_append_too_big tw ls e :
  has_too_big ls = true -> fst (fst (seg_append tw ls e)) <> ROk.
Proof.
  unfold has_too_big, seg_append. intros H.
  destruct ls as [|l0 r]; [discriminate H|].
  destruct (0 <? ws_index_start tw); [cbn; discriminate|].
  rewrite H. cbn. discriminate.
Qed.

(* one path of store_go: if check_logs passes and there is a tail, seg_append refuses the
   batch by [seg_append_too_big] with H : has_too_big ls = true; every other path is an error *)
Ltac go_case H :=
  match goal with
  | |- context [check_logs ?a ?b] =>
      let res := fresh "res" in let nb := fresh "nbytes" in
      destruct (check_logs a b) as [res nb]; destruct res; try (cbn; discriminate)
  end;
  match goal with
  | |- context [match st_tail ?w0 with _ => _ end] => destruct (st_tail w0); [|cbn; discriminate]
  end;
  match goal with
  | |- context [seg_append ?tw ?ls ?e0] =>
      let Ha := fresh "Ha" in let r0 := fresh "r" in
      pose proof (seg_append_too_big tw ls e0 H) as Ha;
      destruct (seg_append tw ls e0) as [[r0 ?] ?]; cbn in Ha;
      destruct r0; cbn; try discriminate; contradiction
  end.

Theorem store_logs_too_big c w ls e :
  has_too_big ls = true -> fst (fst (store_logs c w ls e)) <> ROk.
Proof.
  intros H. unfold store_logs.
  destruct (st_closed w); [cbn; discriminate|].
  destruct ls as [|l0 r] eqn:El; [discriminate H|]. rewrite <- El in *.
  destruct (st_failed w); [cbn; discriminate|].
  cbv zeta.
  destruct (tail_info (st_segs w)) as [ti|]; [|cbn; discriminate].
  destruct ((last_index (st_segs w) (st_tail w) =? 0) && negb (l_index l0 =? si_base ti)).
  - destruct (reset_first c w (l_index l0) e) as [[[r0 w1] e1] dels].
    destruct r0; try (cbn; discriminate).
    go_case H.
  - go_case H.
Qed.
