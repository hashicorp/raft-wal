(* CrashCalls3.v -- state transactions (mutateStateLocked) that install a
   brand-new tail, and the background rotation. *)
From RW Require Import Base.Bytes Base.BytesFacts Fmt.Codec Fmt.CodecFacts Fmt.Frame Wal.Model Wal.Spec Wal.Hist
  Wal.CrashInv Wal.ModelFacts Wal.CrashFacts0 Wal.CrashFacts1 Wal.CrashFacts2 Wal.CrashFacts3 Wal.CrashFacts4 Wal.CrashFacts5
  Wal.CrashFacts6 Wal.CrashGlue Wal.CrashCalls1 Gen.Constants Base.LiaSetup.
Open Scope N_scope.

Lemma DP_delete_files c nb (A : spst -> Prop) e0 ps del : forall e,
  ext (DP c nb A) e0 e -> dk_meta (e_disk e) = Some ps ->
  (forall n, In n del -> listed (ps_segs ps) n = false) ->
  ext (DP c nb A) e0 (delete_files del e) /\ e_disk (delete_files del e) = del_disk del (e_disk e).
Proof.
  intros e He Hm Hdel. split; [|apply delete_files_disk, (ext_fault _ _ _ He)].
  apply (ext_delete_unlisted _ e0 e ps del He Hm). intros d n HP Hm' Hin. eapply DP_delete; eauto.
Qed.

Lemma mutate_newtail_ok c nb (A : spst -> Prop) defer w e0 e nid0 S' base del :
  cfg_ok c -> ext (DP c nb A) e0 e -> no_pend (e_disk e) ->
  st_rotate w = None -> st_failed w = false -> st_closed w = false ->
  (forall ps, dk_meta (e_disk e) = Some ps -> ps_next_id ps <= nid0) -> nid0 + 1 <= nb ->
  Forall (seg_wf c nid0) S' -> Forall (sealed_ok (e_disk e)) S' ->
  1 <= base -> base < two64 -> linked (S' ++ [new_segment c nid0 base]) ->
  (forall n, In n del -> listed (S' ++ [new_segment c nid0 base]) n = false) ->
  let si := new_segment c nid0 base in
  let s1 := {| sp_log := slog_of (hd_min S' si) (sealed_es (e_disk e) S'); sp_kv := dk_stable (e_disk e) |} in
  A s1 ->
  exists w' e',
    mutate_gen defer w {| tx_next_id := nid0 + 1; tx_segs := S' ++ [si]; tx_delete := del;
                          tx_create := Some si; tx_tail := None |} e
    = (ROk, w', e', if defer then del else []) /\
    ext (DP c nb A) e0 e' /\ LInv c nb w' (e_disk e') /\ sp_of (e_disk e') = s1 /\
    st_rotate w' = None /\ st_segs w' = S' ++ [si] /\ st_next_id w' = nid0 + 1 /\
    st_tail w' = Some (new_wseg si).
Proof.
  intros Hc He HN Hrot Hfail Hclosed Hnid Hnb Hwf Hso Hb1 Hb2 Hl Hdel si s1 HA.
  pose proof (ext_final _ _ _ He) as (HD & _ & _). pose proof (ext_fault _ _ _ He) as Hf.
  set (d := e_disk e) in *.
  destruct (commit_newtail c nb d nid0 S' base Hc HD Hnid Hnb Hwf Hl Hso Hb1 Hb2) as (HD1 & Hfresh & Hr1 & Hu1).
  fold si in HD1, Hfresh, Hr1, Hu1.
  set (ps' := {| ps_next_id := nid0 + 1; ps_segs := S' ++ [si] |}) in *.
  unfold mutate_gen. cbn [tx_next_id tx_segs tx_delete tx_create tx_tail].
  rewrite (io_ok _ e Hf). cbn [negb]. fold ps'. set (e1 := io_env (ACommit ps') e).
  assert (Hs1 : sp_of (e_disk e1) = s1) by (unfold sp_of; cbn [e1 io_env e_disk]; fold d; rewrite Hr1; reflexivity).
  assert (HN1 : no_pend (e_disk e1)) by (eapply no_pend_same; [|exact HN]; reflexivity).
  assert (HP1 : DP c nb A (e_disk e1)).
  { apply DP_no_pend; [exact HD1|exact HN1|rewrite Hs1; exact HA]. }
  assert (He1 : ext (DP c nb A) e0 e1) by (apply ext_io; [exact He|exact I|exact HP1]).
  rewrite (seg_create_ok si e1 eq_refl); [|cbn; lia|exact Hfresh].
  set (e2 := io_env (ACreate (name_of si) (si_size_limit si)) e1).
  assert (Hm1 : dk_meta (e_disk e1) = Some ps') by reflexivity.
  pose proof (DP_create_tail c nb A (e_disk e1) ps' S' si (si_size_limit si) HP1 Hm1 eq_refl Hfresh) as HP2.
  assert (He2 : ext (DP c nb A) e0 e2) by (apply ext_io; [exact He1|exact I|exact HP2]).
  assert (HN2 : no_pend (e_disk e2)) by (apply no_pend_create; exact HN1).
  assert (Hs2 : sp_of (e_disk e2) = s1).
  { rewrite <- Hs1. apply (sp_of_tail_ext (e_disk e1) _ ps' S' si Hm1 eq_refl); auto.
    - intros s Hin. cbn [e2 io_env e_disk apply_act dk_files]. apply lookup_update_neq.
      eapply (DIs_sealed_neq c nb (e_disk e1) ps' S' si s); [exact HD1|exact Hm1|reflexivity|exact Hin].
    - unfold file_ents. change (dk_files (e_disk e2)) with (update (name_of si) (fresh_file (si_size_limit si)) (dk_files (e_disk e1))).
      rewrite lookup_update_eq. change (dk_files (e_disk e1)) with (dk_files (apply_act d (ACommit ps'))).
      rewrite Hfresh. reflexivity. }
  set (w' := {| st_next_id := nid0 + 1; st_segs := S' ++ [si]; st_tail := Some (new_wseg si);
                st_rotate := st_rotate w; st_failed := st_failed w; st_closed := st_closed w |}).
  assert (HL2 : LInv c nb w' (e_disk e2)).
  { split; [exact Hclosed|]. split; [exact Hfail|]. split; [apply HP2|]. split; [exact HN2|].
    split; [reflexivity|]. exists si, (fresh_file (si_size_limit si)), (new_wseg si).
    split; [apply tail_info_app|]. split; [cbn; apply lookup_update_eq|].
    split; [reflexivity|]. split; [apply tw_ok_fresh|]. cbn. exact Hrot. }
  destruct defer.
  - exists w', e2. split; [reflexivity|]. split; [exact He2|]. split; [exact HL2|]. split; [exact Hs2|].
    cbn. auto.
  - assert (Hm2 : dk_meta (e_disk e2) = Some ps') by reflexivity.
    destruct (DP_delete_files c nb A e0 ps' del e2 He2 Hm2 Hdel) as (He3 & Hd3).
    exists w', (delete_files del e2). split; [reflexivity|]. split; [exact He3|].
    split; [rewrite Hd3; apply LInv_del_disk; [exact HL2|exact Hdel]|].
    split; [|cbn; auto].
    rewrite Hd3, <- Hs2. apply (sp_of_del_disk del ps' _ Hm2 Hdel).
Qed.

(* the same transaction started from a live state: its view supplies the bound on the
   ids and the absence of pending batches *)
Lemma mutate_newtail_view c nb (A : spst -> Prop) defer w w1 e0 e S t f tw S' base del :
  cfg_ok c -> lview c nb w1 (e_disk e) S t f tw -> ext (DP c nb A) e0 e ->
  st_rotate w = None -> st_failed w = false -> st_closed w = false ->
  let nid0 := st_next_id w1 in nid0 + 1 <= nb ->
  Forall (seg_wf c nid0) S' -> Forall (sealed_ok (e_disk e)) S' ->
  1 <= base -> base < two64 -> linked (S' ++ [new_segment c nid0 base]) ->
  (forall n, In n del -> listed (S' ++ [new_segment c nid0 base]) n = false) ->
  let si := new_segment c nid0 base in
  let s1 := {| sp_log := slog_of (hd_min S' si) (sealed_es (e_disk e) S'); sp_kv := dk_stable (e_disk e) |} in
  A s1 ->
  exists w' e',
    mutate_gen defer w {| tx_next_id := nid0 + 1; tx_segs := S' ++ [si]; tx_delete := del;
                          tx_create := Some si; tx_tail := None |} e
    = (ROk, w', e', if defer then del else []) /\
    ext (DP c nb A) e0 e' /\ LInv c nb w' (e_disk e') /\ sp_of (e_disk e') = s1 /\
    st_rotate w' = None /\ st_segs w' = S' ++ [si] /\ st_next_id w' = nid0 + 1 /\
    st_tail w' = Some (new_wseg si).
Proof.
  intros Hc V He Hrot Hfail Hclosed nid0 Hnb.
  refine (mutate_newtail_ok c nb A defer w e0 e nid0 S' base del Hc He (lv_nopend _ _ _ _ _ _ _ _ V) Hrot Hfail Hclosed _ Hnb).
  intros ps E. rewrite (lv_meta _ _ _ _ _ _ _ _ V) in E. injection E as <-. apply N.le_refl.
Qed.

Lemma lv_bases_lt {c nb w d S t f tw} (V : lview c nb w d S t f tw) :
  Forall (fun s => si_base s < si_base t) S.
Proof.
  eapply DIs_bases_lt; [apply (lv_dis _ _ _ _ _ _ _ _ V)|apply (lv_meta _ _ _ _ _ _ _ _ V)|reflexivity].
Qed.

Lemma lv_tail_es {c nb w d S t f tw} (V : lview c nb w d S t f tw) :
  tail_es d t = skipn (N.to_nat (si_min t - si_base t)) (df_ents f).
Proof.
  unfold tail_es, file_ents. rewrite (lv_file _ _ _ _ _ _ _ _ V). unfold cur_ents.
  rewrite (lv_pend _ _ _ _ _ _ _ _ V). reflexivity.
Qed.

Lemma seal_tail_facts {c nb w d S t f tw} (V : lview c nb w d S t f tw) mx istart :
  df_seal f <> 0 -> si_min t <= mx -> mx <= tl_of (si_base t) (df_ents f) ->
  let t' := seal_info t mx istart in
  Forall (seg_wf c (st_next_id w)) (S ++ [t']) /\ Forall (sealed_ok d) (S ++ [t']) /\
  (forall si, si_base si = mx + 1 -> si_min si = si_base si -> linked ((S ++ [t']) ++ [si])) /\
  Forall (fun x => si_base x < mx + 1) (S ++ [t']) /\
  sealed_es d (S ++ [t']) = sealed_es d S ++ firstn (N.to_nat (mx - si_min t + 1)) (tail_es d t) /\
  (forall si, hd_min (S ++ [t']) si = hd_min S t) /\ mx + 1 < two64.
Proof.
  intros Hse Hmin Hmx t'.
  pose proof (lv_twf V) as Htwf. pose proof Htwf as (_ & _ & Hb1 & _ & Hbm & _).
  pose proof (lv_tok _ _ _ _ _ _ _ _ V) as Htok. pose proof (lv_file _ _ _ _ _ _ _ _ V) as Hf.
  pose proof (lv_pend _ _ _ _ _ _ _ _ V) as Hp.
  pose proof (lv_wf _ _ _ _ _ _ _ _ V) as Hwf. apply Forall_app in Hwf. destruct Hwf as (Hwf1 & _).
  destruct (lv_seal_nonempty V Hse) as (Hn0 & Htl). rewrite Htl in Hmx.
  destruct (lv_fsz V) as (_ & Hbound).
  assert (Hsok : sealed_ok d t') by (eapply sealed_ok_of_tail; eauto; clear - Hmx Hn0; lia).
  split; [apply Forall_app; split; [exact Hwf1|constructor; [apply seal_info_wf; exact Htwf|constructor]]|].
  split; [apply Forall_app; split; [apply (lv_sealed _ _ _ _ _ _ _ _ V)|constructor; [exact Hsok|constructor]]|].
  split.
  { intros si Hb Hm. rewrite <- app_assoc. cbn [app]. apply linked_snoc; [|exact Hb|exact Hm].
    eapply linked_replace_last; [apply (lv_linked _ _ _ _ _ _ _ _ V)|reflexivity|reflexivity]. }
  split.
  { apply Forall_app. split.
    - eapply Forall_impl; [|apply (lv_bases_lt V)]. intros s Hs. cbn beta in Hs. clear - Hs Hbm Hmin. lia.
    - constructor; [change (si_base t') with (si_base t); clear - Hbm Hmin; lia|constructor]. }
  split.
  { unfold sealed_es at 1. rewrite flat_map_app. cbn [flat_map]. rewrite app_nil_r. fold (sealed_es d S).
    unfold t'. rewrite (seg_visible_seal_info d t mx istart) by assumption. reflexivity. }
  split; [intros si; rewrite hd_min_app; unfold hd_min; destruct S; reflexivity|clear - Hmx Hbound Hn0; lia].
Qed.

Lemma LInv_nid c nb w d : LInv c nb w d -> st_next_id w <= nb.
Proof.
  intros (_ & _ & HD & _ & Hm & _). apply (DIs_unfold c nb d _ Hm) in HD. destruct HD as (_ & H & _). exact H.
Qed.

Lemma rotate_ok c nb w e istart :
  cfg_ok c -> LInv c nb w (e_disk e) -> e_fault e = None -> nb + 1 < two64 ->
  st_rotate w = Some istart ->
  exists w' e', rotate c w e = (w', e') /\ LInv c (nb + 1) w' (e_disk e') /\ st_rotate w' = None /\
                sp_of (e_disk e') = sp_of (e_disk e) /\
                ext (DP c (nb + 1) (eq (sp_of (e_disk e)))) e e'.
Proof.
  intros Hc HL Hf Hnb Hrot. set (d := e_disk e) in *.
  assert (HL1 : LInv c (nb + 1) w d) by (eapply LInv_mono; [apply N.le_add_r|exact HL]).
  destruct (LInv_view _ _ _ _ HL1) as (S & t & f & tw & V).
  pose proof (lv_rot _ _ _ _ _ _ _ _ V) as Hr. rewrite Hrot in Hr.
  destruct (0 <? df_seal f) eqn:Es; [|discriminate]. inversion Hr; subst istart.
  assert (Hse : df_seal f <> 0) by (clear - Es; lia).
  pose proof (lv_min_cond V) as Hmc.
  set (mx := tl_of (si_base t) (df_ents f)).
  destruct (lv_seal_nonempty V Hse) as (Hn0 & Hmx). fold mx in Hmx.
  assert (Hmin : si_min t <= mx). { destruct (llen (df_ents f) =? 0) eqn:Z; clear - Hmc Hmx Hn0 Z; lia. }
  destruct (seal_tail_facts V mx (df_seal f) Hse Hmin (N.le_refl _)) as (F1 & F2 & F3 & F4 & F5 & F6 & F7).
  set (t' := seal_info t mx (df_seal f)) in *.
  set (si := new_segment c (st_next_id w) (mx + 1)).
  unfold rotate. rewrite Hrot, (lv_closed _ _ _ _ _ _ _ _ V), (lv_segs _ _ _ _ _ _ _ _ V), tail_info_app.
  rewrite (lv_tail_last V). fold mx. fold (seal_info t mx (df_seal f)). fold t'.
  pose proof (LInv_nid _ _ _ _ HL) as Hnid.
  rewrite (seal_create_next c (st_next_id w) S t t' (lv_bases_lt V) eq_refl) by (cbn [t' seal_info si_base si_max]; clear - Hmx Hn0 F7 Hnid Hnb; lia). cbv zeta.
  change (si_max t') with mx. fold si.
  set (w0 := {| st_next_id := st_next_id w; st_segs := S ++ [t]; st_tail := st_tail w; st_rotate := None;
                st_failed := st_failed w; st_closed := false |}).
  set (e0 := add_m e _).
  set (a := sp_of d).
  assert (He0 : ext (DP c (nb + 1) (eq a)) e e0).
  { apply ext_add_m. apply ext_refl; [exact Hf|]. eapply LInv_DP; [exact HL1|reflexivity]. }
  assert (Hd0 : e_disk e0 = d) by reflexivity.
  (* sealing the whole tail leaves the reading as it is *)
  assert (Er : a = {| sp_log := slog_of (hd_min (S ++ [t']) si) (sealed_es d (S ++ [t'])); sp_kv := dk_stable d |}).
  { rewrite F6, F5, firstn_all2.
    - unfold a, sp_of. rewrite (lv_read _ _ _ _ _ _ _ _ V), (lv_tail_es V). reflexivity.
    - rewrite (lv_tail_es V), skipn_length. clear - Hmx Hmin Hn0. unfold llen in *. lia. }
  destruct (mutate_newtail_view c (nb + 1) (eq a) false w0 w e e0 S t f tw (S ++ [t']) (mx + 1) [] Hc V He0)
    as (w' & e' & Hmut & He' & HL' & Hs' & Hr' & _).
  - reflexivity.
  - apply (lv_failed _ _ _ _ _ _ _ _ V).
  - reflexivity.
  - clear - Hnid. lia.
  - exact F1.
  - rewrite Hd0. exact F2.
  - clear. lia.
  - exact F7.
  - apply F3; reflexivity.
  - intros n [].
  - rewrite Hd0. fold si. exact Er.
  - unfold mutate. fold si in Hmut. rewrite Hmut. exists w', e'. split; [reflexivity|]. split; [exact HL'|].
    split; [exact Hr'|]. split; [|exact He']. rewrite Hs', Hd0. fold si. symmetry. exact Er.
Qed.
